(* C12/C13 — a big-step inductive presentation of successful MiniFortran executions.

   [exec f ss s = Ok s' tr c]  implies  [bs ss s s' tr c]  (theorem exec_bs).  The relation has no
   fuel and unrolls DO loops iteration by iteration, which makes the soundness proofs of the
   static analyses (written-variable coverage, must-define data-flow) plain mutual inductions.
   At the end: [normal_run], [normal_runs], through which the concrete examples evaluate a run. *)
From Coq Require Import List ZArith Bool.
Import ListNotations.
From PV Require Import Fort.Syntax Fort.Sem Fort.Facts.
Open Scope Z_scope.

Inductive bs : list stmt -> store -> store -> list event -> ctl -> Prop :=
| bs_nil s : bs [] s s [] CNormal
| bs_seq st rest s s1 tr1 s2 tr2 c :
    bst st s s1 tr1 CNormal -> bs rest s1 s2 tr2 c -> bs (st :: rest) s s2 (tr1 ++ tr2) c
| bs_abrupt st rest s s1 tr1 c :
    bst st s s1 tr1 c -> c <> CNormal -> bs (st :: rest) s s1 tr1 c
with bst : stmt -> store -> store -> list event -> ctl -> Prop :=
| bst_assign x ix e s vs v :
    opt_all (map (eval s) ix) = Some vs -> eval s e = Some v ->
    bst (SAssign x ix e) s (upd s (x, vs) v)
        (rds (ereads s e ++ flat_map (ereads s) ix) ++ [Wr (x, vs)]) CNormal
| bst_if c th el s v s' tr k :
    eval s c = Some v -> bs (if v =? 0 then el else th) s s' tr k ->
    bst (SIf c th el) s s' (rds (ereads s c) ++ tr) k
| bst_do x lo hi st body s l h t s' tr k :
    eval s lo = Some l -> eval s hi = Some h -> eval s st = Some t -> t <> 0 ->
    bloop body x l t (trip_count l h t) 0 s s' tr k ->
    bst (SDo x lo hi st body) s s' (rds (ereads s lo ++ ereads s hi ++ ereads s st) ++ tr) k
| bst_exit s : bst SExit s s [] CExit
| bst_cycle s : bst SCycle s s [] CCycle
| bst_return s : bst SReturn s s [] CReturn
| bst_print es s vs :
    opt_all (map (eval s) es) = Some vs ->
    bst (SPrint es) s s (rds (flat_map (ereads s) es) ++ [Out vs]) CNormal
| bst_region r body s s' tr c :
    bs body s s' tr c ->
    bst (SRegion r body) s s' (Enter r :: tr ++ match c with CNormal => [Leave r] | _ => [] end) c
| bst_dir d body s s' tr c : bs body s s' tr c -> bst (SDir d body) s s' tr c
with bloop : list stmt -> name -> Z -> Z -> nat -> Z -> store -> store -> list event -> ctl -> Prop :=
| bl_done body x l t k s :
    bloop body x l t O k s (upd s (x, []) (l + k * t)) [Wr (x, [])] CNormal
| bl_next body x l t n k s s2 tr c s3 tr3 c3 :
    bs body (upd s (x, []) (l + k * t)) s2 tr c -> c = CNormal \/ c = CCycle ->
    bloop body x l t n (k + 1) s2 s3 tr3 c3 ->
    bloop body x l t (S n) k s s3 ((Wr (x, []) :: tr) ++ tr3) c3
| bl_exit body x l t n k s s2 tr :
    bs body (upd s (x, []) (l + k * t)) s2 tr CExit ->
    bloop body x l t (S n) k s s2 (Wr (x, []) :: tr) CNormal
| bl_return body x l t n k s s2 tr :
    bs body (upd s (x, []) (l + k * t)) s2 tr CReturn ->
    bloop body x l t (S n) k s s2 (Wr (x, []) :: tr) CReturn.

Scheme bs_min := Minimality for bs Sort Prop
  with bst_min := Minimality for bst Sort Prop
  with bloop_min := Minimality for bloop Sort Prop.
Combined Scheme bs_mutind from bs_min, bst_min, bloop_min.

Lemma do_loop_bs f body x l t :
  (forall s s' tr c, exec f body s = Ok s' tr c -> bs body s s' tr c) ->
  forall n k s s' tr c, do_loop (exec f body) x l t n k s = Ok s' tr c -> bloop body x l t n k s s' tr c.
Proof.
  intros IH. induction n as [|n IHn]; intros k s s' tr c H.
  - rewrite do_loop_0 in H. inversion H; subst. constructor.
  - cbn [do_loop] in H.
    destruct (exec f body (upd s (x, []) (l + k * t))) as [s2 tr2 c2| |] eqn:E; try discriminate.
    apply IH in E.
    destruct c2.
    + apply prepend_ok_inv in H as [tr0 [H ->]]. eapply bl_next; eauto.
    + inversion H; subst. apply bl_exit; assumption.
    + apply prepend_ok_inv in H as [tr0 [H ->]]. eapply bl_next; eauto.
    + inversion H; subst. apply bl_return; assumption.
Qed.

Lemma exec_stmt_bs f st s s' tr c :
  (forall ss s s' tr c, exec f ss s = Ok s' tr c -> bs ss s s' tr c) ->
  exec_stmt (exec f) st s = Ok s' tr c -> bst st s s' tr c.
Proof.
  intros IH H.
  destruct st as [x ix e|c0 th el|x lo hi st body| | | |es|r body|d body]; cbn [exec_stmt] in H.
  - destruct (opt_all (map (eval s) ix)) as [vs|] eqn:E1; try discriminate.
    destruct (eval s e) as [v|] eqn:E2; try discriminate. inversion H; subst. constructor; assumption.
  - destruct (eval s c0) as [v|] eqn:E; try discriminate.
    apply prepend_ok_inv in H as [tr0 [H ->]]. econstructor; eauto.
  - destruct (eval s lo) as [l|] eqn:E1; try discriminate.
    destruct (eval s hi) as [h|] eqn:E2; try discriminate.
    destruct (eval s st) as [t|] eqn:E3; try discriminate.
    destruct (t =? 0) eqn:E4; try discriminate.
    apply prepend_ok_inv in H as [tr0 [H ->]].
    econstructor; eauto.
    + intro Z0. subst t. discriminate.
    + apply (do_loop_bs f); [|exact H]. intros; apply IH; assumption.
  - inversion H; subst; constructor.
  - inversion H; subst; constructor.
  - inversion H; subst; constructor.
  - destruct (opt_all (map (eval s) es)) as [vs|] eqn:E1; try discriminate.
    inversion H; subst. constructor; assumption.
  - destruct (exec f body s) as [sa tra ca| |] eqn:E; try discriminate.
    inversion H; subst. constructor. apply IH; assumption.
  - constructor. apply IH; assumption.
Qed.

Theorem exec_bs f : forall ss s s' tr c, exec f ss s = Ok s' tr c -> bs ss s s' tr c.
Proof.
  induction f as [|f IH]; intros ss s s' tr c H; [discriminate|].
  destruct ss as [|st rest].
  - inversion H; subst. constructor.
  - rewrite exec_cons in H. apply then_run_ok_inv in H as [[s1 [tr1 [tr2 [H1 [H2 ->]]]]]|[N H1]].
    + eapply bs_seq; [eapply exec_stmt_bs; eauto | apply IH; exact H2].
    + apply bs_abrupt; [eapply exec_stmt_bs; eauto | exact N].
Qed.

(* A fact about the result of a concrete run is read off the outcome: evaluating the [match] leaves the
   evaluated fact, whereas a witness found by evaluating [o = Ok ?s ?tr _] is the normal form of a store,
   a closure over every update, which every later step would have to carry. *)
Lemma normal_run (o : outcome) (P : store -> list event -> Prop) :
  match o with Ok s tr CNormal => P s tr | _ => False end ->
  exists s tr, o = Ok s tr CNormal /\ P s tr.
Proof.
  destruct o as [s tr [| | |]| |]; try contradiction.
  intro H. exists s, tr. split; [reflexivity | exact H].
Qed.

Lemma normal_runs (o1 o2 : outcome) (P : store -> list event -> store -> list event -> Prop) :
  match o1, o2 with Ok s1 t1 CNormal, Ok s2 t2 CNormal => P s1 t1 s2 t2 | _, _ => False end ->
  exists s1 t1 s2 t2, o1 = Ok s1 t1 CNormal /\ o2 = Ok s2 t2 CNormal /\ P s1 t1 s2 t2.
Proof.
  destruct o1 as [s1 t1 [| | |]| |]; try contradiction.
  destruct o2 as [s2 t2 [| | |]| |]; try contradiction.
  intro H. exists s1, t1, s2, t2. split; [reflexivity|]. split; [reflexivity | exact H].
Qed.
