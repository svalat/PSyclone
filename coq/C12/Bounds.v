(* C12 — array extents as part of the incoming state.
   [exec_setb]: replacing the bounds of a store by bounds that agree on every array the region inquires
   (LBOUND/UBOUND/SIZE) does not change the execution (same trace, same control state, same values).
   Used to weaken "bnd s2 = bnd s1" in the replay theorems to agreement on the recorded variables
   (exec_own_bounds; C12_replay_sound_dyn_ext, C12_replay_sound_partial_ext). *)
From Coq Require Import List ZArith Bool.
Import ListNotations.
From PV Require Import Fort.Syntax Fort.Sem Fort.Facts C11.Access C12.InOut C12.BigStep C12.Proofs.

Definition setb (s : store) (b : name -> list (Z * Z)) : store := mkStore (val s) b.
Definition omapb (b : name -> list (Z * Z)) (o : outcome) : outcome :=
  match o with Ok s tr c => Ok (setb s b) tr c | other => other end.
Definition eq_on (b : name -> list (Z * Z)) (s : store) (I : list name) : Prop :=
  forall a, In a I -> b a = bnd s a.

Lemma upd_setb s b l v : upd (setb s b) l v = setb (upd s l v) b.
Proof. reflexivity. Qed.

Lemma eq_on_app b s I J : eq_on b s (I ++ J) <-> eq_on b s I /\ eq_on b s J.
Proof.
  unfold eq_on. split.
  - intro H. split; intros a Ha; apply H, in_or_app; auto.
  - intros [H1 H2] a Ha. apply in_app_or in Ha as [Ha|Ha]; auto.
Qed.

Lemma eq_on_bnd b s s' I : bnd s' = bnd s -> eq_on b s I -> eq_on b s' I.
Proof. intros E H a Ha. rewrite E. apply H, Ha. Qed.

Lemma eval_intr_setb s b f args vs :
  (is_inquiry f = true -> forall a r, args = EVar a :: r -> b a = bnd s a) ->
  eval_intr (setb s b) f args vs = eval_intr s f args vs.
Proof.
  intro H. destruct f; cbn [eval_intr]; try reflexivity;
    (destruct vs as [|d [|d' vs']]; try reflexivity;
     destruct args as [|a0 r]; try reflexivity; destruct a0; try reflexivity;
     unfold dim_of; cbn [bnd setb]; rewrite (H eq_refl _ _ eq_refl); reflexivity).
Qed.

Definition setb_P (b : name -> list (Z * Z)) (s : store) (e : expr) : Prop :=
  eq_on b s (e_inq e) -> eval (setb s b) e = eval s e /\ ereads (setb s b) e = ereads s e.

Lemma evals_setb_F b s es :
  Forall (setb_P b s) es -> eq_on b s (flat_map e_inq es) ->
  map (eval (setb s b)) es = map (eval s) es /\ flat_map (ereads (setb s b)) es = flat_map (ereads s) es.
Proof.
  induction 1 as [|e es He _ IH]; intro H; [split; reflexivity|].
  cbn [flat_map map] in *. apply eq_on_app in H as [H1 H2].
  destruct (He H1) as [E1 E2]. destruct (IH H2) as [E3 E4]. rewrite E1, E2, E3, E4. split; reflexivity.
Qed.

Lemma eval_setb b s e : setb_P b s e.
Proof.
  induction e as [z|x|a ix IH|o e IH|o e1 e2 IH1 IH2|f args IH] using expr_ind'; unfold setb_P in *;
    intro H; cbn [eval ereads e_inq] in *.
  - split; reflexivity.
  - split; reflexivity.
  - destruct (evals_setb_F b s ix IH H) as [E1 E2]. rewrite E1, E2. split; reflexivity.
  - destruct (IH H) as [E1 E2]. rewrite E1, E2. split; reflexivity.
  - apply eq_on_app in H as [H1 H2]. destruct (IH1 H1) as [E1 E2]. destruct (IH2 H2) as [E3 E4].
    rewrite E1, E2, E3, E4. split; reflexivity.
  - apply eq_on_app in H as [H1 H2].
    destruct (is_inquiry f) eqn:Ef.
    + destruct args as [|a0 r]; [split; reflexivity|].
      cbn [flat_map] in H2. apply eq_on_app in H2 as [_ H2].
      destruct (evals_setb_F b s r (Forall_inv_tail IH) H2) as [E1 E2]. rewrite E1, E2. split; [|reflexivity].
      destruct (opt_all (map (eval s) r)); [|reflexivity].
      apply eval_intr_setb. intros _ a r0 Eq. inversion Eq; subst. apply H1. left; reflexivity.
    + destruct (evals_setb_F b s args IH H2) as [E1 E2]. rewrite E1, E2. split; [|reflexivity].
      destruct (opt_all (map (eval s) args)); [|reflexivity].
      apply eval_intr_setb. intro X. rewrite Ef in X. discriminate.
Qed.

Lemma evals_setb b s es : eq_on b s (flat_map e_inq es) ->
  map (eval (setb s b)) es = map (eval s) es /\ flat_map (ereads (setb s b)) es = flat_map (ereads s) es.
Proof. apply evals_setb_F. apply Forall_forall. intros e _. apply eval_setb. Qed.

Lemma prepend_omapb b t o : prepend t (omapb b o) = omapb b (prepend t o).
Proof. destruct o; reflexivity. Qed.

(* a runner family commutes with the replacement of bounds *)
Definition commutes (b : name -> list (Z * Z)) (run : list stmt -> store -> outcome) : Prop :=
  forall ss s, eq_on b s (inq_of ss) -> run ss (setb s b) = omapb b (run ss s).

Lemma do_loop_setb b (run : store -> outcome) x l t I :
  (forall s, eq_on b s I -> run (setb s b) = omapb b (run s)) ->
  (forall s s' tr c, run s = Ok s' tr c -> bnd s' = bnd s) ->
  forall n k s, eq_on b s I ->
    do_loop run x l t n k (setb s b) = omapb b (do_loop run x l t n k s).
Proof.
  intros Hc Hb. induction n as [|n IH]; intros k s H.
  - reflexivity.
  - cbn [do_loop]. rewrite upd_setb.
    assert (H1 : eq_on b (upd s (x, []) (l + k * t)) I) by exact H.
    rewrite (Hc _ H1).
    destruct (run (upd s (x, []) (l + k * t))) as [s2 tr c| |] eqn:E; cbn [omapb]; try reflexivity.
    assert (H2 : eq_on b s2 I) by (apply (eq_on_bnd b _ s2 I (Hb _ _ _ _ E)); exact H1).
    destruct c; try reflexivity; rewrite (IH _ _ H2); apply prepend_omapb.
Qed.

Lemma exec_stmt_setb b (run : list stmt -> store -> outcome) st s :
  commutes b run -> (forall ss, frame_ok (run ss)) ->
  eq_on b s (s_inq st) ->
  exec_stmt run st (setb s b) = omapb b (exec_stmt run st s).
Proof.
  intros Hc Hf H.
  destruct st as [x ix e|c th el|x lo hi st body| | | |es|r body|d body]; cbn [exec_stmt s_inq] in *.
  - apply eq_on_app in H as [H1 H2].
    destruct (evals_setb b s ix H1) as [E1 E2]. destruct (eval_setb b s e H2) as [E3 E4].
    rewrite E1, E2, E3, E4. destruct (opt_all (map (eval s) ix)); [|reflexivity].
    destruct (eval s e); reflexivity.
  - apply eq_on_app in H as [H1 H2]. apply eq_on_app in H2 as [H2 H3].
    destruct (eval_setb b s c H1) as [E1 E2]. rewrite E1, E2.
    destruct (eval s c) as [v|]; [|reflexivity].
    rewrite Hc by (destruct (Z.eqb v 0); assumption). apply prepend_omapb.
  - apply eq_on_app in H as [H1 H]. apply eq_on_app in H as [H2 H]. apply eq_on_app in H as [H3 H4].
    destruct (eval_setb b s lo H1) as [E1 E2]. destruct (eval_setb b s hi H2) as [E3 E4].
    destruct (eval_setb b s st H3) as [E5 E6]. rewrite E1, E2, E3, E4, E5, E6.
    destruct (eval s lo) as [l|]; [|reflexivity]. destruct (eval s hi) as [h|]; [|reflexivity].
    destruct (eval s st) as [t|]; [|reflexivity]. destruct (Z.eqb t 0); [reflexivity|].
    rewrite (do_loop_setb b (run body) x l t (inq_of body)).
    + apply prepend_omapb.
    + intros s0 H0. apply Hc, H0.
    + intros s0 s' tr c E. apply (frame_ok_wb _ (Hf body) _ _ _ _ E).
    + exact H4.
  - reflexivity.
  - reflexivity.
  - reflexivity.
  - destruct (evals_setb b s es H) as [E1 E2]. rewrite E1, E2.
    destruct (opt_all (map (eval s) es)); reflexivity.
  - rewrite (Hc body s H). destruct (run body s); reflexivity.
  - apply Hc, H.
Qed.

Theorem exec_setb b f : commutes b (exec f).
Proof.
  induction f as [|f IH]; intros ss s H; [reflexivity|].
  destruct ss as [|st rest]; [reflexivity|].
  rewrite !exec_cons. unfold inq_of in H. cbn [flat_map] in H. apply eq_on_app in H as [H1 H2].
  rewrite (exec_stmt_setb b (exec f) st s IH (frame_exec f) H1).
  destruct (exec_stmt (exec f) st s) as [s1 tr1 c| |] eqn:E; cbn [omapb]; try reflexivity.
  destruct c; try reflexivity. unfold then_run; cbn [bind_run].
  assert (Hb : bnd s1 = bnd s).
  { apply (frame_ok_wb _ (frame_exec_stmt (exec f) st (frame_exec f)) _ _ _ _ E). }
  rewrite (IH rest s1 (eq_on_bnd b s s1 _ Hb H2)). apply prepend_omapb.
Qed.

Definition bnd_agree_on (X : list name) (s1 s2 : store) : Prop := forall x, In x X -> bnd s2 x = bnd s1 x.

Lemma setb_self s : setb s (bnd s) = s.
Proof. destruct s; reflexivity. Qed.

(* a run of s2 under the bounds of s1 is a run of s2 itself when the two agree on every inquired array *)
Lemma exec_own_bounds f r s1 s2 s' tr c :
  (forall a, In a (inq_of r) -> bnd s2 a = bnd s1 a) ->
  exec f r (setb s2 (bnd s1)) = Ok s' tr c -> exec f r s2 = Ok (setb s' (bnd s2)) tr c.
Proof.
  intros Hq H. pose proof (exec_setb (bnd s2) f r (setb s2 (bnd s1)) Hq) as E.
  change (setb (setb s2 (bnd s1)) (bnd s2)) with (setb s2 (bnd s2)) in E.
  rewrite setb_self, H in E. exact E.
Qed.

(* [inq_ok true r] is expected to hold: with ExtractTrans' option every inquired array has a READ access, hence
   is recorded as an input unless its first access is a write, in which case it is recorded as an output *)
Lemma inq_recorded sh r s1 s2 :
  inq_ok sh r = true -> bnd_agree_on (recorded sh r) s1 s2 -> forall a, In a (inq_of r) -> bnd s2 a = bnd s1 a.
Proof. intros Hq Hb a Ha. unfold inq_ok in Hq. rewrite forallb_forall in Hq. apply Hb, mem_In, Hq, Ha. Qed.

Local Open Scope Z_scope.
(* hist(size(active,1)) = hist(1) + 1 : `active` is an input under the option, and the extent matters *)
Definition r_hist : list stmt :=
  [SAssign 0%nat [EIntr ISize [EVar 1%nat; ELit 1]] (EBin Add (EIdx 0%nat [ELit 1]) (ELit 1))].
Example ext_nonvacuous :
  safe_ext true r_hist = true /\ inputs true r_hist = [0%nat; 1%nat] /\
  inq_of r_hist = [1%nat] /\ inq_ok false r_hist = false /\ inputs false r_hist = [0%nat] /\
  exists s' tr, exec 5 r_hist (store_of [((0%nat, [1]), 4)] [(0%nat, [(1, 6)]); (1%nat, [(1, 3)])]) = Ok s' tr CNormal /\
                val s' (0%nat, [3]) = 5.
Proof.
  split; [vm_compute; reflexivity|]. split; [vm_compute; reflexivity|]. split; [vm_compute; reflexivity|].
  split; [vm_compute; reflexivity|]. split; [vm_compute; reflexivity|].
  apply normal_run. vm_compute. reflexivity.
Qed.
