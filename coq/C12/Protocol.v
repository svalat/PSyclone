(* C12 — the extraction protocol as PSyDataNode.lower_to_language_level emits it for an ExtractNode
   (src/psyclone/psyir/nodes/psy_data_node.py:681-875, extract_node.py:189-215):

     PreStart(module, region, #inputs, #outputs)
     if inputs or outputs:  PreDeclareVariable(x, x) for inputs;  PreDeclareVariable(x_post, x) for outputs;
                            PreEndDeclaration;  ProvideVariable(x, x) for inputs;  PreEnd
     <region>
     if inputs or outputs:  PostStart;  ProvideVariable(x_post, x) for outputs
     PostEnd

   Theorem protocol_records_reported: the variables provided before the region are exactly the reported inputs,
   those provided after it exactly the reported outputs, the declared ones inputs ++ outputs, and PreStart announces
   their numbers — in particular a region WITHOUT inputs still declares and provides all its outputs.
   The harness compares [lower_extract ins outs] with the sequence of calls read from the generated code. *)
From Coq Require Import List Bool Arith.
Import ListNotations.
From PV Require Import Fort.Syntax.

Inductive pcall :=
| PreStart (n_in n_out : nat)
| PreDeclare (x : name) (post : bool)
| PreEndDeclaration
| Provide (x : name) (post : bool)
| PreEnd
| Body
| PostStart
| PostEnd.

Definition is_nil {A} (l : list A) : bool := match l with [] => true | _ => false end.

Definition lower_extract (ins outs : list name) : list pcall :=
  let has_var := negb (is_nil ins) || negb (is_nil outs) in
  [PreStart (length ins) (length outs)]
  ++ (if has_var
      then map (fun x => PreDeclare x false) ins ++ map (fun x => PreDeclare x true) outs
           ++ [PreEndDeclaration] ++ map (fun x => Provide x false) ins ++ [PreEnd]
      else [])
  ++ [Body]
  ++ (if has_var then PostStart :: map (fun x => Provide x true) outs else [])
  ++ [PostEnd].

(* what a reader of the emitted calls observes *)
Fixpoint before_body (cs : list pcall) : list pcall :=
  match cs with [] => [] | Body :: _ => [] | c :: r => c :: before_body r end.
Fixpoint after_body (cs : list pcall) : list pcall :=
  match cs with [] => [] | Body :: r => r | _ :: r => after_body r end.
Definition provided (cs : list pcall) : list name :=
  flat_map (fun c => match c with Provide x _ => [x] | _ => [] end) cs.
Definition declared (cs : list pcall) : list name :=
  flat_map (fun c => match c with PreDeclare x _ => [x] | _ => [] end) cs.
Definition announced (cs : list pcall) : option (nat * nat) :=
  match cs with PreStart a b :: _ => Some (a, b) | _ => None end.
Definition provided_before (cs : list pcall) : list name := provided (before_body cs).
Definition provided_after (cs : list pcall) : list name := provided (after_body cs).

(* comparison with the calls read from the generated code *)
Definition pcall_eqb (a b : pcall) : bool :=
  match a, b with
  | PreStart x y, PreStart u v => Nat.eqb x u && Nat.eqb y v
  | PreDeclare x p, PreDeclare y q | Provide x p, Provide y q => Nat.eqb x y && Bool.eqb p q
  | PreEndDeclaration, PreEndDeclaration | PreEnd, PreEnd | Body, Body | PostStart, PostStart | PostEnd, PostEnd => true
  | _, _ => false
  end.
Fixpoint pcalls_eqb (a b : list pcall) : bool :=
  match a, b with [], [] => true | x :: a', y :: b' => pcall_eqb x y && pcalls_eqb a' b' | _, _ => false end.
Definition protocol_agrees (c : list name * list name * list pcall) : bool :=
  match c with (ins, outs, observed) => pcalls_eqb (lower_extract ins outs) observed end.

Lemma provided_app a b : provided (a ++ b) = provided a ++ provided b.
Proof. unfold provided. apply flat_map_app. Qed.
Lemma declared_app a b : declared (a ++ b) = declared a ++ declared b.
Proof. unfold declared. apply flat_map_app. Qed.
Lemma provided_one c : provided [c] = match c with Provide x _ => [x] | _ => [] end.
Proof. unfold provided. cbn [flat_map]. apply app_nil_r. Qed.
Lemma declared_one c : declared [c] = match c with PreDeclare x _ => [x] | _ => [] end.
Proof. unfold declared. cbn [flat_map]. apply app_nil_r. Qed.
Lemma provided_provide p l : provided (map (fun x => Provide x p) l) = l.
Proof. induction l as [|x l IH]; [reflexivity|]. cbn. f_equal. exact IH. Qed.
Lemma provided_declare p l : provided (map (fun x => PreDeclare x p) l) = [].
Proof. induction l as [|x l IH]; [reflexivity|]. exact IH. Qed.
Lemma declared_declare p l : declared (map (fun x => PreDeclare x p) l) = l.
Proof. induction l as [|x l IH]; [reflexivity|]. cbn. f_equal. exact IH. Qed.
Lemma declared_provide p l : declared (map (fun x => Provide x p) l) = [].
Proof. induction l as [|x l IH]; [reflexivity|]. exact IH. Qed.

Definition no_body (cs : list pcall) : Prop := forall c, In c cs -> c <> Body.
Lemma before_body_app a b : no_body a -> before_body (a ++ Body :: b) = a.
Proof.
  induction a as [|c a IH]; intro H; [reflexivity|]. cbn [app before_body].
  destruct c; try (f_equal; apply IH; intros c' Hc; apply H; right; exact Hc).
  exfalso. apply (H Body); [left; reflexivity | reflexivity].
Qed.
Lemma after_body_app a b : no_body a -> after_body (a ++ Body :: b) = b.
Proof.
  induction a as [|c a IH]; intro H; [reflexivity|]. cbn [app after_body].
  destruct c; try (apply IH; intros c' Hc; apply H; right; exact Hc).
  exfalso. apply (H Body); [left; reflexivity | reflexivity].
Qed.

(* the calls before and after the region *)
Definition pre_part (ins outs : list name) : list pcall :=
  [PreStart (length ins) (length outs)]
  ++ (if negb (is_nil ins) || negb (is_nil outs)
      then map (fun x => PreDeclare x false) ins ++ map (fun x => PreDeclare x true) outs
           ++ [PreEndDeclaration] ++ map (fun x => Provide x false) ins ++ [PreEnd]
      else []).
Definition post_part (ins outs : list name) : list pcall :=
  (if negb (is_nil ins) || negb (is_nil outs) then [PostStart] ++ map (fun x => Provide x true) outs else [])
  ++ [PostEnd].

Lemma lower_split ins outs : lower_extract ins outs = pre_part ins outs ++ Body :: post_part ins outs.
Proof. unfold lower_extract, pre_part, post_part. rewrite <- !app_assoc. reflexivity. Qed.

Lemma pre_no_body ins outs : no_body (pre_part ins outs).
Proof.
  intros c Hc E. subst c. unfold pre_part in Hc. apply in_app_or in Hc as [[H|[]]|H]; [discriminate|].
  destruct (negb (is_nil ins) || negb (is_nil outs)); [|destruct H].
  repeat (apply in_app_or in H as [H|H]);
    try (apply in_map_iff in H as [x [E _]]; discriminate);
    try (destruct H as [H|[]]; discriminate).
Qed.

Lemma no_variable (ins outs : list name) :
  negb (is_nil ins) || negb (is_nil outs) = false -> ins = [] /\ outs = [].
Proof. destruct ins, outs; try discriminate. split; reflexivity. Qed.

Theorem protocol_records_reported ins outs :
  provided_before (lower_extract ins outs) = ins /\
  provided_after (lower_extract ins outs) = outs /\
  declared (lower_extract ins outs) = ins ++ outs /\
  announced (lower_extract ins outs) = Some (length ins, length outs).
Proof.
  unfold provided_before, provided_after. rewrite lower_split.
  rewrite (before_body_app _ _ (pre_no_body ins outs)), (after_body_app _ _ (pre_no_body ins outs)).
  change (Body :: post_part ins outs) with ([Body] ++ post_part ins outs). unfold pre_part, post_part.
  destruct (negb (is_nil ins) || negb (is_nil outs)) eqn:E.
  - (* only the Provide calls count as provided, only the PreDeclare calls as declared *)
    split; [|split; [|split; [|reflexivity]]].
    + rewrite !provided_app, !provided_one, !provided_declare, provided_provide. apply app_nil_r.
    + rewrite !provided_app, !provided_one, provided_provide. apply app_nil_r.
    + rewrite !declared_app, !declared_one, !declared_declare, !declared_provide.
      cbn [app]. rewrite !app_nil_r. reflexivity.
  - apply no_variable in E as [-> ->]. auto.
Qed.

