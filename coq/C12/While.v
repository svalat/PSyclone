(* C12/C13 — a fuelled DO WHILE on top of Fort.Sem, and the lifting of the frame theorem to regions that contain
   WHILE loops directly (no unrolling).

   wstmt  = a core statement or  DO WHILE (c) body END DO  (body: core statements)
   wloop n c body st : evaluate c; if false stop normally; else run the body (with fuel n-1) and repeat; abrupt
                       completion of the body (RETURN / EXIT as control state) is propagated; fuel 0 = OutOfFuel.
   The trace of a loop contains, per iteration, the reads of the condition and the events of the body, so equal
   traces mean the same number of iterations. *)
From Coq Require Import List ZArith Bool.
Import ListNotations.
From PV Require Import Fort.Syntax Fort.Sem Fort.Facts C12.BigStep.
Open Scope Z_scope.

Inductive wstmt := WS (s : stmt) | WWhile (c : expr) (body : list stmt).

Fixpoint wloop (n : nat) (c : expr) (body : list stmt) (st : store) : outcome :=
  match n with
  | O => OutOfFuel
  | S n' =>
      match eval st c with
      | None => Fault
      | Some v =>
          prepend (rds (ereads st c))
                  (if v =? 0 then Ok st [] CNormal
                   else then_run (exec n' body st) (wloop n' c body))
      end
  end.

Definition wstep (f : nat) (w : wstmt) (st : store) : outcome :=
  match w with WS s => exec f [s] st | WWhile c body => wloop f c body st end.

Fixpoint wexec (f : nat) (ws : list wstmt) (st : store) : outcome :=
  match ws with
  | [] => Ok st [] CNormal
  | w :: r => then_run (wstep f w st) (wexec f r)
  end.

(* number of completed condition evaluations that were true, for a successful run *)
Fixpoint witers (n : nat) (c : expr) (body : list stmt) (st : store) : nat :=
  match n with
  | O => O
  | S n' =>
      match eval st c with
      | Some v => if v =? 0 then O
                  else match exec n' body st with
                       | Ok s1 _ CNormal => S (witers n' c body s1)
                       | _ => 1%nat
                       end
      | None => O
      end
  end.

(* a guarded runner: evaluate e, emit its reads, continue with K0 (false) or K1 (true) *)
Lemma frame_guard (e : expr) (K0 K1 : runner) :
  frame_ok K0 -> frame_ok K1 ->
  frame_ok (fun st => match eval st e with
                      | None => Fault
                      | Some v => prepend (rds (ereads st e)) (if v =? 0 then K0 st else K1 st)
                      end).
Proof.
  intros H0 H1 s1 s1' tr c0 H s2 Hb Hag. cbv beta in *.
  destruct (eval s1 e) as [v|] eqn:E; try discriminate.
  apply prepend_ok_inv in H as [tr0 [H ->]].
  destruct (expr_frame s1 s2 e Hb) as [X1 X2];
    [intros l Hl; apply Hag, in_exposed_rds_app_l, Hl|].
  rewrite X1, X2, E.
  assert (G : forall K : runner, frame_ok K -> K s1 = Ok s1' tr0 c0 ->
              exists s2', prepend (rds (ereads s1 e)) (K s2) = Ok s2' (rds (ereads s1 e) ++ tr0) c0 /\
                bnd s2' = bnd s2 /\ (forall l, In l (writes (rds (ereads s1 e) ++ tr0)) -> val s2' l = val s1' l) /\
                (forall l, ~ In l (writes (rds (ereads s1 e) ++ tr0)) -> val s2' l = val s2 l)).
  { intros K HK HKs. destruct (HK _ _ _ _ HKs s2 Hb) as [s2' [R1 [R2 [R3 R4]]]];
      [intros l Hl; apply Hag, in_exposed_rds_app_r, Hl|].
    exists s2'. rewrite R1. cbn [prepend]. rewrite writes_rds_app. auto. }
  destruct (v =? 0); [apply (G K0 H0 H) | apply (G K1 H1 H)].
Qed.

Lemma frame_wloop c body : forall n, frame_ok (wloop n c body).
Proof.
  induction n as [|n IH].
  - intros s1 s1' tr c0 H. discriminate.
  - cbn [wloop].
    apply (frame_guard c (fun st => Ok st [] CNormal) (fun st => then_run (exec n body st) (wloop n c body))).
    + apply frame_ret.
    + apply (frame_then (exec n body) (wloop n c body)); [apply frame_exec | exact IH].
Qed.

Lemma frame_wstep f w : frame_ok (wstep f w).
Proof. destruct w as [s|c body]; [apply frame_exec | apply frame_wloop]. Qed.

Lemma frame_wexec f : forall ws, frame_ok (wexec f ws).
Proof.
  induction ws as [|w r IH]; [apply frame_ret|].
  cbn [wexec]. apply (frame_then (wstep f w) (wexec f r)); [apply frame_wstep | exact IH].
Qed.

(* same number of iterations: a replay that agrees on the exposed reads of a loop run iterates equally often *)
Lemma witers_frame c body : forall n s1 s1' tr c0 s2,
  wloop n c body s1 = Ok s1' tr c0 -> bnd s2 = bnd s1 ->
  (forall l, In l (exposed tr) -> val s2 l = val s1 l) ->
  witers n c body s2 = witers n c body s1.
Proof.
  induction n as [|n IH]; intros s1 s1' tr c0 s2 H Hb Hag; [reflexivity|].
  cbn [wloop witers] in *.
  destruct (eval s1 c) as [v|] eqn:E; try discriminate.
  apply prepend_ok_inv in H as [tr0 [H ->]].
  destruct (expr_frame s1 s2 c Hb) as [X1 _]; [intros l Hl; apply Hag, in_exposed_rds_app_l, Hl|].
  rewrite X1, E. destruct (v =? 0); [reflexivity|].
  apply then_run_ok_inv in H as [[sa [tra [trb [Ha [Hbk ->]]]]]|[Nc Ha]].
  - destruct (exec_frame n body s1 sa tra CNormal s2 Ha Hb) as [sa2 [R1 [R2 [R3 R4]]]].
    { intros l Hl. apply Hag, in_exposed_rds_app_r, in_exposed_app. left; exact Hl. }
    rewrite Ha, R1. f_equal. apply (IH sa s1' trb c0 sa2 Hbk).
    + rewrite R2, Hb. symmetry. apply (exec_bnd _ _ _ _ _ _ Ha).
    + intros l Hl. destruct (in_dec loc_eq_dec l (writes tra)) as [I|N]; [apply R3, I|].
      rewrite R4 by exact N. rewrite (exec_unchanged _ _ _ _ _ _ l Ha N).
      apply Hag, in_exposed_rds_app_r, in_exposed_app. right; split; assumption.
  - destruct (exec_frame n body s1 s1' tr0 c0 s2 Ha Hb) as [sa2 [R1 _]].
    { intros l Hl. apply Hag, in_exposed_rds_app_r, Hl. }
    rewrite Ha, R1. destruct c0; [contradiction|reflexivity..].
Qed.

(* non-vacuity: do while (a(1) > 1 .and. t < 3): a(1) = a(1) - 1; t = t + 1  runs twice from a(1)=3, t=0 *)
Example while_runs :
  let c := EBin And (EBin Gt (EIdx 0%nat [ELit 1]) (ELit 1)) (EBin Lt (EVar 1%nat) (ELit 3)) in
  let body := [SAssign 0%nat [ELit 1] (EBin Sub (EIdx 0%nat [ELit 1]) (ELit 1)); SAssign 1%nat [] (EBin Add (EVar 1%nat) (ELit 1))] in
  let st := store_of [((0%nat, [1]), 3)] [] in
  witers 10 c body st = 2%nat /\
  exists s' tr, wexec 10 [WWhile c body] st = Ok s' tr CNormal /\ val s' (0%nat, [1]) = 1 /\ val s' (1%nat, []) = 2 /\
  wexec 1 [WWhile c body] st = OutOfFuel.
Proof.
  cbv zeta. split; [vm_compute; reflexivity|].
  apply normal_run. vm_compute. split; [reflexivity|]. split; reflexivity.
Qed.
