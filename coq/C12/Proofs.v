(* C12 — proofs about the in/out-parameter model (coq/C12/InOut.v).

   Semantic facts come from Fort/Facts.v (frame_ok: agreeing on the upward-exposed reads of a run
   is enough to replay it, and nothing but the written locations changes).  Here:
     exec_writes_covered every location written by any run of r belongs to a variable with a WRITE access
     flow_sound          the must-define data-flow of InOut.v over-approximates the upward-exposed reads
     frame_replay        (run-time premise)  no exposed read outside V => the run replays from any store
                         agreeing on V; for any runner with the frame property (exec, wexec of While.v)
     replay_sound_with   (static premise safe_with V) => the run replays and reproduces the outputs;
                         replay_sound_partial is V := inputs sh r
     refutations         partial array write / conditional write; the regions of the other two
                         (DO variable read by its own bounds, partial write of an output) *)
From Coq Require Import List ZArith Bool.
Import ListNotations.
From PV Require Import Fort.Syntax Fort.Sem Fort.Facts C11.Access C12.InOut C12.BigStep.

Lemma mem_In x l : mem x l = true <-> In x l.
Proof.
  unfold mem. rewrite existsb_exists. split.
  - intros [y [H E]]. apply Nat.eqb_eq in E. subst. exact H.
  - intro H. exists x. split; [exact H | apply Nat.eqb_refl].
Qed.

Lemma mem_cons x y l : mem x (y :: l) = Nat.eqb x y || mem x l.
Proof. reflexivity. Qed.

Lemma in_dedup x : forall l seen, In x (dedup seen l) <-> In x l /\ ~ In x seen.
Proof.
  induction l as [|y l IH]; intro seen; cbn [dedup In]; [tauto|].
  change (existsb (Nat.eqb y) seen) with (mem y seen).
  destruct (mem y seen) eqn:E.
  - apply mem_In in E. rewrite IH. split.
    + intros [H1 H2]. split; auto.
    + intros [[->|H1] H2]; [contradiction | auto].
  - assert (N : ~ In y seen) by (rewrite <- mem_In; congruence).
    cbn [In]. rewrite IH. cbn [In]. destruct (Nat.eq_dec y x) as [->|Ne]; tauto.
Qed.

Lemma in_sigs x l : In x (sigs l) <-> In x (map fst l).
Proof. unfold sigs. rewrite in_dedup. cbn [In]. tauto. Qed.

Lemma acc_in_sigs x k l : In (x, k) l -> In x (sigs l).
Proof. intro H. apply in_sigs. exact (in_map fst l (x, k) H). Qed.

Lemma in_of_var x k l : In k (of_var x l) <-> In (x, k) l.
Proof.
  unfold of_var. rewrite in_map_iff. split.
  - intros [[y k'] [E H]]. cbn [snd] in E. subst k'. apply filter_In in H as [H1 H2].
    cbn [fst] in H2. apply Nat.eqb_eq in H2. subst y. exact H1.
  - intro H. exists (x, k). split; [reflexivity|]. apply filter_In. split; [exact H|].
    cbn [fst]. apply Nat.eqb_refl.
Qed.

(* [written], [isread] and [hasrw] are [existsb p (of_var x l)] for three tests p on the access kind *)
Lemma existsb_of_var p x l : existsb p (of_var x l) = true <-> exists k, In (x, k) l /\ p k = true.
Proof.
  rewrite existsb_exists. split; intros [k [H1 H2]]; exists k.
  - split; [exact (proj1 (in_of_var x k l) H1) | exact H2].
  - split; [exact (proj2 (in_of_var x k l) H1) | exact H2].
Qed.

Lemma written_iff x l : written x l = true <-> exists k, In (x, k) l /\ kind_writes k = true.
Proof. apply existsb_of_var. Qed.

Lemma isread_iff x l : isread x l = true <-> exists k, In (x, k) l /\ kind_reads k = true.
Proof. apply existsb_of_var. Qed.

Lemma hasrw_iff x l : hasrw x l = true <-> In (x, READWRITE) l.
Proof.
  unfold hasrw. rewrite existsb_of_var. split.
  - intros [k [H E]]. destruct k; try discriminate. exact H.
  - intro H. exists READWRITE. split; [exact H | reflexivity].
Qed.

Lemma in_outputs_iff x l : In x (outputs_of l) <-> exists k, In (x, k) l /\ kind_writes k = true.
Proof.
  unfold outputs_of. rewrite filter_In, written_iff. split; [tauto|].
  intros [k [H1 H2]]. split; [exact (acc_in_sigs x k l H1) | exists k; tauto].
Qed.

Lemma in_inputs_iff x l : In x (inputs_of l) <-> In x (map fst l) /\ wfirst x l = false.
Proof.
  unfold inputs_of. rewrite filter_In, in_sigs, negb_true_iff. tauto.
Qed.

Lemma flat_reads_sub (P : loc -> Prop) s es (Q : expr -> Prop) :
  Forall (fun e => Q e -> forall l, In l (ereads s e) -> P l) es ->
  Forall Q es -> forall l, In l (flat_map (ereads s) es) -> P l.
Proof.
  intros HF HQ l Hl. apply in_flat_map in Hl as [e [He Hl]].
  rewrite Forall_forall in HF, HQ. exact (HF e He (HQ e He) l Hl).
Qed.

(* what the data-flow allows a read to touch: any location of a V variable, or a D scalar *)
Definition okloc (V D : list name) (l : loc) : Prop :=
  mem (fst l) V = true \/ (snd l = [] /\ mem (fst l) D = true).

Lemma okloc_cons V x D l : okloc V (x :: D) l -> l <> (x, []) -> okloc V D l.
Proof.
  intros [H|[H1 H2]] N; [left; exact H|].
  rewrite mem_cons in H2. apply orb_true_iff in H2 as [H2|H2].
  - apply Nat.eqb_eq in H2. exfalso. apply N. destruct l as [y i]. cbn [fst snd] in *. subst. reflexivity.
  - right. split; assumption.
Qed.

Lemma forallb_Forall {A} (p : A -> bool) l : forallb p l = true -> Forall (fun a => p a = true) l.
Proof. intro H. apply Forall_forall. apply forallb_forall. exact H. Qed.

Lemma eok_sound V D s e : eok V D e = true -> forall l, In l (ereads s e) -> okloc V D l.
Proof.
  induction e as [z|x|a ix IH|o e IH|o e1 e2 IH1 IH2|f args IH] using expr_ind'; intros Hok l Hl;
    cbn [ereads eok] in *.
  - contradiction.
  - destruct Hl as [<-|[]]. apply orb_true_iff in Hok as [H|H]; [left; exact H | right; split; [reflexivity|exact H]].
  - apply andb_true_iff in Hok as [H1 H2]. apply in_app_or in Hl as [Hl|Hl].
    + apply (flat_reads_sub _ s ix _ IH (forallb_Forall _ ix H1) l Hl).
    + destruct (opt_all (map (eval s) ix)); [|contradiction]. destruct Hl as [<-|[]]. left. exact H2.
  - apply IH; assumption.
  - apply andb_true_iff in Hok as [H1 H2].
    apply in_app_or in Hl as [Hl|Hl]; [apply IH1 | apply IH2]; assumption.
  - destruct (is_inquiry f).
    + destruct args as [|a0 r]; [contradiction|].
      apply (flat_reads_sub _ s r _ (Forall_inv_tail IH) (forallb_Forall _ r Hok) l Hl).
    + apply (flat_reads_sub _ s args _ IH (forallb_Forall _ args Hok) l Hl).
Qed.

Lemma eoks_sound V D s es :
  forallb (eok V D) es = true -> forall l, In l (flat_map (ereads s) es) -> okloc V D l.
Proof.
  intro HB. apply (flat_reads_sub _ s es (fun e => eok V D e = true)); [|exact (forallb_Forall _ es HB)].
  apply Forall_forall. intros e _. apply eok_sound.
Qed.

Lemma accs_cons sh st rest : accs sh (st :: rest) = saccs sh st ++ accs sh rest.
Proof. reflexivity. Qed.

Lemma writes_rds_wr R l : writes (rds R ++ [Wr l]) = [l].
Proof. rewrite writes_rds_app. reflexivity. Qed.

Lemma bs_writes_covered sh :
  (forall ss s s' tr c, bs ss s s' tr c ->
     forall l, In l (writes tr) -> In (fst l, WRITE) (accs sh ss)) /\
  (forall st s s' tr c, bst st s s' tr c ->
     forall l, In l (writes tr) -> In (fst l, WRITE) (saccs sh st)) /\
  (forall body x l t n k s s' tr c, bloop body x l t n k s s' tr c ->
     forall l0, In l0 (writes tr) -> l0 = (x, []) \/ In (fst l0, WRITE) (accs sh body)).
Proof.
  apply bs_mutind.
  - intros s l [].
  - intros st rest s s1 tr1 s2 tr2 c _ IH1 _ IH2 l Hl. rewrite writes_app in Hl. rewrite accs_cons.
    apply in_or_app. apply in_app_or in Hl as [Hl|Hl]; [left; apply IH1 | right; apply IH2]; exact Hl.
  - intros st rest s s1 tr1 c _ IH1 _ l Hl. rewrite accs_cons. apply in_or_app. left. apply IH1, Hl.
  - intros x ix e s vs v _ _ l Hl. rewrite writes_rds_wr in Hl. destruct Hl as [<-|[]].
    cbn [saccs fst]. apply in_or_app. right. apply in_or_app. right. left. reflexivity.
  - intros c th el s v s' tr k _ _ IH l Hl. rewrite writes_rds_app in Hl. cbn [saccs].
    apply in_or_app. right. apply in_or_app. specialize (IH l Hl).
    destruct (Z.eqb v 0); [right | left]; exact IH.
  - intros x lo hi st body s l h t s' tr k _ _ _ _ _ IH l0 Hl. rewrite writes_rds_app in Hl. cbn [saccs].
    destruct (IH l0 Hl) as [->|H]; [left; reflexivity|].
    right. right. apply in_or_app. right. exact H.
  - intros s l [].
  - intros s l [].
  - intros s l [].
  - intros es s vs _ l Hl. rewrite writes_rds_app in Hl. destruct Hl.
  - intros r body s s' tr c _ IH l Hl. rewrite writes_region in Hl. cbn [saccs]. apply IH, Hl.
  - intros d body s s' tr c _ IH l Hl. cbn [saccs]. apply IH, Hl.
  - intros body x l t k s l0 [<-|[]]. left; reflexivity.
  - intros body x l t n k s s2 tr c s3 tr3 c3 _ IH1 _ _ IH2 l0 Hl.
    rewrite writes_app in Hl. cbn [writes] in Hl. apply in_app_or in Hl as [[<-|Hl]|Hl].
    + left; reflexivity.
    + right. apply IH1, Hl.
    + apply IH2, Hl.
  - intros body x l t n k s s2 tr _ IH l0 Hl. cbn [writes] in Hl. destruct Hl as [<-|Hl];
      [left; reflexivity | right; apply IH, Hl].
  - intros body x l t n k s s2 tr _ IH l0 Hl. cbn [writes] in Hl. destruct Hl as [<-|Hl];
      [left; reflexivity | right; apply IH, Hl].
Qed.

Lemma exec_writes_covered sh f r s s' tr c :
  exec f r s = Ok s' tr c -> forall l, In l (writes tr) -> In (fst l, WRITE) (accs sh r).
Proof. intro H. exact (proj1 (bs_writes_covered sh) _ _ _ _ _ (exec_bs _ _ _ _ _ _ H)). Qed.

Lemma flow_block_nil V D : flow_block V [] D = Some D.
Proof. reflexivity. Qed.
Lemma flow_block_cons V st rest D :
  flow_block V (st :: rest) D = match flow V st D with Some D1 => flow_block V rest D1 | None => None end.
Proof. reflexivity. Qed.
Lemma flow_if V c th el D :
  flow V (SIf c th el) D =
  if eok V D c then match flow_block V th D, flow_block V el D with
                    | Some D1, Some D2 => Some (inter D1 D2) | _, _ => None end else None.
Proof. reflexivity. Qed.
Lemma flow_do V x lo hi st body D :
  flow V (SDo x lo hi st body) D =
  if eok V D lo && eok V D hi && eok V D st
  then match flow_block V body (x :: D) with Some _ => Some (x :: D) | None => None end else None.
Proof. reflexivity. Qed.
Lemma flow_region V r body D : flow V (SRegion r body) D = flow_block V body D.
Proof. reflexivity. Qed.
Lemma flow_dir V d body D : flow V (SDir d body) D = flow_block V body D.
Proof. reflexivity. Qed.

Lemma mem_inter x a b : mem x (inter a b) = true -> mem x a = true /\ mem x b = true.
Proof.
  intro H. apply mem_In in H. unfold inter in H. apply filter_In in H as [H1 H2].
  split; [apply mem_In; exact H1 | exact H2].
Qed.

Lemma exposed_single_wr l : exposed [Wr l] = [].
Proof. reflexivity. Qed.

(* What a run of a statement (list) on which the data-flow maps D to D' guarantees of its trace: every
   upward-exposed read is allowed by V and D, and after normal completion every scalar added to D' has been
   assigned.  The lemmas below build it up along a trace; [bs_flow_sound] then follows the big-step rules. *)
Definition reads_ok (V D : list name) (tr : list event) : Prop :=
  forall l, In l (exposed tr) -> okloc V D l.
Definition flow_post (V D D' : list name) (tr : list event) (c : ctl) : Prop :=
  reads_ok V D tr /\
  (c = CNormal -> forall x, mem x D' = true -> mem x D = true \/ In (x, []) (writes tr)).

Lemma flow_post_same V D tr c : reads_ok V D tr -> flow_post V D D tr c.
Proof. intro H. split; [exact H | intros _ x Hx; left; exact Hx]. Qed.

(* a read after tr1 of a scalar that the flow added on the way (D1) is not exposed: tr1 assigned it *)
Lemma flow_post_seq V D D1 D' tr1 tr2 c :
  flow_post V D D1 tr1 CNormal -> flow_post V D1 D' tr2 c -> flow_post V D D' (tr1 ++ tr2) c.
Proof.
  intros [A1 B1] [A2 B2]. split.
  - intros l Hl. apply in_exposed_app in Hl as [Hl|[N Hl]]; [apply A1, Hl|].
    destruct (A2 l Hl) as [Hv|[Hs Hd]]; [left; exact Hv|].
    destruct (B1 eq_refl (fst l) Hd) as [Hd0|Hw]; [right; split; assumption|].
    exfalso. apply N. destruct l as [y i]. cbn [fst snd] in *. subst i. exact Hw.
  - intros Ec x Hx. rewrite writes_app. destruct (B2 Ec x Hx) as [Hd1|Hw];
      [|right; apply in_or_app; right; exact Hw].
    destruct (B1 eq_refl x Hd1) as [Hd0|Hw]; [left; exact Hd0 | right; apply in_or_app; left; exact Hw].
Qed.

Lemma flow_post_rds V D D' R tr c :
  (forall l, In l R -> okloc V D l) -> flow_post V D D' tr c -> flow_post V D D' (rds R ++ tr) c.
Proof.
  intros HR H. apply (flow_post_seq V D D D' (rds R) tr c); [|exact H].
  apply flow_post_same. intros l Hl. rewrite exposed_rds in Hl. apply HR, Hl.
Qed.

Lemma flow_post_abrupt V D D1 D' tr c : c <> CNormal -> flow_post V D D1 tr c -> flow_post V D D' tr c.
Proof. intros N [A _]. split; [exact A | intro E; contradiction]. Qed.

Lemma flow_post_sub V D D1 D' tr c :
  (forall x, mem x D' = true -> mem x D1 = true) -> flow_post V D D1 tr c -> flow_post V D D' tr c.
Proof. intros S [A B]. split; [exact A | intros Ec x Hx; apply (B Ec x (S x Hx))]. Qed.

(* a whole-scalar assignment, and the head of a DO iteration: x is defined for what follows *)
Lemma flow_post_wr V D x tr c : reads_ok V (x :: D) tr -> flow_post V D (x :: D) (Wr (x, []) :: tr) c.
Proof.
  intro H. split.
  - intros l Hl. apply in_exposed_cons_wr in Hl as [N Hl]. apply (okloc_cons V x D l (H l Hl) N).
  - intros _ y Hy. rewrite mem_cons in Hy. apply orb_true_iff in Hy as [Hy|Hy]; [|left; exact Hy].
    apply Nat.eqb_eq in Hy. subst y. right. left. reflexivity.
Qed.

Lemma flow_post_region V D D' r tr c :
  flow_post V D D' tr c ->
  flow_post V D D' (Enter r :: tr ++ match c with CNormal => [Leave r] | _ => [] end) c.
Proof.
  intros [A B]. split.
  - intros l Hl. change (In l (exposed (tr ++ match c with CNormal => [Leave r] | _ => [] end))) in Hl.
    apply in_exposed_app in Hl as [Hl|[_ Hl]]; [apply A, Hl | destruct c; destruct Hl].
  - intros Ec x Hx. rewrite writes_region. apply (B Ec x Hx).
Qed.

Lemma bs_flow_sound V :
  (forall ss s s' tr c, bs ss s s' tr c ->
     forall D D', flow_block V ss D = Some D' -> flow_post V D D' tr c) /\
  (forall st s s' tr c, bst st s s' tr c ->
     forall D D', flow V st D = Some D' -> flow_post V D D' tr c) /\
  (forall body x l t n k s s' tr c, bloop body x l t n k s s' tr c ->
     forall D Db, flow_block V body (x :: D) = Some Db -> flow_post V D (x :: D) tr c).
Proof.
  apply bs_mutind.
  - intros s D D' H. rewrite flow_block_nil in H. injection H as <-. apply flow_post_same. intros l [].
  - intros st rest s s1 tr1 s2 tr2 c _ IH1 _ IH2 D D' H. rewrite flow_block_cons in H.
    destruct (flow V st D) as [D1|] eqn:E1; [|discriminate].
    exact (flow_post_seq V D D1 D' tr1 tr2 c (IH1 D D1 E1) (IH2 D1 D' H)).
  - intros st rest s s1 tr1 c _ IH1 Nc D D' H. rewrite flow_block_cons in H.
    destruct (flow V st D) as [D1|] eqn:E1; [|discriminate].
    exact (flow_post_abrupt V D D1 D' tr1 c Nc (IH1 D D1 E1)).
  - intros x ix e s vs v Eix _ D D' H. cbn [flow] in H.
    destruct (eok V D e && forallb (eok V D) ix) eqn:Eok; [|discriminate].
    apply andb_true_iff in Eok as [K1 K2]. injection H as <-. apply flow_post_rds.
    { intros l Hl. apply in_app_or in Hl as [Hl|Hl];
        [apply (eok_sound V D s e K1 l Hl) | apply (eoks_sound V D s ix K2 l Hl)]. }
    destruct ix as [|i0 ix'].
    + cbn [map opt_all] in Eix. injection Eix as <-. apply flow_post_wr. intros l [].
    + apply flow_post_same. intros l Hl. rewrite exposed_single_wr in Hl. destruct Hl.
  - intros c th el s v s' tr k _ _ IH D D' H. rewrite flow_if in H.
    destruct (eok V D c) eqn:K; [|discriminate].
    destruct (flow_block V th D) as [D1|] eqn:F1; [|discriminate].
    destruct (flow_block V el D) as [D2|] eqn:F2; [|discriminate].
    injection H as <-. apply flow_post_rds; [exact (eok_sound V D s c K)|].
    (* whichever branch ran defines at least what both define *)
    destruct (Z.eqb v 0); [apply (flow_post_sub V D D2) | apply (flow_post_sub V D D1)];
      try (apply IH; assumption); intros x Hx; apply mem_inter in Hx; tauto.
  - intros x lo hi st body s l h t s' tr k _ _ _ _ _ IH D D' H. rewrite flow_do in H.
    destruct (eok V D lo && eok V D hi && eok V D st) eqn:K; [|discriminate].
    apply andb_true_iff in K as [K K3]. apply andb_true_iff in K as [K1 K2].
    destruct (flow_block V body (x :: D)) as [Db|] eqn:Fb; [|discriminate].
    injection H as <-. apply flow_post_rds; [|exact (IH D Db Fb)].
    intros l0 Hl. apply in_app_or in Hl as [Hl|Hl]; [apply (eok_sound V D s lo K1 l0 Hl)|].
    apply in_app_or in Hl as [Hl|Hl]; [apply (eok_sound V D s hi K2 l0 Hl) | apply (eok_sound V D s st K3 l0 Hl)].
  - intros s D D' H. injection H as <-. apply flow_post_same. intros l [].
  - intros s D D' H. injection H as <-. apply flow_post_same. intros l [].
  - intros s D D' H. injection H as <-. apply flow_post_same. intros l [].
  - intros es s vs _ D D' H. cbn [flow] in H. destruct (forallb (eok V D) es) eqn:K; [|discriminate].
    injection H as <-. apply flow_post_rds; [exact (eoks_sound V D s es K)|].
    apply flow_post_same. intros l [].
  - intros r body s s' tr c _ IH D D' H. rewrite flow_region in H. apply flow_post_region, IH, H.
  - intros d body s s' tr c _ IH D D' H. rewrite flow_dir in H. apply (IH D D' H).
  - intros body x l t k s D Db _. apply flow_post_wr. intros l0 [].
  - (* an iteration and the rest of the loop: the rest is judged from D again, so the iteration need only
       have its own reads allowed *)
    intros body x l t n k s s2 tr c s3 tr3 c3 _ IH1 _ _ IH2 D Db F.
    apply (flow_post_seq V D D (x :: D) (Wr (x, []) :: tr) tr3 c3); [|exact (IH2 D Db F)].
    apply flow_post_same. exact (proj1 (flow_post_wr V D x tr CNormal (proj1 (IH1 (x :: D) Db F)))).
  - intros body x l t n k s s2 tr _ IH1 D Db F. apply flow_post_wr. exact (proj1 (IH1 (x :: D) Db F)).
  - intros body x l t n k s s2 tr _ IH1 D Db F. apply flow_post_wr. exact (proj1 (IH1 (x :: D) Db F)).
Qed.

Theorem flow_sound V f r s s' tr c D' :
  exec f r s = Ok s' tr c -> flow_block V r [] = Some D' ->
  (forall l, In l (exposed tr) -> In (fst l) V) /\
  (c = CNormal -> forall x, In x D' -> In (x, []) (writes tr)).
Proof.
  intros H F. apply exec_bs in H. destruct (proj1 (bs_flow_sound V) _ _ _ _ _ H [] D' F) as [A B]. split.
  - intros l Hl. destruct (A l Hl) as [Hv|[_ Hd]]; [apply mem_In; exact Hv | discriminate].
  - intros Ec x Hx. destruct (B Ec x (proj2 (mem_In x D') Hx)) as [Hd|Hw]; [discriminate | exact Hw].
Qed.

Definition agree_on (X : list name) (s1 s2 : store) : Prop :=
  forall x idx, In x X -> val s2 (x, idx) = val s1 (x, idx).

(* agreement on variable x "as r uses it": all elements if r indexes x, else the scalar location *)
Definition var_agree (r : list stmt) (x : name) (s1 s2 : store) : Prop :=
  if mem x (arrays_of r) then forall idx, val s2 (x, idx) = val s1 (x, idx)
  else val s2 (x, []) = val s1 (x, []).

(* Run-time form, for ANY list V of recorded inputs and ANY runner with the frame property (a statement list
   under [exec] — for a region with calls, the expansion of the callees — or a region with DO WHILE loops under
   [wexec]): if no upward-exposed read of this run falls outside V, then from any store with the same bounds
   agreeing on V the region runs with the same trace and control state; the final stores agree on every
   variable of V and every written location. *)
Lemma frame_replay (run : runner) (V : list name) s1 s1' tr c s2 :
  frame_ok run -> run s1 = Ok s1' tr c ->
  (forall l, In l (exposed tr) -> In (fst l) V) ->
  bnd s2 = bnd s1 -> agree_on V s1 s2 ->
  exists s2', run s2 = Ok s2' tr c /\ bnd s2' = bnd s1' /\
    (forall l, In (fst l) V \/ In l (writes tr) -> val s2' l = val s1' l).
Proof.
  intros Hf H Hex Hb Hag.
  destruct (frame_ok_wb run Hf _ _ _ _ H) as [Hb1 Hu].
  destruct (Hf _ _ _ _ H s2 Hb) as [s2' [R1 [R2 [R3 R4]]]].
  { intros [x idx] Hl. apply Hag. apply (Hex (x, idx) Hl). }
  exists s2'. split; [exact R1|]. split; [congruence|].
  intros l Hl. destruct (in_dec loc_eq_dec l (writes tr)) as [I|N]; [apply R3, I|].
  destruct Hl as [Hl|Hl]; [|contradiction].
  rewrite (R4 l N), (Hu l N). destruct l as [x idx]. apply Hag, Hl.
Qed.

Theorem replay_sound_any (V : list name) f r s1 s1' tr c s2 :
  exec f r s1 = Ok s1' tr c ->
  (forall l, In l (exposed tr) -> In (fst l) V) ->
  bnd s2 = bnd s1 -> agree_on V s1 s2 ->
  exists s2', exec f r s2 = Ok s2' tr c /\ bnd s2' = bnd s1' /\
    (forall l, In (fst l) V \/ In l (writes tr) -> val s2' l = val s1' l).
Proof. exact (frame_replay (exec f r) V s1 s1' tr c s2 (frame_exec f r)). Qed.

(* FULL STATEMENT (false of the faithful model, see the refutations below):
     forall r s1 s2, bnd s2 = bnd s1 -> agree_on (inputs sh r) s1 s2 ->
       exec f r s1 = Ok s1' tr CNormal ->
       exists s2', exec f r s2 = Ok s2' tr CNormal /\ forall x, In x (outputs r) -> var_agree r x s1' s2'.
   PROVED under the static sufficient condition [safe_with V r] (InOut.v), for any list V of recorded inputs:
   with V as the only agreeing variables the must-define data-flow never meets a read of anything else, and
   every output that is not in V is a never-indexed scalar assigned on every normal path. *)
Theorem replay_sound_with (V : list name) f r s1 s1' tr c s2 :
  safe_with V r = true ->
  exec f r s1 = Ok s1' tr c ->
  bnd s2 = bnd s1 -> agree_on V s1 s2 ->
  exists s2', exec f r s2 = Ok s2' tr c /\ bnd s2' = bnd s1' /\
    agree_on V s1' s2' /\
    (forall l, In l (writes tr) -> val s2' l = val s1' l) /\
    (c = CNormal -> forall x, In x (outputs r) -> var_agree r x s1' s2').
Proof.
  intros Hs H Hb Hag. unfold safe_with in Hs.
  destruct (flow_block V r []) as [D'|] eqn:F; [|discriminate].
  destruct (flow_sound _ _ _ _ _ _ _ _ H F) as [A B].
  destruct (replay_sound_any V f r s1 s1' tr c s2 H A Hb Hag) as [s2' [R1 [R2 R3]]].
  exists s2'. split; [exact R1|]. split; [exact R2|]. split; [|split].
  - intros x idx Hx. apply R3. left. exact Hx.
  - intros l Hl. apply R3. right. exact Hl.
  - intros Ec x Hx. rewrite forallb_forall in Hs. specialize (Hs x Hx).
    apply orb_true_iff in Hs as [Hv|Hd].
    + apply mem_In in Hv. unfold var_agree. destruct (mem x (arrays_of r)).
      * intro idx. apply R3. left. exact Hv.
      * apply R3. left. exact Hv.
    + apply andb_true_iff in Hd as [Hd Ha]. apply negb_true_iff in Ha. unfold var_agree. rewrite Ha.
      apply R3. right. apply (B Ec x). apply mem_In. exact Hd.
Qed.

Theorem replay_sound_partial sh f r s1 s1' tr c s2 :
  safe sh r = true ->
  exec f r s1 = Ok s1' tr c ->
  bnd s2 = bnd s1 -> agree_on (inputs sh r) s1 s2 ->
  exists s2', exec f r s2 = Ok s2' tr c /\ bnd s2' = bnd s1' /\
    agree_on (inputs sh r) s1' s2' /\
    (forall l, In l (writes tr) -> val s2' l = val s1' l) /\
    (c = CNormal -> forall x, In x (outputs r) -> var_agree r x s1' s2').
Proof. exact (replay_sound_with (inputs sh r) f r s1 s1' tr c s2). Qed.

Local Open Scope Z_scope.
Definition va : name := 0%nat.  Definition vb : name := 1%nat.  Definition vs : name := 2%nat.
Definition vt : name := 3%nat.  Definition vm : name := 4%nat.  Definition vn : name := 5%nat.
Definition vi : name := 6%nat.

Definition st_of (vals : list (loc * Z)) : store := store_of vals [(va, [(1, 6)]); (vb, [(1, 6)])].

(* a region inside [safe]: t = b(1) * 2 ; do i = 1, n : b(i) = b(i) + t ; s = s + i *)
Definition r_ok : list stmt :=
  [SAssign vt [] (EBin Mul (EIdx vb [ELit 1]) (ELit 2));
   SDo vi (ELit 1) (EVar vn) (ELit 1)
     [SAssign vb [EVar vi] (EBin Add (EIdx vb [EVar vi]) (EVar vt));
      SAssign vs [] (EBin Add (EVar vs) (EVar vi))]].

Example safe_nonvacuous :
  safe false r_ok = true /\ safe true r_ok = true /\
  inputs false r_ok = [vb; vn; vs] /\ outputs r_ok = [vb; vt; vi; vs] /\
  exists s' tr, exec 20 r_ok (st_of [((vn, []), 3); ((vb, [1]), 5)]) = Ok s' tr CNormal /\
                val s' (vb, [1]) = 15 /\ val s' (vs, []) = 6.
Proof.
  split; [vm_compute; reflexivity|]. split; [vm_compute; reflexivity|].
  split; [vm_compute; reflexivity|]. split; [vm_compute; reflexivity|].
  apply normal_run. vm_compute. split; reflexivity.
Qed.

(* what a refutation is: a region, two stores with the same bounds agreeing on every reported
   input, both runs complete normally, and some reported output differs afterwards *)
Definition refutes (sh : bool) (r : list stmt) (s1 s2 : store) (x : name) : Prop :=
  bnd s2 = bnd s1 /\ agree_on (inputs sh r) s1 s2 /\ In x (outputs r) /\
  exists s1' tr1 s2' tr2, exec 20 r s1 = Ok s1' tr1 CNormal /\ exec 20 r s2 = Ok s2' tr2 CNormal /\
                          val s2' (x, []) <> val s1' (x, []).

(* a(1) = 0 ; s = a(2) : `a` is written first, so it is not an input, but a(2) is read *)
Definition r_partial : list stmt :=
  [SAssign va [ELit 1] (ELit 0); SAssign vs [] (EIdx va [ELit 2])].

Lemma agree_nil s1 s2 : agree_on [] s1 s2.
Proof. intros x idx []. Qed.

Theorem inputs_refuted_partial_array :
  inputs false r_partial = [] /\ inputs true r_partial = [] /\ safe false r_partial = false /\
  refutes false r_partial (st_of [((va, [2]), 7)]) (st_of [((va, [2]), 9)]) vs.
Proof.
  split; [vm_compute; reflexivity|]. split; [vm_compute; reflexivity|]. split; [vm_compute; reflexivity|].
  split; [reflexivity|]. split; [apply agree_nil|]. split; [vm_compute; auto|].
  apply normal_runs. vm_compute. discriminate.
Qed.

(* if (t > 0) m = 1 ; n = m : `m` is written first (in the branch), so it is not an input *)
Definition r_cond : list stmt :=
  [SIf (EBin Gt (EVar vt) (ELit 0)) [SAssign vm [] (ELit 1)] []; SAssign vn [] (EVar vm)].

Lemma agree_single y s1 s2 : (forall idx, val s2 (y, idx) = val s1 (y, idx)) -> agree_on [y] s1 s2.
Proof. intros H x idx [<-|[]]. apply H. Qed.

Theorem inputs_refuted_conditional :
  inputs false r_cond = [vt] /\ safe false r_cond = false /\
  refutes false r_cond (st_of [((vm, []), 7)]) (st_of [((vm, []), 9)]) vn.
Proof.
  split; [vm_compute; reflexivity|]. split; [vm_compute; reflexivity|].
  split; [reflexivity|]. split.
  { change (inputs false r_cond) with [vt]. apply agree_single. intro idx. reflexivity. }
  split; [vm_compute; auto|].
  apply normal_runs. vm_compute. discriminate.
Qed.

(* do i = i, 5 : s = s + 1 : the DO variable is WRITE-first in the access list although the bounds
   (evaluated before the variable is assigned) read its incoming value (C12_inputs_refuted_do_bounds) *)
Definition r_dovar : list stmt :=
  [SDo vi (EVar vi) (ELit 5) (ELit 1) [SAssign vs [] (EBin Add (EVar vs) (ELit 1))]].

(* a(1) = 0 alone: the replay reads nothing wrong, but the recorded output `a` is the whole array and
   a(2:) is not reproduced from the (empty) inputs (C12_outputs_refuted_partial_write) *)
Definition r_wonly : list stmt := [SAssign va [ELit 1] (ELit 0)].

