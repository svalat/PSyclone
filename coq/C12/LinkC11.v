(* C12 — the location-free access list of C12/InOut.v (option COLLECT-ARRAY-SHAPE-READS off) is the
   projection of the C11 model of VariablesAccessInfo (coq/C11/Access.v): statement by statement here
   (acc_stmt_proj, acc_list_proj), for a region in accs_proj.  Through it the read half of C11's coverage
   theorem speaks about this access list (reads_in_accs), which is how C13 uses it. *)
From Coq Require Import List ZArith Bool.
Import ListNotations.
From PV Require Import Fort.Syntax Fort.Sem C11.Access C11.Proofs C12.InOut.

Definition sk (a : access) : acc := (a_sig a, a_kind a).

Lemma flat_map_eq_Forall {A B} (f g : A -> list B) l : Forall (fun a => f a = g a) l -> flat_map f l = flat_map g l.
Proof. induction 1 as [|a l Ha _ IH]; [reflexivity|]. cbn [flat_map]. rewrite Ha, IH. reflexivity. Qed.

Lemma expr_reads_eq e : expr_reads e = ereads_s false e.
Proof.
  induction e as [z|x|a ix IH|o e IH|o e1 e2 IH1 IH2|f args IH] using expr_ind'; cbn [expr_reads ereads_s].
  - reflexivity.
  - reflexivity.
  - rewrite (flat_map_eq_Forall _ _ ix IH). reflexivity.
  - exact IH.
  - rewrite IH1, IH2. reflexivity.
  - destruct (is_inquiry f); cbn [andb negb].
    + destruct args as [|a0 r]; [reflexivity|]. exact (flat_map_eq_Forall _ _ r (Forall_inv_tail IH)).
    + exact (flat_map_eq_Forall _ _ args IH).
Qed.

Lemma flat_expr_reads_eq es : flat_map expr_reads es = flat_map (ereads_s false) es.
Proof. apply flat_map_ext, expr_reads_eq. Qed.

Lemma map_sk_reads loc xs : map sk (reads_at loc xs) = rdl xs.
Proof. unfold reads_at, rdl. rewrite map_map. reflexivity. Qed.

(* a Schedule and a Loop body at once, through [C11.Proofs.acc_list] *)
Lemma acc_list_proj bump ss : forall loc,
  Forall (fun s => forall loc, map sk (fst (acc_stmt s loc)) = saccs false s) ss ->
  map sk (fst (acc_list bump ss loc)) = flat_map (saccs false) ss.
Proof.
  induction ss as [|s1 r IH]; intros loc HF; [destruct bump; reflexivity|].
  rewrite acc_list_cons. cbn [flat_map]. inversion HF as [|? ? H1 H2]; subst.
  specialize (H1 loc). destruct (acc_stmt s1 loc) as [a1 l1]. specialize (IH (if bump then S l1 else l1) H2).
  destruct (acc_list bump r (if bump then S l1 else l1)) as [a2 l2]. cbn [fst] in *. rewrite map_app, H1, IH. reflexivity.
Qed.

Lemma acc_stmt_proj s : forall loc, map sk (fst (acc_stmt s loc)) = saccs false s.
Proof.
  induction s as [x ix e|c th el IHt IHe|x lo hi st body IHb| | | |es|r body IHb|d body IHb] using stmt_ind';
    intro loc; try reflexivity.
  - cbn [acc_stmt saccs fst]. rewrite !map_app, !map_sk_reads, expr_reads_eq, flat_expr_reads_eq. reflexivity.
  - rewrite acc_stmt_if, if_report_fst, !map_app, map_sk_reads, expr_reads_eq.
    rewrite (acc_list_proj false th _ IHt : map sk (fst (acc_block th _)) = _).
    rewrite (acc_list_proj false el _ IHe : map sk (fst (acc_block el _)) = _). reflexivity.
  - rewrite acc_stmt_do. pose proof (acc_list_proj true body (S loc) IHb) as Hb. cbn [acc_list] in Hb.
    destruct (acc_loop_body body (S loc)) as [a1 l1].
    cbn [fst map saccs] in *. rewrite map_app, map_sk_reads, !expr_reads_eq, Hb. reflexivity.
  - rewrite acc_stmt_region. apply (acc_list_proj false), IHb.
  - rewrite acc_stmt_dir. apply (acc_list_proj false), IHb.
Qed.

Lemma accs_proj r : accs false r = map sk (accesses r).
Proof. unfold accs, accesses. symmetry. apply (acc_list_proj false). apply Forall_forall. intros s _. apply acc_stmt_proj. Qed.

(* core statements report READ and WRITE only (READWRITE comes with call arguments) *)
Lemma rdl_kind x k xs : In (x, k) (rdl xs) -> k = READ.
Proof. unfold rdl. rewrite in_map_iff. intros [y [E _]]. inversion E. reflexivity. Qed.

Lemma saccs_kind sh s : forall x k, In (x, k) (saccs sh s) -> k = READ \/ k = WRITE.
Proof.
  assert (flat : forall ss, Forall (fun s => forall x k, In (x, k) (saccs sh s) -> k = READ \/ k = WRITE) ss ->
                 forall x k, In (x, k) (flat_map (saccs sh) ss) -> k = READ \/ k = WRITE).
  { intros ss HF x k Hin. apply in_flat_map in Hin as [s0 [Hs Hin]]. rewrite Forall_forall in HF. exact (HF s0 Hs x k Hin). }
  induction s as [x0 ix e|c th el IHt IHe|x0 lo hi st body IHb| | | |es|r body IHb|d body IHb] using stmt_ind';
    intros x k Hin; cbn [saccs] in Hin.
  - rewrite !in_app_iff in Hin. destruct Hin as [Hin|[Hin|[Hin|[]]]];
      [left; exact (rdl_kind _ _ _ Hin) | left; exact (rdl_kind _ _ _ Hin) | right; congruence].
  - rewrite !in_app_iff in Hin. destruct Hin as [Hin|[Hin|Hin]];
      [left; exact (rdl_kind _ _ _ Hin) | exact (flat th IHt x k Hin) | exact (flat el IHe x k Hin)].
  - destruct Hin as [E|[E|Hin]]; [right; congruence | left; congruence|].
    rewrite in_app_iff in Hin. destruct Hin as [Hin|Hin]; [left; exact (rdl_kind _ _ _ Hin) | exact (flat body IHb x k Hin)].
  - destruct Hin.
  - destruct Hin.
  - destruct Hin.
  - destruct Hin.
  - exact (flat body IHb x k Hin).
  - exact (flat body IHb x k Hin).
Qed.

Theorem reads_in_accs fuel r s s' tr c :
  forallb noprint r = true -> exec fuel r s = Ok s' tr c ->
  forall l, In l (reads tr) -> In (fst l, READ) (accs false r).
Proof.
  intros NP H l Hl. destruct (access_covers_ fuel r 0 s s' tr c NP H) as [R _].
  apply R, existsb_exists in Hl. destruct Hl as [a [Ha Hk]]. apply andb_true_iff in Hk as [Es Hk].
  apply Nat.eqb_eq in Es.
  assert (Hin : In (fst l, a_kind a) (accs false r)) by (rewrite accs_proj, <- Es; exact (in_map sk _ a Ha)).
  pose proof Hin as Hst. apply in_flat_map in Hst as [st [_ Hst]].
  destruct (saccs_kind false st _ _ Hst) as [E|E]; rewrite E in *; [exact Hin | discriminate Hk].
Qed.
