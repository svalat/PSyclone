(* C12 — theorems about the call-tree resolution model (coq/C12/CallTree.v).

   (1) order independence: any permutation of the work list of routines gives the same input / output lists
       (here [existsb_perm]; the theorem is C12_calltree_order_independent).
   (2) coverage for the generated class: a program is a table of routines whose bodies are core statements and, at their
       top level, calls WITHOUT arguments to other routines of the table; the meaning of a call is the inlined callee
       (to depth n).  Then every variable whose first access in the inlined code is not a WRITE is in the resolved
       inputs, and every location written by any run of the inlined code belongs to a resolved output. *)
From Coq Require Import List ZArith Bool Permutation.
Import ListNotations.
From PV Require Import Fort.Syntax Fort.Sem Fort.Facts C11.Access C12.InOut C12.BigStep C12.Proofs C12.CallTree.

Lemma existsb_perm {A} (f : A -> bool) l l' : Permutation l l' -> existsb f l = existsb f l'.
Proof.
  induction 1 as [|x l l' _ IH|x y l|l l' l'' _ IH1 _ IH2]; cbn [existsb].
  - reflexivity.
  - rewrite IH. reflexivity.
  - destruct (f x), (f y); reflexivity.
  - rewrite IH1. exact IH2.
Qed.

Inductive cstmt := CS (s : stmt) | CCall (j : nat).
Definition routine := list cstmt.

Fixpoint inline (n : nat) (p : list routine) (body : routine) : list stmt :=
  match n with
  | O => flat_map (fun c => match c with CS s => [s] | CCall _ => [] end) body
  | S n' => flat_map (fun c => match c with CS s => [s] | CCall j => inline n' p (nth j p []) end) body
  end.

(* the routines whose bodies are inlined (below the entry), to depth n *)
Fixpoint creached (n : nat) (p : list routine) (body : routine) : list routine :=
  match n with
  | O => []
  | S n' => flat_map (fun c => match c with CS _ => [] | CCall j => nth j p [] :: creached n' p (nth j p []) end) body
  end.
Definition reached (n : nat) (p : list routine) (body : routine) : list routine := body :: creached n p body.

Definition to_x (r : routine) : list xstmt :=
  map (fun c => match c with CS s => XCore s | CCall _ => XCall [] end) r.
Definition own (r : routine) : list acc := xaccs false (to_x r).

Lemma own_cons c r : own (c :: r) = match c with CS s => saccs false s | CCall _ => [] end ++ own r.
Proof. destruct c; reflexivity. Qed.

Lemma accs_app sh a b : accs sh (a ++ b) = accs sh a ++ accs sh b.
Proof. unfold accs. apply flat_map_app. Qed.

(* what one element of a body contributes to the inlined code and to the routines reached *)
Definition seg (n : nat) (p : list routine) (c : cstmt) : list stmt :=
  match c with CS s => [s] | CCall j => match n with O => [] | S n' => inline n' p (nth j p []) end end.
Definition cseg (n : nat) (p : list routine) (c : cstmt) : list routine :=
  match c, n with CCall j, S n' => reached n' p (nth j p []) | _, _ => [] end.

Lemma inline_eq n p body : inline n p body = flat_map (seg n p) body.
Proof. destruct n; reflexivity. Qed.
Lemma creached_eq n p body : creached n p body = flat_map (cseg n p) body.
Proof.
  destruct n; [|reflexivity]. induction body as [|[s|j] r IH]; [reflexivity | exact IH | exact IH].
Qed.
Lemma inline_cons n p c r : inline n p (c :: r) = seg n p c ++ inline n p r.
Proof. rewrite !inline_eq. reflexivity. Qed.
Lemma creached_cons n p c r : creached n p (c :: r) = cseg n p c ++ creached n p r.
Proof. rewrite !creached_eq. reflexivity. Qed.

(* every access of the inlined code is an own access of a reached routine *)
Lemma inline_accs_own p a : forall n body,
  In a (accs false (inline n p body)) -> exists r, In r (reached n p body) /\ In a (own r).
Proof.
  induction n as [n IHn] using lt_wf_ind. intros body Ha. rewrite inline_eq in Ha.
  apply in_flat_map in Ha as [s [Hs Ha]]. apply in_flat_map in Hs as [c [Hc Hs]].
  destruct c as [s'|j].
  - (* a statement of the body itself *)
    destruct Hs as [<-|[]]. exists body. split; [left; reflexivity|].
    apply in_flat_map. exists (XCore s'). split; [exact (in_map _ body (CS s') Hc) | exact Ha].
  - (* a statement of an inlined callee *)
    destruct n as [|n']; [destruct Hs|]. cbn [seg] in Hs.
    destruct (IHn n' (Nat.lt_succ_diag_r n') (nth j p [])) as [r [Hr Ho]].
    { apply in_flat_map. exists s. split; assumption. }
    exists r. split; [|exact Ho]. right. rewrite creached_eq. apply in_flat_map.
    exists (CCall j). split; [exact Hc | exact Hr].
Qed.

(* first access kind of a variable in an access list *)
Definition fk (v : name) (L : list acc) : option akind := hd_error (of_var v L).
Lemma of_var_app v a b : of_var v (a ++ b) = of_var v a ++ of_var v b.
Proof. unfold of_var. rewrite filter_app, map_app. reflexivity. Qed.
Lemma fk_app v a b : fk v (a ++ b) = match fk v a with Some k => Some k | None => fk v b end.
Proof. unfold fk. rewrite of_var_app. destruct (of_var v a); reflexivity. Qed.

(* the first access to v in the inlined code is the first OWN access to v of the body (nothing before it, in
   particular no callee, touches v) or of a routine reached through a call *)
Lemma first_access_split p v k : forall n body,
  fk v (accs false (inline n p body)) = Some k ->
  fk v (own body) = Some k \/ exists r, In r (creached n p body) /\ fk v (own r) = Some k.
Proof.
  induction n as [n IHn] using lt_wf_ind. induction body as [|c rest IHb]; intro H; [rewrite inline_eq in H; discriminate|].
  rewrite inline_cons, accs_app, fk_app in H. rewrite own_cons, fk_app, creached_cons.
  assert (Rest : fk v (accs false (inline n p rest)) = Some k ->
                 fk v (own rest) = Some k \/
                 exists r, In r (cseg n p c ++ creached n p rest) /\ fk v (own r) = Some k).
  { intro H'. destruct (IHb H') as [Hl|[r [Hr Ho]]]; [left; exact Hl|].
    right. exists r. split; [apply in_or_app; right; exact Hr | exact Ho]. }
  destruct c as [s|j]; cbn [seg] in H.
  - cbn [accs flat_map] in H. rewrite app_nil_r in H.
    destruct (fk v (saccs false s)); [left; exact H | exact (Rest H)].
  - change (fk v []) with (@None akind). cbv iota. destruct n as [|n']; [exact (Rest H)|].
    destruct (fk v (accs false (inline n' p (nth j p [])))) as [k'|] eqn:E; [|exact (Rest H)].
    injection H as ->. right.
    destruct (IHn n' (Nat.lt_succ_diag_r n') (nth j p []) E) as [Hl|[r [Hr Ho]]];
      [exists (nth j p []) | exists r]; (split; [apply in_or_app; left|assumption]);
      [left; reflexivity | right; exact Hr].
Qed.

Lemma first_access_own p v k n body :
  fk v (accs false (inline n p body)) = Some k -> exists r, In r (reached n p body) /\ fk v (own r) = Some k.
Proof.
  intro H. destruct (first_access_split p v k n body H) as [Hl|[r [Hr Ho]]].
  - exists body. split; [left; reflexivity | exact Hl].
  - exists r. split; [right; exact Hr | exact Ho].
Qed.

Lemma inputs_fk v L : In v (inputs_of L) <-> exists k, fk v L = Some k /\ k <> WRITE.
Proof.
  rewrite in_inputs_iff. unfold wfirst, fk. split.
  - intros [Hin Hw]. destruct (of_var v L) as [|k ks] eqn:E.
    + exfalso. apply in_map_iff in Hin as [[y k] [Ey Hy]]. cbn [fst] in Ey. subst y.
      apply in_of_var in Hy. rewrite E in Hy. destruct Hy.
    + exists k. split; [reflexivity|]. intro Ek. subst k. discriminate.
  - intros [k [E Nk]]. destruct (of_var v L) as [|k0 ks] eqn:E0; [discriminate|]. inversion E; subst k0. split.
    + apply in_map_iff. exists (v, k). split; [reflexivity|]. apply in_of_var. rewrite E0. left; reflexivity.
    + destruct k; try reflexivity. contradiction.
Qed.

Lemma in_ct_inputs v rs globals :
  In v globals -> (exists r, In r rs /\ In v (inputs_of (xaccs false r))) -> In v (ct_inputs rs globals).
Proof.
  intros Hg [r [Hr Hi]]. unfold ct_inputs. apply filter_In. split; [exact Hg|].
  apply existsb_exists. exists r. split; [exact Hr|]. cbv zeta.
  unfold inputs_of in Hi. apply filter_In in Hi as [H1 H2]. apply andb_true_iff. split; [apply mem_In; exact H1 | exact H2].
Qed.

Lemma in_ct_outputs v rs globals :
  In v globals -> (exists r, In r rs /\ In (v, WRITE) (xaccs false r)) -> In v (ct_outputs rs globals).
Proof.
  intros Hg [r [Hr Hi]]. unfold ct_outputs. apply filter_In. split; [exact Hg|].
  apply existsb_exists. exists r. split; [exact Hr|]. apply written_iff. exists WRITE.
  split; [exact Hi | reflexivity].
Qed.

(* PARTIAL: "incoming value read before being written" is approximated, as in the implementation, by "first access in
   the (inlined) access list is not a WRITE"; the exact dynamic statement fails for the known is_written_first gaps. *)
Theorem calltree_covers_partial n p entry globals :
  let rs := map to_x (reached n p entry) in
  (forall v, In v globals -> In v (inputs false (inline n p entry)) -> In v (ct_inputs rs globals)) /\
  (forall f st st' tr c, exec f (inline n p entry) st = Ok st' tr c ->
     forall l, In l (writes tr) -> In (fst l) globals -> In (fst l) (ct_outputs rs globals)).
Proof.
  cbv zeta. split.
  - intros v Hg Hi. unfold inputs in Hi. apply inputs_fk in Hi as [k [E Nk]].
    destruct (first_access_own p v k n entry E) as [r [Hr Ho]].
    apply in_ct_inputs; [exact Hg|]. exists (to_x r). split; [apply in_map; exact Hr|].
    apply inputs_fk. exists k. split; [exact Ho | exact Nk].
  - intros f st st' tr c H l Hl Hg.
    destruct (inline_accs_own p _ n entry (exec_writes_covered false _ _ _ _ _ _ H l Hl)) as [r [Hr Ho]].
    apply in_ct_outputs; [exact Hg|]. exists (to_x r). split; [apply in_map; exact Hr | exact Ho].
Qed.

(* non-vacuity: a 3-level chain; the entry reads g1, then a helper two levels down overwrites it
   entry:  g2 = g1 + 1 ; call h1        h1:  call h2 ; g3 = g2        h2:  g1 = 5 *)
Local Open Scope Z_scope.
Definition g1 : name := 0%nat. Definition g2 : name := 1%nat. Definition g3 : name := 2%nat.
Definition prog3 : list routine :=
  [ [CS (SAssign g2 [] (EBin Add (EVar g1) (ELit 1))); CCall 1%nat];
    [CCall 2%nat; CS (SAssign g3 [] (EVar g2))];
    [CS (SAssign g1 [] (ELit 5))] ].
Example calltree_nonvacuous :
  let entry := nth 0 prog3 [] in
  let rs := map to_x (reached 2 prog3 entry) in
  inline 2 prog3 entry = [SAssign g2 [] (EBin Add (EVar g1) (ELit 1)); SAssign g1 [] (ELit 5); SAssign g3 [] (EVar g2)] /\
  length rs = 3%nat /\
  ct_inputs rs [g1; g2; g3] = [g1; g2] /\ ct_outputs rs [g1; g2; g3] = [g1; g2; g3] /\
  ct_inputs (rev rs) [g1; g2; g3] = [g1; g2] /\
  (* the first-processed-routine-decides behaviour of the r2 seed would drop g1: h2 alone writes it first *)
  ct_inputs [to_x (nth 2 prog3 [])] [g1; g2; g3] = [] /\
  exists st' tr, exec 10 (inline 2 prog3 entry) (store_of [((g1, []), 7)] []) = Ok st' tr CNormal /\
                 val st' (g3, []) = 8 /\ val st' (g1, []) = 5.
Proof.
  cbv zeta. repeat (split; [vm_compute; reflexivity|]). apply normal_run. vm_compute. split; reflexivity.
Qed.
