(* C15 — the copy is equal (same written form), shares no node, and re-binds references. *)
From Coq Require Import List NArith Bool Lia.
Import ListNotations.
From PV Require Import C15.Model C15.Basics.
Open Scope N_scope.

(* ids in use lie below the offsets chosen for the new objects *)
Definition bounded (W : world) (off soff ooff : N) (n : node) : Prop :=
  Forall (fun i => i < off) (ids n) /\ Forall (fun s => s < soff) (ssup W n)
  /\ Forall (fun o => o < ooff) (osup W n).

Definition wf (W : world) (off soff ooff : N) (n : node) : Prop :=
  Forall (tab_wf (hs W)) (tables n) /\ Forall (imports_local (hs W)) (tables n)
  /\ NoDup (owned n) /\ bounded W off soff ooff n.

(* well-scoped: a reference to a symbol declared in the subtree lies inside the declaring scope *)
Inductive wsc : node -> Prop :=
| wsc_node : forall i tag sl tab ch,
    (forall s, sl = Rebound s -> In s (owned (Node i tag sl tab ch)) -> In s (tab_syms tab)) ->
    (forall c, In c ch -> forall s, In s (refs c) -> In s (owned (Node i tag sl tab ch)) ->
               In s (owned c) \/ In s (tab_syms tab)) ->
    Forall wsc ch ->
    wsc (Node i tag sl tab ch).

Lemma wslot_names : forall h h' sl,
  (forall s, In s (slot_syms sl) -> sname (h' s) = sname (h s)) -> wslot h' sl = wslot h sl.
Proof.
  intros h h' [|s|s] Hs; simpl in *; [reflexivity| |]; rewrite Hs; auto.
Qed.

Lemma wexpr_names : forall h h' e,
  (forall s, In s (expr_syms e) -> sname (h' s) = sname (h s)) -> wexpr h' e = wexpr h e.
Proof.
  intros h h' e. induction e as [i tag sl tab ch IH] using node_ind'. intro Hs. simpl in *.
  rewrite (wslot_names h h' sl).
  2:{ intros s Hin. apply Hs. apply in_or_app. left. exact Hin. }
  f_equal. f_equal. f_equal. f_equal. apply flat_map_Forall_ext.
  rewrite Forall_forall in *. intros c Hc. apply IH; [exact Hc|].
  intros s Hin. apply Hs. apply in_or_app. right. apply in_flat_map. exists c. auto.
Qed.

Lemma wexpr_shift : forall h off e, wexpr h (shift_ids off e) = wexpr h e.
Proof.
  intros h off e. induction e as [i tag sl tab ch IH] using node_ind'. simpl.
  f_equal. f_equal. f_equal. f_equal. apply flat_map_map_Forall. exact IH.
Qed.

Lemma expr_syms_shift : forall off e, expr_syms (shift_ids off e) = expr_syms e.
Proof.
  intros off e. induction e as [i tag sl tab ch IH] using node_ind'. simpl.
  f_equal. apply flat_map_map_Forall. exact IH.
Qed.

Lemma wobj_ext : forall W W' o o',
  ho W' o' = ho W o ->
  (forall s, In s (obj_syms W o) -> sname (hs W' s) = sname (hs W s)) ->
  wobj W' o' = wobj W o.
Proof.
  intros W W' o o' Ho Hs. unfold wobj. rewrite Ho.
  assert (E1 : flat_map (wexpr (hs W')) (obounds (ho W o)) = flat_map (wexpr (hs W)) (obounds (ho W o))).
  { apply flat_map_Forall_ext. apply Forall_forall. intros e He. apply wexpr_names.
    intros s Hin. apply Hs. unfold obj_syms. apply in_or_app. left. apply in_flat_map. exists e. auto. }
  assert (E2 : map (fun s => sname (hs W' s)) (osyms (ho W o)) = map (fun s => sname (hs W s)) (osyms (ho W o))).
  { apply map_Forall_ext. apply Forall_forall. intros s Hin. apply Hs.
    unfold obj_syms. apply in_or_app. right. exact Hin. }
  rewrite E1, E2. reflexivity.
Qed.

Lemma obj_syms_ext : forall W W' o o', ho W' o' = ho W o -> obj_syms W' o' = obj_syms W o.
Proof. intros. unfold obj_syms. rewrite H. reflexivity. Qed.

Lemma write_rebind : forall W' h t t' m,
  (forall s s', In s (syms t) -> lookup (norm (sname (h s))) t' = Some s' ->
                sname (hs W' s') = sname (hs W' s)) ->
  write W' (rebind h t t' m) = write W' m.
Proof.
  intros W' h t t' m Hn. induction m as [i tag sl tab ch IH] using node_ind'. simpl.
  assert (Hsl : wslot (hs W') (rebind_slot h t t' sl) = wslot (hs W') sl).
  { destruct sl as [|s|s]; simpl; try reflexivity.
    destruct (memN s (syms t)) eqn:E; [|reflexivity].
    destruct (lookup (norm (sname (h s))) t') as [s'|] eqn:L; [|reflexivity].
    simpl. rewrite (Hn s s'); [reflexivity| apply memN_true; exact E | exact L]. }
  rewrite Hsl. f_equal. f_equal. f_equal. f_equal. f_equal. apply flat_map_map_Forall. exact IH.
Qed.

Section CopyEqual.
  Variables (W W' : world) (off soff ooff : N).
  Hypothesis HA : forall x, x < soff -> hs W' x = hs W x.
  Hypothesis HB : forall o, o < ooff -> ho W' o = ho W o.
  Hypothesis HB' : forall o, ho W' (o + ooff) = ho W o.

  Lemma wobj_old : forall o, o < ooff -> Forall (fun s => s < soff) (obj_syms W o) ->
    wobj W' o = wobj W o.
  Proof.
    intros o Ho Hs. apply wobj_ext; [apply HB; exact Ho|].
    intros s Hin. rewrite Forall_forall in Hs. rewrite HA; [reflexivity | apply Hs; exact Hin].
  Qed.
  Lemma wobj_new : forall o, Forall (fun s => s < soff) (obj_syms W o) -> wobj W' (o + ooff) = wobj W o.
  Proof.
    intros o Hs. apply wobj_ext; [apply HB'|].
    intros s Hin. rewrite Forall_forall in Hs. rewrite HA; [reflexivity | apply Hs; exact Hin].
  Qed.

  Lemma wdecl_copy : forall t k s,
    tab_wf (hs W) t -> imports_local (hs W) t -> In (k, s) t ->
    (forall x, In x (syms t) ->
       hs W' (x + soff) = copied_sym (hs W) off ooff (deep_copy_table (hs W) soff t) (hs W x)) ->
    Forall (fun x => x < soff) (sym_sup W s) -> Forall (fun o => o < ooff) (sym_objs W s) ->
    wdecl W' (norm (sname (hs W s)), s + soff) = wdecl W (k, s).
  Proof.
    intros t k s Hwf Himp Hin Hnew Hss Hso.
    assert (Hs : In s (syms t)) by (unfold syms; apply in_map_iff; exists (k, s); auto).
    assert (Hk : k = norm (sname (hs W s))).
    { destruct Hwf as [_ Hk]. rewrite Forall_forall in Hk. apply (Hk (k, s) Hin). }
    unfold sym_sup in Hss. unfold sym_objs in Hso.
    apply Forall_cons_iff in Hss as [_ Hss]. apply Forall_app in Hss as [Hdt Hss].
    apply Forall_app in Hss as [Hinit Hss]. apply Forall_app in Hss as [Hintf Hmem].
    apply Forall_cons_iff in Hso as [Hdo Hio].
    set (t' := deep_copy_table (hs W) soff t) in *. set (y := hs W s) in *.
    assert (Ei : winit W' (sinit (copied_sym (hs W) off ooff t' y)) = winit W (sinit y)).
    { simpl. destruct (sinit y) as [e|]; simpl; [|reflexivity]. f_equal.
      rewrite wexpr_shift. apply wexpr_names. intros x Hx. simpl in Hinit.
      rewrite Forall_forall in Hinit. rewrite HA; [reflexivity | apply Hinit; exact Hx]. }
    assert (Ef : wintf W' (sintf (copied_sym (hs W) off ooff t' y)) = wintf W (sintf y)).
    { simpl. destruct (sintf y) as [o|c] eqn:Eintf.
      - simpl in Hintf, Hio. apply Forall_cons_iff in Hio as [Hoo _].
        destruct (styped y); simpl; f_equal; [apply wobj_old | apply wobj_new]; assumption.
      - assert (Hc : In c (syms t)) by (apply (proj1 Himp s c Hs Eintf)).
        unfold t'. rewrite (lookup_deep_copy (hs W) soff t c Hwf Hc). simpl.
        rewrite (Hnew c Hc). reflexivity. }
    assert (Em : wmem W' (smem (copied_sym (hs W) off ooff t' y)) = wmem W (smem y)).
    { unfold wmem. simpl. f_equal. rewrite map_map. apply map_Forall_ext. apply Forall_forall. intros m Hm.
      assert (Hc : In m (syms t)) by (apply (proj2 Himp s m Hs Hm)).
      unfold t'. rewrite (lookup_deep_copy (hs W) soff t m Hwf Hc). rewrite (Hnew m Hc). reflexivity. }
    unfold wdecl. cbn [fst snd]. rewrite (Hnew s Hs). fold y. rewrite Ei, Ef, Em. cbn [copied_sym sname styped sdt].
    rewrite <- Hk, (wobj_old _ Hdo Hdt). reflexivity.
  Qed.

  Lemma wtab_copy : forall t,
    tab_wf (hs W) t -> imports_local (hs W) t ->
    (forall x, In x (syms t) ->
       hs W' (x + soff) = copied_sym (hs W) off ooff (deep_copy_table (hs W) soff t) (hs W x)) ->
    Forall (fun x => x < soff) (flat_map (sym_sup W) (syms t)) ->
    Forall (fun o => o < ooff) (flat_map (sym_objs W) (syms t)) ->
    flat_map (wdecl W') (deep_copy_table (hs W) soff t) = flat_map (wdecl W) t.
  Proof.
    intros t Hwf Himp Hnew Hss Hso. unfold deep_copy_table. apply flat_map_map_Forall.
    apply Forall_forall. intros [k s] Hin. simpl fst. simpl snd.
    assert (Hs : In s (syms t)) by (unfold syms; apply in_map_iff; exists (k, s); auto).
    apply (wdecl_copy t k s Hwf Himp Hin Hnew).
    - rewrite Forall_flat_map_in in Hss. apply Hss. exact Hs.
    - rewrite Forall_flat_map_in in Hso. apply Hso. exact Hs.
  Qed.

  (* names seen through W' after re-binding one scope *)
  Lemma rebind_names : forall t,
    tab_wf (hs W) t ->
    (forall x, In x (syms t) ->
       hs W' (x + soff) = copied_sym (hs W) off ooff (deep_copy_table (hs W) soff t) (hs W x)) ->
    Forall (fun x => x < soff) (syms t) ->
    forall s s', In s (syms t) -> lookup (norm (sname (hs W s))) (deep_copy_table (hs W) soff t) = Some s' ->
                 sname (hs W' s') = sname (hs W' s).
  Proof.
    intros t Hwf Hnew Hlt s s' Hs L. rewrite (lookup_deep_copy (hs W) soff t s Hwf Hs) in L.
    inversion L; subst s'. rewrite (Hnew s Hs). simpl. rewrite Forall_forall in Hlt.
    rewrite HA; [reflexivity | apply Hlt; exact Hs].
  Qed.

  Lemma syms_lt : forall t, Forall (fun x => x < soff) (flat_map (sym_sup W) (syms t)) ->
    Forall (fun x => x < soff) (syms t).
  Proof.
    intros t H. rewrite Forall_flat_map_in in H. apply Forall_forall. intros x Hx.
    specialize (H x Hx). unfold sym_sup in H. inversion H; assumption.
  Qed.

  Lemma copy_write_gen : forall n,
    (forall t x, In t (tables n) -> In x (syms t) ->
       hs W' (x + soff) = copied_sym (hs W) off ooff (deep_copy_table (hs W) soff t) (hs W x)) ->
    Forall (tab_wf (hs W)) (tables n) -> Forall (imports_local (hs W)) (tables n) ->
    Forall (fun s => s < soff) (ssup W n) -> Forall (fun o => o < ooff) (osup W n) ->
    write W' (copy (hs W) off soff n) = write W n.
  Proof.
    intro n. induction n as [i tag sl tab ch IH] using node_ind'.
    intros HC Hwf Himp Hss Hso.
    assert (Hch : flat_map (write W') (map (copy (hs W) off soff) ch) = flat_map (write W) ch).
    { apply flat_map_map_Forall. rewrite Forall_forall in *. intros c Hc. apply IH; [exact Hc| | | | | ].
      - intros t x Ht Hx. apply HC; [eapply tables_child; eauto | exact Hx].
      - apply Forall_forall. intros t Ht. apply Hwf. eapply tables_child; eauto.
      - apply Forall_forall. intros t Ht. apply Himp. eapply tables_child; eauto.
      - apply Forall_forall. intros x Hx. apply Hss. eapply ssup_child; eauto.
      - apply Forall_forall. intros x Hx. apply Hso. eapply osup_child; eauto. }
    assert (Hsl : wslot (hs W') sl = wslot (hs W) sl).
    { apply wslot_names. intros s Hs. rewrite HA; [reflexivity|]. rewrite Forall_forall in Hss.
      apply Hss. apply ssup_slot. exact Hs. }
    destruct tab as [t|].
    - (* scoping node *)
      cbn [copy]. rewrite write_rebind.
      + cbn [write wtab]. rewrite Hsl, Hch. f_equal. f_equal. f_equal. f_equal. f_equal.
        simpl in Hss, Hso. rewrite !Forall_app in Hss. rewrite Forall_app in Hso.
        apply wtab_copy.
        * rewrite Forall_forall in Hwf. apply Hwf. simpl. left. reflexivity.
        * rewrite Forall_forall in Himp. apply Himp. simpl. left. reflexivity.
        * intros x Hx. apply HC; [simpl; left; reflexivity | exact Hx].
        * apply Hss.
        * apply Hso.
      + simpl in Hss. rewrite !Forall_app in Hss. apply rebind_names.
        * rewrite Forall_forall in Hwf. apply Hwf. simpl. left. reflexivity.
        * intros x Hx. apply HC; [simpl; left; reflexivity | exact Hx].
        * apply syms_lt. apply Hss.
    - cbn [copy write wtab]. rewrite Hsl, Hch. reflexivity.
  Qed.
End CopyEqual.

Lemma ids_rebind : forall h t t' m, ids (rebind h t t' m) = ids m.
Proof.
  intros h t t' m. induction m as [i tag sl tab ch IH] using node_ind'. simpl. f_equal.
  apply flat_map_map_Forall. exact IH.
Qed.

Lemma ids_copy : forall h off soff n, ids (copy h off soff n) = map (fun i => i + off) (ids n).
Proof.
  intros h off soff n. induction n as [i tag sl tab ch IH] using node_ind'.
  assert (Hch : flat_map ids (map (copy h off soff) ch) = map (fun i => i + off) (flat_map ids ch)).
  { rewrite map_flat_map. apply flat_map_map_Forall. exact IH. }
  destruct tab as [t|]; cbn [copy].
  - rewrite ids_rebind. simpl. f_equal. exact Hch.
  - simpl. f_equal. exact Hch.
Qed.

Theorem copy_disjoint_nodes_ : forall h off soff n,
  Forall (fun i => i < off) (ids n) ->
  forall i, In i (ids n) -> ~ In i (ids (copy h off soff n)).
Proof.
  intros h off soff n Hlt i Hi Hc. rewrite ids_copy in Hc. apply in_map_iff in Hc as [j [E Hj]].
  rewrite Forall_forall in Hlt. specialize (Hlt i Hi). lia.
Qed.

(* also the nodes of copied initial values are new objects *)
Lemma ids_shift : forall off e, ids (shift_ids off e) = map (fun i => i + off) (ids e).
Proof.
  intros off e. induction e as [i tag sl tab ch IH] using node_ind'. simpl. f_equal.
  rewrite map_flat_map. apply flat_map_map_Forall. exact IH.
Qed.

Definition rebind_sym (h : N -> sym) (t t' : table) (s : N) : N :=
  if memN s (syms t) then match lookup (norm (sname (h s))) t' with Some s' => s' | None => s end else s.

Lemma refs_rebind : forall h t t' m, refs (rebind h t t' m) = map (rebind_sym h t t') (refs m).
Proof.
  intros h t t' m. induction m as [i tag sl tab ch IH] using node_ind'. simpl. rewrite map_app. f_equal.
  - destruct sl as [|s|s]; simpl; try reflexivity. unfold rebind_sym.
    destruct (memN s (syms t)); [|reflexivity]. destruct (lookup (norm (sname (h s))) t'); reflexivity.
  - rewrite map_flat_map. apply flat_map_map_Forall. exact IH.
Qed.

Lemma plains_rebind : forall h t t' m, plains (rebind h t t' m) = plains m.
Proof.
  intros h t t' m. induction m as [i tag sl tab ch IH] using node_ind'. simpl. f_equal.
  - destruct sl as [|s|s]; simpl; try reflexivity.
    destruct (memN s (syms t)); [|reflexivity]. destruct (lookup (norm (sname (h s))) t'); reflexivity.
  - apply flat_map_map_Forall. exact IH.
Qed.

Lemma plains_copy : forall h off soff n, plains (copy h off soff n) = plains n.
Proof.
  intros h off soff n. induction n as [i tag sl tab ch IH] using node_ind'.
  assert (Hch : flat_map plains (map (copy h off soff) ch) = flat_map plains ch)
    by (apply flat_map_map_Forall; exact IH).
  destruct tab as [t|]; cbn [copy].
  - rewrite plains_rebind. simpl. rewrite Hch. reflexivity.
  - simpl. rewrite Hch. reflexivity.
Qed.

Lemma owned_tabs_rebind : forall h t t' m, owned_tabs (rebind h t t' m) = owned_tabs m.
Proof.
  intros h t t' m. induction m as [i tag sl tab ch IH] using node_ind'. simpl. f_equal.
  apply flat_map_map_Forall. exact IH.
Qed.
Lemma owned_rebind : forall h t t' m, owned (rebind h t t' m) = owned m.
Proof. intros. unfold owned. rewrite owned_tabs_rebind. reflexivity. Qed.

Lemma owned_copy : forall h off soff n, owned (copy h off soff n) = map (fun s => s + soff) (owned n).
Proof.
  intros h off soff n. induction n as [i tag sl tab ch IH] using node_ind'.
  assert (Hch : flat_map owned (map (copy h off soff) ch) = map (fun s => s + soff) (flat_map owned ch)).
  { rewrite map_flat_map. apply flat_map_map_Forall. exact IH. }
  destruct tab as [t|]; cbn [copy].
  - rewrite owned_rebind. rewrite !owned_node. rewrite map_app, Hch. f_equal.
    simpl. apply syms_deep_copy.
  - rewrite !owned_node. simpl. exact Hch.
Qed.

Lemma flat_map_map_comp {A B C} (f : B -> list C) (g : A -> B) (l : list A) :
  flat_map f (map g l) = flat_map (fun x => f (g x)) l.
Proof. induction l as [|a r IH]; simpl; [reflexivity|]. rewrite IH. reflexivity. Qed.

(* where a reference goes: to the copy's own symbol if the symbol is declared in the copied scopes *)
Definition reloc (soff : N) (O : list N) (s : N) : N := if memN s O then s + soff else s.

Theorem refs_copy : forall h off soff n,
  wsc n -> Forall (tab_wf h) (tables n) -> Forall (fun s => s < soff) (owned n) ->
  refs (copy h off soff n) = map (reloc soff (owned n)) (refs n).
Proof.
  intros h off soff n. induction n as [i tag sl tab ch IH] using node_ind'.
  intros Hwsc Hwf Hlt. inversion Hwsc as [? ? ? ? ? Hown Hchs Hsub]; subst.
  set (O := owned (Node i tag sl tab ch)) in *. rewrite Forall_forall in IH, Hsub, Hwf, Hlt.
  (* the references of the copied children, re-bound by F against this node's table (F = identity
     where it has none): relative to the child's scopes by induction, to be shown relative to this node's *)
  assert (Hch : forall F : N -> N,
            (forall c s, In c ch -> In s (refs c) -> F (reloc soff (owned c) s) = reloc soff O s) ->
            map F (flat_map refs (map (copy h off soff) ch)) = map (reloc soff O) (flat_map refs ch)).
  { intros F HF. rewrite flat_map_map_comp, !map_flat_map. apply flat_map_Forall_ext.
    apply Forall_forall. intros c Hc. rewrite (IH c Hc (Hsub c Hc)), map_map.
    - apply map_ext_in. intros s Hs. apply HF; assumption.
    - apply Forall_forall. intros t Ht. apply Hwf. eapply tables_child; eauto.
    - apply Forall_forall. intros s Hs. apply Hlt. eapply owned_child; eauto. }
  destruct tab as [t|].
  - (* scoping node: slot and children are re-bound against t *)
    assert (Ht : forall s, In s (syms t) -> In s O) by (intros s Hs; unfold O; rewrite owned_node; apply in_or_app; left; exact Hs).
    assert (Hlk : forall s, In s (syms t) -> rebind_sym h t (deep_copy_table h soff t) s = s + soff).
    { intros s Hs. unfold rebind_sym. rewrite (proj2 (memN_true s (syms t)) Hs).
      rewrite (lookup_deep_copy h soff t s); [reflexivity | apply Hwf; simpl; left; reflexivity | exact Hs]. }
    assert (Hnk : forall s, ~ In s (syms t) -> rebind_sym h t (deep_copy_table h soff t) s = s).
    { intros s Hs. unfold rebind_sym. rewrite (proj2 (memN_false s (syms t)) Hs). reflexivity. }
    cbn [copy]. rewrite refs_rebind. cbn [refs]. rewrite !map_app. f_equal.
    + destruct sl as [|s|s]; try reflexivity. simpl. f_equal. unfold reloc.
      destruct (memN s O) eqn:E.
      * apply memN_true in E. apply Hlk. apply (Hown s eq_refl E).
      * apply memN_false in E. apply Hnk. intro Hs. apply E. apply Ht. exact Hs.
    + apply Hch. intros c s Hc Hs. unfold reloc. destruct (memN s (owned c)) eqn:Ec.
      * (* declared in the child: already s + soff, which is no symbol of t *)
        apply memN_true in Ec. rewrite (proj2 (memN_true s O)) by (eapply owned_child; eauto).
        apply Hnk. intro Hbad. specialize (Hlt _ (Ht _ Hbad)). lia.
      * apply memN_false in Ec. destruct (memN s O) eqn:E.
        -- apply memN_true in E. apply Hlk. destruct (Hchs c Hc s Hs E) as [H1|H1]; [contradiction | exact H1].
        -- apply memN_false in E. apply Hnk. intro Hbad. apply E. apply Ht. exact Hbad.
  - cbn [copy refs]. rewrite map_app. f_equal.
    + destruct sl as [|s|s]; try reflexivity. simpl. f_equal. unfold reloc.
      destruct (memN s O) eqn:E; [|reflexivity]. apply memN_true in E. destruct (Hown s eq_refl E).
    + rewrite <- (map_id (flat_map refs (map (copy h off soff) ch))). apply Hch.
      intros c s Hc Hs. unfold reloc. destruct (memN s (owned c)) eqn:Ec.
      * apply memN_true in Ec. rewrite (proj2 (memN_true s O)); [reflexivity | eapply owned_child; eauto].
      * apply memN_false in Ec. destruct (memN s O) eqn:E; [|reflexivity]. apply memN_true in E.
        destruct (Hchs c Hc s Hs E) as [H1|H1]; contradiction.
Qed.

Lemma owned_in_ssup : forall W n s, In s (owned n) -> In s (ssup W n).
Proof.
  intros W n. induction n as [i tag sl tab ch IH] using node_ind'. intros s Hs.
  rewrite owned_node in Hs. rewrite Forall_forall in IH. apply in_app_or in Hs as [Hs|Hs].
  - apply (ssup_tab _ _ _ _ _ _ s); [exact Hs | left; reflexivity].
  - apply in_flat_map in Hs as [c [Hc Hs]]. eapply ssup_child; eauto.
Qed.

Lemma owned_objs_in_osup : forall W n s o, In s (owned n) -> In o (sym_objs W s) -> In o (osup W n).
Proof.
  intros W n. induction n as [i tag sl tab ch IH] using node_ind'. intros s o Hs Ho.
  rewrite owned_node in Hs. rewrite Forall_forall in IH. apply in_app_or in Hs as [Hs|Hs].
  - eapply osup_tab; eauto.
  - apply in_flat_map in Hs as [c [Hc Hs]]. eapply osup_child; eauto.
Qed.

Theorem copy_refs_local_ : forall W off soff ooff n,
  wf W off soff ooff n -> wsc n ->
  let W' := copy_world W off soff ooff n in
  let c := copy (hs W) off soff n in
  Forall2 (fun s s' => (In s (owned n) -> s' = s + soff /\ In s' (owned c) /\ ~ In s' (owned n)
                                          /\ sname (hs W' s') = sname (hs W s))
                       /\ (~ In s (owned n) -> s' = s))
          (refs n) (refs c).
Proof.
  intros W off soff ooff n Hwf Hwsc W' c. destruct Hwf as [Htw [Himp [Hnd [Hid [Hss Hso]]]]].
  assert (Hlt : Forall (fun s => s < soff) (owned n)).
  { apply Forall_forall. intros s Hs. rewrite Forall_forall in Hss. apply Hss. apply owned_in_ssup. exact Hs. }
  unfold c. rewrite (refs_copy (hs W) off soff n Hwsc Htw Hlt).
  induction (refs n) as [|s r IHr]; simpl; constructor; [clear IHr | exact IHr].
  unfold reloc. split.
  - intro Hown. rewrite (proj2 (memN_true s (owned n)) Hown). repeat split.
    + rewrite owned_copy. apply in_map_iff. exists s. split; [reflexivity | exact Hown].
    + intro Hbad. rewrite Forall_forall in Hlt. specialize (Hlt _ Hbad). lia.
    + unfold owned in Hown. apply in_map_iff in Hown as [[s0 t] [E Hin]]. simpl in E. subst s0.
      destruct (owned_tabs_inv n s t Hin) as [Ht Hst]. unfold W'. simpl.
      rewrite (copy_hs_new (hs W) off soff ooff n t s Hnd Ht Hst). reflexivity.
  - intro Hnown. rewrite (proj2 (memN_false s (owned n)) Hnown). reflexivity.
Qed.
