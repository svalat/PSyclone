(* C15 — induction on nodes, list lemmas, well-formed tables ([tab_wf], [imports_local]), lookup in a
   copied table, the heaps after the copy. *)
From Coq Require Import List NArith Bool Lia.
Import ListNotations.
From PV Require Import C15.Model.
Open Scope N_scope.

Section NodeInd.
  Variable P : node -> Prop.
  Hypothesis H : forall i tag sl tab ch, Forall P ch -> P (Node i tag sl tab ch).
  Fixpoint node_ind' (n : node) : P n :=
    match n with
    | Node i tag sl tab ch =>
        H i tag sl tab ch
          ((fix go (l : list node) : Forall P l :=
              match l with
              | [] => Forall_nil _
              | x :: r => Forall_cons _ (node_ind' x) (go r)
              end) ch)
    end.
End NodeInd.

Lemma memN_true : forall x l, memN x l = true <-> In x l.
Proof.
  intros x l. unfold memN. rewrite existsb_exists. split.
  - intros [y [Hy E]]. apply N.eqb_eq in E. subst. exact Hy.
  - intros Hx. exists x. split; [exact Hx | apply N.eqb_refl].
Qed.
Lemma memN_false : forall x l, memN x l = false <-> ~ In x l.
Proof.
  intros x l. rewrite <- memN_true. destruct (memN x l); split; intro Hx; congruence.
Qed.

Lemma flat_map_map_Forall {A B C} (f : B -> list C) (f' : A -> list C) (g : A -> B) (l : list A) :
  Forall (fun x => f (g x) = f' x) l -> flat_map f (map g l) = flat_map f' l.
Proof.
  induction 1 as [|x r Hx _ IH]; simpl; [reflexivity|]. rewrite Hx, IH. reflexivity.
Qed.
Lemma map_flat_map {A B C} (F : B -> C) (f : A -> list B) (l : list A) :
  map F (flat_map f l) = flat_map (fun x => map F (f x)) l.
Proof. induction l as [|a r IH]; simpl; [reflexivity|]. rewrite map_app, IH. reflexivity. Qed.

Lemma flat_map_Forall_ext {A C} (f f' : A -> list C) (l : list A) :
  Forall (fun x => f x = f' x) l -> flat_map f l = flat_map f' l.
Proof.
  induction 1 as [|x r Hx _ IH]; simpl; [reflexivity|]. rewrite Hx, IH. reflexivity.
Qed.
Lemma map_Forall_ext {A C} (f f' : A -> C) (l : list A) :
  Forall (fun x => f x = f' x) l -> map f l = map f' l.
Proof.
  induction 1 as [|x r Hx _ IH]; simpl; [reflexivity|]. rewrite Hx, IH. reflexivity.
Qed.
Lemma Forall_flat_map_in {A B} (P : B -> Prop) (f : A -> list B) (l : list A) :
  Forall P (flat_map f l) <-> (forall x, In x l -> Forall P (f x)).
Proof.
  induction l as [|a r IH]; simpl.
  - split; intros; [contradiction | constructor].
  - rewrite Forall_app, IH. split.
    + intros [Ha Hr] x [E|Hx]; [subst; exact Ha | apply Hr; exact Hx].
    + intros Hall. split; [apply Hall; left; reflexivity | intros x Hx; apply Hall; right; exact Hx].
Qed.
Lemma Forall_impl_in {A} (P Q : A -> Prop) (l : list A) :
  (forall x, In x l -> P x -> Q x) -> Forall P l -> Forall Q l.
Proof.
  intros Himp Hl. rewrite Forall_forall in *. intros x Hx. apply Himp; [exact Hx | apply Hl; exact Hx].
Qed.
Lemma Forall_and_in {A} (P : A -> Prop) (l : list A) :
  (forall x, In x l -> P x) -> Forall P l.
Proof. intro Hall. apply Forall_forall. exact Hall. Qed.

Lemma find_none_all {A} (f : A -> bool) (l : list A) :
  (forall x, In x l -> f x = false) -> find f l = None.
Proof.
  induction l as [|a r IH]; simpl; intro Hall; [reflexivity|].
  rewrite (Hall a (or_introl eq_refl)). apply IH. intros x Hx. apply Hall. right. exact Hx.
Qed.

Lemma owned_node : forall i tag sl tab ch,
  owned (Node i tag sl tab ch) = tab_syms tab ++ flat_map owned ch.
Proof.
  intros. unfold owned. simpl. rewrite map_app. f_equal.
  - destruct tab as [t|]; simpl; [|reflexivity]. unfold syms. rewrite map_map. reflexivity.
  - induction ch as [|c r IH]; simpl; [reflexivity|]. rewrite map_app, IH. reflexivity.
Qed.

Lemma owned_tabs_in : forall n t s, In t (tables n) -> In s (syms t) -> In (s, t) (owned_tabs n).
Proof.
  intro n. induction n as [i tag sl tab ch IH] using node_ind'. intros t s Ht Hs. simpl in *.
  apply in_app_or in Ht as [Ht|Ht]; apply in_or_app.
  - left. destruct tab as [t0|]; simpl in Ht; [|contradiction]. destruct Ht as [E|[]]. subst t0.
    unfold syms in Hs. apply in_map_iff in Hs as [e [E He]]. apply in_map_iff. exists e. subst s. auto.
  - right. apply in_flat_map in Ht as [c [Hc Ht]]. apply in_flat_map. exists c. split; [exact Hc|].
    rewrite Forall_forall in IH. apply IH; assumption.
Qed.

Lemma owned_tabs_inv : forall n s t, In (s, t) (owned_tabs n) -> In t (tables n) /\ In s (syms t).
Proof.
  intro n. induction n as [i tag sl tab ch IH] using node_ind'. intros s t Hst. simpl in *.
  apply in_app_or in Hst as [Hst|Hst].
  - destruct tab as [t0|]; simpl in Hst; [|contradiction].
    apply in_map_iff in Hst as [e [E He]]. inversion E; subst. split.
    + apply in_or_app. left. left. reflexivity.
    + unfold syms. apply in_map. exact He.
  - apply in_flat_map in Hst as [c [Hc Hst]]. rewrite Forall_forall in IH.
    destruct (IH c Hc s t Hst) as [H1 H2]. split; [|exact H2].
    apply in_or_app. right. apply in_flat_map. exists c. auto.
Qed.

Lemma tables_child : forall i tag sl tab ch c t,
  In c ch -> In t (tables c) -> In t (tables (Node i tag sl tab ch)).
Proof.
  intros. simpl. apply in_or_app. right. apply in_flat_map. exists c. auto.
Qed.
Lemma owned_child : forall i tag sl tab ch c s,
  In c ch -> In s (owned c) -> In s (owned (Node i tag sl tab ch)).
Proof.
  intros. rewrite owned_node. apply in_or_app. right. apply in_flat_map. exists c. auto.
Qed.

(* the support of a node holds its slot, the supports of its table's symbols and those of its children *)
Lemma ssup_slot : forall W i tag sl tab ch s,
  In s (slot_syms sl) -> In s (ssup W (Node i tag sl tab ch)).
Proof. intros. simpl. apply in_or_app. left. assumption. Qed.
Lemma ssup_tab : forall W i tag sl tab ch x s,
  In x (tab_syms tab) -> In s (sym_sup W x) -> In s (ssup W (Node i tag sl tab ch)).
Proof. intros. simpl. apply in_or_app. right. apply in_or_app. left. apply in_flat_map. exists x. auto. Qed.
Lemma ssup_child : forall W i tag sl tab ch c s,
  In c ch -> In s (ssup W c) -> In s (ssup W (Node i tag sl tab ch)).
Proof. intros. simpl. apply in_or_app. right. apply in_or_app. right. apply in_flat_map. exists c. auto. Qed.
Lemma osup_tab : forall W i tag sl tab ch x o,
  In x (tab_syms tab) -> In o (sym_objs W x) -> In o (osup W (Node i tag sl tab ch)).
Proof. intros. simpl. apply in_or_app. left. apply in_flat_map. exists x. auto. Qed.
Lemma osup_child : forall W i tag sl tab ch c o,
  In c ch -> In o (osup W c) -> In o (osup W (Node i tag sl tab ch)).
Proof. intros. simpl. apply in_or_app. right. apply in_flat_map. exists c. auto. Qed.

Definition tab_wf (h : N -> sym) (t : table) : Prop :=
  NoDup (keys t) /\ Forall (fun e => fst e = norm (sname (h (snd e)))) t.
(* an imported symbol's container symbol is declared in the same table (what the frontend builds) *)
Definition imports_local (h : N -> sym) (t : table) : Prop :=
  (forall s c, In s (syms t) -> sintf (h s) = IImport c -> In c (syms t))
  (* and the member routines of a generic interface are declared in the same table *)
  /\ (forall s m, In s (syms t) -> In m (smem (h s)) -> In m (syms t)).

Lemma lookup_deep_copy : forall h soff t s,
  tab_wf h t -> In s (syms t) ->
  lookup (norm (sname (h s))) (deep_copy_table h soff t) = Some (s + soff).
Proof.
  intros h soff t. induction t as [|[k s0] r IH]; intros s [Hnd Hk] Hs; simpl in *; [contradiction|].
  unfold lookup. simpl.
  inversion Hnd as [|? ? Hnotin Hnd']; subst. inversion Hk as [|? ? Hk0 Hk']; subst. simpl in Hk0.
  destruct (norm (sname (h s0)) =? norm (sname (h s))) eqn:E.
  - destruct Hs as [Hs|Hs]; [subst; reflexivity|]. exfalso. apply N.eqb_eq in E.
    apply Hnotin. unfold syms in Hs. apply in_map_iff in Hs as [e [E1 He]].
    unfold keys. apply in_map_iff. exists e. split; [|exact He].
    rewrite Forall_forall in Hk'. rewrite (Hk' e He), E1, Hk0. symmetry. exact E.
  - destruct Hs as [Hs|Hs]; [subst; rewrite N.eqb_refl in E; discriminate|].
    specialize (IH s (conj Hnd' Hk') Hs). unfold lookup in IH. exact IH.
Qed.

Lemma syms_deep_copy : forall h soff t, syms (deep_copy_table h soff t) = map (fun s => s + soff) (syms t).
Proof. intros. unfold syms, deep_copy_table. rewrite !map_map. reflexivity. Qed.

Lemma copy_hs_old : forall h off soff ooff n x, x < soff -> copy_hs h off soff ooff n x = h x.
Proof.
  intros. unfold copy_hs. rewrite find_none_all; [reflexivity|].
  intros p _. apply N.eqb_neq. lia.
Qed.

Lemma find_unique_fst : forall (l : list (N * table)) soff s t,
  NoDup (map fst l) -> In (s, t) l -> find (fun p => fst p + soff =? s + soff) l = Some (s, t).
Proof.
  induction l as [|[s0 t0] r IH]; intros soff s t Hnd Hin; simpl in *; [contradiction|].
  inversion Hnd as [|? ? Hnotin Hnd']; subst.
  destruct (s0 + soff =? s + soff) eqn:E.
  - apply N.eqb_eq in E. assert (s0 = s) by lia. subst s0.
    destruct Hin as [Hin|Hin]; [congruence|]. exfalso. apply Hnotin.
    apply in_map_iff. exists (s, t). auto.
  - destruct Hin as [Hin|Hin]; [inversion Hin; subst; rewrite N.eqb_refl in E; discriminate|].
    apply IH; assumption.
Qed.

Lemma copy_hs_new : forall h off soff ooff n t s,
  NoDup (owned n) -> In t (tables n) -> In s (syms t) ->
  copy_hs h off soff ooff n (s + soff) = copied_sym h off ooff (deep_copy_table h soff t) (h s).
Proof.
  intros. unfold copy_hs. rewrite (find_unique_fst (owned_tabs n) soff s t); [reflexivity|exact H|].
  apply owned_tabs_in; assumption.
Qed.

Lemma copy_ho_old : forall g ooff o, o < ooff -> copy_ho g ooff o = g o.
Proof.
  intros. unfold copy_ho. destruct (ooff <=? o) eqn:E; [apply N.leb_le in E; lia | reflexivity].
Qed.
Lemma copy_ho_new : forall g ooff o, copy_ho g ooff (o + ooff) = g o.
Proof.
  intros. unfold copy_ho. destruct (ooff <=? o + ooff) eqn:E.
  - f_equal. lia.
  - apply N.leb_gt in E. lia.
Qed.
