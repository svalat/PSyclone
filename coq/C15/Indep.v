(* C15 — independence of original and copy under edits. *)
From Coq Require Import List NArith Bool Lia.
Import ListNotations.
From PV Require Import C15.Model C15.Basics C15.CopyProofs.
Open Scope N_scope.

Definition agree (W W' : world) (n : node) : Prop :=
  (forall s, In s (ssup W n) -> hs W' s = hs W s) /\ (forall o, In o (osup W n) -> ho W' o = ho W o).

Lemma sym_ext : forall W W' s,
  (forall x, In x (sym_sup W s) -> hs W' x = hs W x) ->
  (forall o, In o (sym_objs W s) -> ho W' o = ho W o) ->
  sym_sup W' s = sym_sup W s /\ sym_objs W' s = sym_objs W s /\
  forall k, wdecl W' (k, s) = wdecl W (k, s).
Proof.
  intros W W' s Hs Ho. unfold sym_sup, sym_objs in *.
  assert (Ey : hs W' s = hs W s) by (apply Hs; left; reflexivity).
  set (y := hs W s) in *.
  (* the four parts of the support, each with names unchanged *)
  assert (Hn : forall x, In x (obj_syms W (sdt y)) \/ In x (init_syms (sinit y))
                         \/ In x (intf_syms W (sintf y)) \/ In x (smem y) ->
                         sname (hs W' x) = sname (hs W x)).
  { intros x Hx. rewrite Hs; [reflexivity|]. right. rewrite !in_app_iff. exact Hx. }
  assert (Hd : ho W' (sdt y) = ho W (sdt y)) by (apply Ho; left; reflexivity).
  assert (Hi : intf_syms W' (sintf y) = intf_syms W (sintf y) /\ wintf W' (sintf y) = wintf W (sintf y)).
  { destruct (sintf y) as [o|c]; simpl in *.
    - assert (Hoo : ho W' o = ho W o) by (apply Ho; right; left; reflexivity).
      split; [apply obj_syms_ext; exact Hoo|]. f_equal. apply wobj_ext; [exact Hoo|]. intros x Hx. apply Hn. auto.
    - split; [reflexivity|]. rewrite Hn; [reflexivity|]. simpl. auto. }
  destruct Hi as [Hi1 Hi2]. rewrite Ey. fold y.
  split; [rewrite (obj_syms_ext W W' _ _ Hd), Hi1; reflexivity|]. split; [reflexivity|].
  intro k. unfold wdecl. cbn [fst snd]. rewrite Ey. fold y.
  rewrite (wobj_ext W W' (sdt y) (sdt y) Hd) by (intros x Hx; apply Hn; auto). rewrite Hi2.
  assert (Einit : winit W' (sinit y) = winit W (sinit y)).
  { destruct (sinit y) as [e|]; simpl in *; [|reflexivity]. f_equal. apply wexpr_names. intros x Hx. apply Hn. auto. }
  assert (Emem : wmem W' (smem y) = wmem W (smem y)).
  { unfold wmem. f_equal. apply map_Forall_ext. apply Forall_forall. intros m Hm. apply Hn. auto. }
  rewrite Einit, Emem. reflexivity.
Qed.

Lemma ext : forall W W' n, agree W W' n ->
  write W' n = write W n /\ ssup W' n = ssup W n /\ osup W' n = osup W n.
Proof.
  intros W W' n. induction n as [i tag sl tab ch IH] using node_ind'. intros [Hs Ho].
  rewrite Forall_forall in IH.
  assert (Hch : forall c, In c ch -> write W' c = write W c /\ ssup W' c = ssup W c /\ osup W' c = osup W c).
  { intros c Hc. apply IH; [exact Hc|]. split.
    - intros s Hin. apply Hs. eapply ssup_child; eauto.
    - intros o Hin. apply Ho. eapply osup_child; eauto. }
  assert (Htab : forall s, In s (tab_syms tab) ->
            sym_sup W' s = sym_sup W s /\ sym_objs W' s = sym_objs W s /\
            forall k, wdecl W' (k, s) = wdecl W (k, s)).
  { intros s Hin. apply sym_ext.
    - intros x Hx. apply Hs. eapply ssup_tab; eauto.
    - intros o Hx. apply Ho. eapply osup_tab; eauto. }
  assert (E1 : flat_map (write W') ch = flat_map (write W) ch)
    by (apply flat_map_Forall_ext, Forall_forall; intros c Hc; apply (Hch c Hc)).
  assert (E2 : flat_map (ssup W') ch = flat_map (ssup W) ch)
    by (apply flat_map_Forall_ext, Forall_forall; intros c Hc; apply (Hch c Hc)).
  assert (E3 : flat_map (osup W') ch = flat_map (osup W) ch)
    by (apply flat_map_Forall_ext, Forall_forall; intros c Hc; apply (Hch c Hc)).
  assert (E4 : flat_map (sym_sup W') (tab_syms tab) = flat_map (sym_sup W) (tab_syms tab))
    by (apply flat_map_Forall_ext, Forall_forall; intros s Hin; apply (Htab s Hin)).
  assert (E5 : flat_map (sym_objs W') (tab_syms tab) = flat_map (sym_objs W) (tab_syms tab))
    by (apply flat_map_Forall_ext, Forall_forall; intros s Hin; apply (Htab s Hin)).
  assert (E6 : wtab W' tab = wtab W tab).
  { destruct tab as [t|]; simpl; [|reflexivity]. f_equal. f_equal.
    apply flat_map_Forall_ext. apply Forall_forall. intros [k s] Hin. apply Htab.
    simpl. unfold syms. apply in_map_iff. exists (k, s). auto. }
  assert (E7 : wslot (hs W') sl = wslot (hs W) sl).
  { apply wslot_names. intros s Hin. rewrite Hs; [reflexivity | apply ssup_slot; exact Hin]. }
  simpl. rewrite E1, E2, E3, E4, E5, E6, E7. auto.
Qed.

Lemma slot_syms_split : forall sl,
  slot_syms sl = match sl with Rebound s => [s] | _ => [] end ++ match sl with Plain s => [s] | _ => [] end.
Proof. intros [|s|s]; reflexivity. Qed.

Lemma ssup_split : forall W n x,
  In x (ssup W n) <-> In x (refs n) \/ In x (plains n) \/ In x (flat_map (sym_sup W) (owned n)).
Proof.
  intros W n. induction n as [i tag sl tab ch IH] using node_ind'. intro x.
  rewrite owned_node. simpl. rewrite flat_map_app, slot_syms_split, !in_app_iff.
  assert (Hch : In x (flat_map (ssup W) ch) <->
                In x (flat_map refs ch) \/ In x (flat_map plains ch)
                \/ In x (flat_map (sym_sup W) (flat_map owned ch))).
  { rewrite !in_flat_map. rewrite Forall_forall in IH. split.
    - intros [c [Hc Hx]]. apply (IH c Hc) in Hx as [Hx|[Hx|Hx]].
      + left. exists c. auto.
      + right. left. exists c. auto.
      + right. right. apply in_flat_map in Hx as [s [Hs Hx]]. exists s. split; [|exact Hx].
        apply in_flat_map. exists c. auto.
    - intros [[c [Hc Hx]]|[[c [Hc Hx]]|[s [Hs Hx]]]].
      + exists c. split; [exact Hc|]. apply (IH c Hc). left. exact Hx.
      + exists c. split; [exact Hc|]. apply (IH c Hc). right. left. exact Hx.
      + apply in_flat_map in Hs as [c [Hc Hs]]. exists c. split; [exact Hc|]. apply (IH c Hc).
        right. right. apply in_flat_map. exists s. auto. }
  rewrite Hch. split.
  - intros [[H|H]|[H|[H|[H|H]]]]; auto 6.
  - intros [[H|H]|[[H|H]|[H|H]]]; auto 6.
Qed.

Lemma rename_tree_ids : forall s nm n, ids (rename_tree s nm n) = ids n.
Proof.
  intros s nm n. induction n as [i tag sl tab ch IH] using node_ind'. simpl. f_equal.
  apply flat_map_map_Forall. exact IH.
Qed.
Lemma rename_tab_syms : forall s nm t x, In x (syms (rename_tab s nm t)) -> In x (syms t).
Proof.
  intros s nm t x Hx. unfold rename_tab in Hx. destruct (memN s (syms t)) eqn:E; [|exact Hx].
  unfold syms in Hx. rewrite map_app in Hx. apply in_app_or in Hx as [Hx|Hx].
  - apply in_map_iff in Hx as [e [E1 He]]. apply filter_In in He as [He _].
    unfold syms. apply in_map_iff. exists e. auto.
  - simpl in Hx. destruct Hx as [Hx|[]]. subst x. apply memN_true. exact E.
Qed.
Lemma rename_tree_owned : forall s nm n x, In x (owned (rename_tree s nm n)) -> In x (owned n).
Proof.
  intros s nm n. induction n as [i tag sl tab ch IH] using node_ind'. intros x Hx. cbn [rename_tree] in Hx.
  rewrite owned_node in *. apply in_app_or in Hx as [Hx|Hx]; apply in_or_app.
  - left. destruct tab as [t|]; simpl in *; [eapply rename_tab_syms; exact Hx | contradiction].
  - right. apply in_flat_map in Hx as [c' [Hc' Hx]]. apply in_map_iff in Hc' as [c [E Hc]]. subst c'.
    rewrite Forall_forall in IH. apply in_flat_map. exists c. split; [exact Hc | apply IH; assumption].
Qed.
Lemma rename_tab_id : forall s nm t, ~ In s (syms t) -> rename_tab s nm t = t.
Proof.
  intros s nm t Hn. unfold rename_tab. rewrite (proj2 (memN_false s (syms t)) Hn). reflexivity.
Qed.
Lemma rename_tree_id : forall s nm n, ~ In s (owned n) -> rename_tree s nm n = n.
Proof.
  intros s nm n. induction n as [i tag sl tab ch IH] using node_ind'. intro Hn.
  rewrite owned_node in Hn. simpl. f_equal.
  - destruct tab as [t|]; simpl; [|reflexivity]. f_equal. apply rename_tab_id.
    intro Hin. apply Hn. apply in_or_app. left. exact Hin.
  - rewrite <- (map_id ch) at 2. apply map_Forall_ext. rewrite Forall_forall in *. intros c Hc.
    apply IH; [exact Hc|]. intro Hin. apply Hn. apply in_or_app. right. apply in_flat_map. exists c. auto.
Qed.

Lemma add_sym_ids : forall k key s n, ids (add_sym_tree k key s n) = ids n.
Proof.
  intros k key s n. induction n as [i tag sl tab ch IH] using node_ind'. simpl. f_equal.
  apply flat_map_map_Forall. exact IH.
Qed.
Lemma add_sym_id : forall k key s n, ~ In k (ids n) -> add_sym_tree k key s n = n.
Proof.
  intros k key s n. induction n as [i tag sl tab ch IH] using node_ind'. intro Hn. simpl in *.
  destruct (i =? k) eqn:E; [apply N.eqb_eq in E; exfalso; apply Hn; left; exact E|].
  f_equal. rewrite <- (map_id ch) at 2. apply map_Forall_ext. rewrite Forall_forall in *. intros c Hc.
  apply IH; [exact Hc|]. intro Hin. apply Hn. right. apply in_flat_map. exists c. auto.
Qed.
Lemma add_sym_owned : forall k key s n x,
  In x (owned (add_sym_tree k key s n)) -> In x (owned n) \/ x = s.
Proof.
  intros k key s n. induction n as [i tag sl tab ch IH] using node_ind'. intros x Hx.
  cbn [add_sym_tree] in Hx. rewrite owned_node in *. apply in_app_or in Hx as [Hx|Hx].
  - destruct (i =? k); [|left; apply in_or_app; left; exact Hx].
    destruct tab as [t|]; simpl in *; [|contradiction]. unfold syms in Hx. rewrite map_app in Hx.
    apply in_app_or in Hx as [Hx|Hx]; [left; apply in_or_app; left; exact Hx|].
    simpl in Hx. destruct Hx as [Hx|[]]. right. symmetry. exact Hx.
  - apply in_flat_map in Hx as [c' [Hc' Hx]]. apply in_map_iff in Hc' as [c [E Hc]]. subst c'.
    rewrite Forall_forall in IH. destruct (IH c Hc x Hx) as [H1|H1]; [|right; exact H1].
    left. apply in_or_app. right. apply in_flat_map. exists c. auto.
Qed.

Lemma replace_id : forall k m n, ~ In k (ids n) -> replace_node k m n = n.
Proof.
  intros k m n. induction n as [i tag sl tab ch IH] using node_ind'. intro Hn. simpl in *.
  destruct (i =? k) eqn:E; [apply N.eqb_eq in E; exfalso; apply Hn; left; exact E|].
  f_equal. rewrite <- (map_id ch) at 2. apply map_Forall_ext. rewrite Forall_forall in *. intros c Hc.
  apply IH; [exact Hc|]. intro Hin. apply Hn. right. apply in_flat_map. exists c. auto.
Qed.
Lemma replace_ids : forall k m n x, In x (ids (replace_node k m n)) -> In x (ids n) \/ In x (ids m).
Proof.
  intros k m n. induction n as [i tag sl tab ch IH] using node_ind'. intros x Hx. cbn [replace_node] in Hx.
  destruct (i =? k); [right; exact Hx|]. simpl in *. destruct Hx as [Hx|Hx]; [left; left; exact Hx|].
  apply in_flat_map in Hx as [c' [Hc' Hx]]. apply in_map_iff in Hc' as [c [E Hc]]. subst c'.
  rewrite Forall_forall in IH. destruct (IH c Hc x Hx) as [H1|H1]; [|right; exact H1].
  left. right. apply in_flat_map. exists c. auto.
Qed.
Lemma replace_owned : forall k m n x, In x (owned (replace_node k m n)) -> In x (owned n) \/ In x (owned m).
Proof.
  intros k m n. induction n as [i tag sl tab ch IH] using node_ind'. intros x Hx. cbn [replace_node] in Hx.
  destruct (i =? k); [right; exact Hx|]. rewrite owned_node in *. apply in_app_or in Hx as [Hx|Hx].
  - left. apply in_or_app. left. exact Hx.
  - apply in_flat_map in Hx as [c' [Hc' Hx]]. apply in_map_iff in Hc' as [c [E Hc]]. subst c'.
    rewrite Forall_forall in IH. destruct (IH c Hc x Hx) as [H1|H1]; [|right; exact H1].
    left. apply in_or_app. right. apply in_flat_map. exists c. auto.
Qed.

(* side A = `sa`, the tree being edited; side B = `sb`, the tree that must not notice *)
Definition inv (st : state) : Prop :=
  (forall i, In i (ids (sa st)) -> ~ In i (ids (sb st)))
  /\ (forall s, In s (owned (sa st)) -> ~ In s (ssup (sw st) (sb st))).

(* an edit "on side A": it addresses node objects of A, symbols declared by A's scopes, and
   objects the other tree cannot reach (new objects in particular) *)
Definition valid (e : edit) (st : state) : Prop :=
  match e with
  | ERename s nm => In s (owned (sa st))
  | ENewSym k s y => In k (ids (sa st)) /\ ~ In s (ssup (sw st) (sb st))
  | ESetSym s y => In s (owned (sa st))
  | ESetObj o a => ~ In o (osup (sw st) (sb st))
  | EReplace k m => In k (ids (sa st))
                    /\ (forall i, In i (ids m) -> ~ In i (ids (sb st)))
                    /\ (forall s, In s (owned m) -> ~ In s (ssup (sw st) (sb st)))
  end.

Fixpoint valid_seq (es : list edit) (st : state) : Prop :=
  match es with [] => True | e :: r => valid e st /\ valid_seq r (apply_edit e st) end.

Lemma upd_other {A} (f : N -> A) k v x : x <> k -> upd f k v x = f x.
Proof. intro Hx. unfold upd. destruct (x =? k) eqn:E; [apply N.eqb_eq in E; contradiction | reflexivity]. Qed.

(* writing a symbol or an object that the text of n does not read *)
Lemma upd_hs_invisible : forall W n s y,
  ~ In s (ssup W n) ->
  let W1 := {| hs := upd (hs W) s y; ho := ho W |} in
  write W1 n = write W n /\ ssup W1 n = ssup W n.
Proof.
  intros W n s y Hs W1. destruct (ext W W1 n) as [Ew [Es _]]; [|split; assumption].
  split; [|reflexivity]. intros x Hx. simpl. apply upd_other. intro E. subst x. contradiction.
Qed.

Lemma upd_ho_invisible : forall W n o a,
  ~ In o (osup W n) ->
  let W1 := {| hs := hs W; ho := upd (ho W) o a |} in
  write W1 n = write W n /\ ssup W1 n = ssup W n.
Proof.
  intros W n o a Ho W1. destruct (ext W W1 n) as [Ew [Es _]]; [|split; assumption].
  split; [reflexivity|]. intros x Hx. simpl. apply upd_other. intro E. subst x. contradiction.
Qed.

Lemma step : forall e st, inv st -> valid e st ->
  inv (apply_edit e st)
  /\ write (sw (apply_edit e st)) (sb (apply_edit e st)) = write (sw st) (sb st).
Proof.
  intros e [W A B] [Hids Hown] Hv. simpl in Hids, Hown.
  destruct e as [s nm|k s y|s y|o a|k m]; simpl in Hv; unfold apply_edit; cbn [sw sa sb].
  - (* rename: s is declared by A, so B neither declares nor reads it *)
    assert (HsB : ~ In s (ssup W B)) by (apply Hown; exact Hv).
    rewrite (rename_tree_id s nm B) by (intro Hin; apply HsB; apply owned_in_ssup; exact Hin).
    destruct (upd_hs_invisible W B s (set_name (hs W s) nm) HsB) as [Ew Es].
    split; [|exact Ew]. split; cbn [sw sa sb].
    + intros i Hi. rewrite rename_tree_ids in Hi. apply Hids. exact Hi.
    + intros x Hx. apply rename_tree_owned in Hx. rewrite Es. apply Hown. exact Hx.
  - (* new symbol *)
    destruct Hv as [Hk HsB].
    rewrite (add_sym_id k (norm (sname y)) s B) by (apply Hids; exact Hk).
    destruct (upd_hs_invisible W B s y HsB) as [Ew Es].
    split; [|exact Ew]. split; cbn [sw sa sb].
    + intros i Hi. rewrite add_sym_ids in Hi. apply Hids. exact Hi.
    + intros x Hx. rewrite Es. apply add_sym_owned in Hx as [Hx|Hx]; [apply Hown; exact Hx | subst x; exact HsB].
  - (* set attributes of a symbol *)
    destruct (upd_hs_invisible W B s (set_name y (sname (hs W s))) (Hown s Hv)) as [Ew Es].
    split; [|exact Ew]. split; cbn [sw sa sb]; [exact Hids|].
    intros x Hx. rewrite Es. apply Hown. exact Hx.
  - (* define an object *)
    destruct (upd_ho_invisible W B o a Hv) as [Ew Es].
    split; [|exact Ew]. split; cbn [sw sa sb]; [exact Hids|].
    intros x Hx. rewrite Es. apply Hown. exact Hx.
  - (* replace a node *)
    destruct Hv as [Hk [Hmi Hms]].
    rewrite (replace_id k m B) by (apply Hids; exact Hk).
    split; [|reflexivity]. split; cbn [sw sa sb].
    + intros i Hi. apply replace_ids in Hi as [Hi|Hi]; [apply Hids; exact Hi | apply Hmi; exact Hi].
    + intros x Hx. apply replace_owned in Hx as [Hx|Hx]; [apply Hown; exact Hx | apply Hms; exact Hx].
Qed.

Theorem edits_invisible : forall es st, inv st -> valid_seq es st ->
  write (sw (run es st)) (sb (run es st)) = write (sw st) (sb st).
Proof.
  induction es as [|e r IH]; intros st Hinv Hv; simpl; [reflexivity|].
  destruct Hv as [Hv Hr]. destruct (step e st Hinv Hv) as [Hinv' Hw].
  rewrite (IH _ Hinv' Hr). exact Hw.
Qed.

(* sufficient condition: nothing that `copy` leaves un-re-bound mentions a symbol of the copied
   scopes — literal precisions, datatype objects (bounds, kind, type symbol), interface objects and
   initial values *)
Definition no_symbol_in_datatypes (W : world) (n : node) : Prop :=
  forall s, In s (plains n ++ flat_map (attr_syms W) (owned n)) -> ~ In s (owned n).

Lemma safe_b_spec : forall W n, safe_b W n = true <-> no_symbol_in_datatypes W n.
Proof.
  intros W n. unfold safe_b, no_symbol_in_datatypes. rewrite forallb_forall. split.
  - intros H s Hs. apply memN_false. specialize (H s Hs). destruct (memN s (owned n)); [discriminate|reflexivity].
  - intros H s Hs. rewrite (proj2 (memN_false s (owned n)) (H s Hs)). reflexivity.
Qed.

Section AfterCopy.
  Variables (W : world) (off soff ooff : N) (n : node).
  Hypothesis Hwf : wf W off soff ooff n.
  Let W' := copy_world W off soff ooff n.
  Let c := copy (hs W) off soff n.

  Lemma agree_orig : agree W W' n.
  Proof.
    destruct Hwf as [_ [_ [_ [_ [Hss Hso]]]]]. rewrite Forall_forall in Hss, Hso. split.
    - intros s Hs. unfold W'. simpl. apply copy_hs_old. apply Hss. exact Hs.
    - intros o Ho. unfold W'. simpl. apply copy_ho_old. apply Hso. exact Ho.
  Qed.

  Lemma orig_unchanged : write W' n = write W n.
  Proof. apply (ext W W' n agree_orig). Qed.

  Lemma owned_lt : forall s, In s (owned n) -> s < soff.
  Proof.
    intros s Hs. destruct Hwf as [_ [_ [_ [_ [Hss _]]]]]. rewrite Forall_forall in Hss.
    apply Hss. apply owned_in_ssup. exact Hs.
  Qed.

  (* what the copy's text reads: new symbols, or old symbols that are not declared in the copied
     scopes unless a datatype / initial value / literal precision mentions them *)
  Lemma ssup_copy : wsc n -> forall x, In x (ssup W' c) ->
    soff <= x \/ (In x (refs n) /\ ~ In x (owned n)) \/ In x (plains n)
    \/ In x (flat_map (attr_syms W) (owned n)).
  Proof.
    intros Hwsc x Hx. apply ssup_split in Hx as [Hx|[Hx|Hx]].
    - (* re-bindable slots *)
      unfold c in Hx. rewrite refs_copy in Hx;
        [| exact Hwsc | apply Hwf | apply Forall_forall; exact owned_lt].
      apply in_map_iff in Hx as [s [E Hs]]. unfold reloc in E. destruct (memN s (owned n)) eqn:Em.
      + left. lia.
      + right. left. apply memN_false in Em. subst x. split; assumption.
    - right. right. left. unfold c in Hx. rewrite plains_copy in Hx. exact Hx.
    - (* declarations of the copy *)
      apply in_flat_map in Hx as [s' [Hs' Hx]]. unfold c in Hs'. rewrite owned_copy in Hs'.
      apply in_map_iff in Hs' as [s [E Hs]]. subst s'.
      destruct Hwf as [Htw [Himp [Hnd [_ [Hss Hso]]]]].
      assert (Hs0 := Hs). unfold owned in Hs0. apply in_map_iff in Hs0 as [[s0 t] [E Hin]].
      simpl in E. subst s0. destruct (owned_tabs_inv n s t Hin) as [Ht Hst].
      assert (Hnew : hs W' (s + soff) = copied_sym (hs W) off ooff (deep_copy_table (hs W) soff t) (hs W s)).
      { unfold W'. simpl. apply copy_hs_new; assumption. }
      assert (Hobj : Forall (fun o => o < ooff) (sym_objs W s)).
      { apply Forall_forall. intros o Ho. rewrite Forall_forall in Hso. apply Hso.
        eapply owned_objs_in_osup; eauto. }
      unfold sym_sup in Hx. rewrite Hnew in Hx. unfold copied_sym in Hx. cbn [sname styped sdt sinit sintf] in Hx.
      unfold sym_objs in Hobj. apply Forall_cons_iff in Hobj as [Hdo Hio].
      destruct Hx as [Hx|Hx]; [left; lia|].
      assert (Hattr : forall y, In y (obj_syms W (sdt (hs W s))) \/ In y (init_syms (sinit (hs W s)))
                                \/ In y (match sintf (hs W s) with ILocal o => obj_syms W o | IImport _ => [] end) ->
                                In y (flat_map (attr_syms W) (owned n))).
      { intros y Hy. apply in_flat_map. exists s. split; [exact Hs|]. unfold attr_syms. rewrite !in_app_iff. exact Hy. }
      apply in_app_or in Hx as [Hx|Hx].
      + (* datatype object: the same object *)
        right. right. right. apply Hattr. left.
        rewrite (obj_syms_ext W W' (sdt (hs W s)) (sdt (hs W s))) in Hx; [exact Hx|].
        unfold W'. simpl. apply copy_ho_old. exact Hdo.
      + apply in_app_or in Hx as [Hx|Hx].
        * (* initial value: copied, not re-bound *)
          right. right. right. apply Hattr. right. left.
          destruct (sinit (hs W s)) as [e|]; simpl in *; [|contradiction].
          rewrite expr_syms_shift in Hx. exact Hx.
        * apply in_app_or in Hx as [Hx|Hx].
          2:{ (* members of a generic interface: re-bound to the copy's own routine symbols *)
              apply in_map_iff in Hx as [m [Em Hm]]. rewrite Forall_forall in Htw, Himp.
              assert (Hc : In m (syms t)) by (apply (proj2 (Himp t Ht) s m Hst Hm)).
              rewrite (lookup_deep_copy (hs W) soff t m (Htw t Ht) Hc) in Em. left. lia. }
          (* interface *)
          destruct (sintf (hs W s)) as [o|cc] eqn:Ei.
          -- right. right. right. apply Hattr. right. right. simpl in Hio. apply Forall_cons_iff in Hio as [Hoo _].
             destruct (styped (hs W s)); simpl in Hx.
             ++ rewrite (obj_syms_ext W W' o o) in Hx; [exact Hx|]. unfold W'. simpl. apply copy_ho_old. exact Hoo.
             ++ rewrite (obj_syms_ext W W' o (o + ooff)) in Hx; [exact Hx|]. unfold W'. simpl. apply copy_ho_new.
          -- (* import: the container was re-bound to the copy's own container symbol *)
             rewrite Forall_forall in Htw, Himp.
             assert (Hc : In cc (syms t)) by (apply (proj1 (Himp t Ht) s cc Hst Ei)).
             rewrite (lookup_deep_copy (hs W) soff t cc (Htw t Ht) Hc) in Hx. simpl in Hx.
             destruct Hx as [Hx|[]]. left. lia.
  Qed.

  Lemma inv_edit_original : wsc n -> no_symbol_in_datatypes W n ->
    inv {| sw := W'; sa := n; sb := c |}.
  Proof.
    intros Hwsc Hsafe. split; simpl.
    - intros i Hi. apply copy_disjoint_nodes_; [|exact Hi]. destruct Hwf as [_ [_ [_ [Hid _]]]]. exact Hid.
    - intros s Hs Hin. apply (ssup_copy Hwsc) in Hin as [H|[H|[H|H]]].
      + pose proof (owned_lt s Hs). lia.
      + destruct H as [_ H]. contradiction.
      + apply (Hsafe s); [apply in_or_app; left; exact H | exact Hs].
      + apply (Hsafe s); [apply in_or_app; right; exact H | exact Hs].
  Qed.

  Lemma inv_edit_copy : inv {| sw := W'; sa := c; sb := n |}.
  Proof.
    split; simpl.
    - intros i Hi Hn. apply (copy_disjoint_nodes_ (hs W) off soff n) with (i := i); [|exact Hn|exact Hi].
      destruct Hwf as [_ [_ [_ [Hid _]]]]. exact Hid.
    - intros s Hs Hin. unfold c in Hs. rewrite owned_copy in Hs. apply in_map_iff in Hs as [s0 [E _]].
      destruct (ext W W' n agree_orig) as [_ [Es _]]. rewrite Es in Hin.
      destruct Hwf as [_ [_ [_ [_ [Hss _]]]]]. rewrite Forall_forall in Hss. specialize (Hss s Hin). lia.
  Qed.
End AfterCopy.
