(* C15 — soundness of the boolean hypothesis checkers, refutation witnesses, non-vacuity. *)
From Coq Require Import List NArith Bool Lia.
Import ListNotations.
From PV Require Import C15.Model C15.Basics C15.CopyProofs C15.Indep.
Open Scope N_scope.

Lemma nodupb_sound : forall l, nodupb l = true -> NoDup l.
Proof.
  induction l as [|x r IH]; simpl; intro H; [constructor|].
  apply andb_true_iff in H as [H1 H2]. constructor; [|apply IH; exact H2].
  apply memN_false. destruct (memN x r); [discriminate | reflexivity].
Qed.

Lemma tab_wf_b_sound : forall h t, tab_wf_b h t = true -> tab_wf h t.
Proof.
  intros h t H. unfold tab_wf_b in H. apply andb_true_iff in H as [H1 H2]. split.
  - apply nodupb_sound. exact H1.
  - apply Forall_forall. intros e He. rewrite forallb_forall in H2. apply N.eqb_eq. apply H2. exact He.
Qed.

Lemma imports_local_b_sound : forall h t, imports_local_b h t = true -> imports_local h t.
Proof.
  intros h t H. unfold imports_local_b in H. rewrite forallb_forall in H. split.
  - intros s c Hs Ei. specialize (H s Hs). apply andb_true_iff in H as [H _]. rewrite Ei in H.
    apply memN_true. exact H.
  - intros s m Hs Hm. specialize (H s Hs). apply andb_true_iff in H as [_ H]. rewrite forallb_forall in H.
    apply memN_true. apply H. exact Hm.
Qed.

Lemma wf_b_sound : forall W off soff ooff n, wf_b W off soff ooff n = true -> wf W off soff ooff n.
Proof.
  intros W off soff ooff n H. unfold wf_b in H.
  repeat (apply andb_true_iff in H; destruct H as [H ?]).
  rewrite forallb_forall in *.
  split; [|split; [|split; [|split; [|split]]]].
  - apply Forall_forall. intros t Ht. apply tab_wf_b_sound. apply H. exact Ht.
  - apply Forall_forall. intros t Ht. apply imports_local_b_sound. auto.
  - apply nodupb_sound. assumption.
  - apply Forall_forall. intros i Hi. apply N.ltb_lt. auto.
  - apply Forall_forall. intros i Hi. apply N.ltb_lt. auto.
  - apply Forall_forall. intros i Hi. apply N.ltb_lt. auto.
Qed.

Lemma implb_memN : forall s A B, implb (memN s A) (memN s B) = true -> In s A -> In s B.
Proof.
  intros s A B H Hin. apply memN_true in Hin. rewrite Hin in H. simpl in H. apply memN_true. exact H.
Qed.

Lemma wsc_b_sound : forall n, wsc_b n = true -> wsc n.
Proof.
  intro n. induction n as [i tag sl tab ch IH] using node_ind'. intro H. cbn [wsc_b] in H.
  apply andb_true_iff in H as [H H3]. apply andb_true_iff in H as [H1 H2].
  rewrite forallb_forall in H2, H3. constructor.
  - intros s E Hin. subst sl. apply (implb_memN s _ _ H1 Hin).
  - intros c Hc s Hs Hin. specialize (H2 c Hc). rewrite forallb_forall in H2. specialize (H2 s Hs).
    apply memN_true in Hin. rewrite Hin in H2. simpl in H2. apply orb_true_iff in H2 as [H2|H2];
      [left | right]; apply memN_true; exact H2.
  - rewrite Forall_forall in *. intros c Hc. apply IH; [exact Hc | apply H3; exact Hc].
Qed.

(* `valid` is decidable: membership tests on the lists it mentions *)
Definition valid_b (e : edit) (st : state) : bool :=
  let notin x l := negb (memN x l) in
  match e with
  | ERename s _ | ESetSym s _ => memN s (owned (sa st))
  | ENewSym k s _ => memN k (ids (sa st)) && notin s (ssup (sw st) (sb st))
  | ESetObj o _ => notin o (osup (sw st) (sb st))
  | EReplace k m => memN k (ids (sa st))
                    && forallb (fun i => notin i (ids (sb st))) (ids m)
                    && forallb (fun s => notin s (ssup (sw st) (sb st))) (owned m)
  end.

Fixpoint valid_seq_b (es : list edit) (st : state) : bool :=
  match es with [] => true | e :: r => valid_b e st && valid_seq_b r (apply_edit e st) end.

Lemma valid_b_sound : forall e st, valid_b e st = true -> valid e st.
Proof.
  assert (Hnot : forall x l, negb (memN x l) = true -> ~ In x l)
    by (intros x l H; apply memN_false, negb_true_iff, H).
  intros [s nm|k s y|s y|o a|k m] st H; simpl in *.
  - apply memN_true. exact H.
  - apply andb_true_iff in H as [H1 H2]. split; [apply memN_true; exact H1 | apply Hnot; exact H2].
  - apply memN_true. exact H.
  - apply Hnot. exact H.
  - apply andb_true_iff in H as [H H3]. apply andb_true_iff in H as [H1 H2].
    rewrite forallb_forall in H2, H3.
    split; [apply memN_true; exact H1 | split; intros x Hx; apply Hnot; auto].
Qed.

Lemma valid_seq_b_sound : forall es st, valid_seq_b es st = true -> valid_seq es st.
Proof.
  induction es as [|e r IH]; intros st H; simpl in *; [exact I|].
  apply andb_true_iff in H as [H1 H2]. split; [apply valid_b_sound; exact H1 | apply IH; exact H2].
Qed.

(* subroutine s();  integer :: m;  real :: b   ! + what the parameters add
   name codes (16 * base + case variant): m is stored as `M` (177, key 176), b = 208, s = 160;
   symbols 1 (m), 3 (b), 4 (routine symbol s) *)
Definition ref_m : node := Node 50 1 (Rebound 1) None [].
Definition wit_world (bounds : list node) (osy : list N) (init : option node) : world :=
  mkworld
    [ (1, {| sname := 177; styped := true; sdt := 31; sinit := None; sintf := ILocal 41; smem := [] |});
      (3, {| sname := 208; styped := true; sdt := 32; sinit := init; sintf := ILocal 42; smem := [] |});
      (4, {| sname := 160; styped := true; sdt := 33; sinit := None; sintf := ILocal 43; smem := [] |}) ]
    [ (31, {| obounds := []; osyms := []; opay := 1 |});
      (32, {| obounds := bounds; osyms := osy; opay := 2 |});
      (33, {| obounds := []; osyms := []; opay := 3 |});
      (41, {| obounds := []; osyms := []; opay := 5 |});
      (42, {| obounds := []; osyms := []; opay := 5 |});
      (43, {| obounds := []; osyms := []; opay := 5 |}) ].
(* body:  b = <rhs> *)
Definition wit_tree (rhs : node) : node :=
  Node 1 100 NoSlot (Some [(160, 4); (176, 1); (208, 3)])
    [ Node 2 101 NoSlot None [ Node 3 1 (Rebound 3) None []; rhs ] ].
Definition lit : node := Node 4 2 NoSlot None [].
Definition lit_kind_m : node := Node 4 2 (Plain 1) None [].

(* `table.rename_symbol(m, "mm")` on the original *)
Definition rename_m : list edit := [ERename 1 1586].   (* new name `mM`: key 1584 *)

Definition refutes (W : world) (n : node) (es : list edit) : Prop :=
  let off := 1000 in let soff := 1000 in let ooff := 1000 in
  let W' := copy_world W off soff ooff n in
  let c := copy (hs W) off soff n in
  let st0 := {| sw := W'; sa := n; sb := c |} in
  wf W off soff ooff n /\ wsc n /\ valid_seq es st0
  /\ write (sw (run es st0)) (sb (run es st0)) <> write W' c.

(* the first three parts through their boolean forms, so that a witness is checked by evaluation *)
Lemma refutes_by_eval : forall W n es,
  (let st0 := {| sw := copy_world W 1000 1000 1000 n; sa := n; sb := copy (hs W) 1000 1000 n |} in
   wf_b W 1000 1000 1000 n && wsc_b n && valid_seq_b es st0 = true
   /\ write (sw (run es st0)) (sb (run es st0)) <> write (sw st0) (sb st0)) ->
  refutes W n es.
Proof.
  intros W n es [H Hne]. apply andb_true_iff in H as [H H3]. apply andb_true_iff in H as [H1 H2].
  split; [apply wf_b_sound; exact H1|]. split; [apply wsc_b_sound; exact H2|].
  split; [apply valid_seq_b_sound; exact H3 | exact Hne].
Qed.

(* in-place mutation of an object that copy shares: even when no datatype mentions a symbol.
   ESetObj on b's datatype object (StructureType.add, re-targeting a bound Reference, ...) or on
   b's interface object (`interface.access = READ`).  Such an edit is NOT `valid`. *)
Definition refutes_inplace (W : world) (n : node) (s : N) (pick : sym -> N) (a : aobj) : Prop :=
  let off := 1000 in let soff := 1000 in let ooff := 1000 in
  let W' := copy_world W off soff ooff n in
  let c := copy (hs W) off soff n in
  let st0 := {| sw := W'; sa := n; sb := c |} in
  let e := ESetObj (pick (hs W' s)) a in
  wf W off soff ooff n /\ wsc n /\ no_symbol_in_datatypes W n
  /\ In s (owned n)                                   (* the object belongs to a symbol of the edited tree *)
  /\ write (sw (run [e] st0)) (sb (run [e] st0)) <> write W' c.

Lemma refutes_inplace_by_eval : forall W n s pick a,
  (let W' := copy_world W 1000 1000 1000 n in
   let st0 := {| sw := W'; sa := n; sb := copy (hs W) 1000 1000 n |} in
   let e := ESetObj (pick (hs W' s)) a in
   wf_b W 1000 1000 1000 n && wsc_b n && safe_b W n && memN s (owned n) = true
   /\ write (sw (run [e] st0)) (sb (run [e] st0)) <> write (sw st0) (sb st0)) ->
  refutes_inplace W n s pick a.
Proof.
  intros W n s pick a [H Hne]. apply andb_true_iff in H as [H H4]. apply andb_true_iff in H as [H H3].
  apply andb_true_iff in H as [H1 H2].
  split; [apply wf_b_sound; exact H1|]. split; [apply wsc_b_sound; exact H2|].
  split; [apply safe_b_spec; exact H3|]. split; [apply memN_true; exact H4 | exact Hne].
Qed.

(* module-like container with an import, an untyped symbol, mixed-case stored names (name <> key), a
   generic interface declared BEFORE its member routine in the table (the order left by rename_symbol), a
   nested routine scope declaring a name that differs from an outer one only in case, a loop (Rebound slot on a non-Reference node) with its own inner scope, references from the
   inner scopes to outer symbols, and a reference to a symbol declared outside the subtree (9). *)
Definition nv_world : world :=
  mkworld
    [ (1, {| sname := 176; styped := false; sdt := 30; sinit := None; sintf := ILocal 40; smem := [] |});   (* container symbol *)
      (2, {| sname := 193; styped := false; sdt := 30; sinit := None; sintf := IImport 1; smem := [] |});   (* imported *)
      (3, {| sname := 209; styped := true; sdt := 31; sinit := Some (Node 60 2 NoSlot None []); sintf := ILocal 41; smem := [] |});
      (4, {| sname := 227; styped := true; sdt := 32; sinit := None; sintf := ILocal 42; smem := [] |});    (* inner i *)
      (5, {| sname := 210; styped := true; sdt := 31; sinit := None; sintf := ILocal 43; smem := [] |});    (* inner: differs from 209 only in case *)
      (6, {| sname := 256; styped := true; sdt := 32; sinit := None; sintf := ILocal 44; smem := [] |});    (* loop-body local *)
      (7, {| sname := 272; styped := true; sdt := 32; sinit := None; sintf := ILocal 46; smem := [3] |});   (* generic interface, member 3 *)
      (9, {| sname := 305; styped := true; sdt := 33; sinit := None; sintf := ILocal 45; smem := [] |}) ]   (* outside *)
    [ (30, dobj); (31, {| obounds := [Node 61 2 NoSlot None []; Node 62 1 (Rebound 9) None []]; osyms := [9]; opay := 2 |});
      (32, {| obounds := []; osyms := []; opay := 1 |}); (33, {| obounds := []; osyms := []; opay := 1 |});
      (40, dobj); (41, dobj); (42, dobj); (43, dobj); (44, dobj); (45, dobj); (46, dobj) ].
Definition nv_tree : node :=
  Node 1 100 NoSlot (Some [(176, 1); (192, 2); (272, 7); (208, 3)])
    [ Node 2 101 NoSlot (Some [(224, 4); (208, 5)])
        [ Node 3 102 NoSlot None [ Node 4 1 (Rebound 5) None []; Node 5 1 (Rebound 2) None [] ];
          Node 6 103 (Rebound 4) None
            [ Node 7 2 (Plain 9) None [];
              Node 8 104 NoSlot (Some [(256, 6)])
                [ Node 9 102 NoSlot None [ Node 10 1 (Rebound 6) None [ Node 11 1 (Rebound 4) None [] ];
                                           Node 12 1 (Rebound 9) None [] ] ] ] ];
      Node 13 102 NoSlot None [ Node 14 1 (Rebound 3) None []; Node 15 2 NoSlot None [] ] ].

Lemma nv_hyps : wf nv_world 1000 1000 1000 nv_tree /\ wsc nv_tree /\ no_symbol_in_datatypes nv_world nv_tree.
Proof.
  split; [apply wf_b_sound; vm_compute; reflexivity|].
  split; [apply wsc_b_sound; vm_compute; reflexivity|].
  apply safe_b_spec. vm_compute. reflexivity.
Qed.

(* a valid edit sequence on the original exercising every kind of edit *)
Definition nv_edits : list edit :=
  [ ERename 3 1233;
    ENewSym 8 500 {| sname := 1249; styped := true; sdt := 32; sinit := None; sintf := ILocal 42; smem := [] |};
    ESetObj 600 {| obounds := [Node 700 1 (Rebound 3) None []]; osyms := [5]; opay := 9 |};
    ESetSym 5 {| sname := 0; styped := true; sdt := 600; sinit := Some (Node 701 1 (Rebound 4) None []); sintf := ILocal 43; smem := [] |};
    EReplace 13 (Node 13 102 NoSlot None [ Node 800 1 (Rebound 500) None [] ]);
    EReplace 7 (Node 7 2 NoSlot None []) ].

Lemma nv_valid :
  let W' := copy_world nv_world 1000 1000 1000 nv_tree in
  let c := copy (hs nv_world) 1000 1000 nv_tree in
  let st0 := {| sw := W'; sa := nv_tree; sb := c |} in
  valid_seq nv_edits st0
  /\ write (sw (run nv_edits st0)) (sa (run nv_edits st0)) <> write W' nv_tree   (* the edits do change A *)
  /\ refs c = [1005; 1002; 1004; 1006; 1004; 9; 1003]                           (* who got re-bound *)
  /\ smem (hs W' 1007) = [1003].        (* interface member re-bound although declared after the interface *)
Proof.
  cbv zeta. split; [|split; [|split]].
  - apply valid_seq_b_sound. vm_compute. reflexivity.
  - vm_compute. discriminate.
  - vm_compute. reflexivity.
  - vm_compute. reflexivity.
Qed.
