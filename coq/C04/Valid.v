(* C04 -- the written declarations are valid (each entity once, declared before use) under a
   sufficient condition [safe] on the table; in general they are not (coq/Properties/C04.v). *)
From Coq Require Import List Arith Bool Permutation String.
Import ListNotations.
From PV Require Import C03.Names C03.Decls C03.OrderProofs C03.DeclProofs.
Open Scope list_scope.

Lemma forallb_ext' {A} (f g : A -> bool) l : (forall x, f x = g x) -> forallb f l = forallb g l.
Proof. intro H. induction l as [|a l IH]; simpl; [reflexivity | rewrite H, IH; reflexivity]. Qed.

(* [before_use] looks at [dn] and [seen] as sets *)
Lemma before_use_ext : forall dn dn', (forall x, In x dn <-> In x dn') ->
    forall l seen seen', (forall x, In x seen <-> In x seen') ->
    before_use dn seen l = before_use dn' seen' l.
Proof.
  intros dn dn' Hd l; induction l as [|d l IH]; intros seen seen' H; simpl; [reflexivity|].
  f_equal.
  - apply forallb_ext'. intro x. rewrite (mem_nat_ext dn dn' Hd), (mem_nat_ext seen seen' H). reflexivity.
  - apply IH. intro x. simpl. rewrite H. reflexivity.
Qed.

Lemma before_use_app : forall dn a b seen,
    before_use dn seen (a ++ b) = before_use dn seen a && before_use dn (ids a ++ seen) b.
Proof.
  intros dn a; induction a as [|d a IH]; intros b seen; simpl; [reflexivity|].
  rewrite IH, <- andb_assoc. do 2 f_equal.
  apply before_use_ext; intro x; [reflexivity|]. simpl. rewrite !in_app_iff. simpl. tauto.
Qed.

(* the constants section: the dependency sort makes it valid, provided the inputs computed by
   _gen_parameter_decls cover every constant a constant's declaration mentions *)
Lemma consts_before_use : forall dn cn seen cs dcl,
    cvalid cn dcl cs = true ->
    (forall c r, In c cs -> In r (s_refs c) -> In r dn -> In r seen \/ (In r cn /\ In r (s_deps c))) ->
    before_use dn (dcl ++ seen) cs = true.
Proof.
  intros dn cn seen cs; induction cs as [|c cs IH]; intros dcl Hv Hr; simpl; [reflexivity|].
  simpl in Hv. apply andb_prop in Hv as [Hv1 Hv2]. apply andb_true_intro. split.
  - apply forallb_forall. intros r Hr1. destruct (mem_nat r dn) eqn:Ed; [|reflexivity]. simpl.
    apply mem_nat_In, in_or_app.
    destruct (Hr c r (or_introl eq_refl) Hr1 (proj1 (mem_nat_In _ _) Ed)) as [H|[H1 H2]]; [right; exact H|].
    left. apply (proj1 (subset_spec _ _) Hv1), ldeps_In. split; assumption.
  - apply (IH (s_id c :: dcl) Hv2). intros c' r Hc'. apply Hr. right. exact Hc'.
Qed.

Lemma count_nat_notin : forall x l, ~ In x l -> count_nat x l = 0.
Proof.
  intros x l; induction l as [|y l IH]; intros H; simpl; [reflexivity|].
  destruct (Nat.eqb_spec x y) as [E|E]; [exfalso; apply H; left; auto|]. apply IH. intro Hx. apply H. right. exact Hx.
Qed.

Lemma count_nat_nodup : forall l x, NoDup l -> In x l -> count_nat x l = 1.
Proof.
  induction l as [|y l IH]; intros x Hn Hx; [destruct Hx|].
  inversion Hn as [|? ? Hy Hl]; subst. simpl. destruct (Nat.eqb_spec x y) as [E|E].
  - subst. rewrite count_nat_notin by exact Hy. reflexivity.
  - destruct Hx as [Hx|Hx]; [congruence|]. simpl. apply IH; assumption.
Qed.

(* [dn] = ids of all declared symbols.  Sections 1, 3, 4, 5 keep table order, so they are fine when
   each of them, taken in table order after the sections before it, has no use before declaration;
   for the constants we ask that every locally declared symbol a constant mentions is either in
   section 1 or is a constant that _gen_parameter_decls lists among its inputs. *)
Definition safe (t : list sym) : Prop :=
  let dn := ids (filter declarable t) in
  let R := sect CRoutine t in let C := sect CConst t in let A := sect CArg t in
  let T := sect CType t in let V := sect CVar t in
  before_use dn [] R = true /\
  (forall c r, In c C -> In r (s_refs c) -> In r dn -> In r (ids R) \/ (In r (ids C) /\ In r (s_deps c))) /\
  before_use dn (ids C ++ ids R) A = true /\
  before_use dn (ids A ++ ids C ++ ids R) T = true /\
  before_use dn (ids T ++ ids A ++ ids C ++ ids R) V = true.

Theorem decls_ordered_partial_ : forall t l,
    NoDup (ids t) -> gen_decls t = Some l -> safe t -> decl_valid l = true.
Proof.
  intros t l Hn H [HR [HC [HA [HT HV]]]].
  unfold decl_valid. apply andb_true_intro. split.
  - apply forallb_forall. intros d Hd. apply Nat.eqb_eq.
    apply count_nat_nodup; [exact (gen_decls_NoDup _ _ Hn H) | apply in_map; exact Hd].
  - rewrite (before_use_ext _ _ (ids_perm_In _ _ (gen_decls_perm _ _ H)) l [] []) by reflexivity.
    destruct (gen_decls_sections _ _ H) as [cs [Ec ->]].
    set (dn := ids (filter declarable t)) in *.
    rewrite !before_use_app, HR, app_nil_r. simpl.
    (* what is declared before a later section: the written constants instead of the table's *)
    assert (Hcs : forall X s, before_use dn (X ++ ids (sect CConst t) ++ ids (sect CRoutine t)) s = true ->
                              before_use dn (X ++ ids cs ++ ids (sect CRoutine t)) s = true).
    { intros X s <-. apply before_use_ext; intro x; [reflexivity|].
      rewrite !in_app_iff, (ids_perm_In _ _ (order_consts_perm _ _ Ec) x). reflexivity. }
    repeat (apply andb_true_intro; split).
    + apply (consts_before_use dn (ids (sect CConst t)) _ cs []).
      * exact (proj2 (order_go_some _ _ _ _ _ Ec)).
      * intros c r Hc. apply HC. eapply Permutation_in; [apply order_consts_perm, Ec | exact Hc].
    + apply (Hcs []), HA.
    + apply (Hcs (ids (sect CArg t))), HT.
    + rewrite app_assoc. apply Hcs. rewrite <- app_assoc. exact HV.
Qed.

Open Scope string_scope.
(* non-vacuity of [safe] *)
Example safe_nonvacuous :
  let t := [ mkSym 0 "x" CVar [] [3; 5]; mkSym 1 "n2" CConst [3] [3]; mkSym 2 "arg" CArg [] [3];
             mkSym 3 "n" CConst [4] [4]; mkSym 4 "wp" CConst [] []; mkSym 5 "tt" CType [] [4];
             mkSym 6 "mod1" CSkip [] []; mkSym 7 "y" CVar [] [1; 0]; mkSym 8 "m" CArg [] []; mkSym 9 "b" CArg [] [8] ] in
  NoDup (ids t) /\ safe t /\ exists l, gen_decls t = Some l /\ ids l = [4; 3; 1; 2; 8; 9; 5; 0; 7] /\ decl_valid l = true.
Proof.
  intro t. split; [exact (seq_NoDup 10 0)|]. split.
  - unfold safe. repeat split; try (vm_compute; reflexivity).
    (* the constants n2, n, wp mention constants only, and each of them as an input *)
    intros c r Hc Hr _. right. vm_compute in Hc.
    destruct Hc as [<-|[<-|[<-|[]]]]; simpl in Hr; [| |destruct Hr]; destruct Hr as [<-|[]]; split; simpl; auto.
  - eexists. split; [vm_compute; reflexivity|]. split; vm_compute; reflexivity.
Qed.
