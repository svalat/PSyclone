(* C04 -- scope merging in the presence of CodeBlocks (opaque text that mentions symbols by NAME).

   A scope is a pair (cb, table): [cb] = the normalised names occurring in the CodeBlocks below
   that scope's node (CodeBlock.get_symbol_names, lower-cased by SymbolTable.rename_symbol).
   Model of SymbolTable.merge as called by FortranWriter.routine_node, for renameable symbols:
     check_for_clashes : a clash is resolvable when the symbol of the merged table, or the inner one,
                         passes rename_symbol(dry_run); rename_symbol refuses a symbol whose normalised
                         name occurs in a CodeBlock below the table's node.  The merged table is
                         attached to the Routine, so its CodeBlock names include the inner scope's:
                         the clash is unresolvable exactly when the name is in the inner scope's [cb]
                         -> SymbolError "Cannot merge ..." ([None]); nothing is renamed.
     _handle_symbol_clash : otherwise the inner symbol is renamed to next_available_name.
   When the guarded merge succeeds it returns what the unguarded [merge_table] returns
   (merge_table_cb_eq), so what is proved of [merge_table] holds of it. *)
From Coq Require Import List Arith Bool String NArith.
Import ListNotations.
From PV Require Import C03.Names C03.Decls C03.FlattenProofs.
Open Scope list_scope.

Fixpoint merge_table_cb (outer cb : list string) (acc inner : list sym) : option (list sym) :=
  match inner with
  | [] => Some acc
  | s :: r =>
    if mem_str (normalize (s_name s)) (nnames acc) then
      if mem_str (normalize (s_name s)) cb then None          (* SymbolError: cannot be renamed *)
      else
        let ex := nnames acc ++ outer ++ nnames (s :: r) in
        match fresh_loop (S (List.length ex)) (s_name s) ex 0%N with
        | Some n => merge_table_cb outer cb (acc ++ [set_name s n]) r
        | None => merge_table_cb outer cb (acc ++ [s]) r
        end
    else merge_table_cb outer cb (acc ++ [s]) r
  end.

Fixpoint flatten_cb_go (outer : list string) (acc : list sym) (inners : list (list string * list sym))
  : option (list sym) :=
  match inners with
  | [] => Some acc
  | (cb, t) :: r => match merge_table_cb outer cb acc t with
                    | Some a => flatten_cb_go outer a r
                    | None => None
                    end
  end.

(* the Routine's own table (names pairwise different) first, then the inner scopes in walk order *)
Definition flatten_cb (outer : list string) (routine : list sym) (inners : list (list string * list sym)) :=
  flatten_cb_go outer routine inners.

(* harness checker: observed = Some (names of the merged table in order) | None (merge refused) *)
Definition agrees_flatten_cb (c : (list string * list sym * list (list string * list sym)) * option (list string)) : bool :=
  match c with
  | ((o, r, i), obs) => match flatten_cb o r i, obs with
                        | Some f, Some n => list_str_eqb (map s_name f) n
                        | None, None => true
                        | _, _ => false
                        end
  end.

(* what the guarded merge may do to a symbol of a scope whose CodeBlocks mention the names [cb] *)
Definition keeps (outer cb : list string) (s s' : sym) : Prop :=
  renamed outer s s' /\ (In (normalize (s_name s)) cb -> s' = s).

(* one step of a guarded merge that succeeds: the step of the unguarded merge, and a symbol named
   in [cb] was not the one renamed *)
Lemma merge_table_cb_step : forall outer cb acc s r res,
    merge_table_cb outer cb acc (s :: r) = Some res ->
    exists s', merge_table_cb outer cb (acc ++ [s']) r = Some res /\
               merge_table outer acc (s :: r) = merge_table outer (acc ++ [s']) r /\
               keeps outer cb s s'.
Proof.
  intros outer cb acc s r res H. cbn [merge_table_cb merge_table] in *.
  destruct (mem_str (normalize (s_name s)) (nnames acc)).
  - destruct (mem_str (normalize (s_name s)) cb) eqn:Ecb; [discriminate|].
    destruct (fresh_for_clash outer acc s r) as [n [Hn [_ Hs]]]. rewrite Hn in *.
    exists (set_name s n). repeat split; try assumption.
    intro Hin. apply mem_str_In in Hin. congruence.
  - exists s. repeat split; [exact H | apply rn_same].
Qed.

Lemma merge_table_cb_eq : forall outer cb inner acc r,
    merge_table_cb outer cb acc inner = Some r -> r = merge_table outer acc inner.
Proof.
  intros outer cb inner; induction inner as [|s t IH]; intros acc r H; [injection H as <-; reflexivity|].
  destruct (merge_table_cb_step _ _ _ _ _ _ H) as [s' [H' [-> _]]]. apply IH, H'.
Qed.

Lemma merge_table_cb_spec : forall outer cb inner acc r,
    merge_table_cb outer cb acc inner = Some r ->
    exists inner', r = acc ++ inner' /\ Forall2 (keeps outer cb) inner inner'.
Proof.
  intros outer cb inner; induction inner as [|s t IH]; intros acc r H.
  - injection H as <-. exists []. rewrite app_nil_r. split; [reflexivity|constructor].
  - destruct (merge_table_cb_step _ _ _ _ _ _ H) as [s' [H' [_ Hs]]].
    destruct (IH _ _ H') as [t' [-> Ht]].
    exists (s' :: t'). rewrite <- app_assoc. split; [reflexivity | constructor; assumption].
Qed.

Lemma flatten_cb_go_spec : forall outer inners acc f,
    flatten_cb_go outer acc inners = Some f ->
    exists xs, f = acc ++ List.concat xs /\
               Forall2 (fun ct x => Forall2 (keeps outer (fst ct)) (snd ct) x) inners xs.
Proof.
  intros outer inners; induction inners as [|[cb t] r IH]; intros acc f H; simpl in H.
  - inversion H; subst. exists []. simpl. rewrite app_nil_r. split; [reflexivity|constructor].
  - destruct (merge_table_cb outer cb acc t) as [a|] eqn:E; [|discriminate].
    destruct (merge_table_cb_spec _ _ _ _ _ E) as [t' [E1 E2]]. subst a.
    destruct (IH _ _ H) as [xs [E3 E4]].
    exists (t' :: xs). simpl. rewrite E3, <- app_assoc. split; [reflexivity|].
    constructor; [exact E2 | exact E4].
Qed.

Lemma flatten_cb_go_nodup : forall outer inners acc f,
    flatten_cb_go outer acc inners = Some f -> NoDup (nnames acc) -> NoDup (nnames f).
Proof.
  intros outer inners; induction inners as [|[cb t] r IH]; intros acc f H Hn; simpl in H.
  - inversion H; subst. exact Hn.
  - destruct (merge_table_cb outer cb acc t) as [a|] eqn:E; [|discriminate].
    apply (IH _ _ H). rewrite (merge_table_cb_eq _ _ _ _ _ E). apply merge_table_nodup. exact Hn.
Qed.

(* the refusal is real, and so is the danger it guards against: without the guard ([merge_table]) the
   inner "tmp" -- which the CodeBlock of its scope spells TMP -- is renamed and the text is captured
   by the routine-scope tmp *)
Open Scope string_scope.
Example guard_refuses :
  flatten_cb [] [mkSym 0 "tmp" CVar [] []] [(["tmp"], [mkSym 1 "tmp" CVar [] []])] = None
  /\ map s_name (flatten [] [mkSym 0 "tmp" CVar [] []] [[mkSym 1 "tmp" CVar [] []]]) = ["tmp"; "tmp_1"].
Proof. split; vm_compute; reflexivity. Qed.

Example guard_nonvacuous :
  option_map (map s_name)
    (flatten_cb ["m"] [mkSym 0 "tmp" CVar [] []; mkSym 1 "val" CVar [] []]
                [(["acc"], [mkSym 2 "VAL" CVar [] []; mkSym 3 "acc" CVar [] []]); (["val"], [mkSym 4 "Tmp" CVar [] []])])
  = Some ["tmp"; "val"; "VAL_1"; "acc"; "Tmp_1"].
Proof. vm_compute. reflexivity. Qed.
