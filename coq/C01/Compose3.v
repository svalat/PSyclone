(* C01 -- compositional soundness of the reader's lowering: [lower md dc p] simulates the source program
   [p] (Compose.sexec) for every nested source program whose WHERE constructs satisfy the side condition
   of lower_where_sound_partial.  lower_select_sound and lower_where_sound_partial are lifted through
   sequences, IF branches, DO bodies and SELECT CASE blocks; stores are compared up to the loop variables
   the reader creates for WHERE constructs (Compose2.nsim).  Induction on the fuel of the source run. *)
From Coq Require Import List ZArith Bool Lia.
Import ListNotations.
From PV Require Import Fort.Syntax Fort.Sem Fort.Facts Fort.Facts3 C01.Model C01.SelectProofs
  C01.WhereLocal C01.WhereExec C01.Compose C01.Compose2.
Open Scope Z_scope.

Definition cval_names (cv : cval) : list name :=
  match cv with
  | CVal e | CFrom e | CUpto e => enames e
  | CBetween a b => enames a ++ enames b
  end.

Section Prog.
  Variable X : list name.
  Variables (md : mode) (dc : decls).

  Definition freshb (ns : list name) : bool := forallb (fun y => notin_b y X) ns.

  Lemma freshb_spec ns : freshb ns = true -> fresh X ns.
  Proof. unfold freshb. rewrite forallb_forall. intros H y Hy. apply notin_b_spec, H, Hy. Qed.

  (* well-formed source programs: no statement mentions a name of X; every WHERE satisfies the side
     condition of the WHERE theorem and its loop variable is in X *)
  Fixpoint wf (st : sstmt) : bool :=
    match st with
    | TAssign x ix e => notin_b x X && freshb (flat_map enames ix) && freshb (enames e)
    | TIf c th el => freshb (enames c) && forallb wf th && forallb wf el
    | TDo x lo hi st0 body =>
        notin_b x X && freshb (enames lo) && freshb (enames hi) && freshb (enames (dstep st0)) && forallb wf body
    | TExit | TCycle | TReturn => true
    | TSelect sel cls =>
        freshb (enames sel) &&
        forallb (fun cl => match cl with
                           | (Some cvs, b) => freshb (flat_map cval_names cvs) && forallb wf b
                           | (None, b) => forallb wf b
                           end) cls
    | TWhere w => safe_where w && existsb (Nat.eqb (wx w)) X && freshb (wnames_all w)
    end.

  Definition wf_clause (cl : option (list cval) * list sstmt) : bool :=
    match cl with
    | (Some cvs, b) => freshb (flat_map cval_names cvs) && forallb wf b
    | (None, b) => forallb wf b
    end.

  Lemma wf_select sel cls : wf (TSelect sel cls) = freshb (enames sel) && forallb wf_clause cls.
  Proof. reflexivity. Qed.

  (* what the reader knows about declared bounds is true of the store (bounds never change), and the
     trip count derived from it is right *)
  Definition dcb_ok (s : store) : Prop :=
    forall a lb ub, dc a = Some (lb, ub) -> bnd s a = [(lb, ub)] /\ (md = Fixed \/ lb = 1).

  Lemma dcb_bnd s s2 : bnd s2 = bnd s -> dcb_ok s -> dcb_ok s2.
  Proof. intros Hb H a lb ub E. rewrite Hb. apply H, E. Qed.

  (* runs of the source with fuel [f] are simulated by the lowered program *)
  Definition simulates (f : nat) : Prop :=
    forall p q s t s' tr c,
      lower md dc p = Some q -> forallb wf p = true -> nsim X s t -> dcb_ok s ->
      sexec f p s = Ok s' tr c ->
      exists f' t' tr', exec f' q t = Ok t' tr' c /\ nsim X s' t' /\ bnd s' = bnd s.

  Lemma do_sim f body b x l stp :
    simulates f -> lower md dc body = Some b -> forallb wf body = true ->
    forall n k s t s1 tr c, nsim X s t -> dcb_ok s ->
      do_loop (sexec f body) x l stp n k s = Ok s1 tr c ->
      exists f' t1 tr', do_loop (exec f' b) x l stp n k t = Ok t1 tr' c /\ nsim X s1 t1 /\ bnd s1 = bnd s.
  Proof.
    intros IH Hl Hw. induction n as [|n IHn]; intros k s t s1 tr c Hs Hd H.
    - rewrite do_loop_0 in H. inversion H; subst. exists 0%nat. eexists. eexists.
      rewrite do_loop_0. split; [reflexivity|]. split; [apply nsim_upd, Hs|reflexivity].
    - cbn [do_loop] in H.
      destruct (sexec f body (upd s (x, []) (l + k * stp))) as [s2 tr2 c2| |] eqn:Eb; try discriminate.
      destruct (IH _ _ _ _ _ _ _ Hl Hw (nsim_upd X s t (x, []) (l + k * stp) Hs) Hd Eb)
        as [f1 [t2 [tr2' [E1 [Hs2 Hb2]]]]].
      rewrite bnd_upd in Hb2.
      (* a body that ends normally or by CYCLE is followed by the remaining iterations *)
      assert (Hgo : c2 = CNormal \/ c2 = CCycle -> forall tr0,
                do_loop (sexec f body) x l stp n (k + 1) s2 = Ok s1 tr0 c ->
                exists f' t1 tr', do_loop (exec f' b) x l stp (S n) k t = Ok t1 tr' c /\ nsim X s1 t1 /\ bnd s1 = bnd s).
      { intros Hc tr0 H0.
        destruct (IHn _ _ _ _ _ _ Hs2 (dcb_bnd _ _ Hb2 Hd) H0) as [f2 [t1 [tr' [E2 [Hs1 Hb1]]]]].
        exists (Nat.max f1 f2). eexists. eexists. split; [|split; [exact Hs1|congruence]].
        rewrite (do_loop_S_normal _ _ _ _ _ _ _ t2 tr2' c2);
          [|apply (exec_mono f1 _ _ _ _ E1); [discriminate|lia]|exact Hc].
        rewrite (do_loop_mono_exec f2 (Nat.max f1 f2) _ _ _ _ _ _ _ _ E2); [|discriminate|lia]. reflexivity. }
      destruct c2.
      + apply prepend_ok_inv in H as [tr0 [H _]]. exact (Hgo (or_introl eq_refl) _ H).
      + inversion H; subst. exists f1. eexists. eexists. split; [|split; [exact Hs2|exact Hb2]].
        apply do_loop_S_exit. exact E1.
      + apply prepend_ok_inv in H as [tr0 [H _]]. exact (Hgo (or_intror eq_refl) _ H).
      + inversion H; subst. exists f1. eexists. eexists. split; [|split; [exact Hs2|exact Hb2]].
        apply do_loop_S_return. exact E1.
  Qed.

  Lemma cval_match_nsim s t v cv : fresh X (cval_names cv) -> nsim X s t -> cval_match t v cv = cval_match s v cv.
  Proof.
    intros Hf Hs. destruct cv as [e|e|e|a b]; cbn [cval_match cval_names] in *.
    1-3: rewrite (eval_nsim X s t e Hf Hs); reflexivity.
    destruct (fresh_app X _ _ Hf) as [Fa Fb]. rewrite (eval_nsim X s t a Fa Hs), (eval_nsim X s t b Fb Hs). reflexivity.
  Qed.

  Lemma clause_match_nsim s t v : forall cvs,
    fresh X (flat_map cval_names cvs) -> nsim X s t -> clause_match t v cvs = clause_match s v cvs.
  Proof.
    induction cvs as [|cv r IH]; intros Hf Hs; [reflexivity|]. cbn [clause_match flat_map] in *.
    destruct (fresh_app X _ _ Hf) as [Fc Fr]. rewrite (cval_match_nsim s t v cv Fc Hs), (IH Fr Hs). reflexivity.
  Qed.

  (* a source block and its lowering *)
  Definition orel (r : option (list sstmt)) (r' : option (list stmt)) : Prop :=
    match r, r' with
    | Some b, Some b' => lower md dc b = Some b' /\ forallb wf b = true
    | None, None => True
    | _, _ => False
    end.

  Lemma pick_lower s t v : forall cls cls' r,
    lower_clauses md dc cls = Some cls' -> forallb wf_clause cls = true -> nsim X s t ->
    pick s v (nondefault cls) = Some r ->
    exists r', pick t v (nondefault cls') = Some r' /\ orel r r'.
  Proof.
    induction cls as [|[o b] rest IH]; intros cls' r Hl Hw Hs Hp.
    - cbn in Hl. inversion Hl; subst. cbn in Hp. inversion Hp; subst. exists None. split; [reflexivity|exact I].
    - cbn [lower_clauses] in Hl. destruct (lower md dc b) as [b'|] eqn:Eb; [|discriminate].
      destruct (lower_clauses md dc rest) as [rest'|] eqn:Er; [|discriminate]. inversion Hl; subst cls'.
      cbn [forallb] in Hw. apply andb_true_iff in Hw as [Hc Hr].
      destruct o as [cvs|].
      + cbn [wf_clause] in Hc. apply andb_true_iff in Hc as [Hfc Hwb]. apply freshb_spec in Hfc.
        cbn [nondefault pick] in *. rewrite (clause_match_nsim s t v cvs Hfc Hs).
        destruct (clause_match s v cvs) as [[|]|]; try discriminate.
        * destruct (pick s v (nondefault rest)) as [r0|] eqn:Ep; [|discriminate]. inversion Hp; subst r.
          destruct (IH _ _ eq_refl Hr Hs eq_refl) as [r0' [Ep' _]]. rewrite Ep'.
          exists (Some b'). split; [reflexivity|]. split; assumption.
        * destruct (pick s v (nondefault rest)) as [r0|] eqn:Ep; [|discriminate]. inversion Hp; subst r.
          destruct (IH _ _ eq_refl Hr Hs eq_refl) as [r0' [Ep' Ho]]. rewrite Ep'.
          exists r0'. split; [reflexivity|exact Ho].
      + cbn [nondefault] in *. apply (IH _ _ eq_refl Hr Hs Hp).
  Qed.

  Lemma default_lower : forall cls cls',
    lower_clauses md dc cls = Some cls' -> forallb wf_clause cls = true ->
    orel (default_of cls) (default_of cls').
  Proof.
    induction cls as [|[o b] rest IH]; intros cls' Hl Hw.
    - cbn in Hl. inversion Hl; subst. exact I.
    - cbn [lower_clauses] in Hl. destruct (lower md dc b) as [b'|] eqn:Eb; [|discriminate].
      destruct (lower_clauses md dc rest) as [rest'|] eqn:Er; [|discriminate]. inversion Hl; subst cls'.
      cbn [forallb] in Hw. apply andb_true_iff in Hw as [Hc Hr].
      specialize (IH _ eq_refl Hr). destruct o as [cvs|]; cbn [default_of]; [exact IH|].
      cbn [wf_clause] in Hc. unfold orel in IH.
      destruct (default_of rest) as [d|], (default_of rest') as [d'|]; try contradiction; [exact IH|].
      split; assumption.
  Qed.

  Lemma select_sim f sel cls cls' s t s1 tr c :
    simulates f -> lower_clauses md dc cls = Some cls' ->
    fresh X (enames sel) -> forallb wf_clause cls = true -> nsim X s t -> dcb_ok s ->
    select_sem (fun b st => sexec f b st) [] sel cls s = Ok s1 tr c ->
    exists f' t1 tr', exec f' (lower_select sel cls') t = Ok t1 tr' c /\ nsim X s1 t1 /\ bnd s1 = bnd s.
  Proof.
    intros IH Ec Hsel Hwc Hs Hd H. unfold select_sem in H.
    destruct (eval s sel) as [v|] eqn:Ev; [|discriminate].
    destruct (pick s v (nondefault cls)) as [r|] eqn:Ep; [|discriminate].
    destruct (pick_lower s t v _ _ _ Ec Hwc Hs Ep) as [r' [Ep' Hor]].
    pose proof (default_lower _ _ Ec Hwc) as Hod.
    (* the block that runs, and its lowering *)
    set (bsrc := match r with Some b => b | None => match default_of cls with Some b => b | None => [] end end).
    set (dflt' := match default_of cls' with Some b => b | None => [] end).
    assert (Hrun : exists tr0, sexec f bsrc s = Ok s1 tr0 c).
    { unfold bsrc. destruct r as [b|]; apply prepend_ok_inv in H as [tr0 [H _]]; eauto. }
    destruct Hrun as [tr0 Hrun].
    assert (Hlow : lower md dc bsrc = Some (match r' with Some b => b | None => dflt' end) /\ forallb wf bsrc = true).
    { unfold bsrc, dflt', orel in *. destruct r as [b|], r' as [b'|]; try contradiction; [exact Hor|].
      destruct (default_of cls) as [d|], (default_of cls') as [d'|]; try contradiction; [exact Hod|].
      split; reflexivity. }
    destruct Hlow as [Hlow Hwb].
    destruct (IH _ _ _ _ _ _ _ Hlow Hwb Hs Hd Hrun) as [f0 [t1 [tr' [E0 [Hs1 Hb1]]]]].
    assert (Evt : eval t sel = Some v) by (rewrite (eval_nsim X s t sel Hsel Hs); exact Ev).
    destruct (if_chain_exec sel dflt' t v _ _ _ _ _ _ Evt Ep' E0) as [f' [tr'' [E' _]]].
    exists f', t1, tr''. split; [exact E'|split; [exact Hs1|exact Hb1]].
  Qed.

  (* the WHERE theorem, from a store that differs from the source's on X *)
  Lemma where_sim w ss s t s1 :
    lower_where md dc w = Lowered ss -> safe_where w = true -> In (wx w) X -> fresh X (wnames_all w) ->
    nsim X s t -> dcb_ok s -> where_sem w s = Some s1 ->
    exists f t1 tr, exec f ss t = Ok t1 tr CNormal /\ nsim X s1 t1 /\ bnd s1 = bnd s.
  Proof.
    intros Elw Hsafe Hin Hfr Hs Hd Ew.
    destruct (where_sem_nsim X w s t s1 Hsafe Hfr Hs Ew) as [t1s [Et [Hb1 Hv1]]]. destruct Hs as [Hb Hv].
    assert (Hdc : forall a0, wfirst (wmask w) = Some a0 -> dc_ok md dc t a0).
    { intros a0 _. unfold dc_ok. destruct (dc a0) as [[lb ub]|] eqn:Ed; [|exact I]. rewrite Hb. apply Hd, Ed. }
    destruct (lower_where_sound_partial_ md dc w t t1s ss Hsafe Hdc Et Elw) as [f0 [t'' [tr [E0 [Hb'' [Hv'' _]]]]]].
    exists f0, t'', tr. split; [exact E0|].
    pose proof (exec_bnd _ _ _ _ _ _ E0) as Hbt.
    split; [split; [congruence|]|congruence].
    intros l Nl. rewrite Hv''; [apply Hv1, Nl|]. intro E. apply Nl. rewrite E. exact Hin.
  Qed.

  Lemma head_sim f st q1 s t s1 tr1 c1 :
    simulates f -> lower_stmt md dc st = Some q1 -> wf st = true -> nsim X s t -> dcb_ok s ->
    shead f st s = Ok s1 tr1 c1 ->
    exists f1 t1 tr1', exec f1 q1 t = Ok t1 tr1' c1 /\ nsim X s1 t1 /\ bnd s1 = bnd s.
  Proof.
    intros IH Hl Hw Hs Hd H.
    destruct st as [x ix e|c th el|x lo hi st0 body| | | |sel cls|w].
    4-6: (* EXIT, CYCLE, RETURN *)
      cbn in Hl, H; inversion Hl; inversion H; subst; exists 2%nat, t, [];
      (split; [reflexivity|split; [exact Hs|reflexivity]]).
    - (* assignment *)
      cbn [lower_stmt] in Hl. inversion Hl; subst q1. cbn [wf] in Hw.
      apply andb_true_iff in Hw as [Hw He]. apply andb_true_iff in Hw as [_ Hix].
      apply freshb_spec in He, Hix. cbn [shead] in H.
      destruct (opt_all (map (eval s) ix)) as [vs|] eqn:Ei; [|discriminate].
      destruct (eval s e) as [v|] eqn:Ee; [|discriminate]. inversion H; subst.
      exists 2%nat. eexists. eexists. split; [|split; [apply nsim_upd, Hs|reflexivity]].
      apply exec_assign; [rewrite (evals_nsim X s t ix Hix Hs); exact Ei|rewrite (eval_nsim X s t e He Hs); exact Ee].
    - (* IF *)
      rewrite lower_stmt_if in Hl.
      destruct (lower md dc th) as [a|] eqn:Ea; [|discriminate].
      destruct (lower md dc el) as [b|] eqn:Eb; [|discriminate]. inversion Hl; subst q1.
      cbn [wf] in Hw. apply andb_true_iff in Hw as [Hw Hwe]. apply andb_true_iff in Hw as [Hc Hwt].
      apply freshb_spec in Hc. cbn [shead] in H.
      destruct (eval s c) as [v|] eqn:Ec; [|discriminate].
      apply prepend_ok_inv in H as [tr0 [H _]].
      assert (Hbr : exists f0 t1 tr', exec f0 (if v =? 0 then b else a) t = Ok t1 tr' c1 /\ nsim X s1 t1 /\ bnd s1 = bnd s).
      { destruct (v =? 0); [apply (IH _ _ _ _ _ _ _ Eb Hwe Hs Hd H)|apply (IH _ _ _ _ _ _ _ Ea Hwt Hs Hd H)]. }
      destruct Hbr as [f0 [t1 [tr' [E0 [Hs1 Hb1]]]]].
      exists (S (S f0)). eexists. eexists. split; [|split; [exact Hs1|exact Hb1]].
      rewrite (exec_if _ _ _ _ _ v); [|rewrite (eval_nsim X s t c Hc Hs); exact Ec].
      rewrite (exec_mono f0 (S f0) _ _ _ E0); [reflexivity|discriminate|lia].
    - (* DO *)
      rewrite lower_stmt_do in Hl. destruct (lower md dc body) as [b|] eqn:Eb; [|discriminate]. inversion Hl; subst q1.
      cbn [wf] in Hw. apply andb_true_iff in Hw as [Hw Hwb]. apply andb_true_iff in Hw as [Hw Hst].
      apply andb_true_iff in Hw as [Hw Hhi]. apply andb_true_iff in Hw as [_ Hlo].
      apply freshb_spec in Hlo, Hhi, Hst. cbn [shead] in H.
      destruct (eval s lo) as [l|] eqn:El; [|discriminate].
      destruct (eval s hi) as [h|] eqn:Eh; [|discriminate].
      destruct (eval s (dstep st0)) as [stp|] eqn:Es; [|discriminate].
      destruct (stp =? 0) eqn:Ez; [discriminate|]. apply Z.eqb_neq in Ez.
      apply prepend_ok_inv in H as [tr0 [H _]].
      destruct (do_sim f body b x l stp IH Eb Hwb _ _ _ _ _ _ _ Hs Hd H) as [f' [t1 [tr' [E1 [Hs1 Hb1]]]]].
      exists (S (S f')). eexists. eexists. split; [|split; [exact Hs1|exact Hb1]].
      rewrite (exec_do f' x lo hi (dstep st0) b t l h stp); try assumption.
      + rewrite (do_loop_mono_exec f' (S f') _ _ _ _ _ _ _ _ E1); [reflexivity|discriminate|lia].
      + rewrite (eval_nsim X s t lo Hlo Hs); exact El.
      + rewrite (eval_nsim X s t hi Hhi Hs); exact Eh.
      + rewrite (eval_nsim X s t _ Hst Hs); exact Es.
    - (* SELECT CASE *)
      rewrite lower_stmt_select in Hl. destruct (lower_clauses md dc cls) as [cls'|] eqn:Ec; [|discriminate].
      inversion Hl; subst q1. rewrite wf_select in Hw. apply andb_true_iff in Hw as [Hsel Hwc].
      apply freshb_spec in Hsel. exact (select_sim f sel cls cls' s t s1 tr1 c1 IH Ec Hsel Hwc Hs Hd H).
    - (* WHERE *)
      cbn [lower_stmt] in Hl. destruct (lower_where md dc w) as [| |ss] eqn:Elw; try discriminate.
      inversion Hl; subst q1. cbn [wf] in Hw. apply andb_true_iff in Hw as [Hw Hfr].
      apply andb_true_iff in Hw as [Hsafe Hin]. apply WhereLocal2.in_b_spec in Hin. apply freshb_spec in Hfr.
      cbn [shead] in H. destruct (where_sem w s) as [s1'|] eqn:Ew; [|discriminate]. inversion H; subst.
      exact (where_sim w ss s t s1 Elw Hsafe Hin Hfr Hs Hd Ew).
  Qed.

  Theorem sim_exec : forall f, simulates f.
  Proof.
    induction f as [|f IH]; intros p q s t s' tr c Hl Hw Hs Hd H; [discriminate|].
    destruct p as [|st rest].
    - cbn in Hl, H. inversion Hl; inversion H; subst. exists 1%nat, t, []. split; [reflexivity|split; [exact Hs|reflexivity]].
    - cbn [lower] in Hl. destruct (lower_stmt md dc st) as [q1|] eqn:E1; [|discriminate].
      destruct (lower md dc rest) as [q2|] eqn:E2; [|discriminate]. cbn [oapp] in Hl. inversion Hl; subst q.
      cbn [forallb] in Hw. apply andb_true_iff in Hw as [Hw1 Hw2].
      rewrite sexec_cons in H. cbv zeta in H.
      destruct (shead f st s) as [s1 tr1 c1| |] eqn:Eh; try discriminate.
      destruct (head_sim f st q1 s t s1 tr1 c1 IH E1 Hw1 Hs Hd Eh) as [f1 [t1 [tr1' [X1 [Hs1 Hb1]]]]].
      destruct c1.
      2-4: (* the head leaves the sequence *)
        inversion H; subst; exists f1; eexists; eexists;
        (split; [apply exec_app_abrupt; [exact X1|discriminate]|auto]).
      apply prepend_ok_inv in H as [tr0 [H _]].
      destruct (IH _ _ _ _ _ _ _ E2 Hw2 Hs1 (dcb_bnd _ _ Hb1 Hd) H) as [f2 [t' [tr' [X2 [Hs' Hb']]]]].
      exists (f1 + f2)%nat. eexists. eexists. split; [apply (exec_app_ok _ _ _ _ _ _ _ _ _ _ X1 X2)|].
      split; [exact Hs'|congruence].
  Qed.
End Prog.

(* non-vacuity: a SELECT CASE (CASE DEFAULT first) inside a DO without step inside an IF, followed by a
   WHERE / ELSEWHERE over arrays with lower bounds -1 and 1 whose right-hand side reads the scalar the
   loop computed.  n = 3: m = 10, 11, 21; a = 5 -3 0 2  =>  b = 26 0 0 23 *)
Definition pe_a : name := 0%nat.  Definition pe_b : name := 1%nat.  Definition pe_n : name := 3%nat.
Definition pe_m : name := 4%nat.  Definition pe_i : name := 5%nat.  Definition pe_x : name := 9%nat.
Definition pe_prog : list sstmt :=
  [ TIf (EBin Gt (EVar pe_n) (ELit 0))
        [ TDo pe_i (ELit 1) (EVar pe_n) None
              [ TSelect (EVar pe_i)
                        [ (None, [TAssign pe_m [] (EBin Add (EVar pe_m) (ELit 10))]);
                          (Some [CVal (ELit 2)], [TAssign pe_m [] (EBin Add (EVar pe_m) (ELit 1))]) ] ] ]
        [];
    TWhere (mkW pe_x (WBin Gt (WArr pe_a) (WScal (ELit 0)))
                [WAssign pe_b (WBin Add (WArr pe_a) (WScal (EVar pe_m)))]
                [(None, [WAssign pe_b (WScal (ELit 0))])]) ].
Definition pe_store : store :=
  store_of [((pe_n, []), 3); ((pe_a, [-1]), 5); ((pe_a, [0]), -3); ((pe_a, [1]), 0); ((pe_a, [2]), 2);
            ((pe_b, [1]), 7); ((pe_b, [2]), 7); ((pe_b, [3]), 7); ((pe_b, [4]), 7)]
           [(pe_a, [(-1, 2)]); (pe_b, [(1, 4)])].
Definition pe_check : bool :=
  match lower Today (fun _ => None) pe_prog with
  | Some q =>
      match sexec 40 pe_prog pe_store, exec 80 q pe_store with
      | Ok s1 _ CNormal, Ok t1 _ CNormal =>
          zlist_eqb (map (fun k => val s1 (pe_b, [k])) [1; 2; 3; 4]) [26; 0; 0; 23] &&
          zlist_eqb (map (fun k => val t1 (pe_b, [k])) [1; 2; 3; 4]) [26; 0; 0; 23] &&
          (val s1 (pe_m, []) =? 21) && (val t1 (pe_m, []) =? 21) &&
          (val s1 (pe_x, []) =? 0) && (val t1 (pe_x, []) =? 5)
      | _, _ => false
      end
  | None => false
  end.

Example program_example :
  forallb (wf [pe_x]) pe_prog = true /\ dcb_ok Today (fun _ => None) pe_store /\ pe_check = true.
Proof. split; [vm_compute; reflexivity|]. split; [intros a lb ub E; discriminate|vm_compute; reflexivity]. Qed.
