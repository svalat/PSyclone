(* C01 -- strided sections in a 1-D WHERE: the statement for coq/Properties/C01.v (stated here because
   Model2 re-uses the names of Model.v), the witness against the pre-fix index and a non-vacuity example. *)
From Coq Require Import List ZArith Bool.
Import ListNotations.
From PV Require Import Fort.Syntax Fort.Sem Fort.Facts C01.Model2 C01.WhereLocal2 C01.WhereExec2.
Open Scope Z_scope.

(* FULL statement (false of the reader before b189692, see C01_lower_where_strided_refuted: with the
   stride dropped from the index, a(2 + widx - 1), no run of the lowered code of [wS false] gives the
   source value of b(2), which is 4; the loop stores a(3) = 3); proved (WhereExec2.v) under
   [safe_where], which for a strided operand a(lo:hi:st) demands: a is not assigned in the construct,
   a is not the loop variable, and the index is the repaired one (fx = true) or the stride is 1.
   Modelled: strided sections as read-only operands with literal bounds / stride; the loop is sized
   from the first FULL-RANGE section of the mask. *)
Definition strided_sound_stmt : Prop :=
  forall md dc w s s' ss,
    safe_where w = true ->
    (forall a0, wfirst (wmask w) = Some a0 -> dc_ok md dc s a0) ->
    where_sem w s = Some s' ->
    lower_where md dc w = Lowered ss ->
    exists f s'' tr,
      exec f ss s = Ok s'' tr CNormal /\ bnd s'' = bnd s' /\
      (forall c, fst c <> wx w -> val s'' c = val s' c) /\ outputs tr = [].

Definition differs (md : mode) (dc : decls) (w : wconstruct) (s : store) (c : loc) (fuel : nat) : bool :=
  match where_sem w s, lower_where md dc w with
  | Some s', Lowered ss =>
      match exec fuel ss s with Ok s'' _ _ => negb (val s'' c =? val s' c) | _ => false end
  | _, _ => false
  end.

(* a terminating run that ends with another value in [c]: by determinism of [exec], NO run of [ss]
   (whatever the fuel) ends with the value [v] in [c] *)
Lemma no_run_gives ss s c v fuel :
  match exec fuel ss s with Ok s'' _ _ => negb (val s'' c =? v) | _ => false end = true ->
  ~ (exists f s'' tr ctl, exec f ss s = Ok s'' tr ctl /\ val s'' c = v).
Proof.
  destruct (exec fuel ss s) as [s0 tr0 c0| |] eqn:E; try discriminate.
  intros H [f [s'' [tr [ctl [E2 Hv]]]]]. apply negb_true_iff, Z.eqb_neq in H.
  assert (E3 : Ok s0 tr0 c0 = Ok s'' tr ctl) by (eapply exec_det; [exact E|exact E2|discriminate|discriminate]).
  inversion E3; subst. contradiction.
Qed.

Lemma differs_spec md dc w s c fuel :
  differs md dc w s c fuel = true ->
  exists s' ss, where_sem w s = Some s' /\ lower_where md dc w = Lowered ss /\
    ~ (exists f s'' tr ctl, exec f ss s = Ok s'' tr ctl /\ val s'' c = val s' c).
Proof.
  unfold differs. destruct (where_sem w s) as [s'|]; [|discriminate].
  destruct (lower_where md dc w) as [| |ss]; try discriminate.
  intro H. exists s', ss. split; [reflexivity|]. split; [reflexivity|exact (no_run_gives _ _ _ _ _ H)].
Qed.

(* integer :: a(10) = 1..10, b(5) = 0 ;   WHERE (b(:) >= 0) b(:) = a(2:10:2)      (Fortran: b = 2 4 6 8 10) *)
Definition sA : name := 0%nat.  Definition sB : name := 1%nat.  Definition sX : name := 9%nat.
Definition wS (fx : bool) : wconstruct :=
  mkW sX (WBin Ge (WArr sB) (WScal (ELit 0))) [WAssign sB (WSec fx sA 2 10 2)] [].
Definition sS : store :=
  store_of [((sA, [1]), 1); ((sA, [2]), 2); ((sA, [3]), 3); ((sA, [4]), 4); ((sA, [5]), 5);
            ((sA, [6]), 6); ((sA, [7]), 7); ((sA, [8]), 8); ((sA, [9]), 9); ((sA, [10]), 10)]
           [(sA, [(1, 10)]); (sB, [(1, 5)])].

(* non-vacuity of [strided_sound_stmt]: the repaired construct is safe, its lowering is the expected loop, and
   source meaning and lowered run both give b = 2 4 6 8 10 *)
Definition strided_check : bool :=
  match where_sem (wS true) sS, lower_where Today (fun _ => None) (wS true) with
  | Some s', Lowered ss =>
      match exec 100 ss sS with
      | Ok s'' _ CNormal =>
          zlist_eqb (map (fun i => val s' (sB, [i])) [1; 2; 3; 4; 5]) [2; 4; 6; 8; 10] &&
          zlist_eqb (map (fun i => val s'' (sB, [i])) [1; 2; 3; 4; 5]) [2; 4; 6; 8; 10]
      | _ => false
      end
  | _, _ => false
  end.

Example strided_example :
  safe_where (wS true) = true /\
  (forall a0, wfirst (wmask (wS true)) = Some a0 -> dc_ok Today (fun _ => None) sS a0) /\
  lower_where Today (fun _ => None) (wS true) =
    Lowered [SDo sX (ELit 1) (EIntr ISize [EVar sB; ELit 1]) (ELit 1)
               [SIf (EBin Ge (EIdx sB [idx_of sB sX]) (ELit 0))
                    [SAssign sB [idx_of sB sX]
                       (EIdx sA [EBin Add (ELit 2) (EBin Mul (EBin Sub (EVar sX) (ELit 1)) (ELit 2))])] []]] /\
  strided_check = true.
Proof.
  split; [vm_compute; reflexivity|]. split; [intros a0 _; exact I|]. split; [reflexivity|vm_compute; reflexivity].
Qed.
