(* C01 -- WHERE over the expression type of Model2.v: the loop nest produced by the reader, executed by
   the MiniFortran semantics (Fort.Sem.exec), computes the element-major function [pm] of WhereLocal2.v;
   with [rows_pm] this gives [lower_where_sound_partial_]. *)
From Coq Require Import List ZArith Bool Lia.
Import ListNotations.
From PV Require Import Fort.Syntax Fort.Sem Fort.Facts Fort.Facts3 C01.Model2 C01.WhereLocal2.
Open Scope Z_scope.

Definition item_names (it : witem) : list name :=
  match it with WAssign a _ => [a] | WNest _ _ body => map fst body end.
Definition wassigned (w : wconstruct) : list name :=
  flat_map (fun cl => flat_map item_names (snd cl)) (wclauses w).

(* the sufficient condition of the theorem: no nested WHERE, no reduction, only elemental
   intrinsics; scalar sub-expressions mention neither an assigned array nor the loop variable; the
   loop variable is none of the arrays; a strided section reads an array that is not assigned, through
   the repaired index or with stride 1 *)
Definition safe_where (w : wconstruct) : bool :=
  notin_b (wx w) (wassigned w) && safe_clauses (wassigned w) (wx w) (wclauses w).

(* what the reader knows about the mask array is true of the store, and the trip count it derives
   from the declaration is right: always for SIZE, for declared bounds only if the lower bound is 1
   (or with the repaired bound expression) *)
Definition dc_ok (md : mode) (dc : decls) (s : store) (a0 : name) : Prop :=
  match dc a0 with
  | None => True
  | Some (lb, ub) => bnd s a0 = [(lb, ub)] /\ (md = Fixed \/ lb = 1)
  end.

Lemma ub_eval md dc s a0 l u :
  bnd s a0 = [(l, u)] -> dc_ok md dc s a0 ->
  exists h, eval s (ub_expr md dc a0) = Some h /\ Z.to_nat (Z.max 0 h) = Z.to_nat (Z.max 0 (u - l + 1)).
Proof.
  intros Eb Hd. unfold dc_ok, ub_expr in *. destruct (dc a0) as [[lb ub]|].
  - destruct Hd as [Eb' Hm]. rewrite Eb in Eb'. inversion Eb'; subst lb ub.
    destruct md.
    + destruct Hm as [Hm|Hm]; [discriminate|]. subst l. exists u. split; [reflexivity|]. f_equal. lia.
    + destruct (l =? 1) eqn:E.
      * apply Z.eqb_eq in E. subst l. exists u. split; [reflexivity|]. f_equal. lia.
      * exists (u - l + 1). split; [reflexivity|reflexivity].
  - exists (Z.max 0 (u - l + 1)). split.
    + cbn. unfold dim_of. cbn. rewrite Eb. reflexivity.
    + f_equal. lia.
Qed.

Lemma eval_intr_args s f a1 a2 vs : is_inquiry f = false -> eval_intr s f a1 vs = eval_intr s f a2 vs.
Proof. destruct f; cbn; intro H; try discriminate; reflexivity. Qed.

Section Exec.
  Variable W : list name.
  Variable x : name.
  Variable n : nat.
  Variables (md : mode) (dc : decls).

  Lemma lbound_eval t a l u rest :
    bnd t a = (l, u) :: rest -> eval t (EIntr ILbound [EVar a; ELit 1]) = Some l.
  Proof. intro Eb. cbn. unfold dim_of. cbn. rewrite Eb. reflexivity. Qed.

  Lemma idx_eval t a l u rest k :
    bnd t a = (l, u) :: rest -> val t (x, []) = 1 + k * 1 -> eval t (idx_of a x) = Some (l + k).
  Proof.
    intros Eb Hx. unfold idx_of.
    (* one step of [eval] at the two binary operators only: [cbn] would also open the LBOUND call *)
    change (eval t (EBin Sub (EBin Add (EIntr ILbound [EVar a; ELit 1]) (EVar x)) (ELit 1)))
      with (match (match eval t (EIntr ILbound [EVar a; ELit 1]), Some (val t (x, [])) with
                   | Some a0, Some b => eval_bin Add a0 b | _, _ => None end), Some 1 with
            | Some a0, Some b => eval_bin Sub a0 b | _, _ => None end).
    rewrite (lbound_eval t a l u rest Eb). cbn [eval_bin]. rewrite Hx. f_equal. lia.
  Qed.

  Lemma low_eval t k : val t (x, []) = 1 + k * 1 -> forall e e' v,
    safe_e W x e = true -> to_expr (index_w x e) = Some e' -> weval t n k e = Some v -> eval t e' = Some v.
  Proof.
    intros Hx. induction e as [e0|a|fx a lo hi st|o e1 IH|o l IHl r IHr|f e1 IH|f l IHl r IHr|rd e1 IH];
      intros e' v Hs Ht Hw; cbn [safe_e index_w to_expr weval] in *.
    - inversion Ht; subst. exact Hw.
    - inversion Ht; subst. destruct (bnd t a) as [|[l0 u0] [|? ?]] eqn:Eb; try discriminate.
      inversion Hw; subst. cbn [eval map opt_all]. rewrite (idx_eval t a l0 u0 [] k Eb Hx). reflexivity.
    - (* strided section: the index expression evaluates to lo + k * st *)
      apply andb_true_iff in Hs as [_ Hfx]. inversion Ht; subst e'. inversion Hw; subst v.
      destruct (fx && negb (st =? 1)) eqn:Efx.
      + cbn [eval map opt_all eval_bin]. rewrite Hx.
        replace (1 + k * 1 - 1) with k by lia. reflexivity.
      + assert (Est : st = 1).
        { destruct (st =? 1) eqn:E1; [apply Z.eqb_eq, E1|]. destruct fx; cbn in Efx, Hfx; discriminate. }
        subst st. destruct (lo =? 1) eqn:El.
        * apply Z.eqb_eq in El. subst lo. cbn [eval map opt_all]. rewrite Hx. reflexivity.
        * cbn [eval map opt_all eval_bin]. rewrite Hx.
          replace (lo + (1 + k * 1) - 1) with (lo + k * 1) by lia. reflexivity.
    - destruct (to_expr (index_w x e1)) as [e1'|]; [|discriminate]. inversion Ht; subst.
      destruct (weval t n k e1) as [v1|]; [|discriminate]. inversion Hw; subst.
      cbn [eval]. rewrite (IH _ _ Hs eq_refl eq_refl). reflexivity.
    - apply andb_true_iff in Hs as [Hl Hr].
      destruct (to_expr (index_w x l)) as [l'|]; [|discriminate].
      destruct (to_expr (index_w x r)) as [r'|]; [|discriminate]. inversion Ht; subst.
      destruct (weval t n k l) as [vl|]; [|discriminate].
      destruct (weval t n k r) as [vr|]; [|discriminate].
      cbn [eval]. rewrite (IHl _ _ Hl eq_refl eq_refl), (IHr _ _ Hr eq_refl eq_refl). exact Hw.
    - apply andb_true_iff in Hs as [Hf Hs]. apply negb_true_iff in Hf.
      destruct (to_expr (index_w x e1)) as [e1'|]; [|discriminate]. inversion Ht; subst.
      destruct (weval t n k e1) as [v1|]; [|discriminate].
      cbn [eval]. rewrite Hf. cbn [map opt_all]. rewrite (IH _ _ Hs eq_refl eq_refl).
      rewrite <- Hw. apply eval_intr_args. exact Hf.
    - apply andb_true_iff in Hs as [Hs Hr]. apply andb_true_iff in Hs as [Hf Hl]. apply negb_true_iff in Hf.
      destruct (to_expr (index_w x l)) as [l'|]; [|discriminate].
      destruct (to_expr (index_w x r)) as [r'|]; [|discriminate]. inversion Ht; subst.
      destruct (weval t n k l) as [vl|]; [|discriminate].
      destruct (weval t n k r) as [vr|]; [|discriminate].
      cbn [eval]. rewrite Hf. cbn [map opt_all].
      rewrite (IHl _ _ Hl eq_refl eq_refl), (IHr _ _ Hr eq_refl eq_refl).
      rewrite <- Hw. apply eval_intr_args. exact Hf.
    - discriminate.
  Qed.

  Lemma exec_items k : forall items ss t u,
    safe_items W x items = true -> lower_items md dc x items = Some ss ->
    val t (x, []) = 1 + k * 1 -> items_at n t k items = Some u ->
    exists f tr, exec f ss t = Ok u tr CNormal /\ outputs tr = [].
  Proof.
    induction items as [|it r IH]; intros ss t u Hs Hl Hx H.
    - cbn in Hl, H. inversion Hl; inversion H; subst. exists 1%nat, []. split; reflexivity.
    - destruct (safe_items_cons W x _ _ Hs) as (a & rhs & -> & Ia & He & Hr).
      cbn [lower_items] in Hl. unfold lower_wexpr in Hl.
      destruct (to_expr (index_w x rhs)) as [e|] eqn:Ee; [|discriminate].
      destruct (lower_items md dc x r) as [ss'|] eqn:Er; [|discriminate]. inversion Hl; subst ss.
      cbn [items_at] in H.
      destruct (bnd t a) as [|[l0 u0] [|? ?]] eqn:Eb; try discriminate.
      destruct (weval t n k rhs) as [v|] eqn:Ev; [|discriminate].
      assert (Hx' : val (upd t (a, [l0 + k]) v) (x, []) = 1 + k * 1).
      { rewrite val_upd_other; [exact Hx|]. intro E. inversion E. }
      destruct (IH _ _ _ Hr eq_refl Hx' H) as [f2 [tr2 [E2 O2]]].
      pose proof (low_eval t k Hx rhs e v He Ee Ev) as Hev.
      assert (Hix : opt_all (map (eval t) [idx_of a x]) = Some [l0 + k]).
      { cbn [map opt_all]. rewrite (idx_eval t a l0 u0 [] k Eb Hx). reflexivity. }
      pose proof (exec_assign 0 a [idx_of a x] e t [l0 + k] v Hix Hev) as E1.
      exists (2 + f2)%nat. eexists. split.
      + apply (exec_cons_ok 2 f2 _ _ _ _ _ _ _ _ E1 E2).
      + rewrite outputs_app, O2, outputs_app, outputs_rds. reflexivity.
  Qed.

  Lemma exec_chain k : forall cls ss t u,
    safe_clauses W x cls = true -> lower_chain md dc x cls = Some ss ->
    val t (x, []) = 1 + k * 1 -> chain_at n t k cls = Some u ->
    exists f tr, exec f ss t = Ok u tr CNormal /\ outputs tr = [].
  Proof.
    induction cls as [|[[m|] body] rest IH]; intros ss t u Hs Hl Hx H.
    - cbn in Hl, H. inversion Hl; inversion H; subst. exists 1%nat, []. split; reflexivity.
    - destruct (safe_clauses_some W x _ _ _ Hs) as (Hm & Hbd & Hr).
      cbn [lower_chain] in Hl. unfold lower_wexpr in Hl.
      destruct (to_expr (index_w x m)) as [c|] eqn:Ec; [|discriminate].
      destruct (lower_items md dc x body) as [th|] eqn:Eth; [|discriminate].
      destruct (lower_chain md dc x rest) as [el|] eqn:Eel; [|discriminate]. inversion Hl; subst ss.
      cbn [chain_at] in H. destruct (weval t n k m) as [v|] eqn:Ev; [|discriminate].
      pose proof (low_eval t k Hx m c v Hm Ec Ev) as Hev.
      assert (Hbr : exists f0 tr0, exec f0 (if v =? 0 then el else th) t = Ok u tr0 CNormal /\ outputs tr0 = []).
      { destruct (v =? 0); [apply (IH _ _ _ Hr eq_refl Hx H)|apply (exec_items k _ _ _ _ Hbd Eth Hx H)]. }
      destruct Hbr as [f0 [tr0 [E0 O0]]].
      exists (S (S f0)). eexists. split.
      + rewrite (exec_if _ _ _ _ _ _ Hev). rewrite (exec_mono f0 (S f0) _ _ _ E0); [reflexivity|discriminate|lia].
      + rewrite outputs_app, outputs_rds, O0. reflexivity.
    - destruct (safe_clauses_none W x _ _ Hs) as (Hc & Hr).
      cbn [lower_chain] in Hl. cbn [chain_at] in H. apply (exec_items k _ _ _ _ Hc Hl Hx H).
  Qed.

  Variable cls : list (option wexpr * list witem).
  Hypothesis Hsafe : safe_clauses W x cls = true.
  Variable body : list stmt.
  Hypothesis Hlow : lower_chain md dc x cls = Some body.

  (* the DO loop over widx = 1 .. computes [pm] and leaves widx at its exit value *)
  Lemma exec_loop : forall m k s p,
    pm x n cls s k m = Some p ->
    exists f tr, do_loop (exec f body) x 1 1 m k s = Ok (upd p (x, []) (1 + (k + Z.of_nat m) * 1)) tr CNormal
                 /\ outputs tr = [].
  Proof.
    induction m as [|m IH]; intros k s p H.
    - cbn in H. inversion H; subst. exists 0%nat, [Wr (x, [])]. split; [|reflexivity].
      rewrite do_loop_0. cbn [Z.of_nat]. rewrite Z.add_0_r. reflexivity.
    - cbn [pm] in H.
      destruct (chain_at n (upd s (x, []) (1 + k * 1)) k cls) as [s1|] eqn:Ec; [|discriminate].
      destruct (exec_chain k _ _ _ _ Hsafe Hlow (val_upd_same s (x, []) (1 + k * 1)) Ec) as [f1 [tr1 [E1 O1]]].
      destruct (IH _ _ _ H) as [f2 [tr2 [E2 O2]]].
      exists (Nat.max f1 f2). eexists. split.
      + rewrite (do_loop_S_normal _ _ _ _ _ _ _ s1 tr1 CNormal).
        * rewrite (do_loop_mono_exec f2 (Nat.max f1 f2) _ _ _ _ _ _ _ _ E2); [|discriminate|lia].
          cbn [prepend]. replace (k + 1 + Z.of_nat m) with (k + Z.of_nat (S m)) by lia. reflexivity.
        * apply (exec_mono f1 _ _ _ _ E1); [discriminate|lia].
        * left; reflexivity.
      + rewrite outputs_app. cbn [outputs]. rewrite O1, O2. reflexivity.
  Qed.
End Exec.

(* the property C01_lower_where_strided_sound_partial (coq/Properties/C01.v); without either hypothesis
   the statement is false of the reader (Refuted.v, Stride.v) *)
Theorem lower_where_sound_partial_ md dc w s s' ss :
  safe_where w = true ->
  (forall a0, wfirst (wmask w) = Some a0 -> dc_ok md dc s a0) ->
  where_sem w s = Some s' ->
  lower_where md dc w = Lowered ss ->
  exists f s'' tr,
    exec f ss s = Ok s'' tr CNormal /\ bnd s'' = bnd s' /\
    (forall c, fst c <> wx w -> val s'' c = val s' c) /\ outputs tr = [].
Proof.
  intros Hsafe Hdc Hsem Hlow. unfold safe_where in Hsafe. apply andb_true_iff in Hsafe as [Hx Hs].
  apply notin_b_spec in Hx.
  unfold where_sem in Hsem. unfold lower_where in Hlow.
  destruct (wfirst (wmask w)) as [a0|] eqn:Ef; [|discriminate].
  specialize (Hdc a0 eq_refl).
  unfold extent_of in Hsem. destruct (bnd s a0) as [|[l u] [|? ?]] eqn:Eb; try discriminate.
  destruct (lower_chain md dc (wx w) (wclauses w)) as [body|] eqn:Ech; [|discriminate].
  inversion Hlow; subst ss. clear Hlow.
  set (n := Z.to_nat (Z.max 0 (u - l + 1))) in *.
  destruct (rows_pm (wassigned w) (wx w) n Hx (wclauses w) Hs s s' Hsem) as [p [Hp [Pb Pv]]].
  destruct (exec_loop (wassigned w) (wx w) n md dc (wclauses w) Hs body Ech n 0 s p Hp) as [f [tr [El Ot]]].
  destruct (ub_eval md dc s a0 l u Eb Hdc) as [h [Eh Hn]].
  exists (S (S f)). eexists. eexists. split; [|split; [|split]].
  - rewrite (exec_do f (wx w) (ELit 1) (ub_expr md dc a0) (ELit 1) body s 1 h 1 eq_refl Eh eq_refl); [|lia].
    assert (Etc : trip_count 1 h 1 = n).
    { unfold trip_count. rewrite Z.quot_1_r. replace (h - 1 + 1) with h by lia. exact Hn. }
    rewrite Etc. rewrite (do_loop_mono_exec f (S f) _ _ _ _ _ _ _ _ El); [|discriminate|lia].
    cbn [prepend]. reflexivity.
  - rewrite bnd_upd. exact Pb.
  - intros c Nc. rewrite val_upd_other; [apply Pv, Nc|]. intro E. apply Nc. rewrite E. reflexivity.
  - rewrite outputs_app, outputs_rds, Ot. reflexivity.
Qed.

(* non-vacuity: arrays with three different lower bounds, an array assigned and read in the same
   construct, ELSEWHERE (mask) and plain ELSEWHERE; the mask array has an unsupported declaration
   (negative lower bound), so the loop runs to SIZE(a, 1) *)
Definition ex_a : name := 0%nat.  Definition ex_b : name := 1%nat.  Definition ex_c : name := 2%nat.
Definition ex_n : name := 3%nat.  Definition ex_x : name := 9%nat.
Definition ex_w : wconstruct :=
  mkW ex_x (WBin Gt (WArr ex_a) (WScal (ELit 0)))
      [WAssign ex_b (WBin Add (WArr ex_a) (WArr ex_c)); WAssign ex_a (WUn Neg (WArr ex_b))]
      [(Some (WBin Lt (WArr ex_a) (WScal (EUn Neg (ELit 1)))), [WAssign ex_b (WScal (ELit 0))]);
       (None, [WAssign ex_c (WIntr2 IMax (WArr ex_c) (WScal (EVar ex_n)))])].
Definition ex_s : store :=
  store_of [((ex_a, [-2]), 5); ((ex_a, [-1]), -3); ((ex_a, [0]), 0); ((ex_a, [1]), 2);
            ((ex_b, [1]), 7); ((ex_b, [2]), 7); ((ex_b, [3]), 7); ((ex_b, [4]), 7);
            ((ex_c, [3]), 1); ((ex_c, [4]), 1); ((ex_c, [5]), 1); ((ex_c, [6]), 1); ((ex_n, []), 4)]
           [(ex_a, [(-2, 1)]); (ex_b, [(1, 4)]); (ex_c, [(3, 6)])].

Definition zlist_eqb (a b : list Z) : bool :=
  (Nat.eqb (length a) (length b)) && forallb (fun p => fst p =? snd p) (combine a b).

(* source meaning and lowered run both computed: b = 6 0 7 3, a = -6 -3 0 -3, c = 1 1 4 1 *)
Definition ex_check : bool :=
  match where_sem ex_w ex_s, lower_where Today (fun _ => None) ex_w with
  | Some s', Lowered ss =>
      match exec 60 ss ex_s with
      | Ok s'' _ CNormal =>
          zlist_eqb (map (fun i => val s' (ex_b, [i])) [1; 2; 3; 4]) [6; 0; 7; 3] &&
          zlist_eqb (map (fun i => val s' (ex_a, [i])) [-2; -1; 0; 1]) [-6; -3; 0; -3] &&
          zlist_eqb (map (fun i => val s' (ex_c, [i])) [3; 4; 5; 6]) [1; 1; 4; 1] &&
          zlist_eqb (map (fun i => val s'' (ex_b, [i])) [1; 2; 3; 4]) [6; 0; 7; 3] &&
          zlist_eqb (map (fun i => val s'' (ex_a, [i])) [-2; -1; 0; 1]) [-6; -3; 0; -3] &&
          zlist_eqb (map (fun i => val s'' (ex_c, [i])) [3; 4; 5; 6]) [1; 1; 4; 1]
      | _ => false
      end
  | _, _ => false
  end.

Example where_example :
  safe_where ex_w = true /\
  (forall a0, wfirst (wmask ex_w) = Some a0 -> dc_ok Today (fun _ => None) ex_s a0) /\
  ex_check = true.
Proof. split; [vm_compute; reflexivity|]. split; [intros a0 _; exact I|vm_compute; reflexivity]. Qed.
