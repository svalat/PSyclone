(* C01 -- the nested source language: its semantics by the Fortran rules ([sexec], built on Fort.Sem and
   on [select_sem] / [where_sem] of Model.v) with the equation for a non-empty sequence, an induction
   principle, equations for [lower_stmt], and the identity theorem: programs without SELECT CASE / WHERE
   are lowered to themselves (a missing DO step becomes the literal 1) and have the same meaning. *)
From Coq Require Import List ZArith Bool Lia.
Import ListNotations.
From PV Require Import Fort.Syntax Fort.Sem Fort.Facts C01.Model.
Open Scope Z_scope.

Definition dstep (st0 : option expr) : expr := match st0 with Some e => e | None => ELit 1 end.

Fixpoint sexec (fuel : nat) (ss : list sstmt) (s : store) : outcome :=
  match fuel with
  | O => OutOfFuel
  | S f =>
    match ss with
    | [] => Ok s [] CNormal
    | st :: rest =>
      let r1 :=
        match st with
        | TAssign x ix e =>
            match opt_all (map (eval s) ix), eval s e with
            | Some vs, Some v =>
                Ok (upd s (x, vs) v) (rds (ereads s e ++ flat_map (ereads s) ix) ++ [Wr (x, vs)]) CNormal
            | _, _ => Fault
            end
        | TIf c th el =>
            match eval s c with
            | Some v => prepend (rds (ereads s c)) (sexec f (if v =? 0 then el else th) s)
            | None => Fault
            end
        | TDo x lo hi st0 body =>
            match eval s lo, eval s hi, eval s (dstep st0) with
            | Some l, Some h, Some t =>
                if t =? 0 then Fault
                else prepend (rds (ereads s lo ++ ereads s hi ++ ereads s (dstep st0)))
                             (do_loop (sexec f body) x l t (trip_count l h t) 0 s)
            | _, _, _ => Fault
            end
        | TExit => Ok s [] CExit
        | TCycle => Ok s [] CCycle
        | TReturn => Ok s [] CReturn
        | TSelect sel cls => select_sem (fun b st => sexec f b st) [] sel cls s
        | TWhere w => match where_sem w s with Some s' => Ok s' [] CNormal | None => Fault end
        end in
      match r1 with
      | Ok s1 tr1 CNormal => prepend tr1 (sexec f rest s1)
      | other => other
      end
    end
  end.

(* the effect of the head statement (the [let r1 := ...] of [sexec]) *)
Definition shead (f : nat) (st : sstmt) (s : store) : outcome :=
  match st with
  | TAssign x ix e =>
      match opt_all (map (eval s) ix), eval s e with
      | Some vs, Some v =>
          Ok (upd s (x, vs) v) (rds (ereads s e ++ flat_map (ereads s) ix) ++ [Wr (x, vs)]) CNormal
      | _, _ => Fault
      end
  | TIf c th el =>
      match eval s c with
      | Some v => prepend (rds (ereads s c)) (sexec f (if v =? 0 then el else th) s)
      | None => Fault
      end
  | TDo x lo hi st0 body =>
      match eval s lo, eval s hi, eval s (dstep st0) with
      | Some l, Some h, Some t =>
          if t =? 0 then Fault
          else prepend (rds (ereads s lo ++ ereads s hi ++ ereads s (dstep st0)))
                       (do_loop (sexec f body) x l t (trip_count l h t) 0 s)
      | _, _, _ => Fault
      end
  | TExit => Ok s [] CExit
  | TCycle => Ok s [] CCycle
  | TReturn => Ok s [] CReturn
  | TSelect sel cls => select_sem (fun b st => sexec f b st) [] sel cls s
  | TWhere w => match where_sem w s with Some s' => Ok s' [] CNormal | None => Fault end
  end.

Lemma sexec_cons f st rest s :
  sexec (S f) (st :: rest) s =
  let r1 := shead f st s in
  match r1 with
  | Ok s1 tr1 CNormal => prepend tr1 (sexec f rest s1)
  | other => other
  end.
Proof. destruct st; reflexivity. Qed.

Section SInd.
  Variable P : sstmt -> Prop.
  Hypothesis Hassign : forall x ix e, P (TAssign x ix e).
  Hypothesis Hif : forall c th el, Forall P th -> Forall P el -> P (TIf c th el).
  Hypothesis Hdo : forall x lo hi st body, Forall P body -> P (TDo x lo hi st body).
  Hypothesis Hexit : P TExit.
  Hypothesis Hcycle : P TCycle.
  Hypothesis Hreturn : P TReturn.
  Hypothesis Hsel : forall sel cls, Forall (fun cl => Forall P (snd cl)) cls -> P (TSelect sel cls).
  Hypothesis Hwhere : forall w, P (TWhere w).
  Fixpoint sstmt_ind' (s : sstmt) : P s :=
    let go := (fix go l : Forall P l :=
                 match l with [] => Forall_nil P | x :: r => Forall_cons x (sstmt_ind' x) (go r) end) in
    match s with
    | TAssign x ix e => Hassign x ix e
    | TIf c th el => Hif c th el (go th) (go el)
    | TDo x lo hi st body => Hdo x lo hi st body (go body)
    | TExit => Hexit
    | TCycle => Hcycle
    | TReturn => Hreturn
    | TSelect sel cls =>
        Hsel sel cls
             ((fix gc (l : list (option (list cval) * list sstmt)) : Forall (fun cl => Forall P (snd cl)) l :=
                 match l with
                 | [] => Forall_nil _
                 | cl :: r =>
                     Forall_cons cl (match cl as c0 return Forall P (snd c0) with (o, b) => go b end) (gc r)
                 end) cls)
    | TWhere w => Hwhere w
    end.
End SInd.

Lemma lw_eq md dc l :
  (fix lw (l0 : list sstmt) : option (list stmt) :=
     match l0 with [] => Some [] | x :: r => oapp (lower_stmt md dc x) (lw r) end) l = lower md dc l.
Proof. induction l as [|x r IH]; [reflexivity|]. cbn [lower]. rewrite <- IH. reflexivity. Qed.

Fixpoint lower_clauses (md : mode) (dc : decls) (l : list (option (list cval) * list sstmt))
  : option (list (option (list cval) * list stmt)) :=
  match l with
  | [] => Some []
  | (o, b) :: r =>
      match lower md dc b, lower_clauses md dc r with
      | Some b', Some r' => Some ((o, b') :: r')
      | _, _ => None
      end
  end.

Lemma lower_stmt_if md dc c th el :
  lower_stmt md dc (TIf c th el) =
  match lower md dc th, lower md dc el with Some a, Some b => Some [SIf c a b] | _, _ => None end.
Proof. cbn [lower_stmt]. rewrite !lw_eq. reflexivity. Qed.

Lemma lower_stmt_do md dc x lo hi st0 body :
  lower_stmt md dc (TDo x lo hi st0 body) =
  match lower md dc body with Some b => Some [SDo x lo hi (dstep st0) b] | None => None end.
Proof. cbn [lower_stmt]. rewrite lw_eq. reflexivity. Qed.

Lemma lower_stmt_select md dc sel cls :
  lower_stmt md dc (TSelect sel cls) =
  match lower_clauses md dc cls with Some cls' => Some (lower_select sel cls') | None => None end.
Proof.
  cbn [lower_stmt].
  assert (E : forall l,
    (fix lc (l0 : list (option (list cval) * list sstmt)) : option (list (option (list cval) * list stmt)) :=
       match l0 with
       | [] => Some []
       | (o, b) :: r =>
           match (fix lw (l1 : list sstmt) : option (list stmt) :=
                    match l1 with [] => Some [] | x :: r0 => oapp (lower_stmt md dc x) (lw r0) end) b, lc r with
           | Some b', Some r' => Some ((o, b') :: r')
           | _, _ => None
           end
       end) l = lower_clauses md dc l).
  { induction l as [|[o b] r IH]; [reflexivity|]. cbn [lower_clauses]. rewrite <- IH, <- lw_eq. reflexivity. }
  rewrite E. reflexivity.
Qed.

Fixpoint plain (st : sstmt) : bool :=
  match st with
  | TIf _ th el => forallb plain th && forallb plain el
  | TDo _ _ _ _ body => forallb plain body
  | TSelect _ _ | TWhere _ => false
  | _ => true
  end.

(* meant for [plain] statements only: SELECT CASE and WHERE get an arbitrary image *)
Fixpoint embed (st : sstmt) : stmt :=
  match st with
  | TAssign x ix e => SAssign x ix e
  | TIf c th el => SIf c (map embed th) (map embed el)
  | TDo x lo hi st0 body => SDo x lo hi (dstep st0) (map embed body)
  | TExit => SExit
  | TCycle => SCycle
  | TReturn | TSelect _ _ | TWhere _ => SReturn
  end.

Lemma lower_plain_list md dc l :
  Forall (fun st => plain st = true -> lower_stmt md dc st = Some [embed st]) l ->
  forallb plain l = true -> lower md dc l = Some (map embed l).
Proof.
  induction 1 as [|x r Hx Hr IH]; intro Hp; [reflexivity|].
  cbn [forallb] in Hp. apply andb_true_iff in Hp as [H1 H2].
  cbn [lower map]. rewrite (Hx H1), (IH H2). reflexivity.
Qed.

Lemma lower_plain_stmt md dc st : plain st = true -> lower_stmt md dc st = Some [embed st].
Proof.
  induction st using sstmt_ind'; intro Hp; try reflexivity; try discriminate.
  - cbn [plain] in Hp. apply andb_true_iff in Hp as [H1 H2].
    rewrite lower_stmt_if, (lower_plain_list _ _ _ H H1), (lower_plain_list _ _ _ H0 H2). reflexivity.
  - cbn [plain] in Hp. rewrite lower_stmt_do, (lower_plain_list _ _ _ H Hp). reflexivity.
Qed.

Theorem lower_do_if_identity_syntax md dc p :
  forallb plain p = true -> lower md dc p = Some (map embed p).
Proof.
  intro Hp. apply lower_plain_list; [|exact Hp]. apply Forall_forall. intros st _. apply lower_plain_stmt.
Qed.

Theorem sexec_plain : forall f p s, forallb plain p = true -> sexec f p s = exec f (map embed p) s.
Proof.
  induction f as [|f IH]; intros p s Hp; [reflexivity|].
  destruct p as [|st rest]; [reflexivity|].
  cbn [forallb] in Hp. apply andb_true_iff in Hp as [H1 H2].
  cbn [map]. cbn [sexec exec].
  destruct st as [x ix e|c th el|x lo hi st0 body| | | |sel cls|w]; cbn [embed plain] in *; try discriminate.
  - destruct (opt_all (map (eval s) ix)); [|reflexivity]. destruct (eval s e); [|reflexivity].
    rewrite (IH rest _ H2). reflexivity.
  - apply andb_true_iff in H1 as [Ht He].
    destruct (eval s c) as [v|]; [|reflexivity].
    assert (E : sexec f (if v =? 0 then el else th) s = exec f (if v =? 0 then map embed el else map embed th) s).
    { destruct (v =? 0); apply IH; assumption. }
    rewrite E. destruct (prepend _ _) as [s1 tr1 c1| |]; [|reflexivity|reflexivity].
    destruct c1; try reflexivity. rewrite (IH rest _ H2). reflexivity.
  - destruct (eval s lo) as [l|]; [|reflexivity]. destruct (eval s hi) as [h|]; [|reflexivity].
    destruct (eval s (dstep st0)) as [t|]; [|reflexivity]. destruct (t =? 0); [reflexivity|].
    assert (E : forall n k s0, do_loop (sexec f body) x l t n k s0 = do_loop (exec f (map embed body)) x l t n k s0).
    { induction n as [|n IHn]; intros k s0; [reflexivity|]. cbn [do_loop]. rewrite (IH body _ H1).
      destruct (exec f (map embed body) _) as [s2 tr2 c2| |]; try reflexivity.
      destruct c2; try reflexivity; rewrite IHn; reflexivity. }
    rewrite E. destruct (prepend _ _) as [s1 tr1 c1| |]; [|reflexivity|reflexivity].
    destruct c1; try reflexivity. rewrite (IH rest _ H2). reflexivity.
  - reflexivity.
  - reflexivity.
  - reflexivity.
Qed.

