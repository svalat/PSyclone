(* C01 -- SELECT CASE: the IF chain built by the reader runs exactly the block the Fortran rules
   select, for ALL selector expressions, clause lists (CASE DEFAULT anywhere) and stores. *)
From Coq Require Import List ZArith Bool Lia.
Import ListNotations.
From PV Require Import Fort.Syntax Fort.Sem Fort.Facts C01.Model.
Open Scope Z_scope.

(* the trace without its read events: the lowered code evaluates the selector once per test, so
   only the number of reads differs *)
Fixpoint noreads (tr : list event) : list event :=
  match tr with
  | [] => []
  | Rd _ :: r => noreads r
  | e :: r => e :: noreads r
  end.

Lemma noreads_app t1 t2 : noreads (t1 ++ t2) = noreads t1 ++ noreads t2.
Proof. induction t1 as [|e t1 IH]; [reflexivity|]. destruct e; cbn [noreads app]; rewrite ?IH; reflexivity. Qed.

Lemma noreads_rds ls : noreads (rds ls) = [].
Proof. unfold rds. induction ls as [|a ls IH]; [reflexivity|]. cbn [map noreads]. exact IH. Qed.

Lemma noreads_rds_app ls tr : noreads (rds ls ++ tr) = noreads tr.
Proof. rewrite noreads_app, noreads_rds. reflexivity. Qed.

Lemma noreads_outputs tr : outputs (noreads tr) = outputs tr.
Proof. induction tr as [|e tr IH]; [reflexivity|]. destruct e; cbn [noreads outputs]; rewrite ?IH; reflexivity. Qed.

Lemma noreads_writes tr : writes (noreads tr) = writes tr.
Proof. induction tr as [|e tr IH]; [reflexivity|]. destruct e; cbn [noreads writes]; rewrite ?IH; reflexivity. Qed.

Lemma noreads_regions tr : regions (noreads tr) = regions tr.
Proof. induction tr as [|e tr IH]; [reflexivity|]. destruct e; cbn [noreads regions]; rewrite ?IH; reflexivity. Qed.

Lemma b2z_and a b : b2z (negb (b2z a =? 0) && negb (b2z b =? 0)) = b2z (a && b).
Proof. destruct a, b; reflexivity. Qed.
Lemma b2z_or a b : b2z (negb (b2z a =? 0) || negb (b2z b =? 0)) = b2z (a || b).
Proof. destruct a, b; reflexivity. Qed.

Lemma case_cond_eval s sel v cv b :
  eval s sel = Some v -> cval_match s v cv = Some b -> eval s (case_cond sel cv) = Some (b2z b).
Proof.
  intros Hs Hm. destruct cv as [e|lo|hi|lo hi]; cbn [case_cond cval_match eval] in *; rewrite ?Hs.
  - destruct (eval s e) as [z|]; [|discriminate]. cbn [option_map] in Hm. inversion Hm; subst. reflexivity.
  - destruct (eval s lo) as [z|]; [|discriminate]. cbn [option_map] in Hm. inversion Hm; subst. reflexivity.
  - destruct (eval s hi) as [z|]; [|discriminate]. cbn [option_map] in Hm. inversion Hm; subst. reflexivity.
  - destruct (eval s lo) as [l|]; [|discriminate]. destruct (eval s hi) as [h|]; [|discriminate].
    inversion Hm; subst. cbn [eval_bin]. rewrite b2z_and. reflexivity.
Qed.

Lemma clause_cond_eval s sel v : forall cvs b,
  eval s sel = Some v -> clause_match s v cvs = Some b -> eval s (clause_cond sel cvs) = Some (b2z b).
Proof.
  induction cvs as [|cv r IH]; intros b Hs Hm.
  - cbn in Hm. inversion Hm; subst. reflexivity.
  - cbn [clause_match] in Hm.
    destruct (cval_match s v cv) as [a|] eqn:Ea; [|discriminate].
    destruct (clause_match s v r) as [b'|] eqn:Eb; [|discriminate].
    inversion Hm; subst.
    destruct r as [|c2 r'].
    + cbn in Eb. inversion Eb; subst. rewrite orb_false_r.
      cbn [clause_cond]. eapply case_cond_eval; eassumption.
    + change (clause_cond sel (cv :: c2 :: r')) with (EBin Or (case_cond sel cv) (clause_cond sel (c2 :: r'))).
      cbn [eval]. rewrite (case_cond_eval _ _ _ _ _ Hs Ea), (IH _ Hs eq_refl).
      cbn [eval_bin]. rewrite b2z_or. reflexivity.
Qed.

Lemma pick_in {B} s v (cls : list (list cval * B)) b :
  pick s v cls = Some (Some b) -> exists cvs, In (cvs, b) cls /\ clause_match s v cvs = Some true.
Proof.
  induction cls as [|[cvs body] rest IH]; intro H; [discriminate|].
  cbn [pick] in H. destruct (clause_match s v cvs) as [[|]|] eqn:E; try discriminate.
  - destruct (pick s v rest); [|discriminate]. inversion H; subst.
    exists cvs. split; [left; reflexivity|exact E].
  - destruct (pick s v rest) as [r|] eqn:Er; [|discriminate]. inversion H; subst.
    destruct (IH eq_refl) as [cvs' [Hin Hm]]. exists cvs'. split; [right; exact Hin|exact Hm].
Qed.

Lemma pick_none {B} s v (cls : list (list cval * B)) :
  pick s v cls = Some None -> forall cvs b, In (cvs, b) cls -> clause_match s v cvs = Some false.
Proof.
  induction cls as [|[cvs body] rest IH]; intros H cvs0 b0 Hin; [destruct Hin|].
  cbn [pick] in H. destruct (clause_match s v cvs) as [[|]|] eqn:E; try discriminate.
  - destruct (pick s v rest); discriminate.
  - destruct (pick s v rest) as [r|] eqn:Er; [|discriminate]. inversion H; subst.
    destruct Hin as [Hin|Hin]; [inversion Hin; subst; exact E | eapply IH; [reflexivity|exact Hin]].
Qed.

(* "unique matching block": if all clauses that match the selector value carry the same block -- as
   they do when the case values do not overlap (Fortran constraint C811: at most one clause matches) --
   then that block is the chosen one, wherever the clauses stand *)
Lemma pick_unique {B} s v (cls : list (list cval * B)) b cvs' b' :
  pick s v cls = Some (Some b) ->
  (forall c1 b1 c2 b2, In (c1, b1) cls -> In (c2, b2) cls ->
                       clause_match s v c1 = Some true -> clause_match s v c2 = Some true -> b1 = b2) ->
  In (cvs', b') cls -> clause_match s v cvs' = Some true -> b' = b.
Proof.
  intros H U Hin Hm. destruct (pick_in _ _ _ _ H) as [cvs [Hin0 Hm0]].
  exact (U _ _ _ _ Hin Hin0 Hm Hm0).
Qed.

Lemma if_chain_exec sel dflt s v : forall cls f r s' tr c,
  eval s sel = Some v -> pick s v cls = Some r ->
  exec f (match r with Some b => b | None => dflt end) s = Ok s' tr c ->
  exists f' tr', exec f' (if_chain sel cls dflt) s = Ok s' tr' c /\ noreads tr' = noreads tr.
Proof.
  induction cls as [|[cvs body] rest IH]; intros f r s' tr c Hs Hp He.
  - cbn in Hp. inversion Hp; subst. exists f, tr. split; [exact He|reflexivity].
  - cbn [pick] in Hp. cbn [if_chain].
    destruct (clause_match s v cvs) as [b0|] eqn:Em; [|discriminate].
    destruct (pick s v rest) as [r0|] eqn:Er; [|destruct b0; discriminate].
    pose proof (clause_cond_eval _ _ _ _ _ Hs Em) as Hc.
    destruct b0.
    + inversion Hp; subst. exists (S (S f)), (rds (ereads s (clause_cond sel cvs)) ++ tr).
      split; [|apply noreads_rds_app].
      rewrite (exec_if _ _ _ _ _ _ Hc). cbn [b2z Z.eqb].
      rewrite (exec_mono f (S f) _ _ _ He); [reflexivity|discriminate|lia].
    + inversion Hp; subst.
      destruct (IH f r s' tr c Hs eq_refl He) as [f1 [tr1 [H1 H2]]].
      exists (S (S f1)), (rds (ereads s (clause_cond sel cvs)) ++ tr1).
      split; [|rewrite noreads_rds_app; exact H2].
      rewrite (exec_if _ _ _ _ _ _ Hc). cbn [b2z Z.eqb].
      rewrite (exec_mono f1 (S f1) _ _ _ H1); [reflexivity|discriminate|lia].
Qed.

(* the property C01_lower_select_sound (coq/Properties/C01.v) *)
Theorem lower_select_sound_ f sel (cls : list (sclause (list stmt))) s s' tr c :
  select_sem (fun b st => exec f b st) [] sel cls s = Ok s' tr c ->
  exists f' tr', exec f' (lower_select sel cls) s = Ok s' tr' c /\ noreads tr' = noreads tr.
Proof.
  unfold select_sem, lower_select. intro H.
  destruct (eval s sel) as [v|] eqn:Es; [|discriminate].
  destruct (pick s v (nondefault cls)) as [r|] eqn:Ep; [|discriminate].
  set (dflt := match default_of cls with Some b => b | None => [] end) in *.
  assert (He : exists tr0, exec f (match r with Some b => b | None => dflt end) s = Ok s' tr0 c
                           /\ tr = rds (ereads s sel) ++ tr0).
  { destruct r as [b|]; apply prepend_ok_inv in H; exact H. }
  destruct He as [tr0 [He Ht]].
  destruct (if_chain_exec sel dflt s v _ _ _ _ _ _ Es Ep He) as [f' [tr' [H1 H2]]].
  exists f', tr'. split; [exact H1|]. rewrite H2, Ht, noreads_rds_app. reflexivity.
Qed.

(* the observable consequences *)
Corollary lower_select_obs f sel (cls : list (sclause (list stmt))) s s' tr c :
  select_sem (fun b st => exec f b st) [] sel cls s = Ok s' tr c ->
  exists f' tr', exec f' (lower_select sel cls) s = Ok s' tr' c /\
                 outputs tr' = outputs tr /\ writes tr' = writes tr /\ regions tr' = regions tr.
Proof.
  intro H. destruct (lower_select_sound_ _ _ _ _ _ _ _ H) as [f' [tr' [H1 H2]]].
  exists f', tr'. split; [exact H1|].
  rewrite <- (noreads_outputs tr'), <- (noreads_writes tr'), <- (noreads_regions tr'), H2.
  rewrite noreads_outputs, noreads_writes, noreads_regions. auto.
Qed.

(* non-vacuity: CASE DEFAULT written first, a value list with a range and an open range; selector
   n+1 with n = 3 picks the second clause; the lowered chain is the expected IF nest *)
Example select_example :
  let n := 0%nat in let m := 1%nat in
  let sel := EBin Add (EVar n) (ELit 1) in
  let cls : list (sclause (list stmt)) :=
      [ (None, [SAssign m [] (ELit 0)]);
        (Some [CVal (ELit 1); CBetween (ELit 3) (ELit 5); CUpto (EUn Neg (ELit 2))], [SAssign m [] (ELit 1)]);
        (Some [CFrom (ELit 7)], [SAssign m [] (ELit 2)]) ] in
  let s := store_of [((n, []), 3)] [] in
  lower_select sel cls =
    [SIf (EBin Or (EBin Eq sel (ELit 1))
                  (EBin Or (EBin And (EBin Ge sel (ELit 3)) (EBin Le sel (ELit 5)))
                           (EBin Le sel (EUn Neg (ELit 2)))))
         [SAssign m [] (ELit 1)]
         [SIf (EBin Ge sel (ELit 7)) [SAssign m [] (ELit 2)] [SAssign m [] (ELit 0)]]]
  /\ (exists s' tr, select_sem (fun b st => exec 10 b st) [] sel cls s = Ok s' tr CNormal /\ val s' (m, []) = 1)
  /\ (exists s' tr, exec 10 (lower_select sel cls) s = Ok s' tr CNormal /\ val s' (m, []) = 1).
Proof.
  cbv zeta. split; [reflexivity|]. split; eexists; eexists; (split; [vm_compute; reflexivity|reflexivity]).
Qed.
