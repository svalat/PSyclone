(* C01 -- stores that are equal except on a set X of names ([nsim]; X = the loop variables the reader
   creates for WHERE constructs, which no source statement mentions), and: the source meaning of a WHERE
   construct whose names are not in X respects that relation.  Used by Compose3.v. *)
From Coq Require Import List ZArith Bool.
Import ListNotations.
From PV Require Import Fort.Syntax Fort.Sem Fort.Facts Fort.Facts3 C01.Model C01.WhereLocal C01.WhereExec.
Open Scope Z_scope.

Fixpoint wenames (e : wexpr) : list name :=
  match e with
  | WScal e0 => enames e0
  | WArr a => [a]
  | WUn _ e1 | WIntr1 _ e1 | WRed _ e1 => wenames e1
  | WBin _ l r | WIntr2 _ l r => wenames l ++ wenames r
  end.
Definition item_wnames (it : witem) : list name :=
  match it with
  | WAssign a rhs => a :: wenames rhs
  | WNest x m body => x :: wenames m ++ flat_map (fun p => fst p :: wenames (snd p)) body
  end.
Definition clause_wnames (cl : option wexpr * list witem) : list name :=
  match fst cl with Some m => wenames m | None => [] end ++ flat_map item_wnames (snd cl).
Definition wnames_all (w : wconstruct) : list name := flat_map clause_wnames (wclauses w).

Section NSim.
  Variable X : list name.

  (* equal except on the names in X *)
  Definition nsim (s t : store) : Prop :=
    bnd t = bnd s /\ forall l, ~ In (fst l) X -> val t l = val s l.

  Definition fresh (ns : list name) : Prop := forall y, In y ns -> ~ In y X.

  Lemma fresh_app ns ms : fresh (ns ++ ms) -> fresh ns /\ fresh ms.
  Proof. intro H. split; intros y Hy; apply H, in_or_app; auto. Qed.

  Lemma nsim_refl s : nsim s s.
  Proof. split; auto. Qed.

  Lemma nsim_upd s t l v : nsim s t -> nsim (upd s l v) (upd t l v).
  Proof.
    intros [Hb Hv]. split; [exact Hb|]. intros c Nc. rewrite !val_upd.
    destruct (loc_eq_dec c l); [reflexivity|apply Hv, Nc].
  Qed.

  Lemma eval_nsim s t e : fresh (enames e) -> nsim s t -> eval t e = eval s e.
  Proof.
    intros Hf [Hb Hv]. apply eval_frame; [exact Hb|]. intros l Hl. apply Hv, Hf.
    apply (ereads_names _ _ _ Hl).
  Qed.

  Lemma evals_nsim s t es : fresh (flat_map enames es) -> nsim s t -> map (eval t) es = map (eval s) es.
  Proof.
    intros Hf Hs. induction es as [|e r IH]; [reflexivity|]. cbn [map flat_map] in *.
    destruct (fresh_app _ _ Hf) as [F1 F2].
    rewrite (eval_nsim s t e F1 Hs), (IH F2). reflexivity.
  Qed.

  Lemma weval_nsim s t n e : fresh (wenames e) -> nsim s t -> forall k, weval t n k e = weval s n k e.
  Proof.
    intros Hf Hs. induction e as [e0|a|o e1 IH|o l IHl r IHr|f e1 IH|f l IHl r IHr|rd e1 IH]; intro k;
      cbn [weval wenames] in *.
    - apply eval_nsim; assumption.
    - destruct Hs as [Hb Hv]. rewrite Hb. destruct (bnd s a) as [|[l0 u0] [|? ?]]; try reflexivity.
      f_equal. apply Hv. cbn [fst]. apply Hf. left. reflexivity.
    - rewrite (IH Hf). reflexivity.
    - destruct (fresh_app _ _ Hf) as [Fl Fr]. rewrite (IHl Fl), (IHr Fr). reflexivity.
    - rewrite (IH Hf). destruct (weval s n k e1); [|reflexivity]. apply eval_intr_bnd. apply Hs.
    - destruct (fresh_app _ _ Hf) as [Fl Fr]. rewrite (IHl Fl), (IHr Fr).
      destruct (weval s n k l); [|reflexivity]. destruct (weval s n k r); [|reflexivity].
      apply eval_intr_bnd. apply Hs.
    - rewrite (map_ext _ _ (IH Hf)). reflexivity.
  Qed.

  Section Rows.
    Variables (W : list name) (x : name) (n : nat).

    Lemma row_nsim s t c c' a rhs s1 :
      fresh (wenames rhs) -> nsim s t -> (forall k, c' k = c k) ->
      wassign_row s n c a rhs = Some s1 -> exists t1, wassign_row t n c' a rhs = Some t1 /\ nsim s1 t1.
    Proof.
      intros Hf Hs Hc H. unfold wassign_row in *. destruct Hs as [Hb Hv]. rewrite Hb.
      destruct (bnd s a) as [|[l0 u0] [|? ?]]; try discriminate.
      assert (Ew : forall k, weval t n k rhs = weval s n k rhs) by (apply weval_nsim; [exact Hf|split; assumption]).
      assert (Eok : row_ok t n c' rhs = row_ok s n c rhs).
      { unfold row_ok. apply forallb_ext'. intro k. rewrite Hc, Ew. reflexivity. }
      rewrite Eok. destruct (row_ok s n c rhs); [|discriminate]. inversion H; subst s1.
      eexists. split; [reflexivity|]. unfold row_store.
      assert (G : forall K s0 t0, nsim s0 t0 ->
        nsim (fold_left (fun st k => if c k then upd st (a, [l0 + k]) (oget (weval s n k rhs)) else st) K s0)
             (fold_left (fun st k => if c' k then upd st (a, [l0 + k]) (oget (weval t n k rhs)) else st) K t0)).
      { induction K as [|k K IH]; intros s0 t0 H0; [exact H0|]. cbn [fold_left]. apply IH.
        rewrite Hc, Ew. destruct (c k); [apply nsim_upd, H0|exact H0]. }
      apply G. split; assumption.
    Qed.

    Lemma items_nsim c c' : forall items s t s1,
      safe_items W x items = true -> fresh (flat_map item_wnames items) -> nsim s t -> (forall k, c' k = c k) ->
      witems_rows s n c items = Some s1 -> exists t1, witems_rows t n c' items = Some t1 /\ nsim s1 t1.
    Proof.
      induction items as [|it r IH]; intros s t s1 Hsafe Hf Hs Hc H.
      - cbn in H. inversion H; subst. exists t. split; [reflexivity|exact Hs].
      - cbn [safe_items forallb] in Hsafe. apply andb_true_iff in Hsafe as [Hi Hr].
        destruct it as [a rhs|? ? ?]; [|discriminate].
        cbn [witems_rows] in *. cbn [flat_map item_wnames] in Hf. destruct (fresh_app _ _ Hf) as [Fi Fr].
        destruct (wassign_row s n c a rhs) as [s2|] eqn:E; [|discriminate].
        destruct (row_nsim s t c c' a rhs s2 (fun y Hy => Fi y (or_intror Hy)) Hs Hc E) as [t2 [Et Hs2]].
        rewrite Et. exact (IH s2 t2 s1 Hr Fr Hs2 Hc H).
    Qed.

    Lemma clauses_nsim : forall cls p p' s t s1,
      safe_clauses W x cls = true -> fresh (flat_map clause_wnames cls) -> nsim s t -> (forall k, p' k = p k) ->
      wclauses_rows s n p cls = Some s1 -> exists t1, wclauses_rows t n p' cls = Some t1 /\ nsim s1 t1.
    Proof.
      induction cls as [|[[m|] body] rest IH]; intros p p' s t s1 Hsafe Hf Hs Hp H.
      - cbn in H. inversion H; subst. exists t. split; [reflexivity|exact Hs].
      - cbn [safe_clauses forallb] in Hsafe. apply andb_true_iff in Hsafe as [Hc Hr].
        unfold safe_clause in Hc. cbn [fst snd] in Hc. apply andb_true_iff in Hc as [_ Hbd].
        cbn [flat_map] in Hf. unfold clause_wnames at 1 in Hf. cbn [fst snd] in Hf.
        destruct (fresh_app _ _ Hf) as [Fmb Fr]. destruct (fresh_app _ _ Fmb) as [Fm Fb].
        cbn [wclauses_rows] in *.
        assert (Ew : forall k, weval t n k m = weval s n k m) by (apply weval_nsim; assumption).
        assert (Emk : mask_ok t n p' m = mask_ok s n p m).
        { unfold mask_ok. apply forallb_ext'. intro k. rewrite Hp, Ew. reflexivity. }
        assert (Emf : forall k, mask_fun t n m k = mask_fun s n m k) by (intro k; unfold mask_fun; rewrite Ew; reflexivity).
        rewrite Emk. destruct (mask_ok s n p m); [|discriminate].
        destruct (witems_rows s n (fun k => p k && mask_fun s n m k) body) as [s2|] eqn:E; [|discriminate].
        destruct (items_nsim (fun k => p k && mask_fun s n m k) (fun k => p' k && mask_fun t n m k) body s t s2
                    Hbd Fb Hs (fun k => f_equal2 andb (Hp k) (Emf k)) E) as [t2 [Et Hs2]].
        rewrite Et.
        apply (IH (fun k => p k && negb (mask_fun s n m k)) (fun k => p' k && negb (mask_fun t n m k)) s2 t2 s1
                  Hr Fr Hs2); [|exact H].
        intro k. cbn beta. rewrite Hp, Emf. reflexivity.
      - cbn [safe_clauses forallb] in Hsafe. apply andb_true_iff in Hsafe as [Hc Hr].
        unfold safe_clause in Hc. cbn [fst snd] in Hc.
        cbn [flat_map] in Hf. unfold clause_wnames at 1 in Hf. cbn [fst snd app] in Hf.
        destruct (fresh_app _ _ Hf) as [Fb Fr].
        cbn [wclauses_rows] in *.
        destruct (witems_rows s n p body) as [s2|] eqn:E; [|discriminate].
        destruct (items_nsim p p' body s t s2 Hc Fb Hs Hp E) as [t2 [Et Hs2]].
        rewrite Et. apply (IH (fun _ => false) (fun _ => false) s2 t2 s1 Hr Fr Hs2); [|exact H]. intro k. reflexivity.
    Qed.
  End Rows.

  (* the source meaning of a WHERE construct does not depend on names it does not mention *)
  Lemma where_sem_nsim w s t s1 :
    safe_where w = true -> fresh (wnames_all w) -> nsim s t ->
    where_sem w s = Some s1 -> exists t1, where_sem w t = Some t1 /\ nsim s1 t1.
  Proof.
    intros Hsafe Hf Hs H. unfold safe_where in Hsafe. apply andb_true_iff in Hsafe as [_ Hsc].
    unfold where_sem in *. destruct (wfirst (wmask w)) as [a0|]; [|discriminate].
    unfold extent_of in *. destruct Hs as [Hb Hv]. rewrite Hb.
    destruct (bnd s a0) as [|[l u] [|? ?]]; try discriminate.
    exact (clauses_nsim (wassigned w) (wx w) _ (wclauses w) (fun _ => true) (fun _ => true) s t s1 Hsc Hf
             (conj Hb Hv) (fun _ => eq_refl) H).
  Qed.
End NSim.
