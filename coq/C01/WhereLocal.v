(* C01 -- WHERE over the expression type of Model.v: the side conditions of the WHERE theorem ([safe_*])
   and the element-major execution of a construct ([items_at], [chain_at], [pm]).  They are the namesakes
   of the definitions of WhereLocal2.v, where they are explained and where it is proved that element-major
   and statement-major execution give the same store ([rows_pm]); that result is carried over to these
   definitions along the embedding of WhereExec.v. *)
From Coq Require Import List ZArith Bool.
Import ListNotations.
From PV Require Import Fort.Syntax Fort.Sem Fort.Facts Fort.Facts3 C01.Model.
From PV Require C01.WhereLocal2.   (* not imported: it re-uses the names of this file *)
Open Scope Z_scope.

Definition notin_b (y : name) (l : list name) : bool := negb (existsb (Nat.eqb y) l).

Lemma notin_b_spec y l : notin_b y l = true -> ~ In y l.
Proof. exact (WhereLocal2.notin_b_spec y l). Qed.

Section Where.
  Variable W : list name.     (* the arrays assigned in the construct *)
  Variable x : name.          (* the loop variable created by the lowering *)
  Variable n : nat.           (* the extent of the construct *)

  Fixpoint safe_e (e : wexpr) : bool :=
    match e with
    | WScal e0 => forallb (fun y => notin_b y W && negb (Nat.eqb y x)) (enames e0)
    | WArr a => negb (Nat.eqb a x)
    | WUn _ e1 => safe_e e1
    | WBin _ l r => safe_e l && safe_e r
    | WIntr1 f e1 => negb (is_inquiry f) && safe_e e1
    | WIntr2 f l r => negb (is_inquiry f) && safe_e l && safe_e r
    | WRed _ _ => false
    end.

  Definition safe_item (it : witem) : bool :=
    match it with
    | WAssign a rhs => existsb (Nat.eqb a) W && safe_e rhs
    | WNest _ _ _ => false
    end.
  Definition safe_items (items : list witem) : bool := forallb safe_item items.
  Definition safe_clause (cl : option wexpr * list witem) : bool :=
    match fst cl with Some m => safe_e m | None => true end && safe_items (snd cl).
  Definition safe_clauses (cls : list (option wexpr * list witem)) : bool := forallb safe_clause cls.

  Fixpoint items_at (s : store) (k : Z) (items : list witem) : option store :=
    match items with
    | [] => Some s
    | WAssign a rhs :: r =>
        match bnd s a, weval s n k rhs with
        | [(l, _)], Some v => items_at (upd s (a, [l + k]) v) k r
        | _, _ => None
        end
    | WNest _ _ _ :: _ => None
    end.

  Fixpoint chain_at (s : store) (k : Z) (cls : list (option wexpr * list witem)) : option store :=
    match cls with
    | [] => Some s
    | (Some m, body) :: rest =>
        match weval s n k m with
        | Some v => if v =? 0 then chain_at s k rest else items_at s k body
        | None => None
        end
    | (None, body) :: _ => items_at s k body
    end.

  Variable cls : list (option wexpr * list witem).

  (* elements k, k+1, ..., k+m-1 in turn; the loop variable holds 1 + k during element k *)
  Fixpoint pm (s : store) (k : Z) (m : nat) : option store :=
    match m with
    | O => Some s
    | S m' =>
        match chain_at (upd s (x, []) (1 + k * 1)) k cls with
        | Some s1 => pm s1 (k + 1) m'
        | None => None
        end
    end.
End Where.
