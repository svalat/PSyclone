(* C01 -- the full WHERE statement is false of the reader as it is: three concrete witnesses
   (the theorems about them are C01_lower_where_refuted_* in coq/Properties/C01.v), each replayed on
   the real implementation by props/C01/check.py (known findings). *)
From Coq Require Import List ZArith Bool.
Import ListNotations.
From PV Require Import Fort.Syntax Fort.Sem Fort.Facts C01.Model.
From PV Require C01.Stride.
Open Scope Z_scope.

(* the source meaning and a terminating run of the lowered code differ at cell [c] *)
Definition differs (md : mode) (dc : decls) (w : wconstruct) (s : store) (c : loc) (fuel : nat) : bool :=
  match where_sem w s, lower_where md dc w with
  | Some s', Lowered ss =>
      match exec fuel ss s with Ok s'' _ _ => negb (val s'' c =? val s' c) | _ => false end
  | _, _ => false
  end.

Lemma differs_spec md dc w s c fuel :
  differs md dc w s c fuel = true ->
  exists s' ss, where_sem w s = Some s' /\ lower_where md dc w = Lowered ss /\
    ~ (exists f s'' tr ctl, exec f ss s = Ok s'' tr ctl /\ val s'' c = val s' c).
Proof.
  unfold differs. destruct (where_sem w s) as [s'|]; [|discriminate].
  destruct (lower_where md dc w) as [| |ss]; try discriminate.
  intro H. exists s', ss. split; [reflexivity|]. split; [reflexivity|exact (Stride.no_run_gives _ _ _ _ _ H)].
Qed.

Definition nA : name := 0%nat.  Definition nB : name := 1%nat.  Definition nC : name := 2%nat.
Definition nN : name := 3%nat.  Definition nX : name := 9%nat.  Definition nX' : name := 8%nat.

(* ---- A: declared lower bound /= 1.   integer, dimension(0:4) :: c, b ;  WHERE (c(:) > 0) b(:) = 0
   The reader uses the declared upper bound 4 as trip count: b(4) is never assigned. *)
Definition wA : wconstruct := mkW nX (WBin Gt (WArr nC) (WScal (ELit 0))) [WAssign nB (WScal (ELit 0))] [].
Definition dcA : decls := fun a => match a with 1%nat | 2%nat => Some (0, 4) | _ => None end.
Definition sA : store :=
  store_of [((nC, [0]), 1); ((nC, [1]), 1); ((nC, [2]), 1); ((nC, [3]), 1); ((nC, [4]), 1);
            ((nB, [0]), 7); ((nB, [1]), 7); ((nB, [2]), 7); ((nB, [3]), 7); ((nB, [4]), 7)]
           [(nC, [(0, 4)]); (nB, [(0, 4)])].

(* ---- B: nested WHERE.  a = 1 0 0 0 0, b = 0 1 1 0 0, c = 0
     WHERE (a(:) > 0) ; WHERE (b(:) > 0) c(:) = 1 ; END WHERE        (Fortran: c unchanged)
   The inner WHERE becomes its own loop over all elements, run for every element with a > 0. *)
Definition wB : wconstruct :=
  mkW nX (WBin Gt (WArr nA) (WScal (ELit 0)))
      [WNest nX' (WBin Gt (WArr nB) (WScal (ELit 0))) [(nC, WScal (ELit 1))]] [].
Definition sB : store :=
  store_of [((nA, [1]), 1); ((nB, [2]), 1); ((nB, [3]), 1)]
           [(nA, [(1, 5)]); (nB, [(1, 5)]); (nC, [(1, 5)])].

(* ---- C: reduction without dim= whose argument is written with (:).
     WHERE (b(:) > SUM(b(:)) / n) b(:) = 0
   is accepted (only reductions with dim= are refused), and the section INSIDE the reduction is
   indexed too: SUM(b(LBOUND(b,1) + widx1 - 1)) -- a reduction of a scalar: not Fortran. *)
Definition maskC : wexpr := WBin Gt (WArr nB) (WBin Div (WRed RSum (WArr nB)) (WScal (EVar nN))).
Definition wC : wconstruct := mkW nX maskC [WAssign nB (WScal (ELit 0))] [].
Definition sC : store :=
  store_of [((nB, [1]), 1); ((nB, [2]), 5); ((nB, [3]), 3); ((nN, []), 3)] [(nB, [(1, 3)])].

