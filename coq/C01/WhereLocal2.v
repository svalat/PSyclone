(* C01 -- WHERE, pure part, over the expression type of Model2.v (full-range sections a(:) and strided
   read-only sections a(lo:hi:st)).  Fortran executes a WHERE construct statement by statement (each
   masked assignment over all elements, masks evaluated once); the reader's loop executes it element by
   element (all statements for element 1, then element 2, ...).  Here: when every assigned array is
   accessed through full-range sections only (so element k of the construct only touches element k of
   each of them) and the scalar sub-expressions do not mention an assigned array, both orders give the
   same store.

   [wclauses_rows]  statement-major (Model2.v, the Fortran rules)
   [pm]             element-major: [chain_at] for k = 0, 1, ..., with the loop variable updated
   Main result: [rows_pm]. *)
From Coq Require Import List ZArith Bool Lia.
Import ListNotations.
From PV Require Import Fort.Syntax Fort.Sem Fort.Facts Fort.Facts3 C01.Model2.
Open Scope Z_scope.

Definition notin_b (y : name) (l : list name) : bool := negb (existsb (Nat.eqb y) l).

Lemma notin_b_spec y l : notin_b y l = true -> ~ In y l.
Proof.
  unfold notin_b. intros H I. apply negb_true_iff in H.
  assert (E : existsb (Nat.eqb y) l = true) by (apply existsb_exists; exists y; split; [exact I|apply Nat.eqb_refl]).
  congruence.
Qed.

Lemma in_b_spec y l : existsb (Nat.eqb y) l = true -> In y l.
Proof. intro H. apply existsb_exists in H as [z [I E]]. apply Nat.eqb_eq in E. subst. exact I. Qed.

Section Where.
  Variable W : list name.     (* the arrays assigned in the construct *)
  Variable x : name.          (* the loop variable created by the lowering *)
  Variable n : nat.           (* the extent of the construct *)
  Hypothesis HxW : ~ In x W.

  Fixpoint safe_e (e : wexpr) : bool :=
    match e with
    | WScal e0 => forallb (fun y => notin_b y W && negb (Nat.eqb y x)) (enames e0)
    | WArr a => negb (Nat.eqb a x)
    | WSec fx a _ _ st => notin_b a W && negb (Nat.eqb a x) && (fx || (st =? 1))
    | WUn _ e1 => safe_e e1
    | WBin _ l r => safe_e l && safe_e r
    | WIntr1 f e1 => negb (is_inquiry f) && safe_e e1
    | WIntr2 f l r => negb (is_inquiry f) && safe_e l && safe_e r
    | WRed _ _ => false
    end.

  Definition safe_item (it : witem) : bool :=
    match it with
    | WAssign a rhs => existsb (Nat.eqb a) W && safe_e rhs
    | WNest _ _ _ => false
    end.
  Definition safe_items (items : list witem) : bool := forallb safe_item items.
  Definition safe_clause (cl : option wexpr * list witem) : bool :=
    match fst cl with Some m => safe_e m | None => true end && safe_items (snd cl).
  Definition safe_clauses (cls : list (option wexpr * list witem)) : bool := forallb safe_clause cls.

  Lemma safe_items_cons it r : safe_items (it :: r) = true ->
    exists a rhs, it = WAssign a rhs /\ In a W /\ safe_e rhs = true /\ safe_items r = true.
  Proof.
    cbn [safe_items forallb]. intro H. apply andb_true_iff in H as [Hi Hr].
    destruct it as [a rhs|? ? ?]; [|discriminate]. apply andb_true_iff in Hi as [Ia He].
    exists a, rhs. auto using in_b_spec.
  Qed.

  Lemma safe_clauses_some m body rest : safe_clauses ((Some m, body) :: rest) = true ->
    safe_e m = true /\ safe_items body = true /\ safe_clauses rest = true.
  Proof.
    cbn [safe_clauses forallb]. unfold safe_clause at 1. cbn [fst snd]. intro H.
    apply andb_true_iff in H as [H Hr]. apply andb_true_iff in H as [Hm Hb]. auto.
  Qed.

  Lemma safe_clauses_none body rest : safe_clauses ((None, body) :: rest) = true ->
    safe_items body = true /\ safe_clauses rest = true.
  Proof. cbn [safe_clauses forallb]. unfold safe_clause at 1. cbn [fst snd]. apply andb_true_iff. Qed.

  Definition agree (k : Z) (s1 s2 : store) : Prop :=
    bnd s1 = bnd s2 /\
    (forall l, ~ In (fst l) W -> fst l <> x -> val s1 l = val s2 l) /\
    (forall a l0 u0, In a W -> bnd s1 a = [(l0, u0)] -> val s1 (a, [l0 + k]) = val s2 (a, [l0 + k])).

  Lemma agree_refl k s : agree k s s.
  Proof. repeat split; auto. Qed.

  Lemma agree_sym k s1 s2 : agree k s1 s2 -> agree k s2 s1.
  Proof.
    intros [Hb [H2 H3]]. split; [symmetry; exact Hb|]. split.
    - intros l N1 N2. symmetry. apply H2; assumption.
    - intros a l0 u0 Ia Hba. symmetry. apply (H3 a l0 u0 Ia). rewrite Hb. exact Hba.
  Qed.

  Lemma agree_trans k s1 s2 s3 : agree k s1 s2 -> agree k s2 s3 -> agree k s1 s3.
  Proof.
    intros [Hb [H2 H3]] [Hb' [H2' H3']]. split; [congruence|]. split.
    - intros l N1 N2. rewrite H2 by assumption. apply H2'; assumption.
    - intros a l0 u0 Ia Hba. rewrite (H3 a l0 u0 Ia Hba). apply (H3' a l0 u0 Ia). rewrite <- Hb. exact Hba.
  Qed.

  Lemma agree_updx k s v : agree k (upd s (x, []) v) s.
  Proof.
    split; [reflexivity|]. split.
    - intros l N1 N2. apply val_upd_other. intro E. apply N2. rewrite E. reflexivity.
    - intros a l0 u0 Ia _. apply val_upd_other. intro E. inversion E.
  Qed.

  Lemma agree_upd_col k s1 s2 a l0 v :
    agree k s1 s2 -> agree k (upd s1 (a, [l0 + k]) v) (upd s2 (a, [l0 + k]) v).
  Proof.
    intros [Hb [H2 H3]]. split; [exact Hb|]. split.
    - intros l N1 N2. rewrite !val_upd. destruct (loc_eq_dec l (a, [l0 + k])); [reflexivity|apply H2; assumption].
    - intros a' l1 u1 Ia Hba. rewrite !val_upd.
      destruct (loc_eq_dec (a', [l1 + k]) (a, [l0 + k])); [reflexivity|apply (H3 a' l1 u1 Ia Hba)].
  Qed.

  Lemma weval_agree k s1 s2 e :
    safe_e e = true -> agree k s1 s2 -> weval s1 n k e = weval s2 n k e.
  Proof.
    intros Hs [Hb [H2 H3]]. induction e as [e0|a|fx a lo hi st|o e1 IH|o l IHl r IHr|f e1 IH|f l IHl r IHr|rd e1 IH];
      cbn [safe_e weval] in *.
    - symmetry. apply eval_frame; [symmetry; exact Hb|]. intros l Hl. symmetry.
      apply ereads_names in Hl.
      rewrite forallb_forall in Hs. specialize (Hs _ Hl). apply andb_true_iff in Hs as [Ha Hc].
      apply H2; [apply notin_b_spec, Ha|]. apply negb_true_iff, Nat.eqb_neq in Hc. exact Hc.
    - rewrite <- Hb. destruct (bnd s1 a) as [|[l0 u0] [|? ?]] eqn:Eb; try reflexivity.
      f_equal. destruct (in_dec Nat.eq_dec a W) as [Ia|Na].
      + apply (H3 a l0 u0 Ia Eb).
      + apply H2; [exact Na|]. cbn [fst]. apply negb_true_iff, Nat.eqb_neq in Hs. exact Hs.
    - apply andb_true_iff in Hs as [Hs _]. apply andb_true_iff in Hs as [Ha Hx]. f_equal.
      apply H2; [apply notin_b_spec, Ha|]. cbn [fst]. apply negb_true_iff, Nat.eqb_neq in Hx. exact Hx.
    - rewrite (IH Hs). reflexivity.
    - apply andb_true_iff in Hs as [Hl Hr]. rewrite (IHl Hl), (IHr Hr). reflexivity.
    - apply andb_true_iff in Hs as [_ Hs]. rewrite (IH Hs).
      destruct (weval s2 n k e1); [|reflexivity]. symmetry. apply eval_intr_bnd. symmetry. exact Hb.
    - apply andb_true_iff in Hs as [Hs Hr]. apply andb_true_iff in Hs as [_ Hl].
      rewrite (IHl Hl), (IHr Hr).
      destruct (weval s2 n k l); [|reflexivity]. destruct (weval s2 n k r); [|reflexivity].
      symmetry. apply eval_intr_bnd. symmetry. exact Hb.
    - discriminate.
  Qed.

  Fixpoint items_at (s : store) (k : Z) (items : list witem) : option store :=
    match items with
    | [] => Some s
    | WAssign a rhs :: r =>
        match bnd s a, weval s n k rhs with
        | [(l, _)], Some v => items_at (upd s (a, [l + k]) v) k r
        | _, _ => None
        end
    | WNest _ _ _ :: _ => None
    end.

  Fixpoint chain_at (s : store) (k : Z) (cls : list (option wexpr * list witem)) : option store :=
    match cls with
    | [] => Some s
    | (Some m, body) :: rest =>
        match weval s n k m with
        | Some v => if v =? 0 then chain_at s k rest else items_at s k body
        | None => None
        end
    | (None, body) :: _ => items_at s k body
    end.

  Lemma items_at_agree k : forall items s1 s2 u1,
    safe_items items = true -> agree k s1 s2 -> items_at s1 k items = Some u1 ->
    exists u2, items_at s2 k items = Some u2 /\ agree k u1 u2.
  Proof.
    induction items as [|it r IH]; intros s1 s2 u1 Hs Ha H.
    - cbn in H. inversion H; subst. exists s2. split; [reflexivity|exact Ha].
    - destruct (safe_items_cons _ _ Hs) as (a & rhs & -> & Ia & He & Hr).
      cbn [items_at] in *. rewrite <- (weval_agree k s1 s2 rhs He Ha).
      destruct Ha as [Hb Ha']. rewrite <- Hb.
      destruct (bnd s1 a) as [|[l0 u0] [|? ?]] eqn:Eb; try discriminate.
      destruct (weval s1 n k rhs) as [v|]; [|discriminate].
      apply (IH _ _ _ Hr (agree_upd_col k s1 s2 a l0 v (conj Hb Ha')) H).
  Qed.

  Lemma chain_at_agree k : forall cls s1 s2 u1,
    safe_clauses cls = true -> agree k s1 s2 -> chain_at s1 k cls = Some u1 ->
    exists u2, chain_at s2 k cls = Some u2 /\ agree k u1 u2.
  Proof.
    induction cls as [|[[m|] body] rest IH]; intros s1 s2 u1 Hs Ha H.
    - cbn in H. inversion H; subst. exists s2. split; [reflexivity|exact Ha].
    - destruct (safe_clauses_some _ _ _ Hs) as (Hm & Hbd & Hr).
      cbn [chain_at] in *. rewrite <- (weval_agree k s1 s2 m Hm Ha).
      destruct (weval s1 n k m) as [v|]; [|discriminate].
      destruct (v =? 0); [apply (IH _ _ _ Hr Ha H)|apply (items_at_agree k _ _ _ _ Hbd Ha H)].
    - destruct (safe_clauses_none _ _ Hs) as (Hc & Hr).
      cbn [chain_at] in *. apply (items_at_agree k _ _ _ _ Hc Ha H).
  Qed.

  (* what element k may change: only element k of assigned arrays *)
  Definition col_cell (s : store) (k : Z) (c : loc) : Prop :=
    exists a l0 u0, In a W /\ bnd s a = [(l0, u0)] /\ c = (a, [l0 + k]).

  Lemma items_at_frame k : forall items s u,
    safe_items items = true -> items_at s k items = Some u ->
    bnd u = bnd s /\ forall c, ~ col_cell s k c -> val u c = val s c.
  Proof.
    induction items as [|it r IH]; intros s u Hs H.
    - cbn in H. inversion H; subst. auto.
    - destruct (safe_items_cons _ _ Hs) as (a & rhs & -> & Ia & He & Hr).
      cbn [items_at] in H.
      destruct (bnd s a) as [|[l0 u0] [|? ?]] eqn:Eb; try discriminate.
      destruct (weval s n k rhs) as [v|]; [|discriminate].
      destruct (IH _ _ Hr H) as [Hb Hv]. split; [exact Hb|].
      intros c Nc. rewrite Hv.
      + apply val_upd_other. intro E. apply Nc. exists a, l0, u0. auto.
      + intros [a' [l1 [u1 [Ia' [Eb' Ec]]]]]. apply Nc. exists a', l1, u1. auto.
  Qed.

  Lemma chain_at_frame k : forall cls s u,
    safe_clauses cls = true -> chain_at s k cls = Some u ->
    bnd u = bnd s /\ forall c, ~ col_cell s k c -> val u c = val s c.
  Proof.
    induction cls as [|[[m|] body] rest IH]; intros s u Hs H.
    - cbn in H. inversion H; subst. auto.
    - destruct (safe_clauses_some _ _ _ Hs) as (Hm & Hbd & Hr).
      cbn [chain_at] in H. destruct (weval s n k m) as [v|]; [|discriminate].
      destruct (v =? 0); [apply (IH _ _ Hr H)|apply (items_at_frame k _ _ _ Hbd H)].
    - destruct (safe_clauses_none _ _ Hs) as (Hc & Hr).
      cbn [chain_at] in H. apply (items_at_frame k _ _ _ Hc H).
  Qed.

  Section Row.
    Variables (ctrl : Z -> bool) (a : name) (l0 : Z) (rhs : wexpr) (s0 : store).
    Let F := fun (st : store) (k : Z) => if ctrl k then upd st (a, [l0 + k]) (oget (weval s0 n k rhs)) else st.

    Lemma row_bnd : forall K st, bnd (fold_left F K st) = bnd st.
    Proof.
      induction K as [|k K IH]; intro st; [reflexivity|]. cbn [fold_left]. rewrite IH.
      unfold F. destruct (ctrl k); reflexivity.
    Qed.

    Lemma row_other : forall K st c,
      (forall k, In k K -> ctrl k = true -> c <> (a, [l0 + k])) -> val (fold_left F K st) c = val st c.
    Proof.
      induction K as [|k K IH]; intros st c H; [reflexivity|]. cbn [fold_left]. rewrite IH.
      - unfold F. destruct (ctrl k) eqn:E; [|reflexivity]. apply val_upd_other. apply H; [left; reflexivity|exact E].
      - intros k' I. apply H. right. exact I.
    Qed.

    Lemma row_hit : forall K st k,
      In k K -> ctrl k = true -> val (fold_left F K st) (a, [l0 + k]) = oget (weval s0 n k rhs).
    Proof.
      induction K as [|k' K IH]; intros st k I C; [destruct I|]. cbn [fold_left].
      destruct (in_dec Z.eq_dec k K) as [I'|N'].
      - apply IH; assumption.
      - destruct I as [->|I]; [|contradiction].
        rewrite row_other.
        + unfold F. rewrite C. apply val_upd_same.
        + intros k2 I2 _ E. inversion E. assert (k2 = k) by lia. subst. contradiction.
    Qed.
  End Row.

  Lemma row_agree k ctrl a l0 u0 rhs t u :
    In k (zseq 0 n) -> In a W -> bnd t a = [(l0, u0)] -> agree k t u ->
    agree k (row_store t n ctrl a l0 rhs) (if ctrl k then upd u (a, [l0 + k]) (oget (weval t n k rhs)) else u).
  Proof.
    intros Ik Ia Eb [Hb [H2 H3]]. unfold row_store.
    split; [rewrite row_bnd; destruct (ctrl k); exact Hb|]. split.
    - intros c N1 N2. rewrite row_other.
      + destruct (ctrl k); [|apply H2; assumption].
        rewrite val_upd_other; [apply H2; assumption|]. intro E. apply N1. rewrite E. exact Ia.
      + intros k' _ _ E. apply N1. rewrite E. exact Ia.
    - intros a' l1 u1 Ia' Eb'. rewrite row_bnd in Eb'.
      destruct (Nat.eq_dec a' a) as [->|Na].
      + rewrite Eb in Eb'. inversion Eb'; subst l1 u1.
        destruct (ctrl k) eqn:C.
        * rewrite row_hit by assumption. rewrite val_upd_same. reflexivity.
        * rewrite row_other; [apply (H3 a l0 u0 Ia Eb)|].
          intros k' _ C' E. inversion E. assert (k' = k) by lia. subst. congruence.
      + rewrite row_other.
        * destruct (ctrl k); [|apply (H3 a' l1 u1 Ia' Eb')].
          rewrite val_upd_other; [apply (H3 a' l1 u1 Ia' Eb')|]. intro E. inversion E. contradiction.
        * intros k' _ _ E. inversion E. contradiction.
  Qed.

  (* rows only change elements 0..n-1 of assigned arrays *)
  Definition any_col (s : store) (c : loc) : Prop := exists k, In k (zseq 0 n) /\ col_cell s k c.

  Lemma row_frame ctrl a l0 u0 rhs t :
    In a W -> bnd t a = [(l0, u0)] ->
    bnd (row_store t n ctrl a l0 rhs) = bnd t /\
    forall c, ~ any_col t c -> val (row_store t n ctrl a l0 rhs) c = val t c.
  Proof.
    intros Ia Eb. unfold row_store. split; [apply row_bnd|].
    intros c Nc. apply row_other. intros k Ik _ E. apply Nc. exists k. split; [exact Ik|].
    exists a, l0, u0. auto.
  Qed.

  Lemma items_rows_col k ctrl : forall items t u t',
    In k (zseq 0 n) -> safe_items items = true -> agree k t u -> witems_rows t n ctrl items = Some t' ->
    exists u', (if ctrl k then items_at u k items else Some u) = Some u' /\ agree k t' u'.
  Proof.
    induction items as [|it r IH]; intros t u t' Ik Hs Ha H.
    - cbn in H. inversion H; subst. exists u. split; [destruct (ctrl k); reflexivity|exact Ha].
    - destruct (safe_items_cons _ _ Hs) as (a & rhs & -> & Ia & He & Hr).
      cbn [witems_rows] in H. unfold wassign_row in H.
      destruct (bnd t a) as [|[l0 u0] [|? ?]] eqn:Eb; try discriminate.
      destruct (row_ok t n ctrl rhs) eqn:Erow; [|discriminate].
      destruct (IH _ _ _ Ik Hr (row_agree k ctrl a l0 u0 rhs t u Ik Ia Eb Ha) H) as [u' [Hu' Hag]].
      exists u'. split; [|exact Hag]. destruct (ctrl k) eqn:C; [|exact Hu'].
      (* element k is selected: [row_ok] says that the right-hand side has a value there *)
      unfold row_ok in Erow. rewrite forallb_forall in Erow. specialize (Erow k Ik). rewrite C in Erow.
      cbn [items_at]. rewrite <- (weval_agree k t u rhs He Ha). destruct Ha as [Hb _]. rewrite <- Hb, Eb.
      destruct (weval t n k rhs); [exact Hu'|discriminate].
  Qed.

  Lemma clauses_rows_col k : forall cls pend t u t',
    In k (zseq 0 n) -> safe_clauses cls = true -> agree k t u -> wclauses_rows t n pend cls = Some t' ->
    exists u', (if pend k then chain_at u k cls else Some u) = Some u' /\ agree k t' u'.
  Proof.
    induction cls as [|[[m|] body] rest IH]; intros pend t u t' Ik Hs Ha H.
    - cbn in H. inversion H; subst. exists u. split; [destruct (pend k); reflexivity|exact Ha].
    - destruct (safe_clauses_some _ _ _ Hs) as (Hm & Hbd & Hr).
      cbn [wclauses_rows] in H.
      destruct (mask_ok t n pend m) eqn:Emk; [|discriminate].
      destruct (witems_rows t n (fun k0 => pend k0 && mask_fun t n m k0) body) as [t1|] eqn:Eit; [|discriminate].
      destruct (items_rows_col k _ _ _ _ _ Ik Hbd Ha Eit) as [u1 [Hu1 Ha1]].
      destruct (IH _ _ _ _ Ik Hr Ha1 H) as [u' [Hu' Hag]]. cbn beta in Hu1, Hu'.
      exists u'. split; [|exact Hag]. cbn [chain_at]. rewrite <- (weval_agree k t u m Hm Ha).
      destruct (pend k) eqn:P; cbn [andb] in Hu1, Hu'.
      + unfold mask_ok in Emk. rewrite forallb_forall in Emk. specialize (Emk k Ik). rewrite P in Emk.
        unfold mask_fun in Hu1, Hu'. destruct (weval t n k m) as [v|]; [|discriminate]. cbn [oget] in Hu1, Hu'.
        destruct (v =? 0); cbn [negb] in Hu1, Hu'.
        * (* masked out: the body is skipped, the remaining clauses see element k *)
          inversion Hu1; subst u1. exact Hu'.
        * (* selected: the body runs, the remaining clauses are skipped *)
          inversion Hu'; subst u'. exact Hu1.
      + inversion Hu1; subst u1. exact Hu'.
    - destruct (safe_clauses_none _ _ Hs) as (Hc & Hr). cbn [wclauses_rows] in H.
      destruct (witems_rows t n pend body) as [t1|] eqn:Eit; [|discriminate].
      destruct (items_rows_col k _ _ _ _ _ Ik Hc Ha Eit) as [u1 [Hu1 Ha1]].
      destruct (IH _ _ _ _ Ik Hr Ha1 H) as [u' [Hu' Hag]]. cbn beta in Hu'. inversion Hu'; subst u'.
      exists u1. split; [|exact Hag]. cbn [chain_at]. destruct (pend k); exact Hu1.
  Qed.

  Lemma any_col_bnd s1 s2 c : bnd s1 = bnd s2 -> any_col s1 c -> any_col s2 c.
  Proof.
    intros Hb [k [Ik [a [l0 [u0 [Ia [Eb Ec]]]]]]]. exists k. split; [exact Ik|].
    exists a, l0, u0. rewrite <- Hb. auto.
  Qed.

  Lemma any_col_dec s c : any_col s c \/ ~ any_col s c.
  Proof.
    destruct c as [a ix]. destruct (in_dec Nat.eq_dec a W) as [Ia|Na].
    2:{ right. intros [k [_ [a' [l0 [u0 [Ia' [_ Ec]]]]]]]. inversion Ec; subst. contradiction. }
    destruct (bnd s a) as [|[l0 u0] [|? ?]] eqn:Eb.
    1,3: (right; intros [k [_ [a' [l1 [u1 [_ [Eb' Ec]]]]]]]; inversion Ec; subst a'; rewrite Eb in Eb'; discriminate).
    destruct ix as [|i [|? ?]].
    1,3: (right; intros [k [_ [a' [l1 [u1 [_ [_ Ec]]]]]]]; inversion Ec).
    destruct (in_dec Z.eq_dec (i - l0) (zseq 0 n)) as [Ik|Nk].
    - left. exists (i - l0). split; [exact Ik|]. exists a, l0, u0. split; [exact Ia|]. split; [exact Eb|].
      f_equal. f_equal. lia.
    - right. intros [k [Ik [a' [l1 [u1 [_ [Eb' Ec]]]]]]]. inversion Ec; subst a' i.
      rewrite Eb in Eb'. inversion Eb'; subst l1 u1. apply Nk. replace (l0 + k - l0) with k by lia. exact Ik.
  Qed.

  Lemma rows_frame_trans t t1 t' :
    bnd t1 = bnd t /\ (forall c, ~ any_col t c -> val t1 c = val t c) ->
    bnd t' = bnd t1 /\ (forall c, ~ any_col t1 c -> val t' c = val t1 c) ->
    bnd t' = bnd t /\ forall c, ~ any_col t c -> val t' c = val t c.
  Proof.
    intros [Rb Rv] [Hb Hv]. split; [congruence|].
    intros c Nc. rewrite Hv; [apply Rv, Nc|]. intro A. apply Nc. eapply any_col_bnd; [|exact A]. exact Rb.
  Qed.

  Lemma items_rows_frame ctrl : forall items t t',
    safe_items items = true -> witems_rows t n ctrl items = Some t' ->
    bnd t' = bnd t /\ forall c, ~ any_col t c -> val t' c = val t c.
  Proof.
    induction items as [|it r IH]; intros t t' Hs H.
    - cbn in H. inversion H; subst. auto.
    - destruct (safe_items_cons _ _ Hs) as (a & rhs & -> & Ia & He & Hr).
      cbn [witems_rows] in H. unfold wassign_row in H.
      destruct (bnd t a) as [|[l0 u0] [|? ?]] eqn:Eb; try discriminate.
      destruct (row_ok t n ctrl rhs); [|discriminate].
      exact (rows_frame_trans _ _ _ (row_frame ctrl a l0 u0 rhs t Ia Eb) (IH _ _ Hr H)).
  Qed.

  Lemma clauses_rows_frame : forall cls pend t t',
    safe_clauses cls = true -> wclauses_rows t n pend cls = Some t' ->
    bnd t' = bnd t /\ forall c, ~ any_col t c -> val t' c = val t c.
  Proof.
    induction cls as [|[[m|] body] rest IH]; intros pend t t' Hs H.
    - cbn in H. inversion H; subst. auto.
    - destruct (safe_clauses_some _ _ _ Hs) as (Hm & Hbd & Hr).
      cbn [wclauses_rows] in H. destruct (mask_ok t n pend m); [|discriminate].
      destruct (witems_rows t n (fun k0 => pend k0 && mask_fun t n m k0) body) as [t1|] eqn:Eit; [|discriminate].
      exact (rows_frame_trans _ _ _ (items_rows_frame _ _ _ _ Hbd Eit) (IH _ _ _ Hr H)).
    - destruct (safe_clauses_none _ _ Hs) as (Hc & Hr).
      cbn [wclauses_rows] in H.
      destruct (witems_rows t n pend body) as [t1|] eqn:Eit; [|discriminate].
      exact (rows_frame_trans _ _ _ (items_rows_frame _ _ _ _ Hc Eit) (IH _ _ _ Hr H)).
  Qed.

  Variable cls : list (option wexpr * list witem).
  Hypothesis Hsafe : safe_clauses cls = true.

  (* elements k, k+1, ..., k+m-1 in turn; the loop variable holds 1 + k during element k, written
     [1 + k * 1] as [do_loop] writes it for lower bound and step 1 (WhereExec2.exec_loop) *)
  Fixpoint pm (s : store) (k : Z) (m : nat) : option store :=
    match m with
    | O => Some s
    | S m' =>
        match chain_at (upd s (x, []) (1 + k * 1)) k cls with
        | Some s1 => pm s1 (k + 1) m'
        | None => None
        end
    end.

  Lemma col_cell_bnd s1 s2 k c : bnd s1 = bnd s2 -> col_cell s1 k c -> col_cell s2 k c.
  Proof. intros Hb [a [l0 [u0 [Ia [Eb Ec]]]]]. exists a, l0, u0. rewrite <- Hb. auto. Qed.

  Lemma pm_frame : forall m s k0 p,
    pm s k0 m = Some p ->
    bnd p = bnd s /\
    forall c, fst c <> x -> (forall k, k0 <= k < k0 + Z.of_nat m -> ~ col_cell s k c) -> val p c = val s c.
  Proof.
    induction m as [|m IH]; intros s k0 p H.
    - cbn in H. inversion H; subst. auto.
    - cbn [pm] in H. destruct (chain_at (upd s (x, []) (1 + k0 * 1)) k0 cls) as [s1|] eqn:Ec; [|discriminate].
      destruct (chain_at_frame k0 _ _ _ Hsafe Ec) as [Cb Cv]. rewrite bnd_upd in Cb.
      destruct (IH _ _ _ H) as [Pb Pv]. split; [congruence|].
      intros c Nx Nc. rewrite Pv.
      + rewrite Cv.
        * apply val_upd_other. intro E. apply Nx. rewrite E. reflexivity.
        * intro A. apply (Nc k0); [lia|]. eapply col_cell_bnd; [|exact A]. apply bnd_upd.
      + exact Nx.
      + intros k Hk A. apply (Nc k); [lia|]. eapply col_cell_bnd; [|exact A]. exact Cb.
  Qed.

  Lemma col_cell_disjoint s k1 k2 c : k1 <> k2 -> col_cell s k1 c -> ~ col_cell s k2 c.
  Proof.
    intros N [a [l0 [u0 [Ia [Eb Ec]]]]] [a' [l1 [u1 [Ia' [Eb' Ec']]]]]. subst c.
    inversion Ec'; subst a'. rewrite Eb in Eb'. inversion Eb'; subst. lia.
  Qed.

  Lemma agree_from_frame k s s1 :
    bnd s1 = bnd s ->
    (forall c, fst c <> x -> ~ (exists k', k' <> k /\ col_cell s k' c) -> val s1 c = val s c) ->
    agree k s1 s.
  Proof.
    intros Hb Hv. split; [exact Hb|]. split.
    - intros c N1 N2. apply Hv; [exact N2|]. intros [k' [_ [a [l0 [u0 [Ia [_ Ec]]]]]]]. apply N1. rewrite Ec. exact Ia.
    - intros a l0 u0 Ia Eb. apply Hv.
      + cbn [fst]. intro E. subst. contradiction.
      + intros [k' [Nk A]]. revert A. apply col_cell_disjoint with (k1 := k); [congruence|].
        exists a, l0, u0. rewrite <- Hb. auto.
  Qed.

  Lemma step_agree k0 k s s1 v : k <> k0 -> chain_at (upd s (x, []) v) k0 cls = Some s1 -> agree k s1 s.
  Proof.
    intros Nk Ec. destruct (chain_at_frame k0 _ _ _ Hsafe Ec) as [Cb Cv]. rewrite bnd_upd in Cb.
    apply agree_from_frame; [exact Cb|]. intros c Nx Nc. rewrite Cv.
    - apply val_upd_other. intro E. apply Nx. rewrite E. reflexivity.
    - intro A. apply Nc. exists k0. split; [congruence|]. eapply col_cell_bnd; [|exact A]. apply bnd_upd.
  Qed.

  Lemma pm_col : forall m s k0 p,
    pm s k0 m = Some p ->
    forall k, k0 <= k < k0 + Z.of_nat m ->
    exists u', chain_at s k cls = Some u' /\ agree k p u'.
  Proof.
    induction m as [|m IH]; intros s k0 p H k Hk; [cbn in Hk; lia|].
    cbn [pm] in H. destruct (chain_at (upd s (x, []) (1 + k0 * 1)) k0 cls) as [s1|] eqn:Ec; [|discriminate].
    destruct (Z.eq_dec k k0) as [->|Nk].
    - (* element k0 is computed now and not touched afterwards *)
      destruct (chain_at_agree k0 _ _ _ _ Hsafe (agree_updx k0 s _) Ec) as [u' [Hu' Hag]].
      exists u'. split; [exact Hu'|]. apply agree_trans with (s2 := s1); [|exact Hag].
      destruct (pm_frame _ _ _ _ H) as [Pb Pv].
      apply agree_from_frame; [exact Pb|]. intros c Nx Nc. apply Pv; [exact Nx|].
      intros k' Hk' A. apply Nc. exists k'. split; [lia|exact A].
    - destruct (IH _ _ _ H k ltac:(lia)) as [u1 [Hu1 Hag1]].
      destruct (chain_at_agree k _ _ _ _ Hsafe (step_agree k0 k s s1 _ Nk Ec) Hu1) as [u' [Hu' Hag']].
      exists u'. split; [exact Hu'|]. apply agree_trans with (s2 := u1); assumption.
  Qed.

  Lemma pm_exists : forall m s k0,
    (forall k, k0 <= k < k0 + Z.of_nat m -> exists u, chain_at s k cls = Some u) ->
    exists p, pm s k0 m = Some p.
  Proof.
    induction m as [|m IH]; intros s k0 H; [exists s; reflexivity|].
    cbn [pm]. destruct (H k0 ltac:(lia)) as [u Hu].
    destruct (chain_at_agree k0 _ _ _ _ Hsafe (agree_sym _ _ _ (agree_updx k0 s (1 + k0 * 1))) Hu) as [s1 [Hs1 _]].
    rewrite Hs1. apply IH. intros k Hk. destruct (H k ltac:(lia)) as [u2 Hu2].
    assert (Ha1 : agree k s s1) by (apply agree_sym, (step_agree k0 k s s1 _ ltac:(lia) Hs1)).
    destruct (chain_at_agree k _ _ _ _ Hsafe Ha1 Hu2) as [u3 [Hu3 _]]. exists u3. exact Hu3.
  Qed.

  Theorem rows_pm s t' :
    wclauses_rows s n (fun _ => true) cls = Some t' ->
    exists p, pm s 0 n = Some p /\ bnd p = bnd t' /\ forall c, fst c <> x -> val p c = val t' c.
  Proof.
    intro H.
    assert (Hcol : forall k, In k (zseq 0 n) -> exists u', chain_at s k cls = Some u' /\ agree k t' u').
    { intros k Ik. exact (clauses_rows_col k cls (fun _ => true) s s t' Ik Hsafe (agree_refl k s) H). }
    destruct (pm_exists n s 0) as [p Hp].
    { intros k Hk. destruct (Hcol k (proj2 (in_zseq _ _ _) Hk)) as [u' [Hu' _]]. exists u'. exact Hu'. }
    exists p. split; [exact Hp|].
    destruct (pm_frame _ _ _ _ Hp) as [Pb Pv].
    destruct (clauses_rows_frame _ _ _ _ Hsafe H) as [Rb Rv].
    split; [congruence|].
    intros c Nx. destruct (any_col_dec s c) as [[k [Ik [a [l0 [u0 [Ia [Eb ->]]]]]]]|No].
    - (* element k of an assigned array: both orders leave there what [chain_at s k] computes *)
      destruct (Hcol k Ik) as [u' [Hu' [_ [_ Hag3]]]].
      destruct (pm_col _ _ _ _ Hp k (proj1 (in_zseq _ _ _) Ik)) as [u2 [Hu2 [_ [_ Hag3']]]].
      rewrite Hu' in Hu2. inversion Hu2; subst u2.
      rewrite (Hag3' a l0 u0 Ia) by (rewrite Pb; exact Eb).
      symmetry. apply (Hag3 a l0 u0 Ia). rewrite Rb. exact Eb.
    - (* neither order touches c *)
      rewrite Pv; [symmetry; apply Rv, No|exact Nx|].
      intros k Hk A. apply No. exists k. split; [apply in_zseq, Hk|exact A].
  Qed.
End Where.
