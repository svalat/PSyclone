(* C01 -- WHERE over the expression type of Model.v.  The argument itself is carried out once, over the
   expression type of Model2.v, which has one more operand (WhereLocal2.v: statement-major = element-major;
   WhereExec2.v: the lowered loop computes the element-major function).  Here: the embedding [inj] of
   Model.wexpr into Model2.wexpr, one equation per function of Model.v saying that it is its Model2
   namesake on the image of the embedding, and the WHERE theorem carried back along it. *)
From Coq Require Import List ZArith Bool.
Import ListNotations.
From PV Require Import Fort.Syntax Fort.Sem Fort.Facts C01.Model C01.WhereLocal.
From PV Require C01.Model2 C01.WhereLocal2 C01.WhereExec2.   (* not imported: they re-use the names of Model.v *)
Open Scope Z_scope.

Definition item_names (it : witem) : list name :=
  match it with WAssign a _ => [a] | WNest _ _ body => map fst body end.
Definition wassigned (w : wconstruct) : list name :=
  flat_map (fun cl => flat_map item_names (snd cl)) (wclauses w).

(* the sufficient condition of the theorem: no nested WHERE, no reduction, only elemental
   intrinsics; scalar sub-expressions mention neither an assigned array nor the loop variable; the
   loop variable is none of the arrays *)
Definition safe_where (w : wconstruct) : bool :=
  notin_b (wx w) (wassigned w) && safe_clauses (wassigned w) (wx w) (wclauses w).

(* what the reader knows about the mask array is true of the store, and the trip count it derives
   from the declaration is right: always for SIZE, for declared bounds only if the lower bound is 1
   (or with the repaired bound expression) *)
Definition dc_ok (md : mode) (dc : decls) (s : store) (a0 : name) : Prop :=
  match dc a0 with
  | None => True
  | Some (lb, ub) => bnd s a0 = [(lb, ub)] /\ (md = Fixed \/ lb = 1)
  end.

Definition inj_red (r : red) : Model2.red :=
  match r with
  | RSum => Model2.RSum | RProduct => Model2.RProduct | RMaxval => Model2.RMaxval | RMinval => Model2.RMinval
  end.

Fixpoint inj (e : wexpr) : Model2.wexpr :=
  match e with
  | WScal e0 => Model2.WScal e0
  | WArr a => Model2.WArr a
  | WUn o e1 => Model2.WUn o (inj e1)
  | WBin o l r => Model2.WBin o (inj l) (inj r)
  | WIntr1 f e1 => Model2.WIntr1 f (inj e1)
  | WIntr2 f l r => Model2.WIntr2 f (inj l) (inj r)
  | WRed r e1 => Model2.WRed (inj_red r) (inj e1)
  end.

Definition inj_assign (p : name * wexpr) : name * Model2.wexpr := (fst p, inj (snd p)).

Definition inj_item (it : witem) : Model2.witem :=
  match it with
  | WAssign a rhs => Model2.WAssign a (inj rhs)
  | WNest y m body => Model2.WNest y (inj m) (map inj_assign body)
  end.

Definition inj_clause (cl : option wexpr * list witem) : option Model2.wexpr * list Model2.witem :=
  (option_map inj (fst cl), map inj_item (snd cl)).

Definition inj_w (w : wconstruct) : Model2.wconstruct :=
  Model2.mkW (wx w) (inj (wmask w)) (map inj_item (wbody w)) (map inj_clause (wels w)).

Definition inj_mode (md : mode) : Model2.mode := match md with Today => Model2.Today | Fixed => Model2.Fixed end.

Definition inj_lres (r : lres) : Model2.lres :=
  match r with
  | Refused => Model2.Refused
  | NotExpressible => Model2.NotExpressible
  | Lowered ss => Model2.Lowered ss
  end.

Lemma wclauses_inj w : Model2.wclauses (inj_w w) = map inj_clause (wclauses w).
Proof. reflexivity. Qed.

Lemma forallb_ext' {A} (f g : A -> bool) l : (forall x, f x = g x) -> forallb f l = forallb g l.
Proof. intro H. induction l as [|a l IH]; [reflexivity|]. cbn. rewrite H, IH. reflexivity. Qed.

Lemma fold_left_ext {A B} (f g : A -> B -> A) l : (forall a b, f a b = g a b) -> forall a, fold_left f l a = fold_left g l a.
Proof. intro H. induction l as [|b l IH]; intro a; [reflexivity|]. cbn. rewrite H. apply IH. Qed.

Lemma forallb_map {A B} (h : A -> B) (f : A -> bool) (g : B -> bool) l :
  (forall a, g (h a) = f a) -> forallb g (map h l) = forallb f l.
Proof. intro H. induction l as [|a l IH]; [reflexivity|]. cbn. rewrite H, IH. reflexivity. Qed.

Lemma flat_map_map {A B C} (h : A -> B) (f : A -> list C) (g : B -> list C) l :
  (forall a, g (h a) = f a) -> flat_map g (map h l) = flat_map f l.
Proof. intro H. induction l as [|a l IH]; [reflexivity|]. cbn. rewrite H, IH. reflexivity. Qed.

Lemma wfirst_inj e : Model2.wfirst (inj e) = wfirst e.
Proof.
  induction e as [e0|a|o e1 IH|o l IHl r IHr|f e1 IH|f l IHl r IHr|rd e1 IH]; cbn [inj Model2.wfirst wfirst];
    try rewrite IHl, IHr; auto.
Qed.

Lemma weval_inj s n e : forall k, Model2.weval s n k (inj e) = weval s n k e.
Proof.
  induction e as [e0|a|o e1 IH|o l IHl r IHr|f e1 IH|f l IHl r IHr|rd e1 IH]; intro k;
    cbn [inj Model2.weval weval]; try rewrite IH; try rewrite IHl, IHr; try reflexivity.
  rewrite (map_ext _ _ IH). destruct rd; reflexivity.
Qed.

(* The control masks are functions of the element number built from [mask_fun]: the two sides of an
   equation carry pointwise-equal, not equal, masks. *)
Section Rows.
  Variable n : nat.

  Lemma wassign_row_inj s c c' a rhs : (forall k, c' k = c k) ->
    Model2.wassign_row s n c' a (inj rhs) = wassign_row s n c a rhs.
  Proof.
    intro Hc. unfold Model2.wassign_row, wassign_row, Model2.row_ok, row_ok, Model2.row_store, row_store.
    destruct (bnd s a) as [|[l u] [|? ?]]; try reflexivity.
    rewrite (forallb_ext' _ (fun k => if c k then is_some (weval s n k rhs) else true));
      [|intro k; rewrite Hc, weval_inj; reflexivity].
    destruct (forallb _ _); [|reflexivity]. f_equal. apply fold_left_ext.
    intros st k. rewrite Hc, weval_inj. reflexivity.
  Qed.

  Lemma mask_ok_inj s p p' m : (forall k, p' k = p k) -> Model2.mask_ok s n p' (inj m) = mask_ok s n p m.
  Proof. intro Hp. apply forallb_ext'. intro k. rewrite Hp, weval_inj. reflexivity. Qed.

  Lemma mask_fun_inj s m k : Model2.mask_fun s n (inj m) k = mask_fun s n m k.
  Proof. unfold Model2.mask_fun, mask_fun. rewrite weval_inj. reflexivity. Qed.

  Lemma wassigns_rows_inj : forall body s c c', (forall k, c' k = c k) ->
    Model2.wassigns_rows s n c' (map inj_assign body) = wassigns_rows s n c body.
  Proof.
    induction body as [|[a rhs] r IH]; intros s c c' Hc; [reflexivity|].
    cbn [map inj_assign fst snd Model2.wassigns_rows wassigns_rows]. rewrite (wassign_row_inj s c c' a rhs Hc).
    destruct (wassign_row s n c a rhs); [apply IH, Hc|reflexivity].
  Qed.

  Lemma witems_rows_inj : forall items s c c', (forall k, c' k = c k) ->
    Model2.witems_rows s n c' (map inj_item items) = witems_rows s n c items.
  Proof.
    induction items as [|[a rhs|y m body] r IH]; intros s c c' Hc; [reflexivity| |];
      cbn [map inj_item Model2.witems_rows witems_rows].
    - rewrite (wassign_row_inj s c c' a rhs Hc). destruct (wassign_row s n c a rhs); [apply IH, Hc|reflexivity].
    - rewrite (mask_ok_inj s c c' m Hc). destruct (mask_ok s n c m); [|reflexivity].
      rewrite (wassigns_rows_inj body s (fun k => c k && mask_fun s n m k));
        [|intro k; rewrite Hc, mask_fun_inj; reflexivity].
      destruct (wassigns_rows s n _ body); [apply IH, Hc|reflexivity].
  Qed.

  Lemma wclauses_rows_inj : forall cls s p p', (forall k, p' k = p k) ->
    Model2.wclauses_rows s n p' (map inj_clause cls) = wclauses_rows s n p cls.
  Proof.
    induction cls as [|[[m|] body] rest IH]; intros s p p' Hp; [reflexivity| |];
      cbn [map inj_clause option_map fst snd Model2.wclauses_rows wclauses_rows]; cbv zeta.
    - rewrite (mask_ok_inj s p p' m Hp). destruct (mask_ok s n p m); [|reflexivity].
      rewrite (witems_rows_inj body s (fun k => p k && mask_fun s n m k));
        [|intro k; rewrite Hp, mask_fun_inj; reflexivity].
      destruct (witems_rows s n _ body); [|reflexivity].
      apply IH. intro k. rewrite Hp, mask_fun_inj. reflexivity.
    - rewrite (witems_rows_inj body s p p' Hp). destruct (witems_rows s n p body); [|reflexivity].
      apply IH. reflexivity.
  Qed.

  Lemma items_at_inj : forall items s k, WhereLocal2.items_at n s k (map inj_item items) = items_at n s k items.
  Proof.
    induction items as [|[a rhs|y m body] r IH]; intros s k; try reflexivity.
    cbn [map inj_item WhereLocal2.items_at items_at]. rewrite weval_inj.
    destruct (bnd s a) as [|[l u] [|? ?]]; try reflexivity. destruct (weval s n k rhs); [apply IH|reflexivity].
  Qed.

  Lemma chain_at_inj : forall cls s k, WhereLocal2.chain_at n s k (map inj_clause cls) = chain_at n s k cls.
  Proof.
    induction cls as [|[[m|] body] rest IH]; intros s k; [reflexivity| |];
      cbn [map inj_clause option_map fst snd WhereLocal2.chain_at chain_at].
    - rewrite weval_inj. destruct (weval s n k m) as [v|]; [|reflexivity].
      destruct (v =? 0); [apply IH|apply items_at_inj].
    - apply items_at_inj.
  Qed.

  Lemma pm_inj x cls : forall m s k, WhereLocal2.pm x n (map inj_clause cls) s k m = pm x n cls s k m.
  Proof.
    induction m as [|m IH]; intros s k; [reflexivity|]. cbn [WhereLocal2.pm pm]. rewrite chain_at_inj.
    destruct (chain_at n _ k cls); [apply IH|reflexivity].
  Qed.
End Rows.

Lemma where_sem_inj w s : Model2.where_sem (inj_w w) s = where_sem w s.
Proof.
  unfold Model2.where_sem, where_sem. rewrite wclauses_inj. cbn [inj_w Model2.wmask]. rewrite wfirst_inj.
  destruct (wfirst (wmask w)) as [a0|]; [|reflexivity].
  change (Model2.extent_of s a0) with (extent_of s a0). destruct (extent_of s a0) as [n|]; [|reflexivity].
  apply wclauses_rows_inj. reflexivity.
Qed.

Lemma lower_wexpr_inj x e : Model2.lower_wexpr x (inj e) = lower_wexpr x e.
Proof.
  unfold Model2.lower_wexpr, lower_wexpr.
  induction e as [e0|a|o e1 IH|o l IHl r IHr|f e1 IH|f l IHl r IHr|rd e1 IH];
    cbn [inj Model2.index_w index_w Model2.to_expr to_expr]; try rewrite IH; try rewrite IHl, IHr; reflexivity.
Qed.

Lemma lower_assigns_inj x : forall body, Model2.lower_assigns x (map inj_assign body) = lower_assigns x body.
Proof.
  induction body as [|[a rhs] r IH]; [reflexivity|].
  cbn [map inj_assign fst snd Model2.lower_assigns lower_assigns]. rewrite lower_wexpr_inj, IH. reflexivity.
Qed.

Lemma ub_expr_inj md dc a0 : Model2.ub_expr (inj_mode md) dc a0 = ub_expr md dc a0.
Proof. destruct md; reflexivity. Qed.

Lemma lower_items_inj md dc x : forall items,
  Model2.lower_items (inj_mode md) dc x (map inj_item items) = lower_items md dc x items.
Proof.
  induction items as [|[a rhs|y m body] r IH]; [reflexivity| |];
    cbn [map inj_item Model2.lower_items lower_items]; rewrite IH.
  - rewrite lower_wexpr_inj. reflexivity.
  - unfold Model2.lower_nest, lower_nest. rewrite wfirst_inj, lower_wexpr_inj, lower_assigns_inj.
    destruct (wfirst m) as [a0|]; [rewrite ub_expr_inj|]; reflexivity.
Qed.

Lemma lower_chain_inj md dc x : forall cls,
  Model2.lower_chain (inj_mode md) dc x (map inj_clause cls) = lower_chain md dc x cls.
Proof.
  induction cls as [|[[m|] body] rest IH]; [reflexivity| |];
    cbn [map inj_clause option_map fst snd Model2.lower_chain lower_chain]; rewrite lower_items_inj; [|reflexivity].
  rewrite lower_wexpr_inj, IH. reflexivity.
Qed.

Lemma lower_where_inj md dc w : Model2.lower_where (inj_mode md) dc (inj_w w) = inj_lres (lower_where md dc w).
Proof.
  unfold Model2.lower_where, lower_where. rewrite wclauses_inj. cbn [inj_w Model2.wmask Model2.wx].
  rewrite wfirst_inj, lower_chain_inj.
  destruct (wfirst (wmask w)) as [a0|]; [rewrite ub_expr_inj; destruct (lower_chain md dc (wx w) (wclauses w))|];
    reflexivity.
Qed.

Lemma safe_e_inj W x e : WhereLocal2.safe_e W x (inj e) = safe_e W x e.
Proof.
  induction e as [e0|a|o e1 IH|o l IHl r IHr|f e1 IH|f l IHl r IHr|rd e1 IH];
    cbn [inj WhereLocal2.safe_e safe_e]; try rewrite IH; try rewrite IHl, IHr; reflexivity.
Qed.

Lemma safe_items_inj W x items : WhereLocal2.safe_items W x (map inj_item items) = safe_items W x items.
Proof.
  apply forallb_map. intros [a rhs|y m body]; cbn [inj_item WhereLocal2.safe_item safe_item]; [|reflexivity].
  rewrite safe_e_inj. reflexivity.
Qed.

Lemma safe_clauses_inj W x cls : WhereLocal2.safe_clauses W x (map inj_clause cls) = safe_clauses W x cls.
Proof.
  apply forallb_map. intros [[m|] body]; unfold WhereLocal2.safe_clause, safe_clause;
    cbn [inj_clause option_map fst snd]; rewrite safe_items_inj; [rewrite safe_e_inj|]; reflexivity.
Qed.

Lemma wassigned_inj w : WhereExec2.wassigned (inj_w w) = wassigned w.
Proof.
  unfold WhereExec2.wassigned, wassigned. rewrite wclauses_inj. apply flat_map_map.
  intros [m items]. cbn [inj_clause snd]. apply flat_map_map.
  intros [a rhs|y m0 body]; cbn [inj_item WhereExec2.item_names item_names]; [reflexivity|].
  rewrite map_map. reflexivity.
Qed.

Lemma safe_where_inj w : WhereExec2.safe_where (inj_w w) = safe_where w.
Proof.
  unfold WhereExec2.safe_where, safe_where. rewrite wassigned_inj, wclauses_inj, safe_clauses_inj. reflexivity.
Qed.

Lemma dc_ok_inj md dc s a0 : dc_ok md dc s a0 -> WhereExec2.dc_ok (inj_mode md) dc s a0.
Proof.
  unfold WhereExec2.dc_ok, dc_ok. destruct (dc a0) as [[lb ub]|]; [|trivial].
  intros [Hb [->|Hl]]; split; auto.
Qed.

(* the property C01_lower_where_sound_partial (coq/Properties/C01.v) *)
Theorem lower_where_sound_partial_ md dc w s s' ss :
  safe_where w = true ->
  (forall a0, wfirst (wmask w) = Some a0 -> dc_ok md dc s a0) ->
  where_sem w s = Some s' ->
  lower_where md dc w = Lowered ss ->
  exists f s'' tr,
    exec f ss s = Ok s'' tr CNormal /\ bnd s'' = bnd s' /\
    (forall c, fst c <> wx w -> val s'' c = val s' c) /\ outputs tr = [].
Proof.
  intros Hsafe Hdc Hsem Hlow.
  apply (WhereExec2.lower_where_sound_partial_ (inj_mode md) dc (inj_w w)).
  - rewrite safe_where_inj. exact Hsafe.
  - intros a0 Ha. apply dc_ok_inj, Hdc. rewrite <- wfirst_inj. exact Ha.
  - rewrite where_sem_inj. exact Hsem.
  - rewrite lower_where_inj, Hlow. reflexivity.
Qed.

(* non-vacuity: arrays with three different lower bounds, an array assigned and read in the same
   construct, ELSEWHERE (mask) and plain ELSEWHERE; the mask array has an unsupported declaration
   (negative lower bound), so the loop runs to SIZE(a, 1) *)
Definition ex_a : name := 0%nat.  Definition ex_b : name := 1%nat.  Definition ex_c : name := 2%nat.
Definition ex_n : name := 3%nat.  Definition ex_x : name := 9%nat.
Definition ex_w : wconstruct :=
  mkW ex_x (WBin Gt (WArr ex_a) (WScal (ELit 0)))
      [WAssign ex_b (WBin Add (WArr ex_a) (WArr ex_c)); WAssign ex_a (WUn Neg (WArr ex_b))]
      [(Some (WBin Lt (WArr ex_a) (WScal (EUn Neg (ELit 1)))), [WAssign ex_b (WScal (ELit 0))]);
       (None, [WAssign ex_c (WIntr2 IMax (WArr ex_c) (WScal (EVar ex_n)))])].
Definition ex_s : store :=
  store_of [((ex_a, [-2]), 5); ((ex_a, [-1]), -3); ((ex_a, [0]), 0); ((ex_a, [1]), 2);
            ((ex_b, [1]), 7); ((ex_b, [2]), 7); ((ex_b, [3]), 7); ((ex_b, [4]), 7);
            ((ex_c, [3]), 1); ((ex_c, [4]), 1); ((ex_c, [5]), 1); ((ex_c, [6]), 1); ((ex_n, []), 4)]
           [(ex_a, [(-2, 1)]); (ex_b, [(1, 4)]); (ex_c, [(3, 6)])].

Definition zlist_eqb (a b : list Z) : bool :=
  (Nat.eqb (length a) (length b)) && forallb (fun p => fst p =? snd p) (combine a b).

(* source meaning and lowered run both computed: b = 6 0 7 3, a = -6 -3 0 -3, c = 1 1 4 1 *)
Definition ex_check : bool :=
  match where_sem ex_w ex_s, lower_where Today (fun _ => None) ex_w with
  | Some s', Lowered ss =>
      match exec 60 ss ex_s with
      | Ok s'' _ CNormal =>
          zlist_eqb (map (fun i => val s' (ex_b, [i])) [1; 2; 3; 4]) [6; 0; 7; 3] &&
          zlist_eqb (map (fun i => val s' (ex_a, [i])) [-2; -1; 0; 1]) [-6; -3; 0; -3] &&
          zlist_eqb (map (fun i => val s' (ex_c, [i])) [3; 4; 5; 6]) [1; 1; 4; 1] &&
          zlist_eqb (map (fun i => val s'' (ex_b, [i])) [1; 2; 3; 4]) [6; 0; 7; 3] &&
          zlist_eqb (map (fun i => val s'' (ex_a, [i])) [-2; -1; 0; 1]) [-6; -3; 0; -3] &&
          zlist_eqb (map (fun i => val s'' (ex_c, [i])) [3; 4; 5; 6]) [1; 1; 4; 1]
      | _ => false
      end
  | _, _ => false
  end.

Example where_example :
  safe_where ex_w = true /\
  (forall a0, wfirst (wmask ex_w) = Some a0 -> dc_ok Today (fun _ => None) ex_s a0) /\
  ex_check = true.
Proof. split; [vm_compute; reflexivity|]. split; [intros a0 _; exact I|vm_compute; reflexivity]. Qed.
