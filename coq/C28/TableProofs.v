(* C28 — obligations about the GENERATED tables (Gen.v = the tree under test).  These are
   re-checked on every run; they break when e.g. Return is dropped from a transformation's
   excluded_node_types or a loop directive is no longer recognised by PSyDataTrans.validate. *)
From Coq Require Import List ZArith Bool Arith.
Import ListNotations.
From PV Require Import Fort.Syntax Fort.Sem Base.Harness C28.Model C28.Proofs C28.Gen.
Close Scope Z_scope.
Open Scope nat_scope.

(* Return is excluded by every transformation except (as found) ExtractTrans *)
Lemma gen_return_excluded : forall t, t <> TExtract -> x_excl gen_tables t KReturn = true.
Proof. intros t Ht. destruct t; try congruence; vm_compute; reflexivity. Qed.

(* ExtractTrans excludes CodeBlocks, hence EXIT/CYCLE *)
Lemma gen_extract_codeblock : x_excl gen_tables TExtract KCodeBlock = true.
Proof. vm_compute. reflexivity. Qed.

(* OMPDo (1), OMPParallelDo (2), ACCLoop (4) are loop directives; ACCParallel (3), ACCLoop (4),
   ACCKernels (5) are OpenACC directives *)
Lemma gen_loopdirs : x_loopdir gen_tables 1 = true /\ x_loopdir gen_tables 2 = true /\ x_loopdir gen_tables 4 = true.
Proof. vm_compute. repeat split. Qed.

Lemma gen_accdirs : x_acc gen_tables 3 = true /\ x_acc gen_tables 4 = true /\ x_acc gen_tables 5 = true.
Proof. vm_compute. repeat split. Qed.

(* the tables are at least as strict as the ones found in the unchanged tree on the two kinds
   that matter for the property (so every placement the current tree accepts was accepted by the
   tree as found, as far as Return / CodeBlock exclusion goes) *)
Lemma gen_at_least_asfound : forall t k, (k = KReturn \/ k = KCodeBlock) ->
  x_excl asfound_tables t k = true -> x_excl gen_tables t k = true.
Proof. intros t k [-> | ->]; destruct t; vm_compute; intro H; try discriminate; reflexivity. Qed.

(* non-vacuity on the generated tables *)
Example gen_nonvacuous :
  accept_impl TProfile ok_prog ok_tgt wit_opts = true /\
  accept_impl TExtract witr_prog (mkTarget [] 0 1) wit_opts = true /\
  accept_impl TNanTest [SDir 1 [SDo 0 (ELit 1%Z) (ELit 2%Z) (ELit 1%Z) []]] (mkTarget [(0, false)] 0 1) wit_opts = false.
Proof. vm_compute. repeat split. Qed.
