(* C28 — PSy-layer region names: get_unique_region_name issues pairwise distinct names; names
   chosen at generation time are pairwise distinct (the two schemes together are not: the witness
   is C28_psy_lfric_mixed_refuted in Properties/C28.v). *)
From Coq Require Import List ZArith Bool Arith Lia.
Import ListNotations.
From PV Require Import Fort.Syntax Base.Harness C28.Model.
Close Scope Z_scope.
Open Scope nat_scope.

Lemma pkey_eqb_eq a b : pkey_eqb a b = true <-> a = b.
Proof.
  destruct a as [i k], b as [j l]. unfold pkey_eqb. cbn [fst snd]. rewrite andb_true_iff, Nat.eqb_eq.
  split.
  - intros [-> H]. destruct k as [x|], l as [y|]; cbn in H; try discriminate; try reflexivity.
    apply Nat.eqb_eq in H. subst. reflexivity.
  - intro E. inversion E; subst. split; [reflexivity|]. destruct l as [y|]; cbn; [apply Nat.eqb_refl | reflexivity].
Qed.

Lemma pkey_eqb_refl a : pkey_eqb a a = true.
Proof. apply pkey_eqb_eq. reflexivity. Qed.

Lemma count_key_cons_le k b hist : count_key k hist <= count_key k (b :: hist).
Proof. unfold count_key. cbn [filter]. destruct (pkey_eqb k b); cbn [length]; lia. Qed.

Lemma count_key_cons_same k hist : count_key k (k :: hist) = S (count_key k hist).
Proof. unfold count_key. cbn [filter]. rewrite pkey_eqb_refl. reflexivity. Qed.

(* every name issued later for a key carries an index >= the number of earlier uses of that key *)
Lemma issue_ge : forall reqs hist b n, In (b, n) (issue hist reqs) -> count_key b hist <= n.
Proof.
  induction reqs as [|[inv ks] r IH]; intros hist b n H; [destruct H|]. cbn [issue] in H. destruct H as [H|H].
  - inversion H; subst. lia.
  - apply IH in H. pose proof (count_key_cons_le b (base_of inv ks) hist). lia.
Qed.

(* FULL: whatever the requests and whatever was issued before, the issued names are pairwise
   distinct (and, by issue_ge, distinct from the earlier ones) *)
Theorem issue_unique_ : forall reqs hist, NoDup (issue hist reqs).
Proof.
  induction reqs as [|[inv ks] r IH]; intros hist; [constructor|]. cbn [issue]. constructor; [|apply IH].
  intro Hin. apply issue_ge in Hin. rewrite count_key_cons_same in Hin. lia.
Qed.

(* names chosen at generation time (all regions PSGen) are pairwise distinct: LFRic *)
Lemma lfric_gen_ge : forall nodes i issued b n,
  In (PNInvoke b n) (lfric_names_from i issued nodes) ->
  Forall (fun nd => snd nd = PSGen) nodes -> i <= n.
Proof.
  induction nodes as [|[[inv ks] s] r IH]; intros i issued b n H Hall; [destruct H|].
  inversion Hall as [|x l Hs Hr]; subst. cbn in Hs. subst s. cbn [lfric_names_from] in H. destruct H as [H|H].
  - inversion H; subst. lia.
  - apply IH in H; [lia | exact Hr].
Qed.

Theorem lfric_gen_unique_ : forall nodes i issued,
  Forall (fun nd => snd nd = PSGen) nodes -> NoDup (lfric_names_from i issued nodes).
Proof.
  induction nodes as [|[[inv ks] s] r IH]; intros i issued Hall; [constructor|].
  inversion Hall as [|x l Hs Hr]; subst. cbn in Hs. subst s. cbn [lfric_names_from]. constructor; [|apply IH, Hr].
  intro Hin. apply lfric_gen_ge in Hin; [lia | exact Hr].
Qed.

Example issue_nonvacuous :
  issue [] [(0, [1; 1]); (0, [2; 2]); (0, [3]); (1, [3]); (0, [3])]
  = [((0, None), 0); ((0, None), 1); ((0, Some 3), 0); ((1, Some 3), 0); ((0, Some 3), 1)].
Proof. vm_compute. reflexivity. Qed.
