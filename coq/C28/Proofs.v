(* C28 — proofs about the model, for any tables (the facts about the generated tables are in
   TableProofs.v): programs without escaping transfer have balanced traces; wrapping a selection
   outside the two gap reasons keeps a program so; what validate excludes; region names are
   unique; automatic profiling.  Also the witness programs of Properties/C28.v. *)
From Coq Require Import List ZArith Bool Arith Lia.
Import ListNotations.
From PV Require Import Fort.Syntax Fort.Sem Fort.Facts Base.Harness C28.Model.
Close Scope Z_scope.
Open Scope nat_scope.

Lemma wb_app st t1 t2 :
  wb st (t1 ++ t2) = match wb st t1 with Some st' => wb st' t2 | None => None end.
Proof.
  revert st; induction t1 as [|e t1 IH]; intros st; cbn [app wb]; [reflexivity|].
  destruct e as [l|l|v|r|r]; try apply IH.
  destruct st as [|r' st']; [reflexivity|]. destruct (Nat.eqb r r'); [apply IH|reflexivity].
Qed.

Lemma wb_regions st tr : wb st (regions tr) = wb st tr.
Proof.
  revert st; induction tr as [|e tr IH]; intros st; [reflexivity|].
  destruct e as [l|l|v|r|r]; cbn [regions wb]; try apply IH.
  destruct st as [|r' st']; [reflexivity|]. destruct (Nat.eqb r r'); [apply IH|reflexivity].
Qed.

(* a trace that leaves every stack as it found it *)
Definition bal (tr : list event) : Prop := forall st, wb st tr = Some st.

Lemma bal_nil : bal [].
Proof. intro st; reflexivity. Qed.

Lemma bal_app t1 t2 : bal t1 -> bal t2 -> bal (t1 ++ t2).
Proof. intros H1 H2 st. rewrite wb_app, H1. apply H2. Qed.

Lemma bal_region r t : bal t -> bal (Enter r :: t ++ [Leave r]).
Proof. intros H st. cbn [wb]. rewrite wb_app, H. cbn [wb]. rewrite Nat.eqb_refl. reflexivity. Qed.

Lemma bal_rds l : bal (rds l).
Proof. induction l as [|x l IH]; intro st; [reflexivity|]. cbn. apply IH. Qed.

Lemma bal_wr l : bal [Wr l].
Proof. intro st; reflexivity. Qed.

Lemma bal_out v : bal [Out v].
Proof. intro st; reflexivity. Qed.

Lemma bal_well_bracketed tr : bal tr -> well_bracketed (regions tr).
Proof. intro H. unfold well_bracketed. rewrite wb_regions. apply H. Qed.

Lemma wb_ok_iff tr : wb_ok tr = true <-> well_bracketed tr.
Proof.
  unfold wb_ok, well_bracketed. destruct (wb [] tr) as [[|x l]|]; split; intro H; try reflexivity; try discriminate.
Qed.

Definition ctl_ok (ir d : bool) (c : ctl) : Prop :=
  match c with
  | CNormal => True
  | CExit | CCycle => d = false
  | CReturn => ir = false
  end.

(* what running a block that is safe under the flags [ir], [d] may give: a balanced trace, and a
   control state that leaves no region open (EXIT/CYCLE only when the nearest enclosing
   loop-or-region is not a region, RETURN only outside every region) *)
Definition good (ir d : bool) (o : outcome) : Prop :=
  match o with Ok _ tr c => bal tr /\ ctl_ok ir d c | _ => True end.

Lemma good_prepend ir d t o : bal t -> good ir d o -> good ir d (prepend t o).
Proof.
  intros Ht Ho. destruct o as [s tr c| |]; [|exact I..].
  destruct Ho as [Hb Hc]. split; [apply bal_app; assumption | exact Hc].
Qed.

Lemma good_then_run ir d o (K : runner) :
  good ir d o -> (forall s, good ir d (K s)) -> good ir d (then_run o K).
Proof.
  intros Ho HK. destruct o as [s tr c| |]; [|exact I..].
  destruct c; [|exact Ho..]. apply good_prepend; [exact (proj1 Ho) | apply HK].
Qed.

(* a loop absorbs the EXIT and CYCLE of its body, so its own flag [d] does not matter *)
Lemma do_loop_good (run : runner) ir d x l t :
  (forall s, good ir false (run s)) -> forall n k s, good ir d (do_loop run x l t n k s).
Proof.
  intros Hrun. induction n as [|n IH]; intros k s; cbn [do_loop].
  - split; [apply bal_wr | exact I].
  - specialize (Hrun (upd s (x, []) (l + k * t)%Z)).
    destruct (run (upd s (x, []) (l + k * t)%Z)) as [s2 tr2 c2| |]; [|exact I..].
    destruct Hrun as [Hb Hc].
    assert (Hb' : bal (Wr (x, []) :: tr2)) by (apply (bal_app [Wr (x, [])]); [apply bal_wr | exact Hb]).
    destruct c2.
    + apply good_prepend; [exact Hb' | apply IH].
    + exact (conj Hb' I).
    + apply good_prepend; [exact Hb' | apply IH].
    + exact (conj Hb' Hc).
Qed.

Lemma exec_stmt_good (run : list stmt -> runner)
  (IH : forall ss ir d s, safe ir d ss = true -> good ir d (run ss s)) :
  forall st ir d s, safe_s ir d st = true -> good ir d (exec_stmt run st s).
Proof.
  intros st ir d s Hs.
  destruct st as [x ix e | c th el | x lo hi stp body | | | | es | r body | dd body];
    cbn [exec_stmt]; cbn [safe_s] in Hs.
  - destruct (opt_all (map (eval s) ix)) as [vs|]; [|exact I].
    destruct (eval s e) as [v|]; [|exact I].
    split; [apply bal_app; [apply bal_rds | apply bal_wr] | exact I].
  - destruct (eval s c) as [v|]; [|exact I].
    apply andb_true_iff in Hs as [Ht He].
    apply good_prepend; [apply bal_rds|]. apply IH. destruct (v =? 0)%Z; assumption.
  - destruct (eval s lo) as [l|]; [|exact I]. destruct (eval s hi) as [h|]; [|exact I].
    destruct (eval s stp) as [t|]; [|exact I]. destruct (t =? 0)%Z; [exact I|].
    apply good_prepend; [apply bal_rds|]. apply do_loop_good. intro s0. apply IH, Hs.
  - split; [apply bal_nil | exact (proj1 (negb_true_iff d) Hs)].
  - split; [apply bal_nil | exact (proj1 (negb_true_iff d) Hs)].
  - split; [apply bal_nil | exact (proj1 (negb_true_iff ir) Hs)].
  - destruct (opt_all (map (eval s) es)) as [vs|]; [|exact I].
    split; [apply bal_app; [apply bal_rds | apply bal_out] | exact I].
  - (* inside the region both flags are set, so the body can only end normally *)
    specialize (IH body true true s Hs). destruct (run body s) as [s1 tr c| |]; [|exact I..].
    destruct IH as [Hb Hc]. destruct c; try discriminate Hc.
    split; [apply bal_region, Hb | exact I].
  - apply IH, Hs.
Qed.

Lemma exec_good : forall f ss ir d s, safe ir d ss = true -> good ir d (exec f ss s).
Proof.
  induction f as [|f IH]; intros ss ir d s Hs; [exact I|].
  destruct ss as [|st rest]; [exact (conj bal_nil I)|].
  rewrite exec_cons. cbn [safe forallb] in Hs. apply andb_true_iff in Hs as [H1 H2].
  apply good_then_run.
  - apply exec_stmt_good; [exact IH | exact H1].
  - intro s1. apply IH, H2.
Qed.

(* THE partial theorem: no escaping transfer => every execution (any store, any fuel) that
   terminates normally or by RETURN/EXIT/CYCLE at routine level has a well-bracketed trace. *)
Theorem balanced_partial_ : forall fuel p st st' tr c,
  no_escaping_transfer p = true -> exec fuel p st = Ok st' tr c -> well_bracketed (regions tr).
Proof.
  intros fuel p st st' tr c Hs He. pose proof (exec_good fuel p false false st Hs) as H.
  rewrite He in H. exact (bal_well_bracketed tr (proj1 H)).
Qed.

(* [any_stmt], [safe_s] and [count_s] recurse through the blocks nested in a statement; a fact
   about blocks is proved together with the corresponding fact [P] about single statements. *)
Lemma block_ind (P : stmt -> Prop) (Q : list stmt -> Prop) :
  Q [] -> (forall s l, P s -> Q l -> Q (s :: l)) ->
  (forall x ix e, P (SAssign x ix e)) ->
  (forall c th el, Q th -> Q el -> P (SIf c th el)) ->
  (forall x lo hi st b, Q b -> P (SDo x lo hi st b)) ->
  P SExit -> P SCycle -> P SReturn -> (forall es, P (SPrint es)) ->
  (forall r b, Q b -> P (SRegion r b)) ->
  (forall d b, Q b -> P (SDir d b)) ->
  forall l, Q l.
Proof.
  intros Hnil Hcons Hassign Hif Hdo Hexit Hcycle Hreturn Hprint Hregion Hdir.
  assert (HQ : forall l, Forall P l -> Q l) by (induction 1; auto).
  assert (HP : forall s, P s) by (induction s using stmt_ind'; auto).
  intro l. apply HQ, Forall_forall. intros s _. apply HP.
Qed.

Lemma orb_false_mono a b a' b' :
  (a = false -> a' = false) -> (b = false -> b' = false) -> a || b = false -> a' || b' = false.
Proof. intros Ha Hb H. apply orb_false_iff in H as [H1 H2]. rewrite (Ha H1), (Hb H2). reflexivity. Qed.

Lemma any_in_mono (P Q : stmt -> bool) :
  (forall s, Q s = true -> P s = true) -> forall ss, any_in P ss = false -> any_in Q ss = false.
Proof.
  intro HPQ.
  assert (Hhd : forall s, P s = false -> Q s = false).
  { intros s HP. destruct (Q s) eqn:EQ; [|reflexivity]. rewrite (HPQ s EQ) in HP. discriminate HP. }
  intro ss. elim ss using block_ind with (P := fun s => any_stmt P s = false -> any_stmt Q s = false);
    unfold any_in; cbn [any_stmt existsb].
  - reflexivity.
  - intros s l. apply orb_false_mono.
  - intros x ix e. apply orb_false_mono; [apply Hhd | trivial].
  - intros c th el IHt IHe. apply orb_false_mono; [apply Hhd | apply orb_false_mono; assumption].
  - intros x lo hi st b IHb. apply orb_false_mono; [apply Hhd | exact IHb].
  - apply orb_false_mono; [apply Hhd | trivial].
  - apply orb_false_mono; [apply Hhd | trivial].
  - apply orb_false_mono; [apply Hhd | trivial].
  - intros es. apply orb_false_mono; [apply Hhd | trivial].
  - intros r b IHb. apply orb_false_mono; [apply Hhd | exact IHb].
  - intros d b IHb. apply orb_false_mono; [apply Hhd | exact IHb].
Qed.

Definition is_xfer (s : stmt) : bool := is_return s || is_xc s.

(* In the next three lemmas the cases not spelled out are settled by computation: the statement
   contradicts the premise, does not look at the flag in question, or resets it for its body
   (SDo resets [d], SRegion sets both). *)
Lemma noxfer_safe ss : any_in is_xfer ss = false -> forall ir d, safe ir d ss = true.
Proof.
  elim ss using block_ind
    with (P := fun s => any_stmt is_xfer s = false -> forall ir d, safe_s ir d s = true);
    unfold any_in, safe; cbn [any_stmt existsb is_xfer is_return is_xc orb safe_s forallb];
    try reflexivity; try discriminate.
  - intros s l IHs IHl H ir d. apply orb_false_iff in H as [H1 H2]. rewrite (IHs H1), (IHl H2). reflexivity.
  - intros c th el IHt IHe H ir d. apply orb_false_iff in H as [H1 H2]. rewrite (IHt H1), (IHe H2). reflexivity.
  - intros x lo hi st b IHb H ir d. apply IHb, H.
  - intros r b IHb H ir d. apply IHb, H.
  - intros dd b IHb H ir d. apply IHb, H.
Qed.

Lemma noret_flag ss : any_in is_return ss = false -> forall ir ir' d, safe ir d ss = safe ir' d ss.
Proof.
  elim ss using block_ind
    with (P := fun s => any_stmt is_return s = false -> forall ir ir' d, safe_s ir d s = safe_s ir' d s);
    unfold any_in, safe; cbn [any_stmt existsb is_return orb safe_s forallb];
    try reflexivity; try discriminate.
  - intros s l IHs IHl H ir ir' d. apply orb_false_iff in H as [H1 H2].
    rewrite (IHs H1 ir ir'), (IHl H2 ir ir'). reflexivity.
  - intros c th el IHt IHe H ir ir' d. apply orb_false_iff in H as [H1 H2].
    rewrite (IHt H1 ir ir'), (IHe H2 ir ir'). reflexivity.
  - intros x lo hi st b IHb H ir ir' d. apply IHb, H.
  - intros dd b IHb H ir ir' d. apply IHb, H.
Qed.

Lemma noxc_flag ss : any_in is_xc ss = false -> forall ir d d', safe ir d ss = safe ir d' ss.
Proof.
  elim ss using block_ind
    with (P := fun s => any_stmt is_xc s = false -> forall ir d d', safe_s ir d s = safe_s ir d' s);
    unfold any_in, safe; cbn [any_stmt existsb is_xc orb safe_s forallb];
    try reflexivity; try discriminate.
  - intros s l IHs IHl H ir d d'. apply orb_false_iff in H as [H1 H2].
    rewrite (IHs H1 ir d d'), (IHl H2 ir d d'). reflexivity.
  - intros c th el IHt IHe H ir d d'. apply orb_false_iff in H as [H1 H2].
    rewrite (IHt H1 ir d d'), (IHe H2 ir d d'). reflexivity.
  - intros dd b IHb H ir d d'. apply IHb, H.
Qed.

(* no RETURN in the selection and no EXIT/CYCLE directly in it => the new region is safe *)
Lemma nogap_safe sel : gap_return sel = false -> gap_xc sel = false -> safe true true sel = true.
Proof.
  unfold gap_return, gap_xc. intros Hr Hx. rewrite (noret_flag sel Hr true false true).
  apply negb_false_iff, Hx.
Qed.

Lemma forallb_firstn {A} (P : A -> bool) n : forall l, forallb P l = true -> forallb P (firstn n l) = true.
Proof.
  induction n as [|n IH]; intros [|x l] H; try reflexivity. cbn in *.
  apply andb_true_iff in H as [H1 H2]. rewrite H1. cbn. apply IH, H2.
Qed.

Lemma forallb_skipn {A} (P : A -> bool) n : forall l, forallb P l = true -> forallb P (skipn n l) = true.
Proof.
  induction n as [|n IH]; intros [|x l] H; try reflexivity; try exact H. cbn in *.
  apply andb_true_iff in H as [H1 H2]. apply IH, H2.
Qed.

Lemma sel_of_safe lo len blk ir d : safe ir d blk = true -> safe ir d (sel_of lo len blk) = true.
Proof. intro H. apply forallb_firstn, forallb_skipn, H. Qed.

Lemma wrap_safe r lo len blk ir d :
  safe true true (sel_of lo len blk) = true -> safe ir d blk = true -> safe ir d (wrap r lo len blk) = true.
Proof.
  intros Hsel Hb. unfold wrap, safe. rewrite !forallb_app. cbn [forallb safe_s].
  unfold safe in Hsel. rewrite Hsel.
  rewrite (forallb_firstn _ lo blk Hb), (forallb_skipn _ (lo + len) blk Hb). reflexivity.
Qed.

Lemma map_nth_forallb {A} (P : A -> bool) (g : A -> A) : forall l i x,
  forallb P l = true -> nth_error l i = Some x -> P (g x) = true -> forallb P (map_nth i g l) = true.
Proof.
  induction l as [|y l IH]; intros i x H Hn Hg; [destruct i; discriminate Hn|].
  cbn in H. apply andb_true_iff in H as [H1 H2].
  destruct i as [|j]; cbn [map_nth forallb nth_error] in *.
  - inversion Hn; subst. rewrite Hg, H2. reflexivity.
  - rewrite H1. exact (IH j x H2 Hn Hg).
Qed.

(* a block nested directly in a safe statement is safe under the flags its position gives it, and
   any block that is safe under those flags may take its place *)
Lemma sub_block_safe s el a b ir d :
  sub_block s el = Some (a, b) -> safe_s ir d s = true ->
  exists ir' d', safe ir' d' b = true /\
    forall g, safe ir' d' (g b) = true -> safe_s ir d (in_sub el g s) = true.
Proof.
  intros Hsub Hs.
  destruct s as [x ix e | c th e0 | x lo hi stp body | | | | es | r body | dd body]; try discriminate Hsub;
    destruct el; try discriminate Hsub; inversion Hsub; subst; cbn [safe_s in_sub] in *.
  - apply andb_true_iff in Hs as [Ht He]. exists ir, d. split; [exact He|].
    intros g Hg. rewrite Ht. exact Hg.
  - apply andb_true_iff in Hs as [Ht He]. exists ir, d. split; [exact Ht|].
    intros g Hg. unfold safe in Hg. rewrite Hg. exact He.
  - exists ir, false. split; [exact Hs | intros g Hg; exact Hg].
  - exists true, true. split; [exact Hs | intros g Hg; exact Hg].
  - exists ir, d. split; [exact Hs | intros g Hg; exact Hg].
Qed.

(* the same for the block at the end of a path *)
Lemma locate_safe : forall path p ancs ancs' blk ir d,
  locate path p ancs = Some (ancs', blk) -> safe ir d p = true ->
  exists ir' d', safe ir' d' blk = true /\
    forall f, safe ir' d' (f blk) = true -> safe ir d (upd_block path f p) = true.
Proof.
  induction path as [|[i el] rest IH]; intros p ancs ancs' blk ir d Hl Hs; cbn [locate] in Hl.
  - inversion Hl; subst. exists ir, d. split; [exact Hs | intros f Hf; exact Hf].
  - destruct (nth_error p i) as [s|] eqn:En; [|discriminate].
    destruct (sub_block s el) as [[a b]|] eqn:Eb; [|discriminate].
    assert (Hss : safe_s ir d s = true).
    { apply (proj1 (forallb_forall _ _) Hs). eapply nth_error_In, En. }
    destruct (sub_block_safe _ _ _ _ _ _ Eb Hss) as (ir1 & d1 & Hb & Hback).
    destruct (IH _ _ _ _ _ _ Hl Hb) as (ir' & d' & Hblk & Hup).
    exists ir', d'. split; [exact Hblk|]. intros f Hf. cbn [upd_block].
    apply (map_nth_forallb _ _ _ _ _ Hs En), Hback, Hup, Hf.
Qed.

(* the selection is safe under the flags of its position; once it is safe as the body of a region,
   wrapping it keeps the program safe *)
Lemma selected_safe tg p sel ir d :
  selected p tg = Some sel -> safe ir d p = true ->
  exists ir' d', safe ir' d' sel = true /\
    forall r, safe true true sel = true -> safe ir d (apply_at r tg p) = true.
Proof.
  unfold selected, apply_at. intros Hsel Hp.
  destruct (locate (t_path tg) p []) as [[ancs blk]|] eqn:El; [|discriminate]. inversion Hsel; subst.
  destruct (locate_safe _ _ _ _ _ _ _ El Hp) as (ir' & d' & Hblk & Hup).
  exists ir', d'. split; [apply sel_of_safe, Hblk|]. intros r Hss. apply Hup, wrap_safe; assumption.
Qed.

Theorem apply_safe_nogap_ : forall r tg p sel ir d,
  selected p tg = Some sel -> gap_return sel = false -> gap_xc sel = false ->
  safe ir d p = true -> safe ir d (apply_at r tg p) = true.
Proof.
  intros r tg p sel ir d Hsel Hr Hx Hp.
  destruct (selected_safe tg p sel ir d Hsel Hp) as (_ & _ & _ & Hup). apply Hup, nogap_safe; assumption.
Qed.

Lemma selected_noxc_gap tg p sel ir d :
  selected p tg = Some sel -> safe ir d p = true ->
  gap_return sel = false -> any_in is_xc sel = false -> gap_xc sel = false.
Proof.
  intros Hsel Hp Hr Hx. destruct (selected_safe tg p sel ir d Hsel Hp) as (ir' & d' & Hb & _).
  unfold gap_xc. rewrite (noret_flag sel Hr false ir' true), (noxc_flag sel Hx ir' true d'), Hb. reflexivity.
Qed.

Lemma accept_sel T t p tg o :
  accept_with T t p tg o = true ->
  exists ancs blk, locate (t_path tg) p [] = Some (ancs, blk) /\
    selected p tg = Some (sel_of (t_lo tg) (t_len tg) blk) /\
    any_in (fun s => x_excl T t (kind_of s)) (sel_of (t_lo tg) (t_len tg) blk) = false /\
    (match ancs with a :: _ => anc_is (x_loopdir T) a | [] => false end) = false /\
    existsb (anc_is (x_acc T)) ancs = false /\
    1 <= t_len tg /\ t_lo tg + t_len tg <= length blk.
Proof.
  unfold accept_with, selected. destruct (locate (t_path tg) p []) as [[ancs blk]|]; [|discriminate].
  rewrite !andb_true_iff, !negb_true_iff, !Nat.leb_le.
  intros [[[[[[[Hlen Hfit] Hdir] Hacc] _] _] Hexcl] _]. exists ancs, blk. repeat split; assumption.
Qed.

(* the exclusion walk visits the selected statements and all their descendants *)
Lemma accept_excludes T t p tg o sel (P : stmt -> bool) :
  (forall s, P s = true -> x_excl T t (kind_of s) = true) ->
  accept_with T t p tg o = true -> selected p tg = Some sel -> any_in P sel = false.
Proof.
  intros HP Ha Hs. destruct (accept_sel _ _ _ _ _ Ha) as (ancs & blk & _ & Hs' & Hany & _).
  rewrite Hs in Hs'. inversion Hs'; subst. revert Hany. apply any_in_mono, HP.
Qed.

Theorem accept_excludes_return_ : forall T t p tg o sel,
  x_excl T t KReturn = true -> accept_with T t p tg o = true -> selected p tg = Some sel ->
  gap_return sel = false.
Proof.
  intros T t p tg o sel Hx. apply accept_excludes. intros s Hs. destruct s; try discriminate Hs. exact Hx.
Qed.

Theorem accept_excludes_xc_ : forall T t p tg o sel,
  x_excl T t KCodeBlock = true -> accept_with T t p tg o = true -> selected p tg = Some sel ->
  any_in is_xc sel = false.
Proof.
  intros T t p tg o sel Hx. apply accept_excludes. intros s Hs. destruct s; try discriminate Hs; exact Hx.
Qed.

(* a wrapped selection outside both gap reasons: the instrumented program is balanced on every
   execution, whatever put the region there *)
Theorem wrapped_balanced r tg p sel :
  no_escaping_transfer p = true -> selected p tg = Some sel ->
  gap_return sel = false -> gap_xc sel = false ->
  forall fuel st st' tr c, exec fuel (apply_at r tg p) st = Ok st' tr c -> well_bracketed (regions tr).
Proof.
  intros Hp Hsel Hr Hx fuel st st' tr c. apply balanced_partial_.
  exact (apply_safe_nogap_ r tg p sel false false Hsel Hr Hx Hp).
Qed.

(* for any tables: a transformation that excludes Return leaves only EXIT/CYCLE directly in the
   region as a gap, one that excludes CodeBlock only RETURN *)
Theorem balanced_if_return_excluded T t p tg o sel r :
  x_excl T t KReturn = true -> accept_with T t p tg o = true -> no_escaping_transfer p = true ->
  selected p tg = Some sel -> gap_xc sel = false ->
  forall fuel st st' tr c, exec fuel (apply_at r tg p) st = Ok st' tr c -> well_bracketed (regions tr).
Proof.
  intros Hx Ha Hp Hsel Hgx. apply (wrapped_balanced r tg p sel Hp Hsel); [|exact Hgx].
  exact (accept_excludes_return_ _ _ _ _ _ _ Hx Ha Hsel).
Qed.

Theorem balanced_if_codeblock_excluded T t p tg o sel r :
  x_excl T t KCodeBlock = true -> accept_with T t p tg o = true -> no_escaping_transfer p = true ->
  selected p tg = Some sel -> gap_return sel = false ->
  forall fuel st st' tr c, exec fuel (apply_at r tg p) st = Ok st' tr c -> well_bracketed (regions tr).
Proof.
  intros Hx Ha Hp Hsel Hgr. apply (wrapped_balanced r tg p sel Hp Hsel Hgr).
  apply (selected_noxc_gap tg p sel false false Hsel Hp Hgr).
  exact (accept_excludes_xc_ _ _ _ _ _ _ Hx Ha Hsel).
Qed.

(* a region is never accepted directly between a loop directive and its loop, nor under an
   OpenACC directive *)
Theorem accept_not_between_ : forall T t p tg o,
  accept_with T t p tg o = true ->
  exists ancs blk, locate (t_path tg) p [] = Some (ancs, blk) /\
    (forall d rest, x_loopdir T d = true -> ancs <> ADir d :: rest) /\
    (forall d, x_acc T d = true -> ~ In (ADir d) ancs).
Proof.
  intros T t p tg o Ha. destruct (accept_sel _ _ _ _ _ Ha) as (ancs & blk & Hl & _ & _ & Hb & Hacc & _).
  exists ancs, blk. split; [exact Hl|]. split.
  - intros d rest Hd ->. cbn [anc_is] in Hb. congruence.
  - intros d Hd Hin.
    assert (existsb (anc_is (x_acc T)) ancs = true) by (apply existsb_exists; exists (ADir d); auto).
    congruence.
Qed.

(* The programs of C28_balanced_refuted_exit, C28_balanced_refuted_return_extract and C28_nonvacuous
   (Properties/C28.v); the check replays them on the implementation. *)
(*   do i = 1, 3 ; [region:  a(i) = i ; if (a(i) > 1) exit ] ; end do     (x0 = i, x1 = a)      *)
Definition wit_body (x : stmt) : list stmt :=
  [SAssign 1 [EVar 0] (EVar 0); SIf (EBin Gt (EIdx 1 [EVar 0]) (ELit 1%Z)) [x] []].
Definition wit_loop (x : stmt) : list stmt := [SDo 0 (ELit 1%Z) (ELit 3%Z) (ELit 1%Z) (wit_body x)].
Definition wit_tgt : target := mkTarget [(0, false)] 0 2.
Definition wit_opts : opts := mkOpts NAuto true.
Definition wit_store : store := store_of [] [(1, [(1%Z, 3%Z)])].

(*   a(1) = 2 ; [region:  if (a(1) > 1) return ] ; a(2) = 3          accepted by ExtractTrans   *)
Definition witr_prog : list stmt :=
  [SAssign 1 [ELit 1%Z] (ELit 2%Z); SIf (EBin Gt (EIdx 1 [ELit 1%Z]) (ELit 1%Z)) [SReturn] [];
   SAssign 1 [ELit 2%Z] (ELit 3%Z)].
Definition witr_tgt : target := mkTarget [] 1 1.

(* non-vacuity of the positive theorems: a placement that is accepted, safe and really runs *)
Definition ok_prog : list stmt :=
  [SDo 0 (ELit 1%Z) (ELit 3%Z) (ELit 1%Z)
     [SAssign 1 [EVar 0] (EVar 0);
      SDo 2 (ELit 1%Z) (ELit 2%Z) (ELit 1%Z) [SIf (EBin Gt (EVar 2) (ELit 1%Z)) [SExit] []];
      SIf (EBin Gt (EIdx 1 [EVar 0]) (ELit 1%Z)) [SExit] []]].
Definition ok_tgt : target := mkTarget [(0, false)] 0 2.     (* a(i)=i and the inner loop *)

Lemma tcode_lt t : tcode t < 4.
Proof. destruct t; cbn; lia. Qed.

Lemma enc_tag_div_mod t nm :
  enc_tag t nm / 4 = match nm with None => 0 | Some u => S u end /\ enc_tag t nm mod 4 = tcode t.
Proof.
  unfold enc_tag. pose proof (tcode_lt t) as Hc. set (k := match nm with None => 0 | Some u => S u end).
  split; symmetry; [apply Nat.div_unique with (tcode t) | apply Nat.mod_unique with k]; lia.
Qed.

Lemma tag_name_enc t nm : tag_name (enc_tag t nm) = nm.
Proof. unfold tag_name. rewrite (proj1 (enc_tag_div_mod t nm)). destruct nm; reflexivity. Qed.

Lemma tag_kind_enc t nm : tag_kind (enc_tag t nm) = t.
Proof. unfold tag_kind. rewrite (proj2 (enc_tag_div_mod t nm)). destruct t; reflexivity. Qed.

Lemma name_from_auto_ge : forall tags i n, In (RAuto n) (name_from i tags) -> i <= n.
Proof.
  induction tags as [|r tags IH]; intros i n H; [destruct H|]. cbn [name_from] in H. destruct H as [H|H].
  - destruct (tag_name r); inversion H; subst. lia.
  - apply IH in H. lia.
Qed.

Lemma names_unique_from : forall tags i, NoDup (filter is_auto (name_from i tags)).
Proof.
  induction tags as [|r tags IH]; intros i; [constructor|]. cbn [name_from filter].
  destruct (tag_name r) as [u|]; cbn [is_auto]; [apply IH|].
  constructor; [|apply IH]. intro Hin. apply filter_In in Hin as [Hin _].
  apply name_from_auto_ge in Hin. lia.
Qed.

Lemma NoDup_filter_split {A} (f : A -> bool) (l : list A) :
  NoDup (filter f l) -> NoDup (filter (fun x => negb (f x)) l) -> NoDup l.
Proof.
  induction l as [|a l IH]; intros Hf Hn; [constructor|]. cbn [filter] in *.
  destruct (f a) eqn:E; cbn [negb] in *.
  - inversion Hf; subst. constructor; [|apply IH; assumption].
    intro Hin. apply H1, filter_In. split; assumption.
  - inversion Hn; subst. constructor; [|apply IH; assumption].
    intro Hin. apply H1, filter_In. split; [assumption|]. rewrite E. reflexivity.
Qed.

Example names_nonvacuous :
  region_names [SRegion (enc_tag TProfile None) [SRegion (enc_tag TExtract (Some 7)) []; SRegion (enc_tag TNanTest None) []];
                SIf (ELit 1%Z) [SRegion (enc_tag TReadOnly None) []] [SRegion (enc_tag TProfile None) []]]
  = [RAuto 0; RUser 7; RAuto 2; RAuto 3; RAuto 4].
Proof. vm_compute. reflexivity. Qed.

Lemma count0_any_in (P : stmt -> bool) ss : count_in P ss = 0 -> any_in P ss = false.
Proof.
  assert (Hadd : forall n m a b, (n = 0 -> a = false) -> (m = 0 -> b = false) -> n + m = 0 -> a || b = false).
  { intros n m a b Ha Hb H. apply Nat.eq_add_0 in H as [H1 H2]. rewrite (Ha H1), (Hb H2). reflexivity. }
  assert (Hhd : forall b : bool, (if b then 1 else 0) = 0 -> b = false).
  { intros [|] H; [discriminate H | reflexivity]. }
  elim ss using block_ind with (P := fun s => count_s P s = 0 -> any_stmt P s = false);
    unfold count_in, any_in; cbn [count_s any_stmt map list_sum existsb].
  - reflexivity.
  - intros s l. apply Hadd.
  - intros x ix e. apply Hadd; [apply Hhd | trivial].
  - intros c th el IHt IHe. apply Hadd; [apply Hhd | apply Hadd; assumption].
  - intros x lo hi st b IHb. apply Hadd; [apply Hhd | exact IHb].
  - apply Hadd; [apply Hhd | trivial].
  - apply Hadd; [apply Hhd | trivial].
  - apply Hadd; [apply Hhd | trivial].
  - intros es. apply Hadd; [apply Hhd | trivial].
  - intros r b IHb. apply Hadd; [apply Hhd | exact IHb].
  - intros d b IHb. apply Hadd; [apply Hhd | exact IHb].
Qed.

Lemma count_in_app P a b : count_in P (a ++ b) = count_in P a + count_in P b.
Proof. unfold count_in. rewrite map_app, list_sum_app. reflexivity. Qed.

Lemma noret_body_safe body :
  count_in is_return body = 0 -> safe false true body = true -> safe true true body = true.
Proof. intros Hc Hs. rewrite (noret_flag body (count0_any_in _ _ Hc) true false true). exact Hs. Qed.

(* Valid Fortran has no EXIT/CYCLE outside a loop: [safe false true p].  Then the automatically
   inserted whole-routine region cannot be escaped. *)
Theorem auto_profile_safe_ : forall p q,
  auto_profile p = AWrapped q -> safe false true p = true -> no_escaping_transfer q = true.
Proof.
  intros p q Ha Hs. unfold auto_profile in Ha. unfold no_escaping_transfer.
  destruct (count_in is_return p) as [|[|n]] eqn:Ec; [| |discriminate].
  - destruct p as [|s0 p0]; [discriminate|]. inversion Ha; subst.
    change (safe true true (s0 :: p0) && true = true). rewrite andb_true_r.
    apply noret_body_safe; assumption.
  - destruct p as [|s0 p0]; [discriminate|].
    (* the routine is [body ++ [SReturn]] with the only RETURN at the end *)
    assert (Hsplit : s0 :: p0 = removelast (s0 :: p0) ++ [last (s0 :: p0) SExit])
      by (apply app_removelast_last; discriminate).
    destruct (last (s0 :: p0) SExit) eqn:El; try discriminate.
    destruct (removelast (s0 :: p0)) as [|b0 body] eqn:Er; [discriminate|]. inversion Ha; subst.
    rewrite Hsplit, count_in_app in Ec. unfold safe in Hs. rewrite Hsplit, forallb_app in Hs.
    apply andb_true_iff in Hs as [Hs _].
    change (safe true true (b0 :: body) && true = true). rewrite andb_true_r.
    apply noret_body_safe; [|exact Hs].
    change (count_in is_return [SReturn]) with 1 in Ec. lia.
Qed.

Example auto_profile_nonvacuous :
  auto_profile [SDo 0 (ELit 1%Z) (ELit 3%Z) (ELit 1%Z) [SIf (EVar 0) [SExit] []]; SReturn]
  = AWrapped [SRegion 0 [SDo 0 (ELit 1%Z) (ELit 3%Z) (ELit 1%Z) [SIf (EVar 0) [SExit] []]]; SReturn].
Proof. vm_compute. reflexivity. Qed.
