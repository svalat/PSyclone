(* C13 — a STATIC sufficient condition with no run-time premise.

   Class (all at the top level of the region, none under an IF / WHILE):
     (L) assignments whose subscripts are all literals, in bounds of the declared extent [b] (or scalar targets);
     (F) full-extent loops   do i = lb, ub : a(i) = e   with literal bounds equal to the declared bounds of the 1-D array a.
   static_safe: every statement is (L) or (F), every copyout array is write-only in the region and has an (F) loop.
   Theorem acc_sound_static: for such a region, every store whose array bounds are the declared ones, every fuel and
   EVERY junk: the two-memory run leaves the host exactly as the host-only run. *)
From Coq Require Import List ZArith Bool Lia.
Import ListNotations.
From PV Require Import Fort.Syntax Fort.Sem Fort.Facts C11.Access C12.InOut C12.BigStep C12.Proofs C13.AccData C13.Proofs.
Open Scope Z_scope.

Fixpoint lits (ix : list expr) : option (list Z) :=
  match ix with
  | [] => Some []
  | ELit z :: r => match lits r with Some vs => Some (z :: vs) | None => None end
  | _ => None
  end.

Definition full_loop (isarr : name -> bool) (b : name -> list (Z * Z)) (a : name) (s : stmt) : bool :=
  match s with
  | SDo i (ELit l) (ELit h) (ELit 1) [SAssign a' [EVar i'] _] =>
      Nat.eqb a a' && Nat.eqb i i' && negb (isarr i) && isarr a &&
      match b a with [(l', h')] => (l' =? l) && (h' =? h) | _ => false end
  | _ => false
  end.

Definition ok_stmt (isarr : name -> bool) (b : name -> list (Z * Z)) (s : stmt) : bool :=
  match s with
  | SAssign x ix _ => match lits ix with Some vs => negb (isarr x) || inb (b x) vs | None => false end
  | SDo _ _ _ _ [SAssign a _ _] => full_loop isarr b a s
  | _ => false
  end.

Definition static_safe (isarr : name -> bool) (b : name -> list (Z * Z)) (r : list stmt) : bool :=
  forallb (ok_stmt isarr b) r && copyout_write_only isarr r &&
  forallb (fun a => existsb (full_loop isarr b a) r) (in_clause isarr (accs false r) CopyOut).

Lemma lits_eval s ix vs : lits ix = Some vs -> opt_all (map (eval s) ix) = Some vs.
Proof.
  revert vs. induction ix as [|e ix IH]; intros vs H; cbn [lits] in H.
  - inversion H. reflexivity.
  - destruct e; try discriminate. destruct (lits ix) as [vs'|]; [|discriminate]. inversion H; subst.
    cbn [map eval opt_all]. rewrite (IH vs' eq_refl). reflexivity.
Qed.

Lemma bst_assign_inv x ix e s s1 tr c :
  bst (SAssign x ix e) s s1 tr c ->
  c = CNormal /\ exists vs, opt_all (map (eval s) ix) = Some vs /\ writes tr = [(x, vs)].
Proof.
  intro H. inversion H; subst. split; [reflexivity|]. eexists. split; [eassumption|]. apply writes_rds_wr.
Qed.

Lemma body_run a x e s0 s2 tr c :
  bs [SAssign a [EVar x] e] s0 s2 tr c -> c = CNormal /\ writes tr = [(a, [val s0 (x, [])])].
Proof.
  intro H. inversion H as [|? ? ? ? ? ? ? ? Hs Hr|? ? ? ? ? ? Hs Nc]; subst.
  - apply bst_assign_inv in Hs as [_ [vs [E W]]]. inversion Hr; subst.
    cbn [map eval opt_all] in E. injection E as <-. split; [reflexivity|].
    rewrite writes_app, W. reflexivity.
  - apply bst_assign_inv in Hs as [Ec _]. contradiction.
Qed.

Lemma loop_writes a x e l : forall n k s s' tr c,
  bloop [SAssign a [EVar x] e] x l 1 n k s s' tr c ->
  c = CNormal /\
  (forall l0, In l0 (writes tr) -> l0 = (x, []) \/ exists j, k <= j < k + Z.of_nat n /\ l0 = (a, [l + j])) /\
  (forall j, k <= j < k + Z.of_nat n -> In (a, [l + j]) (writes tr)).
Proof.
  induction n as [|n IH]; intros k s s' tr c H;
    inversion H as [|? ? ? ? ? ? ? ? ? ? ? ? ? Hb _ Hl|? ? ? ? ? ? ? ? ? Hb|? ? ? ? ? ? ? ? ? Hb]; subst.
  - split; [reflexivity|]. split.
    + intros l0 [<-|[]]. left; reflexivity.
    + intros j Hj. lia.
  - apply body_run in Hb as [Ec W]. apply IH in Hl as [Ec3 [A3 B3]].
    rewrite val_upd_same in W. replace (l + k * 1) with (l + k) in W by lia.
    split; [exact Ec3|]. rewrite writes_app. cbn [writes]. rewrite W. split.
    + intros l0 Hl0. cbn [In app] in Hl0. destruct Hl0 as [<-|[<-|Hl0]].
      * left; reflexivity.
      * right. exists k. split; [lia | reflexivity].
      * destruct (A3 l0 Hl0) as [->|[j [Hj ->]]]; [left; reflexivity|].
        right. exists j. split; [lia | reflexivity].
    + intros j Hj. destruct (Z.eq_dec j k) as [->|Ne].
      * right. left. reflexivity.
      * right. right. apply B3. lia.
  - apply body_run in Hb as [Ec _]. discriminate.
  - apply body_run in Hb as [Ec _]. discriminate.
Qed.

Lemma trip_unit l h : Z.of_nat (trip_count l h 1) = Z.max 0 (h - l + 1).
Proof. unfold trip_count. rewrite Z.quot_1_r. rewrite Z2Nat.id by lia. reflexivity. Qed.

(* the one shape [full_loop] accepts *)
Lemma full_loop_inv isarr b a s :
  full_loop isarr b a s = true ->
  exists i l h e, s = SDo i (ELit l) (ELit h) (ELit 1) [SAssign a [EVar i] e] /\
                  isarr i = false /\ b a = [(l, h)].
Proof.
  destruct s as [| |i lo hi stp body| | | | | |]; try discriminate.
  destruct lo as [l| | | | |]; try discriminate. destruct hi as [h| | | | |]; try discriminate.
  destruct stp as [[|[| |]|]| | | | |]; try discriminate.
  destruct body as [|[a' [|[|i'| | | |] [|? ?]] e| | | | | | | |] [|? ?]]; try discriminate.
  cbn [full_loop]. intro F.
  apply andb_true_iff in F as [F Hb]. apply andb_true_iff in F as [F _].
  apply andb_true_iff in F as [F Hi]. apply andb_true_iff in F as [Ea Ei].
  apply Nat.eqb_eq in Ea, Ei. subst a' i'. apply negb_true_iff in Hi.
  destruct (b a) as [|[l' h'] [|? ?]]; try discriminate.
  apply andb_true_iff in Hb as [E1 E2]. apply Z.eqb_eq in E1, E2. subst l' h'.
  exists i, l, h, e. auto.
Qed.

(* an (F) loop completes normally, writes its variable and exactly the declared extent of a *)
Lemma full_loop_run isarr b a s st s1 tr c :
  full_loop isarr b a s = true -> bst s st s1 tr c ->
  c = CNormal /\
  (forall l0, In l0 (writes tr) -> isarr (fst l0) = true -> inb (b (fst l0)) (snd l0) = true) /\
  (forall idx, inb (b a) idx = true -> In (a, idx) (writes tr)).
Proof.
  intros F H. apply full_loop_inv in F as [i [l [h [e [-> [Hi Eb]]]]]].
  inversion H as [| |? ? ? ? ? ? l' h' t' ? ? ? E1 E2 E3 _ Hl| | | | | |]; subst.
  cbn [eval] in E1, E2, E3. injection E1 as <-. injection E2 as <-. injection E3 as <-.
  apply loop_writes in Hl as [Ec [A B]]. rewrite trip_unit in A, B.
  split; [exact Ec|]. rewrite writes_rds_app, Eb. split.
  - intros w0 Hw0 Harr. destruct (A w0 Hw0) as [->|[j [Hj ->]]]; [cbn [fst] in Harr; congruence|].
    cbn [fst snd]. rewrite Eb. cbn [inb]. rewrite andb_true_r. apply andb_true_iff. split; apply Z.leb_le; lia.
  - intros [|i0 [|? ?]] Hin; cbn [inb] in Hin; try discriminate;
      [|apply andb_true_iff in Hin as [_ Hin]; discriminate].
    rewrite andb_true_r in Hin. apply andb_true_iff in Hin as [H1 H2]. apply Z.leb_le in H1, H2.
    replace i0 with (l + (i0 - l)) by lia. apply B. lia.
Qed.

(* what one statement of the class does: normal completion, array writes in bounds *)
Lemma ok_stmt_run isarr b s st s1 tr c :
  ok_stmt isarr b s = true -> bst s st s1 tr c ->
  c = CNormal /\
  (forall l0, In l0 (writes tr) -> isarr (fst l0) = true -> inb (b (fst l0)) (snd l0) = true).
Proof.
  intros Hok H. destruct s as [x ix e|c0 th el|i lo hi stp body| | | |es|r0 body|d body]; try discriminate.
  - cbn [ok_stmt] in Hok. destruct (lits ix) as [vs|] eqn:El; [|discriminate].
    apply bst_assign_inv in H as [Ec [vs' [E W]]]. rewrite (lits_eval st ix vs El) in E. injection E as <-.
    split; [exact Ec|]. intros l0 Hl0 Ha. rewrite W in Hl0. destruct Hl0 as [<-|[]]. cbn [fst snd] in *.
    rewrite Ha in Hok. exact Hok.
  - cbn [ok_stmt] in Hok. destruct body as [|[a ix e| | | | | | | |] [|? ?]]; try discriminate.
    destruct (full_loop_run isarr b a _ st s1 tr c Hok H) as [Ec [A _]]. split; assumption.
Qed.

Lemma ok_block_run isarr b : forall r st s1 tr c,
  forallb (ok_stmt isarr b) r = true -> bs r st s1 tr c ->
  c = CNormal /\
  (forall l0, In l0 (writes tr) -> isarr (fst l0) = true -> inb (b (fst l0)) (snd l0) = true) /\
  (forall a, existsb (full_loop isarr b a) r = true -> forall idx, inb (b a) idx = true -> In (a, idx) (writes tr)).
Proof.
  induction r as [|s r IH]; intros st s1 tr c Hok H.
  - inversion H; subst. split; [reflexivity|]. split; [intros l0 []|intros a F; discriminate].
  - cbn [forallb] in Hok. apply andb_true_iff in Hok as [Hs Hr].
    inversion H as [|? ? ? ? ? ? ? ? Hb1 Hb2|? ? ? ? ? ? Hb1 Nc]; subst.
    + destruct (ok_stmt_run isarr b s _ _ _ _ Hs Hb1) as [_ A1].
      destruct (IH _ _ _ _ Hr Hb2) as [Ec [A2 B2]].
      split; [exact Ec|]. rewrite writes_app. split.
      * intros l0 Hl0. apply in_app_or in Hl0 as [Hl0|Hl0]; [apply A1 | apply A2]; exact Hl0.
      * intros a F idx Hin. cbn [existsb] in F. apply in_or_app. apply orb_true_iff in F as [F|F];
          [left; apply (proj2 (proj2 (full_loop_run isarr b a s _ _ _ _ F Hb1)) idx Hin) | right; apply (B2 a F idx Hin)].
    + destruct (ok_stmt_run isarr b s _ _ _ _ Hs Hb1) as [Ec _]. contradiction.
Qed.

Lemma ok_stmt_accept isarr b s : ok_stmt isarr b s = true -> s_accept s = true.
Proof.
  destruct s as [x ix e|c0 th el|i lo hi stp body| | | |es|r0 body|d body]; try discriminate; [reflexivity|].
  cbn [ok_stmt]. destruct body as [|[a ix e| | | | | | | |] [|? ?]]; try discriminate. reflexivity.
Qed.

(* FULL property for the static class: no run-time premise *)
Theorem acc_sound_static isarr b f r st st' tr c :
  static_safe isarr b r = true -> (forall a, bnd st a = b a) ->
  exec f r st = Ok st' tr c ->
  forall junk, exists st'',
    exec_dev f isarr (cl_of isarr r) junk r st = Ok st'' tr c /\
    bnd st'' = bnd st' /\ forall l, val st'' l = val st' l.
Proof.
  intros Hs Hb H. unfold static_safe in Hs. apply andb_true_iff in Hs as [Hs Hfull]. apply andb_true_iff in Hs as [Hok Hwo].
  destruct (ok_block_run isarr b r st st' tr c Hok (exec_bs _ _ _ _ _ _ H)) as [_ [A B]].
  apply (acc_sound_partial isarr f r st st' tr c).
  - apply forallb_forall. intros s Hin. rewrite forallb_forall in Hok. apply (ok_stmt_accept isarr b s (Hok s Hin)).
  - exact Hwo.
  - exact H.
  - unfold writes_inb. apply forallb_forall. intros l0 Hl0. destruct (isarr (fst l0)) eqn:Ea; [|reflexivity].
    cbn [negb orb]. rewrite Hb. apply (A l0 Hl0 Ea).
  - unfold copyout_fully_written. apply forallb_forall. intros a Ha. rewrite forallb_forall in Hfull.
    apply forallb_forall. intros idx Hidx. apply lmem_In. apply (B a (Hfull a Ha)). rewrite <- Hb.
    apply in_all_idx, Hidx.
Qed.

Definition b3 : name -> list (Z * Z) := bnd (st_of []).       (* a, b, c : (1:3) *)

(* do i = 1, 3 : a(i) = b(i) + 1 ;  s = 5     => copyin(b) copyout(a), a fully written *)
Definition r_static : list stmt :=
  [SDo vi (ELit 1) (ELit 3) (ELit 1) [SAssign va [EVar vi] (EBin Add (EIdx vb [EVar vi]) (ELit 1))];
   SAssign vs [] (ELit 5)].

Example static_nonvacuous :
  static_safe arrs b3 r_static = true /\
  in_clause arrs (accs false r_static) CopyOut = [va] /\ in_clause arrs (accs false r_static) CopyIn = [vb] /\
  (forall vals a, bnd (st_of vals) a = b3 a) /\
  exists st' tr, exec 20 r_static (st_of [((vb, [2]), 4); ((va, [3]), 9)]) = Ok st' tr CNormal /\ val st' (va, [2]) = 5.
Proof.
  split; [vm_compute; reflexivity|]. split; [vm_compute; reflexivity|]. split; [vm_compute; reflexivity|].
  split; [intros vals a; reflexivity|]. apply normal_run. vm_compute. reflexivity.
Qed.

(* the three refuted regions (the partial write a(1) = 0 among them) are outside the static class *)
Example static_excludes_partial_write :
  static_safe arrs b3 r_partial = false /\ static_safe arrs b3 r_read = false /\ static_safe arrs b3 r_cond = false.
Proof. split; [|split]; vm_compute; reflexivity. Qed.
