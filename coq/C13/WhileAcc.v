(* C13 — the two-memory run of regions that contain DO WHILE loops directly (semantics C12/While.v); its soundness is
   C13_acc_sound_gen_while, an instance of [C13.Proofs.acc_sound_gen_run]. *)
From Coq Require Import List ZArith Bool.
Import ListNotations.
From PV Require Import Fort.Syntax Fort.Sem C11.Access C12.InOut C12.BigStep C12.While C13.AccData.
Open Scope Z_scope.

Definition wexec_dev (f : nat) (isarr : name -> bool) (cl : name -> option clause) (junk : loc -> Z)
           (ws : list wstmt) (st : store) : outcome :=
  match wexec f ws (dev_init isarr cl junk st) with
  | Ok d tr c => Ok (copy_back isarr cl st d) tr c
  | other => other
  end.

(* do while (a(1) > 1 .and. t < 3): a(1) = a(1) - 1; t = t + 1   with copy(a): inside the condition, all junk *)
Example while_acc_nonvacuous :
  let c := EBin And (EBin Gt (EIdx 0%nat [ELit 1]) (ELit 1)) (EBin Lt (EVar 1%nat) (ELit 3)) in
  let body := [SAssign 0%nat [ELit 1] (EBin Sub (EIdx 0%nat [ELit 1]) (ELit 1)); SAssign 1%nat [] (EBin Add (EVar 1%nat) (ELit 1))] in
  let isarr := fun x => mem x [0%nat] in
  let st := store_of [((0%nat, [1]), 3)] [(0%nat, [(1, 2)])] in
  exists st' tr, wexec 10 [WWhile c body] st = Ok st' tr CNormal /\
    acc_run_ok_gen isarr [] [] [0%nat] st tr = true /\ acc_run_ok_gen isarr [] [0%nat] [] st tr = false.
Proof.
  cbv zeta. apply normal_run. vm_compute. split; reflexivity.
Qed.
