(* C13 — proofs about the OpenACC data-region model (coq/C13/AccData.v).
     reads_covered        accepted regions: every location read by a run belongs to a variable with a READ access
                          (C11's coverage theorem, carried over by C12/LinkC11.v)
     two_memory_sound     any clauses, any runner with the frame property: exposed reads copied in, writes in bounds
                          and copied out, copyout-only arrays fully written => host result of the two-memory run =
                          host run, for all junk;  acc_sound_dyn, acc_sound_gen (and C13_acc_sound_gen_while) are instances
     acc_sound_partial    accepted region + static copyout_write_only + in-bounds writes + copyout arrays fully written
     refutations          a(1)=0 (copyout(a) clobbers a(2:)), a(1)=0; s=a(2), if (t>0) c(1)=1; n=c(1) *)
From Coq Require Import List ZArith Bool Lia.
Import ListNotations.
From PV Require Import Fort.Syntax Fort.Sem Fort.Facts C11.Access C12.InOut C12.BigStep C12.Proofs C13.AccData.
From PV Require C11.Proofs C12.LinkC11.
Open Scope Z_scope.

(* what ACCDataTrans accepts contains no CodeBlock, so C11's coverage theorem applies *)
Lemma s_accept_noprint s : s_accept s = true -> C11.Proofs.noprint s = true.
Proof.
  assert (all : forall ss, Forall (fun s => s_accept s = true -> C11.Proofs.noprint s = true) ss ->
                forallb s_accept ss = true -> forallb C11.Proofs.noprint ss = true).
  { intros ss HF A. rewrite forallb_forall in *. rewrite Forall_forall in HF. intros s0 Hs. exact (HF s0 Hs (A s0 Hs)). }
  induction s as [x ix e|c th el IHt IHe|x lo hi st body IHb| | | |es|r body IHb|d body IHb] using stmt_ind';
    cbn [s_accept C11.Proofs.noprint]; intro A; try reflexivity; try discriminate.
  - apply andb_true_iff in A as [A1 A2]. rewrite (all th IHt A1), (all el IHe A2). reflexivity.
  - exact (all body IHb A).
  - exact (all body IHb A).
Qed.

Theorem reads_covered f r s s' tr c :
  acc_accept r = true -> exec f r s = Ok s' tr c ->
  forall l, In l (reads tr) -> In (fst l, READ) (accs false r).
Proof.
  intro A. apply LinkC11.reads_in_accs. unfold acc_accept in A. rewrite forallb_forall in *.
  intros s0 Hs. exact (s_accept_noprint s0 (A s0 Hs)).
Qed.

(* classify, for an array with an access in l *)
Lemma classify_accessed isarr l x k :
  isarr x = true -> In (x, k) l ->
  classify isarr l x =
  if hasrw x l then Some Copy
  else if isread x l then (if written x l then (if wfirst x l then Some CopyOut else Some Copy) else Some CopyIn)
  else Some CopyOut.
Proof.
  intros Ha Hk. unfold classify. rewrite Ha, (proj2 (mem_In x (sigs l)) (acc_in_sigs x k l Hk)). reflexivity.
Qed.

Lemma written_copied_out isarr l x :
  isarr x = true -> In (x, WRITE) l -> copied_out (classify isarr l) x = true.
Proof.
  intros Ha Hw. unfold copied_out. rewrite (classify_accessed isarr l x WRITE Ha Hw).
  rewrite (proj2 (written_iff x l)) by (exists WRITE; split; [exact Hw | reflexivity]).
  destruct (hasrw x l); [reflexivity|]. destruct (isread x l); [|reflexivity].
  destruct (wfirst x l); reflexivity.
Qed.

Lemma in_clause_iff isarr l c x :
  In x (in_clause isarr l c) <-> classify isarr l x = Some c.
Proof.
  unfold in_clause. rewrite filter_In. split.
  - intros [_ H]. destruct (classify isarr l x) as [c'|]; [|discriminate].
    destruct c, c'; try discriminate; reflexivity.
  - intro H. split.
    + unfold classify in H. destruct (mem x (sigs l)) eqn:E; [apply mem_In; exact E|].
      rewrite orb_true_r in H. discriminate.
    + rewrite H. destruct c; reflexivity.
Qed.

Lemma read_copied_in isarr l x :
  isarr x = true -> In (x, READ) l ->
  forallb (fun y => negb (isread y l)) (in_clause isarr l CopyOut) = true ->
  copied_in (classify isarr l) x = true.
Proof.
  intros Ha Hr Hwo. unfold copied_in.
  assert (Ir : isread x l = true) by (apply isread_iff; exists READ; split; [exact Hr | reflexivity]).
  destruct (classify isarr l x) as [[| |]|] eqn:E; try reflexivity.
  - rewrite forallb_forall in Hwo. specialize (Hwo x (proj2 (in_clause_iff isarr l CopyOut x) E)).
    rewrite Ir in Hwo. discriminate.
  - rewrite (classify_accessed isarr l x READ Ha Hr), Ir in E.
    destruct (hasrw x l); [discriminate|]. destruct (written x l); [|discriminate].
    destruct (wfirst x l); discriminate.
Qed.

Lemma in_zrange lo hi i : In i (zrange lo hi) <-> lo <= i <= hi.
Proof.
  unfold zrange. rewrite in_map_iff. split.
  - intros [k [<- Hk]]. apply in_seq in Hk. lia.
  - intro H. exists (Z.to_nat (i - lo)). split; [lia|]. apply in_seq. lia.
Qed.

Lemma in_all_idx : forall bs idx, In idx (all_idx bs) <-> inb bs idx = true.
Proof.
  induction bs as [|[lo hi] bs IH]; intro idx; cbn [all_idx inb].
  - destruct idx; (split; [intros [E|[]] | intro E]); try discriminate; [reflexivity | left; reflexivity].
  - rewrite in_flat_map. split.
    + intros [i [Hi Hm]]. apply in_map_iff in Hm as [idx' [<- Hm]]. apply in_zrange in Hi.
      apply IH in Hm. rewrite Hm, andb_true_r. apply andb_true_iff. split; apply Z.leb_le; lia.
    + destruct idx as [|i idx']; [discriminate|]. intro H.
      apply andb_true_iff in H as [H H3]. apply andb_true_iff in H as [H1 H2]. apply Z.leb_le in H1, H2.
      exists i. split; [apply in_zrange; lia | apply in_map, IH, H3].
Qed.

Lemma lmem_In l ls : lmem l ls = true <-> In l ls.
Proof. unfold lmem. apply existsb_loc_eqb. Qed.

(* the test of copyout_fully_written / acc_run_ok_gen on one array *)
Lemma fully_written bs x W idx :
  forallb (fun idx => lmem (x, idx) W) (all_idx bs) = true -> inb bs idx = true -> In (x, idx) W.
Proof. intros H Ib. rewrite forallb_forall in H. apply lmem_In, H, in_all_idx, Ib. Qed.

(* the two-memory run of any runner: [exec_dev f isarr cl junk r] is [run_dev (exec f r) isarr cl junk] *)
Definition run_dev (run : runner) (isarr : name -> bool) (cl : name -> option clause) (junk : loc -> Z)
           (st : store) : outcome :=
  match run (dev_init isarr cl junk st) with
  | Ok d tr c => Ok (copy_back isarr cl st d) tr c
  | other => other
  end.

(* FULL STATEMENT (false of the faithful model, see the refutations):
     forall isarr r f st st' tr c junk, acc_accept r = true -> exec f r st = Ok st' tr c ->
       exists st'', exec_dev f isarr (cl_of isarr r) junk r st = Ok st'' tr c /\ forall l, val st'' l = val st' l.
   Proved, for ANY clauses cl and ANY runner with the frame property, for a single host run that
     (1) has no upward-exposed read of an array that is not copied in  (so the device run, which differs from
         the host only on such arrays, has the same trace and writes the same values),
     (2) writes arrays only in bounds and only arrays that are copied out  (so what it wrote comes back),
     (3) writes every in-bounds element of every array that is copied out without being copied in  (the other
         elements that come back were copied in or are host values, and were not changed);
   for ALL junk. *)
Theorem two_memory_sound (run : runner) isarr cl st st' tr c :
  frame_ok run -> run st = Ok st' tr c ->
  exposed_ok isarr cl tr = true ->
  writes_inb isarr st tr = true -> writes_out isarr cl tr = true ->
  (forall x idx, cl x = Some CopyOut -> inb (bnd st x) idx = true -> In (x, idx) (writes tr)) ->
  forall junk, exists st'',
    run_dev run isarr cl junk st = Ok st'' tr c /\
    bnd st'' = bnd st' /\ forall l, val st'' l = val st' l.
Proof.
  intros Hf H H1 H2 H4 H3 junk. unfold exposed_ok in H1. unfold writes_inb in H2. unfold writes_out in H4.
  rewrite forallb_forall in H1, H2, H4.
  destruct (frame_ok_wb run Hf _ _ _ _ H) as [Hb U].
  destruct (Hf _ _ _ _ H (dev_init isarr cl junk st) eq_refl) as [d [R1 [R2 [R3 R4]]]].
  { intros l Hl. specialize (H1 l Hl). cbn [dev_init val].
    destruct (isarr (fst l)); cbn [negb orb andb] in *; [rewrite H1; reflexivity | reflexivity]. }
  exists (copy_back isarr cl st d). unfold run_dev. rewrite R1.
  split; [reflexivity|]. split; [symmetry; exact Hb|].
  intro l. cbn [copy_back val].
  destruct (in_dec loc_eq_dec l (writes tr)) as [I|N].
  - (* written on the device: same value as on the host, and it is copied back *)
    destruct (isarr (fst l)) eqn:Ea; [|apply R3, I].
    specialize (H4 l I). rewrite Ea in H4. cbn [negb orb] in H4.
    specialize (H2 l I). rewrite Ea in H2. cbn [negb orb] in H2. rewrite H4, H2. cbn [andb]. apply R3, I.
  - (* not written: the host value is unchanged, and so must be what comes back *)
    rewrite (U l N), (R4 l N). cbn [dev_init val].
    destruct (isarr (fst l)) eqn:Ea; [|reflexivity]. cbn [andb].
    destruct (copied_out cl (fst l) && inb (bnd st (fst l)) (snd l)) eqn:Eo; [|reflexivity].
    apply andb_true_iff in Eo as [Co Ib].
    destruct (copied_in cl (fst l)) eqn:Ci; cbn [negb]; [reflexivity|].
    (* copyout-only array element, in bounds, not written: excluded by (3) *)
    exfalso. apply N. destruct l as [x idx]. apply H3; [|exact Ib]. cbn [fst] in Co, Ci.
    unfold copied_out in Co. unfold copied_in in Ci. destruct (cl x) as [[| |]|]; try discriminate; reflexivity.
Qed.

(* the clauses the model computes for r *)
Theorem acc_sound_dyn isarr f r st st' tr c :
  exec f r st = Ok st' tr c ->
  acc_run_ok isarr r st tr = true ->
  forall junk, exists st'',
    exec_dev f isarr (cl_of isarr r) junk r st = Ok st'' tr c /\
    bnd st'' = bnd st' /\ forall l, val st'' l = val st' l.
Proof.
  intros H Hok. unfold acc_run_ok in Hok.
  apply andb_true_iff in Hok as [Hok H3]. apply andb_true_iff in Hok as [H1 H2].
  apply (two_memory_sound (exec f r) isarr (cl_of isarr r) st st' tr c (frame_exec f r) H H1 H2).
  - (* every written array has a WRITE access, hence is in copyout or copy *)
    apply forallb_forall. intros l Hl. destruct (isarr (fst l)) eqn:Ea; [|reflexivity].
    apply written_copied_out; [exact Ea | exact (exec_writes_covered false _ _ _ _ _ _ H l Hl)].
  - intros x idx Ec. unfold copyout_fully_written in H3. rewrite forallb_forall in H3.
    apply fully_written, H3, in_clause_iff, Ec.
Qed.

(* Static part: for a region the transformation accepts in which every copyout array is write-only,
   no exposed read can be of an array that is not copied in; what remains is a condition on the run:
   array writes in bounds and every copyout array fully overwritten. *)
Theorem acc_sound_partial isarr f r st st' tr c :
  acc_accept r = true -> copyout_write_only isarr r = true ->
  exec f r st = Ok st' tr c ->
  writes_inb isarr st tr = true -> copyout_fully_written isarr r st tr = true ->
  forall junk, exists st'',
    exec_dev f isarr (cl_of isarr r) junk r st = Ok st'' tr c /\
    bnd st'' = bnd st' /\ forall l, val st'' l = val st' l.
Proof.
  intros A Hwo H H2 H3. apply (acc_sound_dyn isarr f r st st' tr c H).
  unfold acc_run_ok. rewrite H2, H3, !andb_true_r.
  unfold exposed_ok. apply forallb_forall. intros l Hl.
  destruct (isarr (fst l)) eqn:Ea; [|reflexivity]. cbn [negb orb].
  apply read_copied_in; [exact Ea | | exact Hwo].
  apply (reads_covered f r st st' tr c A H l). apply exposed_incl_reads, Hl.
Qed.

(* arbitrary clause lists (whatever was generated) and region semantics (for a region with calls, whatever
   statement list the callees amount to; for a region with DO WHILE loops, wexec of C12/While.v) *)
Theorem acc_sound_gen_run (run : runner) isarr st st' tr c cin cout cpy :
  frame_ok run -> run st = Ok st' tr c ->
  acc_run_ok_gen isarr cin cout cpy st tr = true ->
  forall junk, exists st'',
    run_dev run isarr (cl_from cin cout cpy) junk st = Ok st'' tr c /\
    bnd st'' = bnd st' /\ forall l, val st'' l = val st' l.
Proof.
  intros Hf H Hok. unfold acc_run_ok_gen in Hok. cbv zeta in Hok.
  apply andb_true_iff in Hok as [Hok H3]. apply andb_true_iff in Hok as [Hok H4].
  apply andb_true_iff in Hok as [H1 H2].
  apply (two_memory_sound run isarr _ st st' tr c Hf H H1 H2 H4).
  intros x idx Ec. rewrite forallb_forall in H3.
  assert (Ic : In x cout).
  { unfold cl_from in Ec. destruct (mem x cpy); [discriminate|]. destruct (mem x cin); [discriminate|].
    destruct (mem x cout) eqn:E; [apply mem_In; exact E | discriminate]. }
  specialize (H3 x Ic). unfold copied_in in H3. rewrite Ec in H3. apply (fully_written _ x _ idx H3).
Qed.

Theorem acc_sound_gen isarr f r st st' tr c cin cout cpy :
  exec f r st = Ok st' tr c ->
  acc_run_ok_gen isarr cin cout cpy st tr = true ->
  forall junk, exists st'',
    exec_dev f isarr (cl_from cin cout cpy) junk r st = Ok st'' tr c /\
    bnd st'' = bnd st' /\ forall l, val st'' l = val st' l.
Proof. exact (acc_sound_gen_run (exec f r) isarr st st' tr c cin cout cpy (frame_exec f r)). Qed.

(* a(1) = 0 ; call inc(a)  with inc incrementing a(2): copy(a) is generated and the run is inside acc_run_ok_gen;
   with copyout(a) instead (what the seeded change produces) it is not, and the host values differ *)
Definition xs_call : list xstmt := [XCore (SAssign 0%nat [ELit 1] (ELit 0)); XCall [EVar 0%nat]].
Definition sem_call : list stmt :=
  [SAssign 0%nat [ELit 1] (ELit 0); SAssign 0%nat [ELit 2] (EBin Add (EIdx 0%nat [ELit 2]) (ELit 1))].
Example call_nonvacuous :
  let isarr := fun x => mem x [0%nat] in
  let st := store_of [((0%nat, [2]), 7)] [(0%nat, [(1, 3)])] in
  in_clause isarr (xaccs false xs_call) Copy = [0%nat] /\ in_clause isarr (xaccs false xs_call) CopyOut = [] /\
  exists st' tr, exec 20 sem_call st = Ok st' tr CNormal /\
    acc_run_ok_gen isarr [] [] [0%nat] st tr = true /\ acc_run_ok_gen isarr [] [0%nat] [] st tr = false /\
    exists st'' tr', exec_dev 20 isarr (cl_from [] [0%nat] []) (fun _ => 99) sem_call st = Ok st'' tr' CNormal /\
                     val st'' (0%nat, [2]) <> val st' (0%nat, [2]).
Proof.
  intros isarr st. split; [vm_compute; reflexivity|]. split; [vm_compute; reflexivity|].
  destruct (normal_runs (exec 20 sem_call st) (exec_dev 20 isarr (cl_from [] [0%nat] []) (fun _ => 99) sem_call st)
              (fun st' tr st'' _ => acc_run_ok_gen isarr [] [] [0%nat] st tr = true /\
                                    acc_run_ok_gen isarr [] [0%nat] [] st tr = false /\
                                    val st'' (0%nat, [2]) <> val st' (0%nat, [2])))
    as [st' [tr [st'' [tr' [E1 [E2 [A [B N]]]]]]]].
  { vm_compute. split; [reflexivity|]. split; [reflexivity | discriminate]. }
  exists st', tr. split; [exact E1|]. split; [exact A|]. split; [exact B|].
  exists st'', tr'. split; [exact E2 | exact N].
Qed.

Definition va : name := 0%nat.  Definition vb : name := 1%nat.  Definition vc : name := 2%nat.
Definition vs : name := 3%nat.  Definition vt : name := 4%nat.  Definition vn : name := 5%nat.
Definition vi : name := 6%nat.
Definition arrs (x : name) : bool := mem x [va; vb; vc].
Definition st_of (vals : list (loc * Z)) : store :=
  store_of vals [(va, [(1, 3)]); (vb, [(1, 3)]); (vc, [(1, 3)])].

(* do i = 1, 3 : a(i) = b(i) + c(i) ; c(i) = c(i) * 2     => copyin(b) copyout(a) copy(c) *)
Definition r_ok : list stmt :=
  [SDo vi (ELit 1) (ELit 3) (ELit 1)
     [SAssign va [EVar vi] (EBin Add (EIdx vb [EVar vi]) (EIdx vc [EVar vi]));
      SAssign vc [EVar vi] (EBin Mul (EIdx vc [EVar vi]) (ELit 2))]].

Example acc_nonvacuous :
  acc_accept r_ok = true /\ copyout_write_only arrs r_ok = true /\
  in_clause arrs (accs false r_ok) CopyIn = [vb] /\ in_clause arrs (accs false r_ok) CopyOut = [va] /\
  in_clause arrs (accs false r_ok) Copy = [vc] /\
  let st := st_of [((vb, [1]), 5); ((vc, [1]), 7); ((va, [2]), 9)] in
  exists st' tr, exec 20 r_ok st = Ok st' tr CNormal /\
    writes_inb arrs st tr = true /\ copyout_fully_written arrs r_ok st tr = true /\ acc_run_ok arrs r_ok st tr = true /\
    val st' (va, [1]) = 12 /\ val st' (vc, [1]) = 14.
Proof.
  split; [vm_compute; reflexivity|]. split; [vm_compute; reflexivity|]. split; [vm_compute; reflexivity|].
  split; [vm_compute; reflexivity|]. split; [vm_compute; reflexivity|].
  apply normal_run. vm_compute. repeat split.
Qed.

(* what a refutation is: an accepted region, a host store and a junk such that the two-memory run
   completes but some host location ends with a different value than after the host-only run *)
Definition acc_refutes (r : list stmt) (st : store) (junk : loc -> Z) (l : loc) : Prop :=
  acc_accept r = true /\
  exists st' tr st'' tr', exec 20 r st = Ok st' tr CNormal /\
    exec_dev 20 arrs (cl_of arrs r) junk r st = Ok st'' tr' CNormal /\ val st'' l <> val st' l.

(* a(1) = 0  =>  copyout(a): a(2), a(3) are overwritten with undefined device values *)
Definition r_partial : list stmt := [SAssign va [ELit 1] (ELit 0)].
Theorem acc_refuted_partial_write :
  in_clause arrs (accs false r_partial) CopyOut = [va] /\ in_clause arrs (accs false r_partial) CopyIn = [] /\
  in_clause arrs (accs false r_partial) Copy = [] /\
  acc_refutes r_partial (st_of [((va, [2]), 7)]) (fun _ => 99) (va, [2]).
Proof.
  split; [vm_compute; reflexivity|]. split; [vm_compute; reflexivity|]. split; [vm_compute; reflexivity|].
  split; [vm_compute; reflexivity|].
  apply normal_runs. vm_compute. discriminate.
Qed.

(* a(1) = 0 ; s = a(2)  =>  copyout(a): the device reads an undefined a(2)  (C13_acc_refuted_read_unwritten) *)
Definition r_read : list stmt := [SAssign va [ELit 1] (ELit 0); SAssign vs [] (EIdx va [ELit 2])].

(* if (t > 0) c(1) = 1 ; n = c(1)  =>  copyout(c): when t <= 0 the device reads an undefined c(1)
   (C13_acc_refuted_conditional_write) *)
Definition r_cond : list stmt :=
  [SIf (EBin Gt (EVar vt) (ELit 0)) [SAssign vc [ELit 1] (ELit 1)] []; SAssign vn [] (EIdx vc [ELit 1])].

