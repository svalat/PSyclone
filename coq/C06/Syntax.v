(* C06 — syntax extension of the shared MiniFortran core: array sections and array-valued
   (elemental) expressions, decidable equalities on Fort expressions/statements (used by the
   faithful model of ArrayMixin.same_range and by the correspondence checks), and the
   "name occurs in" test used by the side conditions of the theorems.  No proofs about the
   transformations here. *)
From Coq Require Import List ZArith Bool Lia.
Import ListNotations.
From PV Require Import Fort.Syntax Fort.Sem Base.Harness.
Open Scope Z_scope.

(* HUGE(x): any constant that bounds every value in play (premise of the MINVAL/MAXVAL theorems) *)
Definition HUGE : Z := 10 ^ 30.

Inductive index := IExp (e : expr) | IRange (lo hi st : expr).

(* elemental intrinsics allowed inside array-valued expressions *)
Inductive efun := FAbs | FMin | FMax | FSign | FMod.
Definition intr_of (f : efun) : intr :=
  match f with FAbs => IAbs | FMin => IMin | FMax => IMax | FSign => ISign | FMod => IMod end.

(* array-valued expression: accessors may contain ranges; index and bound expressions are scalar
   (nested ranges are refused by the transformation). *)
Inductive aexpr :=
| ALit (z : Z)
| AVar (x : name)
| ASec (a : name) (ix : list index)
| AUn (o : unop) (e : aexpr)
| ABin (o : binop) (l r : aexpr)
| AIntr1 (f : efun) (e : aexpr)
| AIntr2 (f : efun) (l r : aexpr).

Definition binop_eqb (a b : binop) : bool :=
  match a, b with
  | Add, Add | Sub, Sub | Mul, Mul | Div, Div | Pow, Pow | Eq, Eq | Ne, Ne | Lt, Lt | Le, Le
  | Gt, Gt | Ge, Ge | And, And | Or, Or => true
  | _, _ => false
  end.
Definition unop_eqb (a b : unop) : bool :=
  match a, b with Neg, Neg | Not, Not => true | _, _ => false end.
Definition intr_eqb (a b : intr) : bool :=
  match a, b with
  | IMin, IMin | IMax, IMax | IMod, IMod | IAbs, IAbs | ISign, ISign | ILbound, ILbound
  | IUbound, IUbound | ISize, ISize => true
  | _, _ => false
  end.

Fixpoint expr_eqb (a b : expr) : bool :=
  match a, b with
  | ELit x, ELit y => x =? y
  | EVar x, EVar y => Nat.eqb x y
  | EIdx x ix, EIdx y iy =>
      Nat.eqb x y &&
      (fix go (l1 l2 : list expr) : bool :=
         match l1, l2 with
         | [], [] => true
         | u :: l1', v :: l2' => expr_eqb u v && go l1' l2'
         | _, _ => false
         end) ix iy
  | EUn o x, EUn p y => unop_eqb o p && expr_eqb x y
  | EBin o x1 x2, EBin p y1 y2 => binop_eqb o p && expr_eqb x1 y1 && expr_eqb x2 y2
  | EIntr f xs, EIntr g ys =>
      intr_eqb f g &&
      (fix go (l1 l2 : list expr) : bool :=
         match l1, l2 with
         | [], [] => true
         | u :: l1', v :: l2' => expr_eqb u v && go l1' l2'
         | _, _ => false
         end) xs ys
  | _, _ => false
  end.

Fixpoint stmt_eqb (a b : stmt) : bool :=
  let go := (fix go (l1 l2 : list stmt) : bool :=
               match l1, l2 with
               | [], [] => true
               | u :: l1', v :: l2' => stmt_eqb u v && go l1' l2'
               | _, _ => false
               end) in
  match a, b with
  | SAssign x ix e, SAssign y iy f => Nat.eqb x y && list_beq expr_eqb ix iy && expr_eqb e f
  | SIf c t e, SIf c' t' e' => expr_eqb c c' && go t t' && go e e'
  | SDo x lo hi st body, SDo x' lo' hi' st' body' =>
      Nat.eqb x x' && expr_eqb lo lo' && expr_eqb hi hi' && expr_eqb st st' && go body body'
  | SExit, SExit | SCycle, SCycle | SReturn, SReturn => true
  | SPrint es, SPrint es' => list_beq expr_eqb es es'
  | SRegion r body, SRegion r' body' => Nat.eqb r r' && go body body'
  | SDir d body, SDir d' body' => Nat.eqb d d' && go body body'
  | _, _ => false
  end.
Definition stmts_eqb (a b : list stmt) : bool := list_beq stmt_eqb a b.

Definition index_eqb (a b : index) : bool :=
  match a, b with
  | IExp x, IExp y => expr_eqb x y
  | IRange l h s, IRange l' h' s' => expr_eqb l l' && expr_eqb h h' && expr_eqb s s'
  | _, _ => false
  end.

Lemma binop_eqb_eq a b : binop_eqb a b = true -> a = b.
Proof. destruct a, b; intro E; try reflexivity; discriminate E. Qed.
Lemma unop_eqb_eq a b : unop_eqb a b = true -> a = b.
Proof. destruct a, b; intro E; try reflexivity; discriminate E. Qed.
Lemma intr_eqb_eq a b : intr_eqb a b = true -> a = b.
Proof. destruct a, b; intro E; try reflexivity; discriminate E. Qed.

Lemma expr_eqb_eq : forall a b, expr_eqb a b = true -> a = b.
Proof.
  induction a using expr_ind'; intros b E; destruct b; simpl in E; try discriminate.
  - apply Z.eqb_eq in E. congruence.
  - apply Nat.eqb_eq in E. congruence.
  - apply andb_true_iff in E as [E1 E2]. apply Nat.eqb_eq in E1. subst. f_equal.
    revert ix0 E2. induction H as [|u l Hu Hl IH]; intros [|v l2] E2; try discriminate; [reflexivity|].
    apply andb_true_iff in E2 as [E2 E3]. f_equal; [apply Hu, E2 | apply IH, E3].
  - apply andb_true_iff in E as [E1 E2]. apply unop_eqb_eq in E1. apply IHa in E2. congruence.
  - apply andb_true_iff in E as [E12 E3]. apply andb_true_iff in E12 as [E1 E2].
    apply binop_eqb_eq in E1. apply IHa1 in E2. apply IHa2 in E3. congruence.
  - apply andb_true_iff in E as [E1 E2]. apply intr_eqb_eq in E1. subst. f_equal.
    revert args0 E2. induction H as [|u l Hu Hl IH]; intros [|v l2] E2; try discriminate; [reflexivity|].
    apply andb_true_iff in E2 as [E2 E3]. f_equal; [apply Hu, E2 | apply IH, E3].
Qed.

Lemma expr_eqb_refl : forall e, expr_eqb e e = true.
Proof.
  induction e using expr_ind'; simpl.
  - apply Z.eqb_refl.
  - apply Nat.eqb_refl.
  - rewrite Nat.eqb_refl. simpl. induction H as [|u l Hu Hl IH]; [reflexivity|]. rewrite Hu. exact IH.
  - rewrite IHe. destruct o; reflexivity.
  - rewrite IHe1, IHe2. destruct o; reflexivity.
  - assert (Hf : intr_eqb f f = true) by (destruct f; reflexivity). rewrite Hf. simpl.
    induction H as [|u l Hu Hl IH]; [reflexivity|]. rewrite Hu. exact IH.
Qed.

Lemma exprs_eqb_eq : forall a b, list_beq expr_eqb a b = true -> a = b.
Proof.
  induction a as [|x a IH]; intros [|y b] E; simpl in E; try discriminate; [reflexivity|].
  apply andb_true_iff in E as [E1 E2]. f_equal; [apply expr_eqb_eq, E1 | apply IH, E2].
Qed.

Lemma index_eqb_eq a b : index_eqb a b = true -> a = b.
Proof.
  destruct a, b; simpl; intro E; try discriminate.
  - apply expr_eqb_eq in E. congruence.
  - apply andb_true_iff in E as [E12 E3]. apply andb_true_iff in E12 as [E1 E2].
    apply expr_eqb_eq in E1, E2, E3. congruence.
Qed.

Lemma indices_eqb_eq : forall a b, list_beq index_eqb a b = true -> a = b.
Proof.
  induction a as [|x a IH]; intros [|y b] E; simpl in E; try discriminate; [reflexivity|].
  apply andb_true_iff in E as [E1 E2]. f_equal; [apply index_eqb_eq, E1 | apply IH, E2].
Qed.

Fixpoint mentions (x : name) (e : expr) : bool :=
  match e with
  | ELit _ => false
  | EVar y => Nat.eqb x y
  | EIdx a ix => Nat.eqb x a || existsb (mentions x) ix
  | EUn _ e1 => mentions x e1
  | EBin _ l r => mentions x l || mentions x r
  | EIntr _ args => existsb (mentions x) args
  end.

Definition imentions (x : name) (i : index) : bool :=
  match i with
  | IExp e => mentions x e
  | IRange lo hi st => mentions x lo || mentions x hi || mentions x st
  end.

(* x occurs in an index/bound expression, as a scalar, or as an array name *)
Fixpoint amentions (x : name) (e : aexpr) : bool :=
  match e with
  | ALit _ => false
  | AVar y => Nat.eqb x y
  | ASec a ix => Nat.eqb x a || existsb (imentions x) ix
  | AUn _ e1 => amentions x e1
  | ABin _ l r => amentions x l || amentions x r
  | AIntr1 _ e1 => amentions x e1
  | AIntr2 _ l r => amentions x l || amentions x r
  end.

(* first range of an index list with its position *)
Fixpoint range_pos (p : nat) (ix : list index) : option (nat * expr * expr * expr) :=
  match ix with
  | [] => None
  | IRange lo hi st :: _ => Some (p, lo, hi, st)
  | IExp _ :: r => range_pos (S p) r
  end.

Definition is_range (i : index) : bool := match i with IRange _ _ _ => true | _ => false end.
Definition n_ranges (ix : list index) : nat := length (filter is_range ix).

(* pre-order list of the accessors of an array expression *)
Fixpoint accessors (e : aexpr) : list (name * list index) :=
  match e with
  | ALit _ | AVar _ => []
  | ASec a ix => [(a, ix)]
  | AUn _ e1 | AIntr1 _ e1 => accessors e1
  | ABin _ l r | AIntr2 _ l r => accessors l ++ accessors r
  end.
