(* C06 — SUM / PRODUCT / MINVAL / MAXVAL lowering (1-D extents, optional MASK): the loop built by the
   faithful model accumulates exactly the Fortran value of the reduction, for every extent (also empty)
   and every mask; the whole statement  x = C[RED(..)]  is preserved except in the one shape where
   today's code forgets to store the result (refuted by a witness). *)
From Coq Require Import List ZArith Bool Lia.
Import ListNotations.
From PV Require Import Fort.Syntax Fort.Sem Fort.Facts C06.Syntax C06.Model C06.Common C06.ArrayAssignProofs.
Open Scope Z_scope.

Definition red_init_z (k : rkind) : Z :=
  match k with RSum => 0 | RProduct => 1 | RMinval => HUGE | RMaxval => - HUGE end.
Definition red_acc (k : rkind) (xs : list Z) : Z := fold_left (red_zop k) xs (red_init_z k).

Lemma fold_add_shift l : forall a, fold_left Z.add l a = a + fold_right Z.add 0 l.
Proof. induction l as [|x l IH]; intro a; cbn [fold_left fold_right]; [lia | rewrite IH; lia]. Qed.
Lemma fold_mul_shift l : forall a, fold_left Z.mul l a = a * fold_right Z.mul 1 l.
Proof. induction l as [|x l IH]; intro a; cbn [fold_left fold_right]; [lia | rewrite IH; lia]. Qed.

(* the accumulated value is the Fortran value when the elements are bounded by HUGE *)
Lemma red_acc_value k xs : Forall (fun v => - HUGE <= v <= HUGE) xs -> red_acc k xs = red_value k xs.
Proof.
  intro B. unfold red_acc. destruct k; cbn [red_zop red_init_z red_value].
  - rewrite fold_add_shift. lia.
  - rewrite fold_mul_shift. lia.
  - destruct xs as [|x r]; [reflexivity|]. cbn [fold_left]. inversion B; subst. f_equal. lia.
  - destruct xs as [|x r]; [reflexivity|]. cbn [fold_left]. inversion B; subst. f_equal. lia.
Qed.

Lemma red_elems_app s arr mask l1 l2 :
  red_elems s arr mask (l1 ++ l2) =
  match red_elems s arr mask l1, red_elems s arr mask l2 with
  | Some a, Some b => Some (a ++ b) | _, _ => None end.
Proof.
  induction l1 as [|k l1 IH]; cbn [app red_elems].
  - destruct (red_elems s arr mask l2); reflexivity.
  - rewrite IH. destruct (aeval s k arr) as [v|]; [|reflexivity].
    destruct (match mask with Some m => aeval s k m | None => Some 1 end) as [b|]; [|reflexivity].
    destruct (red_elems s arr mask l1) as [vs|]; [|reflexivity].
    destruct (red_elems s arr mask l2) as [ws|]; [|reflexivity].
    destruct (b =? 0); reflexivity.
Qed.

Lemma red_elems_in s arr mask k : forall ks all,
  red_elems s arr mask ks = Some all -> In k ks ->
  exists v b, aeval s k arr = Some v /\ match mask with Some m => aeval s k m | None => Some 1 end = Some b.
Proof.
  induction ks as [|k0 ks IH]; intros all E I; [destruct I|]. cbn [red_elems] in E.
  destruct (aeval s k0 arr) as [v|] eqn:Ev; [|discriminate].
  destruct (match mask with Some m => aeval s k0 m | None => Some 1 end) as [b|] eqn:Eb; [|discriminate].
  destruct (red_elems s arr mask ks) as [vs|]; [|discriminate]. destruct I as [<-|I]; eauto.
Qed.

Lemma red_init_eval s k : eval s (red_init k) = Some (red_init_z k).
Proof. destruct k; reflexivity. Qed.

Lemma red_op_eval k s acc el a v :
  eval s acc = Some a -> eval s el = Some v -> eval s (red_op k acc el) = Some (red_zop k a v).
Proof.
  intros E1 E2. destruct k; cbn [red_op red_zop eval is_inquiry map opt_all]; rewrite E1, E2; reflexivity.
Qed.

Lemma tgt_ref_eval s x xi xv :
  opt_all (map (eval s) xi) = Some xv -> eval s (tgt_ref x xi) = Some (val s (x, xv)).
Proof.
  intro E. unfold tgt_ref. destruct xi as [|e xi].
  - cbn [map opt_all] in E. inversion E; subst. reflexivity.
  - cbn [eval]. rewrite E. reflexivity.
Qed.

Definition red_safe (fx : fixes) (d : decls) (idx x : name) (xi : list expr) (arr : aexpr) (mask : option aexpr) : bool :=
  match accessors arr with
  | (F, fix_) :: _ =>
      match range_pos 0 fix_ with
      | Some (p, lo, hi, st) =>
          let chk := acc_safe fx d idx x None F p lo st in
          negb (Nat.eqb idx x) && chk F fix_ && aexpr_safe chk idx x arr &&
          (match mask with Some m => aexpr_safe chk idx x m | None => true end) &&
          forallb (fun e => negb (mentions idx e) && negb (mentions x e)) xi
      | None => false
      end
  | [] => false
  end.

(* all extents (also empty), all masks: the loop leaves the Fortran value of the reduction in x *)
Theorem reduction_ok_ fx d idx x xi k arr mask code s xv v :
  red_loop fx d idx x xi k arr mask = Some code ->
  red_safe fx d idx x xi arr mask = true -> bnd_ok d s ->
  opt_all (map (eval s) xi) = Some xv ->
  red_sem k arr mask s = Some v ->
  (forall l h t all, red_elems s arr mask (zseq 0 (trip_count l h t)) = Some all ->
                     Forall (fun w => - HUGE <= w <= HUGE) all) ->
  hoare 6 code s (fun s' => val s' (x, xv) = v /\ bnd s' = bnd s /\
                            forall loc, fst loc <> idx -> loc <> (x, xv) -> val s' loc = val s loc).
Proof.
  intros Ap Safe Hbnd Exi Sem Bd. unfold red_loop in Ap. unfold red_safe in Safe. unfold red_sem in Sem.
  destruct (accessors arr) as [|[F fix_] accs] eqn:Acc; [discriminate|].
  destruct (Nat.eqb (n_ranges fix_) 1 && _) in Ap; [|discriminate].
  destruct (range_pos 0 fix_) as [[[[p lo] hi] st]|] eqn:RP; [|discriminate].
  inversion Ap; subst code. clear Ap.
  apply andb_true_iff in Safe as [Safe Sxi]. apply andb_true_iff in Safe as [Safe Smask].
  apply andb_true_iff in Safe as [Safe Sarr]. apply andb_true_iff in Safe as [Sidx SF].
  apply negb_true_iff in Sidx. apply Nat.eqb_neq in Sidx.
  destruct (eval s lo) as [l|] eqn:El; [|discriminate]. destruct (eval s hi) as [h|] eqn:Eh; [|discriminate].
  destruct (eval s st) as [t|] eqn:Et; [|discriminate]. destruct (t =? 0) eqn:T0; [discriminate|].
  apply Z.eqb_neq in T0. set (n := trip_count l h t) in *.
  destruct (red_elems s arr mask (zseq 0 n)) as [all|] eqn:Eall; [|discriminate].
  cbn [option_map] in Sem. inversion Sem; subst v. clear Sem.
  (* the loop computes red_acc, which is the Fortran value for bounded elements *)
  rewrite <- (red_acc_value k all (Bd l h t all Eall)). unfold red_acc.
  set (r := ridx_of fx d idx F p lo st). set (zop := red_zop k). set (z0 := red_init_z k).
  destruct (acc_safe_true _ _ _ _ _ _ _ _ _ _ _ SF) as [_ [Ffr _]].
  destruct (ix_fresh_range idx x _ _ _ _ (range_pos_in _ _ _ _ _ _ RP) Ffr) as [Flo [Fhi Fst]].
  pose proof (fresh_exprs idx x xi Sxi) as Fxi.
  apply (hoare_assign_cons 4 _ _ _ _ _ xv z0); [exact Exi | apply red_init_eval |]. set (si := upd s (x, xv) z0).
  assert (Si : same_but idx (x, xv) si s) by apply same_but_upd_loc.
  eapply hoare_conseq;
    [|apply (hoare_do_cell 2 idx lo hi st _ si l h t (x, xv)
               (fun j a => exists ej, red_elems s arr mask (zseq 0 j) = Some ej /\ a = fold_left zop ej z0))].
  - intros s' [[ej [Hej Ha]] HS]. fold n in Hej. rewrite Eall in Hej. inversion Hej; subst ej.
    split; [exact Ha | exact (same_but_trans _ _ _ _ _ HS Si)].
  - rewrite (eval_same_but _ _ _ _ lo Si (proj1 Flo) (proj2 Flo)). exact El.
  - rewrite (eval_same_but _ _ _ _ hi Si (proj1 Fhi) (proj2 Fhi)). exact Eh.
  - rewrite (eval_same_but _ _ _ _ st Si (proj1 Fst) (proj2 Fst)). exact Et.
  - exact T0.
  - intro E. apply Sidx. symmetry. exact E.
  - intros j s1 Hj HS1 R2 [ej [Hej Hv]]. fold n in Hj.
    pose proof (same_but_trans _ _ _ _ _ HS1 Si) as HS.
    destruct (red_elems_in s arr mask (Z.of_nat j) _ _ Eall) as [v [b [Ev Eb]]]; [apply in_zseq_nat, Hj|].
    assert (Hsnoc : red_elems s arr mask (zseq 0 (S j)) = Some (if b =? 0 then ej else ej ++ [v])).
    { rewrite zseq_snoc, red_elems_app, Hej. cbn [red_elems]. rewrite Ev, Eb.
      destruct (b =? 0); [rewrite app_nil_r|]; reflexivity. }
    assert (R3 : forall loc, fst loc <> idx -> fst loc <> x -> val s1 loc = val s loc).
    { intros [a ix] N1 N2. apply (same_but_val _ _ _ _ _ _ HS N1 N2). }
    assert (R4 : forall w vs, @None (list index) = Some w -> opt_all (map (ix_val s (Z.of_nat j)) w) = Some vs ->
                              val s1 (x, vs) = val s (x, vs)) by (intros w vs X; discriminate).
    assert (Exi1 : opt_all (map (eval s1) xi) = Some xv).
    { rewrite <- Exi. f_equal. apply map_ext_in. intros e He. destruct (Fxi e He).
      apply (eval_same_but _ _ _ _ e HS); assumption. }
    pose proof (lower_eval fx d idx x F None p lo st s s1 (Z.of_nat j) l t Hbnd El Et (same_but_bnd _ _ _ _ HS) R2 R3 R4 Flo)
      as Low. fold r in Low.
    assert (Earr : eval s1 (lower r arr) = Some v) by (rewrite (Low _ Sarr); exact Ev).
    assert (Hupd : hoare 2 [SAssign x xi (red_op k (tgt_ref x xi) (lower r arr))] s1
                     (fun s2 => val s2 (x, xv) = fold_left zop (ej ++ [v]) z0 /\ same_but idx (x, xv) s2 s1)).
    { eapply hoare_assign; [exact Exi1 | apply red_op_eval; [apply tgt_ref_eval; exact Exi1 | exact Earr]|].
      split; [rewrite val_upd_same, fold_left_app, Hv; reflexivity | apply same_but_upd_loc]. }
    destruct mask as [m|].
    + assert (Em : eval s1 (lower r m) = Some b) by (rewrite (Low _ Smask); exact Eb).
      change 3%nat with (S (S 1)). eapply hoare_if; [exact Em|]. destruct (b =? 0).
      * eapply hoare_mono; [|apply hoare_nil]; [lia|]. split; [eauto | apply same_but_refl].
      * eapply hoare_conseq; [|exact Hupd]. intros s2 [H1 H2]. split; [eauto | exact H2].
    + inversion Eb; subst b. eapply hoare_mono; [|eapply hoare_conseq; [|exact Hupd]]; [lia|].
      intros s2 [H1 H2]. split; [eauto | exact H2].
  - exists []. split; [reflexivity | apply val_upd_same].
Qed.

(* the place-holder h occurs in e only as a scalar variable: not as an array name, and not in the first argument
   of an inquiry (which is not evaluated) *)
Fixpoint hole_ok (h : name) (e : expr) : bool :=
  match e with
  | ELit _ | EVar _ => true
  | EIdx a ix => negb (Nat.eqb h a) && forallb (hole_ok h) ix
  | EUn _ e1 => hole_ok h e1
  | EBin _ l r => hole_ok h l && hole_ok h r
  | EIntr f args =>
      (if is_inquiry f then match args with a0 :: _ => negb (mentions h a0) | [] => true end else true) &&
      forallb (hole_ok h) args
  end.

Lemma subst_var_id h r : forall e, mentions h e = false -> subst_var h r e = e.
Proof.
  induction e using expr_ind'; intro M; cbn [subst_var mentions] in *.
  - reflexivity.
  - rewrite M. reflexivity.
  - apply orb_false_iff in M as [_ M]. f_equal. rewrite <- (map_id ix) at 2. apply map_ext_in.
    intros e He. rewrite Forall_forall in H. apply H; [exact He|]. eapply existsb_false; eauto.
  - f_equal. auto.
  - apply orb_false_iff in M as [M1 M2]. f_equal; auto.
  - f_equal. rewrite <- (map_id args) at 2. apply map_ext_in.
    intros e He. rewrite Forall_forall in H. apply H; [exact He|]. eapply existsb_false; eauto.
Qed.

Lemma subst_var_eval h r s1 s2 w :
  eval s2 r = Some w -> val s1 (h, []) = w -> bnd s2 = bnd s1 ->
  forall e, hole_ok h e = true ->
  (forall loc, fst loc <> h -> mentions (fst loc) e = true -> val s2 loc = val s1 loc) ->
  eval s2 (subst_var h r e) = eval s1 e.
Proof.
  intros Er Hh Hb. induction e using expr_ind'; intros Ok V; cbn [subst_var hole_ok] in *.
  - reflexivity.
  - destruct (Nat.eqb h x) eqn:E.
    + apply Nat.eqb_eq in E. subst x. cbn [eval]. rewrite Er, Hh. reflexivity.
    + apply Nat.eqb_neq in E. cbn [eval]. f_equal. apply V; cbn [fst mentions]; [congruence | apply Nat.eqb_refl].
  - apply andb_true_iff in Ok as [Oa Oix]. apply negb_true_iff in Oa. apply Nat.eqb_neq in Oa.
    cbn [eval]. rewrite map_map.
    assert (Hm : map (fun x => eval s2 (subst_var h r x)) ix = map (eval s1) ix).
    { apply map_ext_in. intros e He. rewrite Forall_forall in H. apply H; [exact He | |].
      - rewrite forallb_forall in Oix. apply Oix, He.
      - intros loc N M. apply V; [exact N|]. cbn [mentions]. apply orb_true_iff. right.
        apply existsb_exists. eauto. }
    rewrite Hm. destruct (opt_all (map (eval s1) ix)) as [vs|]; [|reflexivity]. f_equal.
    apply V; cbn [fst mentions]; [congruence | rewrite Nat.eqb_refl; reflexivity].
  - cbn [eval]. rewrite IHe; auto.
  - apply andb_true_iff in Ok as [O1 O2]. cbn [eval]. rewrite IHe1, IHe2; auto.
    + intros loc N M. apply V; [exact N|]. cbn [mentions]. rewrite M. apply orb_true_r.
    + intros loc N M. apply V; [exact N|]. cbn [mentions]. rewrite M. reflexivity.
  - apply andb_true_iff in Ok as [Oq Oargs].
    assert (Hm : forall l, (forall e, In e l -> In e args) ->
                  map (eval s2) (map (subst_var h r) l) = map (eval s1) l).
    { intros l Sub. rewrite map_map. apply map_ext_in. intros e He. rewrite Forall_forall in H.
      apply H; [apply Sub, He | |].
      - rewrite forallb_forall in Oargs. apply Oargs, Sub, He.
      - intros loc N M. apply V; [exact N|]. cbn [mentions]. apply existsb_exists. exists e. split; [apply Sub, He | exact M]. }
    cbn [eval]. destruct (is_inquiry f) eqn:Q.
    + destruct args as [|a0 rest]; [reflexivity|]. cbn [map].
      apply negb_true_iff in Oq. rewrite (subst_var_id h r a0 Oq).
      rewrite (Hm rest) by (intros e He; right; exact He).
      destruct (opt_all (map (eval s1) rest)); [|reflexivity]. apply inquiry_intr_head. exact Hb.
    + rewrite (Hm args) by auto. destruct (opt_all (map (eval s1) args)); [|reflexivity].
      apply noninquiry_intr. exact Q.
Qed.

(* the assignment that follows the loop:  x(xi) = C[r]  where r holds the value of the call *)
Lemma ctx_assign T s sL x xi xv c hole r v w :
  agree_except T sL s -> eval sL r = Some v -> hole_ok hole c = true ->
  (forall y, In y T -> mentions y c = false) ->
  (forall y e, In y T -> In e xi -> mentions y e = false) ->
  opt_all (map (eval s) xi) = Some xv -> eval (upd s (hole, []) v) c = Some w ->
  hoare 2 [SAssign x xi (subst_var hole r c)] sL (fun s2 => s2 = upd sL (x, xv) w).
Proof.
  intros A Er Ok Fc Fxi Exi Ec. eapply hoare_assign; [| |reflexivity].
  - rewrite (evals_agree T s sL xi A Fxi). exact Exi.
  - rewrite <- Ec.
    apply (subst_var_eval hole r (upd s (hole, []) v) sL v Er (val_upd_same _ _ _)).
    + rewrite bnd_upd. apply (agree_bnd _ _ _ A).
    + exact Ok.
    + intros loc N M. rewrite val_upd_other by (intro X; subst loc; apply N; reflexivity).
      apply (agree_val _ _ _ _ A). intro X. rewrite (Fc _ X) in M. discriminate.
Qed.

(* freshness of the loop variable, the temporary and the place-holder variable *)
Definition red_names_ok (idx tmp hole x : name) (xi : list expr) (ctx : option expr) : bool :=
  negb (Nat.eqb tmp x) && negb (Nat.eqb idx x) && negb (Nat.eqb hole x) &&
  forallb (fun e => negb (mentions idx e) && negb (mentions tmp e)) xi &&
  match ctx with
  | Some c => hole_ok hole c && negb (mentions idx c) && negb (mentions tmp c)
  | None => true
  end.

Definition red_stmt_safe (fx : fixes) (d : decls) (idx tmp hole x : name) (xi : list expr) (arr : aexpr)
                         (mask : option aexpr) (ctx : option expr) : bool :=
  let inc := red_increment x arr mask ctx in
  red_names_ok idx tmp hole x xi ctx &&
  red_safe fx d idx (if inc then tmp else x) (if inc then [] else xi) arr mask &&
  (* the unfixed code forgets the final store in exactly this shape *)
  negb (inc && match ctx with None => true | Some _ => false end && negb (fx_redstore fx)).

(* once the loop has left the reduction in its target (the temporary, or x(xi) itself), storing a value in
   x(xi) gives the store of the original statement up to the new symbols *)
Lemma target_upd_agree idx tmp hole x xv (inc : bool) sL s w :
  same_but idx (if inc then tmp else x, if inc then [] else xv) sL s ->
  agree_except [idx; tmp; hole] (upd sL (x, xv) w) (upd s (x, xv) w).
Proof.
  intro HS. destruct inc.
  - apply agree_upd_both. eapply agree_weaken; [|apply same_but_agree, HS]. intros y [<-|[<-|[]]]; cbn; auto.
  - eapply agree_weaken; [|apply same_but_upd_both, HS]. intros y [<-|[]]. left. reflexivity.
Qed.

Theorem reduction_sound_partial_ fx d idx tmp hole x xi k arr mask ctx code s s' :
  red_apply fx d idx tmp x xi k arr mask ctx hole = Some code ->
  red_stmt_safe fx d idx tmp hole x xi arr mask ctx = true -> bnd_ok d s ->
  red_stmt_sem k x xi arr mask ctx hole s = Some s' ->
  (forall l h t all, red_elems s arr mask (zseq 0 (trip_count l h t)) = Some all ->
                     Forall (fun w => - HUGE <= w <= HUGE) all) ->
  exists N, hoare N code s (fun s2 => agree_except [idx; tmp; hole] s2 s').
Proof.
  intros Ap Safe Hbnd Sem Bd. unfold red_stmt_safe in Safe.
  apply andb_true_iff in Safe as [Safe Sbug]. apply andb_true_iff in Safe as [Snames Sred].
  unfold red_apply in Ap. unfold red_stmt_sem in Sem.
  destruct (red_sem k arr mask s) as [v|] eqn:Ev; [|discriminate].
  destruct (opt_all (map (eval s) xi)) as [xv|] eqn:Exi; [|discriminate].
  set (inc := red_increment x arr mask ctx) in *.
  set (nx := if inc then tmp else x) in *. set (nxi := if inc then [] else xi) in *.
  destruct (red_loop fx d idx nx nxi k arr mask) as [loop|] eqn:EL; [|discriminate].
  unfold red_names_ok in Snames.
  apply andb_true_iff in Snames as [Sn Sctx]. apply andb_true_iff in Sn as [Sn Sxi].
  pose proof (fresh_exprs idx tmp xi Sxi) as Fxi.
  (* the loop leaves v in nx(nxv) *)
  set (nxv := if inc then [] else xv).
  assert (Enxi : opt_all (map (eval s) nxi) = Some nxv) by (unfold nxi, nxv; destruct inc; [reflexivity | exact Exi]).
  pose proof (reduction_ok_ fx d idx nx nxi k arr mask loop s nxv v EL Sred Hbnd Enxi Ev Bd) as Hloop.
  destruct ctx as [c|].
  - (* x = C[RED] *)
    destruct (eval (upd s (hole, []) v) c) as [w|] eqn:Ec; [|discriminate].
    inversion Sem; subst s'. inversion Ap; subst code. clear Sem Ap Sbug.
    apply andb_true_iff in Sctx as [Sc Sc3]. apply andb_true_iff in Sc as [Sc1 Sc2].
    apply negb_true_iff in Sc2, Sc3.
    (* the target of the loop occurs neither in C nor in xi *)
    assert (Fnx : mentions nx c = false /\ forall e, In e xi -> mentions nx e = false).
    { unfold nx. destruct inc eqn:Einc.
      - split; [exact Sc3 | intros e He; apply Fxi, He].
      - split.
        + unfold inc, red_increment in Einc. apply orb_false_iff in Einc as [_ E]. exact E.
        + intros e He. unfold red_safe in Sred. destruct (accessors arr) as [|[F fxs] ?]; [discriminate|].
          destruct (range_pos 0 fxs) as [[[[? ?] ?] ?]|]; [|discriminate].
          apply andb_true_iff in Sred as [_ S]. apply (fresh_exprs idx x xi S e He). }
    destruct Fnx as [Fnc Fnxi].
    exists (6 + 2)%nat. eapply hoare_app; [exact Hloop|]. intros sL [Vt HS]. cbn beta.
    assert (ExiL : opt_all (map (eval sL) nxi) = Some nxv).
    { rewrite <- Enxi. f_equal. unfold nxi. destruct inc; [reflexivity|]. apply map_ext_in. intros e He.
      apply (eval_same_but _ _ _ _ e HS); [apply Fxi, He | apply Fnxi, He]. }
    eapply hoare_conseq;
      [|apply (ctx_assign [idx; nx] s sL x xi xv c hole (tgt_ref nx nxi) v w (same_but_agree _ _ _ _ HS))].
    + intros s2 ->. apply (target_upd_agree idx tmp hole x xv inc), HS.
    + rewrite (tgt_ref_eval sL nx nxi nxv ExiL), Vt. reflexivity.
    + exact Sc1.
    + intros y [<-|[<-|[]]]; [exact Sc2 | exact Fnc].
    + intros y e [<-|[<-|[]]] He; [apply Fxi, He | apply Fnxi, He].
    + exact Exi.
    + exact Ec.
  - (* x = RED *)
    inversion Sem; subst s'. clear Sem.
    destruct inc eqn:Einc.
    + (* accumulated in the temporary: only the fixed code stores it *)
      destruct (fx_redstore fx); [|discriminate]. cbn [andb] in Ap. inversion Ap; subst code. clear Ap.
      exists (6 + 2)%nat. eapply hoare_app; [exact Hloop|]. intros sL [Vt HS]. cbn beta. eapply hoare_assign.
      * rewrite (evals_agree _ s sL xi (same_but_agree _ _ _ _ HS)); [exact Exi|].
        intros y e [<-|[<-|[]]] He; apply Fxi, He.
      * exact (f_equal Some Vt).
      * apply (target_upd_agree idx tmp hole x xv true), HS.
    + (* accumulated in x itself: nothing follows the loop *)
      rewrite andb_false_r in Ap. inversion Ap; subst code. clear Ap.
      exists 6%nat. eapply hoare_conseq; [|exact Hloop]. intros sL [Vt HS]. rewrite <- Vt.
      apply (same_but_upd_agree _ idx (x, xv)); [exact HS | left; reflexivity].
Qed.

(* names: 0 = a (1:4), 1 = x, 2 = idx, 3 = tmp, 4 = hole, 5 = y; the refuting statement is a(1) = SUM(a(1:4)) over
   the same store *)
Definition rx_decls : decls := fun n => match n with O => [(1, 4)] | _ => [] end.
Definition rx_store : store :=
  store_of [((0%nat, [1]), 3); ((0%nat, [2]), -2); ((0%nat, [3]), 5); ((0%nat, [4]), 1); ((5%nat, []), 10)]
           [(0%nat, [(1, 4)])].
Definition rx_arr : aexpr := ASec 0%nat [IRange (ELit 1) (ELit 4) (ELit 1)].
Definition rx_mask : option aexpr := Some (ABin Gt (ASec 0%nat [IRange (ELit 1) (ELit 4) (ELit 1)]) (ALit 0)).

(* x = y - MAXVAL(a(1:4), mask = a(1:4) > 0) *)
Example reduction_nonvacuous :
  let ctx := Some (EBin Sub (EVar 5%nat) (EVar 4%nat)) in
  red_stmt_safe unfixed rx_decls 2%nat 3%nat 4%nat 1%nat [] rx_arr rx_mask ctx = true /\ bnd_ok rx_decls rx_store /\
  (exists code, red_apply unfixed rx_decls 2%nat 3%nat 1%nat [] RMaxval rx_arr rx_mask ctx 4%nat = Some code) /\
  (exists s', red_stmt_sem RMaxval 1%nat [] rx_arr rx_mask ctx 4%nat rx_store = Some s' /\ val s' (1%nat, []) = 5).
Proof.
  cbv zeta. split; [vm_compute; reflexivity|]. split; [intros [|b]; reflexivity|].
  split; [eexists; vm_compute; reflexivity|]. eexists. split; vm_compute; reflexivity.
Qed.
