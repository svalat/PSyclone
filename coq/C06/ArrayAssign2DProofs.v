(* C06 — soundness of the 2-deep loop nest for array assignments with two ranges per accessor: the 1-range theorem
   is applied to each column (the statement `aa_slice` leaves when the last range is replaced by the outer loop
   variable); inputs of the non-vacuity example and of the dimension-mix witnesses. *)
From Coq Require Import List ZArith Bool.
Import ListNotations.
From PV Require Import Fort.Syntax Fort.Sem Fort.Facts Base.Harness C06.Syntax C06.Model C06.Common
                       C06.ArrayAssignProofs C06.ArrayAssign2D.
Open Scope Z_scope.

Lemma has_range_n ix : has_range ix = false -> n_ranges ix = 0%nat.
Proof.
  unfold n_ranges. induction ix as [|[e|lo hi st] ix IH]; cbn; intro H; [reflexivity | apply IH, H | discriminate].
Qed.

(* the first of two ranges survives the rewriting of the last one *)
Lemma slice_range_pos r b : forall ix q p1 lo1 hi1 st1,
  range_pos q ix = Some (p1, lo1, hi1, st1) -> n_ranges ix = 2%nat ->
  range_pos q (lower_last_ixs r b q ix) = Some (p1, lo1, hi1, st1).
Proof.
  induction ix as [|i ix IH]; intros q p1 lo1 hi1 st1 H N; [discriminate|].
  destruct i as [e|lo hi st]; cbn [range_pos lower_last_ixs] in *.
  - apply IH; [exact H|]. exact N.
  - destruct (has_range ix) eqn:HR; [exact H|]. apply has_range_n in HR. unfold n_ranges in *. cbn in N. rewrite HR in N. discriminate N.
Qed.

Lemma acc2_safe_true fx d idx W wix p lo st b ix :
  acc2_safe fx d idx W wix p lo st b ix = true ->
  idx <> b /\ forallb (ix_fresh idx W) ix = true /\ (W = b -> ix = wix) /\ last_rng_safe fx d W p lo st b 0 ix = true.
Proof.
  unfold acc2_safe. intro S. apply andb_true_iff in S as [S Srg]. apply andb_true_iff in S as [S Ssame].
  apply andb_true_iff in S as [Sidx Sfr]. apply negb_true_iff, Nat.eqb_neq in Sidx. repeat split; try assumption.
  intros <-. rewrite Nat.eqb_refl in Ssame. apply indices_eqb_eq, Ssame.
Qed.

Section Slice.
  Variables (fx : fixes) (d : decls) (idx idx1 W : name) (wix : list index) (p : nat) (lo st : expr).
  Variables (s0 s1 : store) (k2 l t : Z).
  Hypothesis Hbnd : bnd_ok d s0.
  Hypothesis El : eval s0 lo = Some l.
  Hypothesis Et : eval s0 st = Some t.
  Hypothesis R1 : bnd s1 = bnd s0.
  Hypothesis R2 : val s1 (idx, []) = l + k2 * t.
  Hypothesis R3 : forall loc, fst loc <> idx -> fst loc <> idx1 -> fst loc <> W -> val s1 loc = val s0 loc.
  Hypothesis R4 : forall k1 vs, opt_all (ixs_val2 s0 k1 k2 wix) = Some vs -> val s1 (W, vs) = val s0 (W, vs).
  Hypothesis Flo : mentions idx lo = false /\ mentions idx1 lo = false /\ mentions W lo = false.

  Lemma ev1 e : mentions idx e = false -> mentions idx1 e = false -> mentions W e = false -> eval s1 e = eval s0 e.
  Proof.
    intros H1 H2 H3. apply eval_names; [exact R1|]. intros loc Hl.
    apply R3; intro X; rewrite X in Hl; congruence.
  Qed.

  (* ix_fresh extended to the inner loop variable *)
  Definition fresh_ixs (ix : list index) : Prop :=
    forallb (ix_fresh idx W) ix = true /\ existsb (imentions idx1) ix = false.

  Lemma fresh_ixs_cons i ix : fresh_ixs (i :: ix) ->
    (imentions idx i = false /\ imentions idx1 i = false /\ imentions W i = false) /\ fresh_ixs ix.
  Proof.
    intros [F1 F2]. cbn [forallb existsb] in *. apply andb_true_iff in F1 as [Fi Fr].
    apply orb_false_iff in F2 as [Gi Gr]. apply ix_fresh_true in Fi as [A B]. repeat split; assumption.
  Qed.

  Lemma norange_vals k1 : forall rest, has_range rest = false -> fresh_ixs rest ->
    map (ix_val s1 k1) rest = ixs_val2 s0 k1 k2 rest.
  Proof.
    induction rest as [|[e|lo' hi' st'] rest IH]; intros H F; cbn [has_range] in H; [reflexivity | | discriminate].
    apply fresh_ixs_cons in F as [[A [B C]] Fr]. cbn [imentions] in A, B, C.
    cbn [map ix_val ixs_val2]. rewrite (ev1 e A B C). f_equal. apply IH; assumption.
  Qed.

  Lemma lower_last_ixs_eval b k1 : forall ix q,
    last_rng_safe fx d W p lo st b q ix = true -> fresh_ixs ix ->
    map (ix_val s1 k1) (lower_last_ixs (ridx_of fx d idx W p lo st) b q ix) = ixs_val2 s0 k1 k2 ix.
  Proof.
    induction ix as [|[e|lo' hi' st'] ix IH]; intros q S F; [reflexivity | |];
      apply fresh_ixs_cons in F as [[A [B C]] Fr]; cbn [imentions] in A, B, C;
      cbn [lower_last_ixs ixs_val2 last_rng_safe] in *.
    - cbn [map ix_val]. rewrite (ev1 e A B C). f_equal. apply IH; assumption.
    - apply orb_false_iff in A as [A A3]. apply orb_false_iff in A as [A1 A2].
      apply orb_false_iff in B as [B B3]. apply orb_false_iff in B as [B1 B2].
      apply orb_false_iff in C as [C C3]. apply orb_false_iff in C as [C1 C2].
      destruct (has_range ix) eqn:HR.
      + cbn [map ix_val]. rewrite (ev1 lo' A1 B1 C1), (ev1 st' A3 B3 C3). f_equal. apply IH; assumption.
      + destruct Flo as [F1 [F2 F3]]. cbn [map ix_val].
        rewrite (ridx_eval fx d idx W p lo st s0 s1 k2 l t b q lo' hi' st' Hbnd El Et R2 (ev1 lo F1 F2 F3) (ev1 lo' A1 B1 C1) S).
        cbn [ix_val]. f_equal.
        apply norange_vals; assumption.
  Qed.

  Definition fresh_aexpr (e : aexpr) : Prop := amentions idx1 e = false.

  Lemma lower_last_eval k1 e :
    aexpr_safe (acc2_safe fx d idx W wix p lo st) idx W e = true -> amentions idx1 e = false ->
    aeval s1 k1 (lower_last (ridx_of fx d idx W p lo st) e) = aeval2 s0 k1 k2 e.
  Proof.
    induction e as [z|x|b ix|o e IH|o e1 IH1 e2 IH2|f e IH|f e1 IH1 e2 IH2]; intros S M;
      cbn [aexpr_safe lower_last aeval aeval2 amentions] in *.
    - reflexivity.
    - apply andb_true_iff in S as [S1 S2]. apply negb_true_iff in S1, S2. apply Nat.eqb_neq in S1, S2.
      apply Nat.eqb_neq in M. f_equal. apply R3; cbn [fst]; congruence.
    - apply acc2_safe_true in S as [Sidx [Sfr [Ssame Srg]]].
      apply orb_false_iff in M as [M1 M2]. apply Nat.eqb_neq in M1.
      rewrite (lower_last_ixs_eval b k1 ix 0%nat Srg (conj Sfr M2)).
      destruct (opt_all (ixs_val2 s0 k1 k2 ix)) as [vs|] eqn:E; [|reflexivity]. f_equal.
      destruct (Nat.eq_dec W b) as [EW|EW].
      + subst b. rewrite (Ssame eq_refl) in E. apply (R4 k1 vs E).
      + apply R3; cbn [fst]; congruence.
    - rewrite (IH S M). reflexivity.
    - apply andb_true_iff in S as [S1 S2]. apply orb_false_iff in M as [M1 M2]. rewrite (IH1 S1 M1), (IH2 S2 M2). reflexivity.
    - rewrite (IH S M). destruct (aeval2 s0 k1 k2 e); [|reflexivity]. apply noninquiry_intr, intr_of_not_inquiry.
    - apply andb_true_iff in S as [S1 S2]. apply orb_false_iff in M as [M1 M2]. rewrite (IH1 S1 M1), (IH2 S2 M2).
      destruct (aeval2 s0 k1 k2 e1); [|reflexivity]. destruct (aeval2 s0 k1 k2 e2); [|reflexivity]. apply noninquiry_intr, intr_of_not_inquiry.
  Qed.
  (* in s1 the statement that aa_slice leaves denotes column k2 of the two-range statement *)
  Lemma slice_sem a p1 lo1 hi1 st1 l1 h1 t1 blk :
    aa_arr a = W -> aa_ix a = wix ->
    last_rng_safe fx d W p lo st W 0 wix = true -> fresh_ixs wix ->
    aexpr_safe (acc2_safe fx d idx W wix p lo st) idx W (aa_rhs a) = true -> amentions idx1 (aa_rhs a) = false ->
    range_pos 0 wix = Some (p1, lo1, hi1, st1) -> n_ranges wix = 2%nat ->
    eval s0 lo1 = Some l1 -> eval s0 hi1 = Some h1 -> eval s0 st1 = Some t1 -> (t1 =? 0) = false ->
    aa_block s0 a (trip_count l1 h1 t1) k2 = Some blk ->
    aa_sem (mkAA W (lower_last_ixs (ridx_of fx d idx W p lo st) W 0 wix) (lower_last (ridx_of fx d idx W p lo st) (aa_rhs a))) s1
    = Some (store_all s1 blk).
  Proof.
    intros HW Hix Lrg Lfr Srhs Mrhs RP N2 El1 Eh1 Et1 T1 Hblk.
    pose proof (range_pos_in _ _ _ _ _ _ RP) as RPin.
    destruct (ix_fresh_range idx W _ _ _ _ RPin (proj1 Lfr)) as [[F1a F1b] [[F1c F1d] [F1e F1f]]].
    destruct (imentions_range idx1 _ _ _ (existsb_false _ _ (proj2 Lfr) _ RPin)) as [G1 [G2 G3]].
    unfold aa_sem. cbn [aa_ix aa_rhs aa_arr]. rewrite (slice_range_pos _ W wix 0%nat _ _ _ _ RP N2).
    rewrite (ev1 lo1 F1a G1 F1b), (ev1 hi1 F1c G2 F1d), (ev1 st1 F1e G3 F1f), El1, Eh1, Et1, T1.
    assert (Helem : forall k1, aa_elem s1 (mkAA W (lower_last_ixs (ridx_of fx d idx W p lo st) W 0 wix)
                                                  (lower_last (ridx_of fx d idx W p lo st) (aa_rhs a))) k1
                               = aa_elem2 s0 a k2 k1).
    { intro k1. unfold aa_elem, aa_elem2. cbn [aa_ix aa_rhs aa_arr]. rewrite HW, Hix.
      rewrite (lower_last_ixs_eval W k1 wix 0%nat Lrg Lfr), (lower_last_eval k1 (aa_rhs a) Srhs Mrhs). reflexivity. }
    rewrite (map_ext _ _ Helem). unfold aa_block in Hblk. rewrite Hblk. reflexivity.
  Qed.
End Slice.

(* the component of the LAST range identifies the column *)
Lemma ixs_val2_last_nth s k1 k2 : forall ix q0 p lo hi st l t vs,
  last_range_pos q0 ix = Some (p, lo, hi, st) -> eval s lo = Some l -> eval s st = Some t ->
  opt_all (ixs_val2 s k1 k2 ix) = Some vs -> nth_error vs (p - q0) = Some (l + k2 * t) /\ (q0 <= p)%nat.
Proof.
  induction ix as [|i ix IH]; intros q0 p lo hi st l t vs H El Et Hv; [discriminate|].
  destruct i as [e|lo' hi' st']; cbn [last_range_pos ixs_val2 opt_all] in *.
  - destruct (eval s e) as [v|]; [|discriminate].
    destruct (opt_all (ixs_val2 s k1 k2 ix)) as [vs'|] eqn:E; [|discriminate]. inversion Hv; subst vs.
    destruct (IH (S q0) p lo hi st l t vs' H El Et eq_refl) as [N L]. split; [|exact (Nat.lt_le_incl _ _ L)].
    change (p - q0)%nat with (S p - S q0)%nat. rewrite (Nat.sub_succ_l _ _ L). exact N.
  - destruct (has_range ix) eqn:HR.
    + destruct (match eval s lo' with Some l0 => match eval s st' with Some t0 => Some (l0 + k1 * t0) | None => None end | None => None end) as [v|]; [|discriminate].
      destruct (opt_all (ixs_val2 s k1 k2 ix)) as [vs'|] eqn:E; [|discriminate]. inversion Hv; subst vs.
      destruct (IH (S q0) p lo hi st l t vs' H El Et eq_refl) as [N L]. split; [|exact (Nat.lt_le_incl _ _ L)].
      change (p - q0)%nat with (S p - S q0)%nat. rewrite (Nat.sub_succ_l _ _ L). exact N.
    + inversion H; subst. rewrite El, Et in Hv.
      destruct (opt_all (ixs_val2 s k1 k2 ix)) as [vs'|]; [|discriminate]. inversion Hv; subst.
      rewrite Nat.sub_diag. split; [reflexivity | apply le_n].
Qed.

Lemma last_range_pos_in : forall ix q p lo hi st, last_range_pos q ix = Some (p, lo, hi, st) -> In (IRange lo hi st) ix.
Proof.
  induction ix as [|[e|lo' hi' st'] ix IH]; intros q p lo hi st H; cbn [last_range_pos] in H;
    [discriminate | right; eapply IH, H |].
  destruct (has_range ix); [right; eapply IH, H|]. inversion H; subst. left. reflexivity.
Qed.

Lemma aa_block_locs s a n1 i bl lv :
  aa_block s a n1 i = Some bl -> In lv bl ->
  exists k1 vs, opt_all (ixs_val2 s k1 i (aa_ix a)) = Some vs /\ fst lv = (aa_arr a, vs).
Proof.
  intros Hfi Hlv. unfold aa_block in Hfi. destruct (opt_all_in_result _ _ _ _ Hfi Hlv) as [k1 [_ Hel]].
  unfold aa_elem2 in Hel. destruct (opt_all (ixs_val2 s k1 i (aa_ix a))) as [vs|] eqn:Evs; [|discriminate].
  destruct (aeval2 s k1 i (aa_rhs a)); [|discriminate]. inversion Hel; subst. eauto.
Qed.

(* columns are pairwise disjoint: the components at the position of the last range differ *)
Lemma aa_columns_distinct s a n1 p lo hi st l t j bj k1 vs :
  last_range_pos 0 (aa_ix a) = Some (p, lo, hi, st) -> eval s lo = Some l -> eval s st = Some t -> t <> 0 ->
  opt_all (map (aa_block s a n1) (zseq 0 j)) = Some bj -> opt_all (ixs_val2 s k1 (Z.of_nat j) (aa_ix a)) = Some vs ->
  forall lv, In lv (concat bj) -> fst lv <> (aa_arr a, vs).
Proof.
  intros LP El Et T0 Hbj Hvs lv Hlv X. apply in_concat in Hlv as [bl [Hbl Hlv]].
  destruct (opt_all_in_result _ _ _ _ Hbj Hbl) as [i [Hi Hfi]]. apply in_zseq in Hi.
  destruct (aa_block_locs s a n1 i bl lv Hfi Hlv) as [k1' [vs' [Hvs' Hf]]]. rewrite Hf in X. inversion X; subst vs'.
  destruct (ixs_val2_last_nth s k1' i _ _ _ _ _ _ _ _ _ LP El Et Hvs') as [M1 _].
  destruct (ixs_val2_last_nth s k1 (Z.of_nat j) _ _ _ _ _ _ _ _ _ LP El Et Hvs) as [M2 _].
  rewrite M1 in M2. inversion M2 as [E]. apply (stride_inj l t _ _ T0) in E. subst i. exact (Z.lt_irrefl _ (proj2 Hi)).
Qed.

Theorem aa2_sound_partial_ fx d idx idx1 a s s' :
  aa2_safe fx d idx idx1 a = true -> bnd_ok d s -> aa2_sem a s = Some s' ->
  exists prog, aa2_apply fx d idx idx1 a = Some prog /\ hoare 4 prog s (fun s2 => agree_except [idx; idx1] s2 s').
Proof.
  intros Safe Hbnd Sem. unfold aa2_safe in Safe. apply andb_true_iff in Safe as [Acc Safe].
  destruct (last_range_pos 0 (aa_ix a)) as [[[[p2 lo2] hi2] st2]|] eqn:LP; [|discriminate].
  destruct (aa_slice fx d idx a) as [[[[lo2' hi2'] st2'] a']|] eqn:SL; [|discriminate].
  unfold aa_slice in SL. rewrite LP in SL. inversion SL; subst lo2' hi2' st2'. clear SL. rename H3 into Ha'.
  apply andb_true_iff in Safe as [Safe Mrhs1]. apply andb_true_iff in Safe as [Safe Mix1].
  apply andb_true_iff in Safe as [Safe N1W]. apply andb_true_iff in Safe as [Safe N1i].
  apply andb_true_iff in Safe as [Safe Sin]. apply andb_true_iff in Safe as [Slhs Srhs].
  apply negb_true_iff in Mrhs1, Mix1, N1W, N1i. apply Nat.eqb_neq in N1W, N1i.
  set (W := aa_arr a) in *. set (r := ridx_of fx d idx W p2 lo2 st2) in *.
  destruct (aa_safe_apply fx d idx1 a' Sin) as [prog AP].
  exists [SDo idx lo2 hi2 st2 prog]. split.
  { unfold aa2_apply, aa_slice. rewrite Acc, LP. fold W r. rewrite Ha', AP. reflexivity. }
  unfold aa2_sem in Sem. rewrite LP in Sem.
  destruct (range_pos 0 (aa_ix a)) as [[[[p1 lo1] hi1] st1]|] eqn:RP; [|discriminate].
  destruct (eval s lo1) as [l1|] eqn:El1; [|discriminate]. destruct (eval s hi1) as [h1|] eqn:Eh1; [|discriminate].
  destruct (eval s st1) as [t1|] eqn:Et1; [|discriminate]. destruct (eval s lo2) as [l2|] eqn:El2; [|discriminate].
  destruct (eval s hi2) as [h2|] eqn:Eh2; [|discriminate]. destruct (eval s st2) as [t2|] eqn:Et2; [|discriminate].
  destruct ((t1 =? 0) || (t2 =? 0)) eqn:T0; [discriminate|]. apply orb_false_iff in T0 as [T1 T2].
  apply Z.eqb_neq in T2.
  set (n1 := trip_count l1 h1 t1) in *. set (n2 := trip_count l2 h2 t2) in *.
  destruct (opt_all (map (aa_block s a n1) (zseq 0 n2))) as [blocks|] eqn:Eb; [|discriminate].
  inversion Sem; subst s'. clear Sem.
  destruct (acc2_safe_true _ _ _ _ _ _ _ _ _ _ Slhs) as [LidxW [Lfr [_ Lrg]]].
  pose proof (last_range_pos_in _ _ _ _ _ _ LP) as LPin.
  destruct (ix_fresh_range idx W _ _ _ _ LPin Lfr) as [[Flo2a Flo2c] _].
  destruct (imentions_range idx1 _ _ _ (existsb_false _ _ Mix1 _ LPin)) as [Flo2b _].
  assert (N2 : n_ranges (aa_ix a) = 2%nat).
  { unfold aa2_accept in Acc. apply andb_true_iff in Acc as [A _]. apply Nat.eqb_eq in A. exact A. }
  (* after j iterations of the outer loop the first j columns are stored *)
  eapply hoare_conseq; [|apply (hoare_do_stores 2 [idx; idx1] W idx lo2 hi2 st2 prog s l2 h2 t2
                                   (fun j lj => exists bj, opt_all (map (aa_block s a n1) (zseq 0 j)) = Some bj /\ lj = concat bj)
                                   El2 Eh2 Et2 T2 (or_introl eq_refl))].
  - intros s2 [lj [[bj [Hbj ->]] HA]]. fold n2 in Hbj. rewrite Eb in Hbj. inversion Hbj; subst bj. exact HA.
  - intros j s1 lj Hj [bj [Hbj ->]] HA R2 Hop. fold n2 in Hj.
    destruct (opt_all_in _ _ _ (Z.of_nat j) Eb) as [blk [Hblk _]]; [apply in_zseq_nat, Hj|].
    exists blk. split; [|split].
    { exists (bj ++ [blk]). split; [|rewrite concat_app; cbn [concat]; rewrite app_nil_r; reflexivity].
      rewrite zseq_snoc, map_app. apply opt_all_app_some; [exact Hbj|]. cbn [map opt_all]. rewrite Hblk. reflexivity. }
    { intros lv Hlv. destruct (aa_block_locs _ _ _ _ _ lv Hblk Hlv) as [k1 [vs [_ Hf]]]. rewrite Hf. reflexivity. }
    pose proof (agree_store_all_bnd _ _ _ _ HA) as R1.
    assert (R3 : forall loc, fst loc <> idx -> fst loc <> idx1 -> fst loc <> W -> val s1 loc = val s loc).
    { intros [b ix] M1 M2 M3. apply Hop; [repeat constructor; assumption | exact M3]. }
    (* the column about to be written is not among those already stored *)
    assert (R4 : forall k1 vs, opt_all (ixs_val2 s k1 (Z.of_nat j) (aa_ix a)) = Some vs -> val s1 (W, vs) = val s (W, vs)).
    { intros k1 vs Hvs. rewrite (agree_val _ _ _ _ HA) by (cbn [fst]; intros [X|[X|[]]]; congruence).
      apply val_store_all_notin, (aa_columns_distinct s a n1 p2 lo2 hi2 st2 l2 t2 j bj k1 vs LP El2 Et2 T2 Hbj Hvs). }
    assert (Flo : mentions idx lo2 = false /\ mentions idx1 lo2 = false /\ mentions W lo2 = false) by auto.
    assert (Hsem : aa_sem a' s1 = Some (store_all s1 blk)).
    { rewrite <- Ha'. unfold r.
      apply (slice_sem fx d idx idx1 W (aa_ix a) p2 lo2 st2 s s1 (Z.of_nat j) l2 t2 Hbnd El2 Et2 R1 R2 R3 R4 Flo
               a p1 lo1 hi1 st1 l1 h1 t1 blk eq_refl eq_refl Lrg (conj Lfr Mix1) Srhs Mrhs1 RP N2 El1 Eh1 Et1 T1 Hblk). }
    assert (Hbnd1 : bnd_ok d s1) by (intro b; rewrite R1; apply Hbnd).
    destruct (aa_sound_partial_ fx d idx1 a' s1 _ Sin Hbnd1 Hsem) as [prog' [AP' H3]].
    rewrite AP in AP'. inversion AP'; subst prog'.
    eapply hoare_conseq; [|exact H3]. intros s3 A3. eapply agree_weaken; [|exact A3].
    intros y [<-|[]]. right. left. reflexivity.
  - exists []. split; reflexivity.
Qed.

(* names 0 = a(2:4, 0:2), 1 = b(1:3, 5:7), 2 = idx, 3 = idx1, 4 = x;  a(2:3, 0:2) = b(1:2, 5:7) * x + a(2:3, 0:2) *)
Definition e2_decls : decls := fun n => match n with O => [(2, 4); (0, 2)] | S O => [(1, 3); (5, 7)] | _ => [] end.
Definition e2_store : store :=
  store_of [((0%nat, [2; 0]), 1); ((0%nat, [3; 0]), 2); ((0%nat, [2; 2]), 3); ((0%nat, [3; 2]), 4);
            ((1%nat, [1; 5]), 10); ((1%nat, [2; 5]), 20); ((1%nat, [1; 7]), 30); ((1%nat, [2; 7]), 40); ((4%nat, []), 2)]
           [(0%nat, [(2, 4); (0, 2)]); (1%nat, [(1, 3); (5, 7)])].
Definition e2_stmt : aassign :=
  mkAA 0%nat [IRange (ELit 2) (ELit 3) (ELit 1); IRange (ELit 0) (ELit 2) (ELit 1)]
       (ABin Add (ABin Mul (ASec 1%nat [IRange (ELit 1) (ELit 2) (ELit 1); IRange (ELit 5) (ELit 7) (ELit 1)]) (AVar 4%nat))
                 (ASec 0%nat [IRange (ELit 2) (ELit 3) (ELit 1); IRange (ELit 0) (ELit 2) (ELit 1)])).

Example aa2_safe_nonvacuous :
  aa2_safe unfixed e2_decls 2%nat 3%nat e2_stmt = true /\ bnd_ok e2_decls e2_store /\
  (exists s', aa2_sem e2_stmt e2_store = Some s' /\ val s' (0%nat, [3; 2]) = 84) /\
  (exists prog s2 tr, aa2_apply unfixed e2_decls 2%nat 3%nat e2_stmt = Some prog /\
                      exec 20 prog e2_store = Ok s2 tr CNormal /\ val s2 (0%nat, [3; 2]) = 84).
Proof.
  split; [vm_compute; reflexivity|]. split; [intros [|[|b]]; reflexivity|]. split.
  - apply some_val_witness. vm_compute. reflexivity.
  - destruct (apply_val_witness 20 (aa2_apply unfixed e2_decls 2%nat 3%nat e2_stmt) e2_store (0%nat, [3; 2]) 84)
      as [prog [s2 [tr R]]]; [vm_compute; reflexivity|]. exists prog, s2, tr. exact R.
Qed.

(* d(:,1) = d(1,:); names 0 = d(0:2, 1:3), 2 = idx.  same_range(unfixed) answers True for "same array, both at their lower
   bound" without comparing the dimensions; the repaired variant (fx_shortcut, 148f649) uses the offset. *)
Definition dm_decls : decls := fun n => match n with O => [(0, 2); (1, 3)] | _ => [] end.
Definition dm_store : store :=
  store_of [((0%nat, [1; 1]), 11); ((0%nat, [1; 2]), 12); ((0%nat, [1; 3]), 13)] [(0%nat, [(0, 2); (1, 3)])].
Definition dm_lb (k : Z) : expr := EIntr ILbound [EVar 0%nat; ELit k].
Definition dm_ub (k : Z) : expr := EIntr IUbound [EVar 0%nat; ELit k].
Definition dm_stmt : aassign :=
  mkAA 0%nat [IRange (dm_lb 1) (dm_ub 1) (ELit 1); IExp (ELit 1)]
       (ASec 0%nat [IExp (ELit 1); IRange (dm_lb 2) (dm_ub 2) (ELit 1)]).
