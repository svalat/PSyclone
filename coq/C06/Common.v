(* C06 — lemmas shared by the proofs: name-based expression frame, facts about opt_all / store_all / zseq,
   stores equal up to fresh names (agree_except) or up to one scalar and one location (same_but), and a small
   Hoare layer over exec: a loop-invariant rule for Fort.Sem.do_loop and its two instances from which every loop
   nest of C06 is verified -- a loop that changes one location (hoare_do_cell: accumulations) and a loop that
   stores a block of array elements per iteration (hoare_do_stores: element-wise assignments); last, the lemmas
   through which closed runs are evaluated for the witnesses. *)
From Coq Require Import List ZArith Bool Lia.
Import ListNotations.
From PV Require Import Fort.Syntax Fort.Sem Fort.Facts Base.Harness C06.Syntax C06.Model.
Open Scope Z_scope.

(* splits a hypothesis  b1 && .. && bn = true  and turns the tests on names and integers among the bi into
   equalities and disequalities (left unnamed: they are used through assumption / congruence) *)
Ltac unpack_bools H :=
  repeat (apply andb_true_iff in H as [H ?H]);
  repeat match goal with
         | X : negb _ = true |- _ => apply negb_true_iff in X
         | X : Nat.eqb _ _ = false |- _ => apply Nat.eqb_neq in X
         | X : Nat.eqb _ _ = true |- _ => apply Nat.eqb_eq in X
         | X : Z.eqb _ _ = true |- _ => apply Z.eqb_eq in X
         end.

Definition agree_except (T : list name) (s1 s2 : store) : Prop :=
  bnd s1 = bnd s2 /\ forall l, ~ In (fst l) T -> val s1 l = val s2 l.

Lemma agree_bnd T s1 s2 : agree_except T s1 s2 -> bnd s1 = bnd s2.
Proof. intros [B _]. exact B. Qed.

Lemma agree_val T s1 s2 l : agree_except T s1 s2 -> ~ In (fst l) T -> val s1 l = val s2 l.
Proof. intros [_ V]. apply V. Qed.

Lemma agree_refl T s : agree_except T s s.
Proof. split; auto. Qed.

Lemma agree_trans T s1 s2 s3 : agree_except T s1 s2 -> agree_except T s2 s3 -> agree_except T s1 s3.
Proof. intros [B1 V1] [B2 V2]. split; [congruence|]. intros l H. rewrite V1, V2; auto. Qed.

Lemma agree_sym T s1 s2 : agree_except T s1 s2 -> agree_except T s2 s1.
Proof. intros [B V]. split; [auto|]. intros l H. symmetry. auto. Qed.

Lemma agree_upd_fresh T s x v : In x T -> agree_except T (upd s (x, []) v) s.
Proof.
  intro H. split; [reflexivity|]. intros l Hl. apply val_upd_other. intro E. subst l. apply Hl. exact H.
Qed.

Lemma agree_upd_both T s1 s2 l v : agree_except T s1 s2 -> agree_except T (upd s1 l v) (upd s2 l v).
Proof.
  intros [B V]. split; [exact B|]. intros l' H. rewrite !val_upd. destruct (loc_eq_dec l' l); auto.
Qed.

Lemma agree_weaken T T' s1 s2 : incl T T' -> agree_except T s1 s2 -> agree_except T' s1 s2.
Proof. intros I [B V]. split; [exact B|]. intros l H. apply V. intro X. apply H, I, X. Qed.

Lemma ereads_mentions s e : forall l, In l (ereads s e) -> mentions (fst l) e = true.
Proof.
  induction e using expr_ind'; intros l Hl; cbn [ereads mentions] in *.
  - destruct Hl.
  - destruct Hl as [<-|[]]. apply Nat.eqb_refl.
  - apply in_app_or in Hl as [Hl|Hl].
    + apply orb_true_iff. right. apply existsb_exists. apply in_flat_map in Hl as [x [Hx Hl]].
      exists x. split; [exact Hx|]. rewrite Forall_forall in H. apply H; assumption.
    + destruct (opt_all (map (eval s) ix)); [|destruct Hl]. destruct Hl as [<-|[]].
      cbn [fst]. rewrite Nat.eqb_refl. reflexivity.
  - apply IHe, Hl.
  - apply in_app_or in Hl as [Hl|Hl]; apply orb_true_iff; [left; apply IHe1 | right; apply IHe2]; exact Hl.
  - assert (Hin : exists x, In x args /\ In l (ereads s x)).
    { destruct (is_inquiry f).
      - destruct args as [|a0 r]; [destruct Hl|]. apply in_flat_map in Hl as [x [Hx Hl]].
        exists x. split; [right; exact Hx | exact Hl].
      - apply in_flat_map in Hl. exact Hl. }
    destruct Hin as [x [Hx Hl']]. apply existsb_exists. exists x. split; [exact Hx|].
    rewrite Forall_forall in H. apply H; assumption.
Qed.

Lemma eval_names s1 s2 e :
  bnd s2 = bnd s1 -> (forall l, mentions (fst l) e = true -> val s2 l = val s1 l) -> eval s2 e = eval s1 e.
Proof.
  intros Hb H. apply eval_frame; [exact Hb|]. intros l Hl. apply H. eapply ereads_mentions, Hl.
Qed.

Lemma evals_names s1 s2 es :
  bnd s2 = bnd s1 -> (forall e l, In e es -> mentions (fst l) e = true -> val s2 l = val s1 l) ->
  map (eval s2) es = map (eval s1) es.
Proof.
  intros Hb H. apply map_ext_in. intros e He. apply eval_names; [exact Hb|]. intros l Hl. eapply H; eauto.
Qed.

Lemma eval_agree T s1 s2 e :
  agree_except T s2 s1 -> (forall x, In x T -> mentions x e = false) -> eval s2 e = eval s1 e.
Proof.
  intros [B V] H. apply eval_names; [exact B|]. intros l Hl. apply V. intro X. apply H in X. congruence.
Qed.

Lemma evals_agree T s1 s2 es :
  agree_except T s2 s1 -> (forall x e, In x T -> In e es -> mentions x e = false) ->
  map (eval s2) es = map (eval s1) es.
Proof. intros A H. apply map_ext_in. intros e He. eapply eval_agree; eauto. Qed.

Lemma existsb_false {A} (f : A -> bool) l : existsb f l = false -> forall z, In z l -> f z = false.
Proof.
  induction l as [|a l IH]; intros H z Hz; [destruct Hz|]. cbn [existsb] in H.
  apply orb_false_iff in H as [H1 H2]. destruct Hz as [<-|Hz]; [exact H1 | apply IH; assumption].
Qed.

Lemma fresh_exprs a b es :
  forallb (fun e => negb (mentions a e) && negb (mentions b e)) es = true ->
  forall e, In e es -> mentions a e = false /\ mentions b e = false.
Proof.
  intros H e He. rewrite forallb_forall in H. apply H, andb_true_iff in He as [A B]. apply negb_true_iff in A, B. auto.
Qed.

Lemma inquiry_eval s a k b :
  nth_error (bnd s a) k = Some b ->
  eval s (EIntr ILbound [EVar a; ELit (Z.of_nat (S k))]) = Some (fst b) /\
  eval s (EIntr IUbound [EVar a; ELit (Z.of_nat (S k))]) = Some (snd b).
Proof.
  intro N. cbn [eval is_inquiry map opt_all]. unfold eval_intr, dim_of.
  assert (Hq : (Z.of_nat (S k) <? 1) = false) by (apply Z.ltb_ge; lia). rewrite Hq.
  replace (Z.to_nat (Z.of_nat (S k) - 1)) with k by lia. rewrite N. split; reflexivity.
Qed.

(* an intrinsic call depends on the store only through the bounds of the first argument of an inquiry *)
Lemma noninquiry_intr s s' f args args' vs :
  is_inquiry f = false -> eval_intr s' f args' vs = eval_intr s f args vs.
Proof. destruct f; try discriminate; reflexivity. Qed.

Lemma inquiry_intr_head s s' f a0 r r' vs :
  bnd s' = bnd s -> eval_intr s' f (a0 :: r') vs = eval_intr s f (a0 :: r) vs.
Proof. intro B. unfold eval_intr, dim_of. rewrite B. destruct f; reflexivity. Qed.

Lemma intr_of_not_inquiry f : is_inquiry (intr_of f) = false.
Proof. destruct f; reflexivity. Qed.

Lemma opt_all_app_some {A} (l1 l2 : list (option A)) r1 r2 :
  opt_all l1 = Some r1 -> opt_all l2 = Some r2 -> opt_all (l1 ++ l2) = Some (r1 ++ r2).
Proof.
  revert r1. induction l1 as [|[x|] l1 IH]; intros r1 H1 H2; cbn [opt_all app] in *.
  - inversion H1. exact H2.
  - destruct (opt_all l1) as [xs|]; [|discriminate]. inversion H1; subst.
    rewrite (IH xs eq_refl H2). reflexivity.
  - discriminate.
Qed.

Lemma opt_all_in {A B} (f : A -> option B) l r x :
  opt_all (map f l) = Some r -> In x l -> exists y, f x = Some y /\ In y r.
Proof.
  revert r. induction l as [|a l IH]; intros r H Hx; [destruct Hx|]. cbn [map opt_all] in H.
  destruct (f a) as [y|] eqn:Fa; [|discriminate].
  destruct (opt_all (map f l)) as [ys|] eqn:E; [|discriminate]. inversion H; subst.
  destruct Hx as [<-|Hx]; [exists y; split; [exact Fa | left; reflexivity]|].
  destruct (IH ys eq_refl Hx) as [y' [F I]]. exists y'. split; [exact F | right; exact I].
Qed.

Lemma opt_all_in_result {A B} (f : A -> option B) l r y :
  opt_all (map f l) = Some r -> In y r -> exists x, In x l /\ f x = Some y.
Proof.
  revert r. induction l as [|a l IH]; intros r H Hy; cbn [map opt_all] in H.
  - inversion H; subst. destruct Hy.
  - destruct (f a) as [b|] eqn:Fa; [|discriminate].
    destruct (opt_all (map f l)) as [ys|] eqn:E; [|discriminate]. inversion H; subst.
    destruct Hy as [<-|Hy]; [exists a; split; [left; reflexivity | exact Fa]|].
    destruct (IH ys eq_refl Hy) as [x [I F]]. exists x. split; [right; exact I | exact F].
Qed.

Lemma opt_all_prefix {A B} (f : A -> option B) l1 l2 r :
  opt_all (map f (l1 ++ l2)) = Some r -> exists r1, opt_all (map f l1) = Some r1.
Proof.
  revert r. induction l1 as [|a l1 IH]; intros r H; [exists []; reflexivity|].
  cbn [app map opt_all] in *. destruct (f a); [|discriminate].
  destruct (opt_all (map f (l1 ++ l2))) as [ys|] eqn:E; [|discriminate].
  destruct (IH ys eq_refl) as [r1 E1]. rewrite E1. eauto.
Qed.

Lemma zseq_snoc n : zseq 0 (S n) = zseq 0 n ++ [Z.of_nat n].
Proof. rewrite <- Nat.add_1_r, zseq_app. cbn [zseq]. rewrite Z.add_0_l. reflexivity. Qed.

Lemma in_zseq_nat j n : (j < n)%nat -> In (Z.of_nat j) (zseq 0 n).
Proof. intro H. apply in_zseq. lia. Qed.

(* distinct elements of a section with a non-zero stride have distinct indices *)
Lemma stride_inj l t i j : t <> 0 -> l + i * t = l + j * t -> i = j.
Proof. intros T E. apply (Z.mul_cancel_r i j t T). lia. Qed.

Lemma store_all_app s l1 l2 : store_all s (l1 ++ l2) = store_all (store_all s l1) l2.
Proof. unfold store_all. apply fold_left_app. Qed.

Lemma bnd_store_all lvs : forall s, bnd (store_all s lvs) = bnd s.
Proof.
  induction lvs as [|lv lvs IH]; intro s; [reflexivity|]. unfold store_all in *. cbn [fold_left].
  rewrite IH. reflexivity.
Qed.

Lemma val_store_all_notin lvs : forall s loc,
  (forall lv, In lv lvs -> fst lv <> loc) -> val (store_all s lvs) loc = val s loc.
Proof.
  induction lvs as [|lv lvs IH]; intros s loc H; [reflexivity|]. cbn [store_all fold_left].
  unfold store_all in IH. rewrite IH; [|intros lv' I; apply H; right; exact I].
  apply val_upd_other. intro E. apply (H lv); [left; reflexivity | congruence].
Qed.

Lemma agree_store_all T lvs : forall s1 s2, agree_except T s1 s2 -> agree_except T (store_all s1 lvs) (store_all s2 lvs).
Proof.
  induction lvs as [|lv lvs IH]; intros s1 s2 A; [exact A|]. cbn [store_all fold_left].
  apply IH. apply agree_upd_both. exact A.
Qed.

Lemma agree_store_all_bnd T s1 s lvs : agree_except T s1 (store_all s lvs) -> bnd s1 = bnd s.
Proof. intro A. rewrite (agree_bnd _ _ _ A). apply bnd_store_all. Qed.

Definition same_but (x : name) (L : loc) (s' s : store) : Prop :=
  bnd s' = bnd s /\ forall loc, fst loc <> x -> loc <> L -> val s' loc = val s loc.

Lemma same_but_bnd x L s' s : same_but x L s' s -> bnd s' = bnd s.
Proof. intros [B _]. exact B. Qed.

Lemma same_but_refl x L s : same_but x L s s.
Proof. split; reflexivity. Qed.

Lemma same_but_trans x L s1 s2 s3 : same_but x L s1 s2 -> same_but x L s2 s3 -> same_but x L s1 s3.
Proof. intros [B1 V1] [B2 V2]. split; [congruence|]. intros loc N1 N2. rewrite V1, V2; auto. Qed.

Lemma same_but_upd_var x L s v : same_but x L (upd s (x, []) v) s.
Proof. split; [reflexivity|]. intros loc N _. apply val_upd_other. intro E. apply N. rewrite E. reflexivity. Qed.

Lemma same_but_upd_loc x L s v : same_but x L (upd s L v) s.
Proof. split; [reflexivity|]. intros loc _ N. apply val_upd_other, N. Qed.

Lemma same_but_val x L s' s a ix : same_but x L s' s -> a <> x -> a <> fst L -> val s' (a, ix) = val s (a, ix).
Proof. intros [_ V] N1 N2. apply V; [exact N1|]. intro E. apply N2. rewrite <- E. reflexivity. Qed.

Lemma eval_same_but x L s' s e :
  same_but x L s' s -> mentions x e = false -> mentions (fst L) e = false -> eval s' e = eval s e.
Proof.
  intros [B V] M1 M2. apply eval_names; [exact B|]. intros loc Hl.
  apply V; intro X; [rewrite X in Hl | subst loc]; congruence.
Qed.

Lemma same_but_agree x L s' s : same_but x L s' s -> agree_except [x; fst L] s' s.
Proof.
  intros [B V]. split; [exact B|]. intros loc N. apply V; intro E; apply N; [left | right; left]; rewrite E; reflexivity.
Qed.

Lemma same_but_upd_both x L s' s v : same_but x L s' s -> agree_except [x] (upd s' L v) (upd s L v).
Proof.
  intros [B V]. split; [exact B|]. intros loc N. rewrite !val_upd. destruct (loc_eq_dec loc L); [reflexivity|].
  apply V; [|assumption]. intro E. apply N. left. symmetry. exact E.
Qed.

(* the location itself may be put back: s' is s with L updated, up to the names in T *)
Lemma same_but_upd_agree T x L s' s : same_but x L s' s -> In x T -> agree_except T s' (upd s L (val s' L)).
Proof.
  intros [B V] I. split; [exact B|]. intros loc N. rewrite val_upd. destruct (loc_eq_dec loc L) as [->|NL]; [reflexivity|].
  apply V; [|exact NL]. intro E. apply N. rewrite E. exact I.
Qed.

Lemma do_loop_inv (run : runner) x l t (P : nat -> store -> Prop) :
  forall m j s,
  (forall i s0, (j <= i < j + m)%nat -> P i s0 ->
     exists s2 tr, run (upd s0 (x, []) (l + Z.of_nat i * t)) = Ok s2 tr CNormal /\ P (S i) s2) ->
  P j s ->
  exists s2 tr, P (j + m)%nat s2 /\
    do_loop run x l t m (Z.of_nat j) s = Ok (upd s2 (x, []) (l + Z.of_nat (j + m) * t)) tr CNormal.
Proof.
  induction m as [|m IH]; intros j s Hstep HP.
  - exists s, [Wr (x, [])]. rewrite Nat.add_0_r. split; [exact HP|]. apply do_loop_0.
  - destruct (Hstep j s) as [s2 [tr [Hrun HP2]]]; [lia | exact HP|].
    destruct (IH (S j) s2) as [s3 [tr3 [HP3 Hloop]]]; [|exact HP2|].
    { intros i s0 Hi. apply Hstep. lia. }
    exists s3. eexists. split; [replace (j + S m)%nat with (S j + m)%nat by lia; exact HP3|].
    rewrite (do_loop_S_normal run x l t m (Z.of_nat j) s s2 tr CNormal Hrun (or_introl eq_refl)).
    replace (Z.of_nat j + 1) with (Z.of_nat (S j)) by lia. rewrite Hloop. cbn [prepend].
    replace (j + S m)%nat with (S j + m)%nat by lia. reflexivity.
Qed.

Lemma exec_seq f ss1 ss2 s s1 tr1 :
  exec f ss1 s = Ok s1 tr1 CNormal ->
  forall f2 r, exec f2 ss2 s1 = r -> r <> OutOfFuel ->
  exec (f + f2) (ss1 ++ ss2) s = prepend tr1 r.
Proof.
  intros H1 f2 r H2 N. eapply exec_app; eauto.
Qed.

(* with at least N units of fuel the block ends normally in a store satisfying Q *)
Definition hoare (N : nat) (code : list stmt) (s : store) (Q : store -> Prop) : Prop :=
  forall f, exists s2 tr, exec (N + f) code s = Ok s2 tr CNormal /\ Q s2.

Lemma hoare_run N code s Q f : hoare N code s Q -> exists s2 tr, exec (N + f) code s = Ok s2 tr CNormal /\ Q s2.
Proof. intro H. apply H. Qed.

Lemma hoare_mono N M code s Q : (N <= M)%nat -> hoare N code s Q -> hoare M code s Q.
Proof.
  intros L H f. destruct (H (M - N + f)%nat) as [s2 [tr [E HQ]]].
  replace (N + (M - N + f))%nat with (M + f)%nat in E by lia. eauto.
Qed.

Lemma hoare_conseq N code s (Q Q' : store -> Prop) :
  (forall s2, Q s2 -> Q' s2) -> hoare N code s Q -> hoare N code s Q'.
Proof. intros I H f. destruct (H f) as [s2 [tr [E HQ]]]. eauto. Qed.

Lemma hoare_nil s (Q : store -> Prop) : Q s -> hoare 1 [] s Q.
Proof. intros HQ f. exists s, []. split; [reflexivity | exact HQ]. Qed.

Lemma hoare_assign x ix e s vs v (Q : store -> Prop) :
  opt_all (map (eval s) ix) = Some vs -> eval s e = Some v -> Q (upd s (x, vs) v) ->
  hoare 2 [SAssign x ix e] s Q.
Proof.
  intros E1 E2 HQ f. eexists. eexists. split; [|exact HQ].
  change (2 + f)%nat with (S (S f)). apply exec_assign; assumption.
Qed.

Lemma hoare_app N1 N2 c1 c2 s (Q1 Q2 : store -> Prop) :
  hoare N1 c1 s Q1 -> (forall s1, Q1 s1 -> hoare N2 c2 s1 Q2) -> hoare (N1 + N2) (c1 ++ c2) s Q2.
Proof.
  intros H1 H2 f. destruct (H1 0%nat) as [s1 [tr1 [E1 HQ1]]].
  destruct (H2 s1 HQ1 f) as [s2 [tr2 [E2 HQ2]]].
  exists s2, (tr1 ++ tr2). split; [|exact HQ2].
  replace (N1 + N2 + f)%nat with ((N1 + 0) + (N2 + f))%nat by lia.
  apply (exec_app_ok _ _ _ _ _ _ _ _ _ _ E1 E2).
Qed.

Lemma hoare_assign_cons N x ix e rest s vs v (Q : store -> Prop) :
  opt_all (map (eval s) ix) = Some vs -> eval s e = Some v -> hoare N rest (upd s (x, vs) v) Q ->
  hoare (2 + N) (SAssign x ix e :: rest) s Q.
Proof.
  intros E1 E2 H. apply (hoare_app 2 N [_] rest _ (fun s1 => s1 = upd s (x, vs) v)).
  - apply (hoare_assign x ix e s vs v (fun s1 => s1 = upd s (x, vs) v) E1 E2 eq_refl).
  - intros s1 ->. exact H.
Qed.

Lemma hoare_if N c th el s v (Q : store -> Prop) :
  eval s c = Some v -> hoare (S N) (if v =? 0 then el else th) s Q -> hoare (S (S N)) [SIf c th el] s Q.
Proof.
  intros E H f. destruct (H f) as [s2 [tr [Ex HQ]]].
  eexists. eexists. split; [|exact HQ].
  change (S (S N) + f)%nat with (S (S (N + f))). rewrite (exec_if (N + f) c th el s v E).
  change (S (N + f)) with (S N + f)%nat. rewrite Ex. reflexivity.
Qed.

Lemma hoare_do N x lo hi st body s l h t (P : nat -> store -> Prop) :
  eval s lo = Some l -> eval s hi = Some h -> eval s st = Some t -> t <> 0 ->
  (forall i s0, (i < trip_count l h t)%nat -> P i s0 ->
     hoare (S N) body (upd s0 (x, []) (l + Z.of_nat i * t)) (P (S i))) ->
  P 0%nat s ->
  hoare (S (S N)) [SDo x lo hi st body] s
        (fun s' => exists s2, P (trip_count l h t) s2 /\ s' = upd s2 (x, []) (l + Z.of_nat (trip_count l h t) * t)).
Proof.
  intros E1 E2 E3 T Hstep HP f.
  destruct (do_loop_inv (exec (S (N + f)) body) x l t P (trip_count l h t) 0 s) as [s2 [tr [HP2 Hl]]].
  - intros i s0 Hi HPi. destruct (Hstep i s0 (proj2 Hi) HPi f) as [s3 [tr3 [E HQ]]]. eauto.
  - exact HP.
  - eexists. eexists. split; [|eauto].
    change (S (S N) + f)%nat with (S (S (N + f))). rewrite (exec_do (N + f) x lo hi st body s l h t E1 E2 E3 T).
    cbn [Z.of_nat] in Hl. rewrite Hl. reflexivity.
Qed.

(* a loop whose body changes, besides the loop variable, only the location L; A relates the number of
   iterations done to the value at L *)
Lemma hoare_do_cell N x lo hi st body s l h t (L : loc) (A : nat -> Z -> Prop) :
  eval s lo = Some l -> eval s hi = Some h -> eval s st = Some t -> t <> 0 -> fst L <> x ->
  (forall i s0, (i < trip_count l h t)%nat -> same_but x L s0 s -> val s0 (x, []) = l + Z.of_nat i * t ->
     A i (val s0 L) -> hoare (S N) body s0 (fun s2 => A (S i) (val s2 L) /\ same_but x L s2 s0)) ->
  A 0%nat (val s L) ->
  hoare (S (S N)) [SDo x lo hi st body] s (fun s' => A (trip_count l h t) (val s' L) /\ same_but x L s' s).
Proof.
  intros E1 E2 E3 T NL Hstep H0.
  assert (VL : forall sj v, val (upd sj (x, []) v) L = val sj L).
  { intros sj v. apply val_upd_other. intro E. apply NL. rewrite E. reflexivity. }
  eapply hoare_conseq; [|apply (hoare_do N x lo hi st body s l h t
                                   (fun i sj => A i (val sj L) /\ same_but x L sj s) E1 E2 E3 T)].
  - intros s' [s2 [[HA HS] ->]]. rewrite VL. split; [exact HA|].
    eapply same_but_trans; [apply same_but_upd_var | exact HS].
  - intros i sj Hi [HA HS].
    assert (HS0 : same_but x L (upd sj (x, []) (l + Z.of_nat i * t)) s)
      by (eapply same_but_trans; [apply same_but_upd_var | exact HS]).
    eapply hoare_conseq; [|apply (Hstep i _ Hi HS0 (val_upd_same _ _ _))].
    + intros s2 [HA2 HS2]. split; [exact HA2 | exact (same_but_trans _ _ _ _ _ HS2 HS0)].
    + rewrite VL. exact HA.
  - split; [exact H0 | apply same_but_refl].
Qed.

(* a loop whose i-th iteration stores a block of elements of the array W: Pre relates the number of
   iterations done to the elements stored so far; the body is specified relative to its own start store *)
Lemma hoare_do_stores N T W x lo hi st body s l h t (Pre : nat -> list (loc * Z) -> Prop) :
  eval s lo = Some l -> eval s hi = Some h -> eval s st = Some t -> t <> 0 -> In x T ->
  (forall i s0 pre, (i < trip_count l h t)%nat -> Pre i pre ->
     agree_except T s0 (store_all s pre) -> val s0 (x, []) = l + Z.of_nat i * t ->
     (forall a ix, Forall (fun y => a <> y) T -> a <> W -> val s0 (a, ix) = val s (a, ix)) ->
     exists blk, Pre (S i) (pre ++ blk) /\ (forall lv, In lv blk -> fst (fst lv) = W) /\
                 hoare (S N) body s0 (fun s2 => agree_except T s2 (store_all s0 blk))) ->
  Pre 0%nat [] ->
  hoare (S (S N)) [SDo x lo hi st body] s
        (fun s' => exists pre, Pre (trip_count l h t) pre /\ agree_except T s' (store_all s pre)).
Proof.
  intros E1 E2 E3 T0 Ix Hstep H0.
  set (P := fun (i : nat) (sj : store) =>
              exists pre, Pre i pre /\ (forall lv, In lv pre -> fst (fst lv) = W) /\ agree_except T sj (store_all s pre)).
  eapply hoare_conseq; [|apply (hoare_do N x lo hi st body s l h t P E1 E2 E3 T0)].
  - intros s' [s2 [[pre [HP [_ HA]]] ->]]. exists pre. split; [exact HP|].
    eapply agree_trans; [apply agree_upd_fresh, Ix | exact HA].
  - intros i sj Hi [pre [HP [HW HA]]].
    assert (HA0 : agree_except T (upd sj (x, []) (l + Z.of_nat i * t)) (store_all s pre))
      by (eapply agree_trans; [apply agree_upd_fresh, Ix | exact HA]).
    destruct (Hstep i _ pre Hi HP HA0 (val_upd_same _ _ _)) as [blk [HP' [HW' Hb]]].
    + intros a ix N1 N2. rewrite Forall_forall in N1.
      rewrite (agree_val _ _ _ (a, ix) HA0) by (intro I; exact (N1 a I eq_refl)). apply val_store_all_notin.
      intros lv I E. apply N2. rewrite <- (HW lv I), E. reflexivity.
    + eapply hoare_conseq; [|exact Hb]. intros s2 HA2. exists (pre ++ blk). split; [exact HP'|]. split.
      * intros lv I. apply in_app_or in I as [I|I]; auto.
      * rewrite store_all_app. eapply agree_trans; [exact HA2|]. apply agree_store_all, HA0.
  - exists []. split; [exact H0|]. split; [intros lv []|apply agree_refl].
Qed.

(* a closed run, or a closed semantic function, is evaluated to decide one location of its final store; the
   store itself stays abstract in the proofs that use these *)
Lemma exec_val_witness fuel prog s l z :
  match exec fuel prog s with Ok s2 _ CNormal => val s2 l =? z | _ => false end = true ->
  exists s2 tr, exec fuel prog s = Ok s2 tr CNormal /\ val s2 l = z.
Proof.
  destruct (exec fuel prog s) as [s2 tr [| | |]| |]; try discriminate. intro H. exists s2, tr.
  split; [reflexivity | apply Z.eqb_eq, H].
Qed.

(* the same for the output of a model function that may refuse *)
Lemma apply_val_witness fuel (oprog : option (list stmt)) s l z :
  match oprog with
  | Some prog => match exec fuel prog s with Ok s2 _ CNormal => val s2 l =? z | _ => false end
  | None => false
  end = true ->
  exists prog s2 tr, oprog = Some prog /\ exec fuel prog s = Ok s2 tr CNormal /\ val s2 l = z.
Proof.
  destruct oprog as [prog|]; [|discriminate]. intro H.
  destruct (exec_val_witness fuel prog s l z H) as [s2 [tr R]]. exists prog, s2, tr. split; [reflexivity | exact R].
Qed.

Lemma some_val_witness (o : option store) l z :
  match o with Some s' => val s' l =? z | None => false end = true -> exists s', o = Some s' /\ val s' l = z.
Proof. destruct o as [s'|]; [|discriminate]. intro H. exists s'. split; [reflexivity | apply Z.eqb_eq, H]. Qed.

(* several locations at once *)
Lemma some_vals_witness (o : option store) ls zs :
  match o with Some s' => list_beq Z.eqb (map (val s') ls) zs | None => false end = true ->
  exists s', o = Some s' /\ map (val s') ls = zs.
Proof.
  destruct o as [s'|]; [|discriminate]. intro H. exists s'. split; [reflexivity | apply (list_beq_eq Z.eqb Z.eqb_eq), H].
Qed.

Lemma apply_vals_witness fuel (oprog : option (list stmt)) s ls zs :
  match oprog with
  | Some prog => match exec fuel prog s with Ok s2 _ CNormal => list_beq Z.eqb (map (val s2) ls) zs | _ => false end
  | None => false
  end = true ->
  exists prog s2 tr, oprog = Some prog /\ exec fuel prog s = Ok s2 tr CNormal /\ map (val s2) ls = zs.
Proof.
  destruct oprog as [prog|]; [|discriminate]. destruct (exec fuel prog s) as [s2 tr [| | |]| |] eqn:E; try discriminate.
  intro H. exists prog, s2, tr. split; [reflexivity|]. split; [exact E | apply (list_beq_eq Z.eqb Z.eqb_eq), H].
Qed.
