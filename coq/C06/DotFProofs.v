(* C06 — DOT_PRODUCT lowering with arbitrary loop-bound expressions (`dotG_apply`; correct by
   LinAlgProofs.dot_loops when they evaluate to the effective bounds of the first vector), and the instance for the
   declaration forms accepted by dotproduct2code_trans.py::_get_array_bound (explicit shape of either vector, else
   LBOUND/UBOUND of the first). *)
From Coq Require Import List ZArith Bool.
Import ListNotations.
From PV Require Import Fort.Syntax Fort.Sem Fort.Facts C06.Syntax C06.Model C06.Common
                       C06.ReductionProofs C06.LinAlgProofs C06.Bounds C06.MatVecFProofs.
Open Scope Z_scope.

Definition dotG_apply (lo hi : expr) (i res : name) (x : name) (xi : list expr) (ctx : expr) (hole : name)
                      (v1 : name) (r1 : list expr) (v2 : name) (r2 : list expr) : list stmt :=
  [SAssign res [] (ELit 0);
   SDo i lo hi (ELit 1)
     [SAssign res [] (EBin Add (EVar res) (EBin Mul (EIdx v1 (EVar i :: r1)) (EIdx v2 (EVar i :: r2))))];
   SAssign x xi (subst_var hole (EVar res) ctx)].

(* _get_array_bound(vector1, vector2): the first vector with ArrayBounds gives (lower, upper); an assumed-shape
   vector with explicit lower bound has upper = ATTRIBUTE and makes the transformation crash (None) *)
Definition dot_bounds (fm : forms) (v1 v2 : name) : option (expr * expr) :=
  match nth_error (fm v1) 0 with
  | Some (DExplicit lb ub) => Some (ELit lb, ELit ub)
  | Some (DAssumedLb _) => None
  | _ => match nth_error (fm v2) 0 with
         | Some (DExplicit lb ub) => Some (ELit lb, ELit ub)
         | Some (DAssumedLb _) => None
         | _ => Some (lbound_of v1 0, ubound_of v1 0)
         end
  end.

(* the declaration forms: conformable vectors with equal effective lower bounds *)
Theorem dot_forms_sound_partial_ fm d i res hole x xi ctx v1 r1 v2 r2 s v xv w lo hi :
  dot_bounds fm v1 v2 = Some (lo, hi) ->
  dot_safe d i res hole x xi ctx v1 r1 v2 r2 = true ->
  vector_ok fm d s v1 -> vector_ok fm d s v2 -> snd (dim0 d v2) = snd (dim0 d v1) ->
  dot_sem d v1 r1 v2 r2 s = Some v ->
  opt_all (map (eval s) xi) = Some xv -> eval (upd s (hole, []) v) ctx = Some w ->
  hoare 8 (dotG_apply lo hi i res x xi ctx hole v1 r1 v2 r2) s
        (fun s2 => agree_except [i; res; hole] s2 (upd s (x, xv) w)).
Proof.
  intros Hb Safe O1 O2 Hub Sem Exi Ectx. apply (dot_loops lo hi d i res hole x xi ctx v1 r1 v2 r2 s v xv w Safe); [|assumption..].
  intros s' B. destruct O1 as [B1 [[b1 D1] F1]]. destruct O2 as [B2 [[b2 D2] F2]].
  assert (Hl : fst (dim0 d v1) = fst (dim0 d v2)).
  { unfold dot_safe in Safe. repeat (apply andb_true_iff in Safe as [Safe _]). apply Z.eqb_eq in Safe. exact Safe. }
  unfold dim0 in *. rewrite D1 in *. rewrite D2 in *. cbn [nth] in *.
  (* LBOUND / UBOUND of the first vector, in the stores with the bounds of s *)
  assert (Inq : eval s' (lbound_of v1 0) = Some (fst b1) /\ eval s' (ubound_of v1 0) = Some (snd b1)).
  { apply (inquiry_eval s' v1 0 b1). rewrite B, B1. reflexivity. }
  (* an explicit shape is the pair of effective bounds *)
  assert (Ex1 : forall lb ub, nth_error (fm v1) 0 = Some (DExplicit lb ub) -> (lb, ub) = b1).
  { intros lb ub E. symmetry. apply (F1 0%nat _ b1 E eq_refl). }
  assert (Ex2 : forall lb ub, nth_error (fm v2) 0 = Some (DExplicit lb ub) -> (lb, ub) = b1).
  { intros lb ub E. pose proof (F2 0%nat _ b2 E eq_refl) as X. cbn in X. subst b2. destruct b1. cbn [fst snd] in *. congruence. }
  unfold dot_bounds in Hb.
  destruct (nth_error (fm v1) 0) as [[lb ub|lb| |]|] eqn:E1; try discriminate;
    [inversion Hb; subst; rewrite <- (Ex1 _ _ eq_refl); split; reflexivity | | |];
    (destruct (nth_error (fm v2) 0) as [[lb ub|lb| |]|] eqn:E2; try discriminate; inversion Hb; subst;
     [rewrite <- (Ex2 _ _ eq_refl); split; reflexivity | exact Inq ..]).
Qed.

(* names 0 = v1(:) with actual (4:6), 1 = v2(1:3) explicit, 2 = x, 3 = i, 4 = res, 5 = hole *)
Definition df_forms : forms := fun n => match n with O => [DAssumed] | S O => [DExplicit 1 3] | _ => [] end.
Definition df_actuals : name -> list (Z * Z) := fun n => match n with O => [(4, 6)] | S O => [(1, 3)] | _ => [] end.
Definition df_decls : decls := eff_decls df_forms df_actuals.
Definition df_store : store :=
  store_of [((0%nat, [1]), 1); ((0%nat, [2]), 2); ((0%nat, [3]), 3); ((1%nat, [1]), 4); ((1%nat, [2]), 5); ((1%nat, [3]), 6)]
           [(0%nat, [(1, 3)]); (1%nat, [(1, 3)])].

Example dot_forms_nonvacuous :
  df_decls 0%nat = [(1, 3)] /\ dot_bounds df_forms 0%nat 1%nat = Some (ELit 1, ELit 3) /\
  dot_safe df_decls 3%nat 4%nat 5%nat 2%nat [] (EVar 5%nat) 0%nat [] 1%nat [] = true /\
  vector_ok df_forms df_decls df_store 0%nat /\ vector_ok df_forms df_decls df_store 1%nat /\
  dot_sem df_decls 0%nat [] 1%nat [] df_store = Some 32 /\
  (exists s2 tr, exec 30 (dotG_apply (ELit 1) (ELit 3) 3%nat 4%nat 2%nat [] (EVar 5%nat) 5%nat 0%nat [] 1%nat []) df_store
                 = Ok s2 tr CNormal /\ val s2 (2%nat, []) = 32).
Proof.
  split; [reflexivity|]. split; [reflexivity|]. split; [vm_compute; reflexivity|]. split; [|split].
  - split; [reflexivity|]. split; [eexists; reflexivity|].
    intros k f b; apply eff_dims_form_ok.
  - split; [reflexivity|]. split; [eexists; reflexivity|].
    intros k f b; apply eff_dims_form_ok.
  - split; [vm_compute; reflexivity|]. apply exec_val_witness. vm_compute. reflexivity.
Qed.
