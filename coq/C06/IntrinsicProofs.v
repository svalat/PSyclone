(* C06 — ABS / SIGN / MIN / MAX lowering: the inline code computes the intrinsic's value for all
   argument values (integer-valued reals: no signed zero / NaN), and replacing the call inside the
   assignment by the result temporary preserves the statement, provided the new symbols are fresh. *)
From Coq Require Import List ZArith Bool Lia.
Import ListNotations.
From PV Require Import Fort.Syntax Fort.Sem Fort.Facts Base.Harness C06.Syntax C06.Model C06.Common.
Open Scope Z_scope.

Lemma map_set_nth {A B} (f f' : A -> B) : forall l i x y,
  nth_error l i = Some x -> f' y = f x -> (forall z, In z l -> f' z = f z) ->
  map f' (set_nth l i y) = map f l.
Proof.
  induction l as [|a l IH]; intros i x y N Hy Hz; [destruct i; discriminate|].
  destruct i as [|i]; cbn [nth_error set_nth map] in *.
  - inversion N; subst. rewrite Hy. f_equal. apply map_ext_in. intros z Iz. apply Hz. right. exact Iz.
  - rewrite (Hz a (or_introl eq_refl)). f_equal. eapply IH; eauto. intros z Iz. apply Hz. right. exact Iz.
Qed.

Lemma opt_all_nth {A} : forall (l : list (option A)) r i x,
  opt_all l = Some r -> nth_error l i = Some x -> exists y, x = Some y.
Proof.
  induction l as [|a l IH]; intros r i x H N; [destruct i; discriminate|]. cbn [opt_all] in H.
  destruct a as [a|]; [|discriminate]. destruct (opt_all l) as [ys|] eqn:E; [|discriminate].
  destruct i as [|i]; cbn [nth_error] in N; [inversion N; eauto | eapply IH; eauto].
Qed.

(* a sub-expression on a path is evaluated whenever the whole expression is *)
Lemma get_at_eval_some s : forall p e sub v,
  get_at p e = Some sub -> eval s e = Some v -> exists w, eval s sub = Some w.
Proof.
  induction p as [|i p IH]; intros e sub v G E; cbn [get_at] in G.
  - inversion G; subst. eauto.
  - destruct e as [z|y|a ix|o e1|o l r|f args]; try discriminate; cbn [eval] in E.
    + destruct (nth_error ix i) as [x|] eqn:N; [|discriminate].
      destruct (opt_all (map (eval s) ix)) as [vs|] eqn:O; [|discriminate].
      destruct (opt_all_nth _ _ i (eval s x) O) as [y Hy]; [rewrite nth_error_map, N; reflexivity|].
      eapply IH; eauto.
    + destruct i; [|discriminate]. destruct (eval s e1) as [a|] eqn:E1; [|discriminate]. eapply IH; eauto.
    + destruct (eval s l) as [a|] eqn:El; [|discriminate]. destruct (eval s r) as [b|] eqn:Er; [|discriminate].
      destruct i as [|[|i]]; [eapply IH; eauto | eapply IH; eauto | discriminate].
    + destruct (is_inquiry f && Nat.eqb i 0) eqn:Q; [discriminate|].
      destruct (nth_error args i) as [x|] eqn:N; [|discriminate].
      destruct (is_inquiry f) eqn:Qf.
      * destruct i as [|i]; [discriminate|]. destruct args as [|a0 r]; [discriminate|]. cbn [nth_error] in N.
        destruct (opt_all (map (eval s) r)) as [vs|] eqn:O; [|discriminate].
        destruct (opt_all_nth _ _ i (eval s x) O) as [y Hy]; [rewrite nth_error_map, N; reflexivity|].
        eapply IH; eauto.
      * destruct (opt_all (map (eval s) args)) as [vs|] eqn:O; [|discriminate].
        destruct (opt_all_nth _ _ i (eval s x) O) as [y Hy]; [rewrite nth_error_map, N; reflexivity|].
        eapply IH; eauto.
Qed.

Lemma get_at_mentions x : forall p e sub, get_at p e = Some sub -> mentions x e = false -> mentions x sub = false.
Proof.
  induction p as [|i p IH]; intros e sub G M; cbn [get_at] in G.
  - inversion G; subst. exact M.
  - destruct e as [z|y|a ix|o e1|o l r|f args]; try discriminate; cbn [mentions] in M.
    + destruct (nth_error ix i) as [y|] eqn:N; [|discriminate]. apply orb_false_iff in M as [_ M].
      eapply IH; [exact G|]. eapply existsb_false; [exact M|]. eapply nth_error_In, N.
    + destruct i; [|discriminate]. eapply IH; eauto.
    + apply orb_false_iff in M as [M1 M2]. destruct i as [|[|i]]; [eapply IH; eauto | eapply IH; eauto | discriminate].
    + destruct (is_inquiry f && Nat.eqb i 0); [discriminate|].
      destruct (nth_error args i) as [y|] eqn:N; [|discriminate].
      eapply IH; [exact G|]. eapply existsb_false; [exact M|]. eapply nth_error_In, N.
Qed.

(* replacing the sub-expression at p by a variable holding its value *)
Lemma put_at_eval T s s' res w :
  agree_except T s' s -> val s' (res, []) = w ->
  forall p e sub, get_at p e = Some sub -> eval s sub = Some w ->
  (forall x, In x T -> mentions x e = false) ->
  eval s' (put_at p e (EVar res)) = eval s e.
Proof.
  intros Ag Hres. induction p as [|i p IH]; intros e sub G Es Fr; cbn [get_at put_at] in *.
  - inversion G as [G']. subst sub. cbn [eval]. rewrite Hres. symmetry. exact Es.
  - destruct e as [z|y|a ix|o e1|o l r|f args]; try discriminate.
    + destruct (nth_error ix i) as [x|] eqn:N; [|discriminate]. cbn [eval].
      assert (Hm : map (eval s') (set_nth ix i (put_at p x (EVar res))) = map (eval s) ix).
      { eapply map_set_nth; [exact N | |].
        - eapply IH; [exact G | exact Es|]. intros y Hy. specialize (Fr y Hy). cbn [mentions] in Fr.
          apply orb_false_iff in Fr as [_ Fr]. eapply existsb_false; [exact Fr|]. eapply nth_error_In, N.
        - intros z Hz. eapply eval_agree; [exact Ag|]. intros y Hy. specialize (Fr y Hy). cbn [mentions] in Fr.
          apply orb_false_iff in Fr as [_ Fr]. eapply existsb_false; eauto. }
      rewrite Hm. destruct (opt_all (map (eval s) ix)) as [vs|]; [|reflexivity]. f_equal.
      apply (agree_val _ _ _ _ Ag). cbn [fst]. intro Hy. specialize (Fr a Hy). cbn [mentions] in Fr.
      rewrite Nat.eqb_refl in Fr. discriminate.
    + destruct i; [|discriminate]. cbn [eval]. rewrite (IH e1 sub G Es); [reflexivity|].
      intros y Hy. exact (Fr y Hy).
    + assert (Fl : forall y, In y T -> mentions y l = false)
        by (intros y Hy; specialize (Fr y Hy); cbn [mentions] in Fr; apply orb_false_iff in Fr; tauto).
      assert (Fr' : forall y, In y T -> mentions y r = false)
        by (intros y Hy; specialize (Fr y Hy); cbn [mentions] in Fr; apply orb_false_iff in Fr; tauto).
      destruct i as [|[|i]]; [| |discriminate]; cbn [eval].
      * rewrite (IH l sub G Es Fl), (eval_agree T s s' r Ag Fr'). reflexivity.
      * rewrite (IH r sub G Es Fr'), (eval_agree T s s' l Ag Fl). reflexivity.
    + destruct (is_inquiry f && Nat.eqb i 0) eqn:Q; [discriminate|].
      destruct (nth_error args i) as [x|] eqn:N; [|discriminate].
      assert (Fa : forall z y, In z args -> In y T -> mentions y z = false).
      { intros z y Hz Hy. specialize (Fr y Hy). cbn [mentions] in Fr. eapply existsb_false; eauto. }
      assert (Hx : eval s' (put_at p x (EVar res)) = eval s x).
      { eapply IH; [exact G | exact Es|]. intros y Hy. eapply Fa; [eapply nth_error_In, N | exact Hy]. }
      cbn [eval]. destruct (is_inquiry f) eqn:Qf.
      * destruct i as [|i]; [discriminate|]. destruct args as [|a0 r]; [discriminate|].
        cbn [nth_error] in N. cbn [set_nth].
        assert (Hm : map (eval s') (set_nth r i (put_at p x (EVar res))) = map (eval s) r).
        { eapply map_set_nth; [exact N | exact Hx|]. intros z Hz. eapply eval_agree; [exact Ag|].
          intros y Hy. eapply Fa; [right; exact Hz | exact Hy]. }
        rewrite Hm. destruct (opt_all (map (eval s) r)); [|reflexivity].
        apply inquiry_intr_head, (agree_bnd _ _ _ Ag).
      * assert (Hm : map (eval s') (set_nth args i (put_at p x (EVar res))) = map (eval s) args).
        { eapply map_set_nth; [exact N | exact Hx|]. intros z Hz. eapply eval_agree; [exact Ag|].
          intros y Hy. eapply Fa; eauto. }
        rewrite Hm. destruct (opt_all (map (eval s) args)); [|reflexivity].
        apply noninquiry_intr. exact Qf.
Qed.

Lemma abs_hoare res tmp X s v :
  res <> tmp -> eval s X = Some v ->
  hoare 5 (abs_code res tmp X) s (fun s' => val s' (res, []) = Z.abs v /\ agree_except [res; tmp] s' s).
Proof.
  intros D E. unfold abs_code. apply (hoare_assign_cons 3 _ _ _ _ _ [] v); [reflexivity | exact E |]. set (s1 := upd s (tmp, []) v).
  assert (Vt : val s1 (tmp, []) = v) by apply val_upd_same.
  eapply hoare_if; [cbn [eval eval_bin]; rewrite Vt; reflexivity|].
  assert (A1 : agree_except [res; tmp] s1 s) by (apply agree_upd_fresh; right; left; reflexivity).
  destruct (v >? 0) eqn:G; cbn [b2z Z.eqb].
  - eapply hoare_assign; [reflexivity | cbn [eval]; rewrite Vt; reflexivity|]. split.
    + rewrite val_upd_same. apply Z.gtb_lt in G. lia.
    + eapply agree_trans; [apply agree_upd_fresh; left; reflexivity | exact A1].
  - eapply hoare_assign; [reflexivity | cbn [eval eval_bin]; rewrite Vt; reflexivity|]. split.
    + rewrite val_upd_same. assert (v <= 0) by (destruct (Z.gtb_spec v 0); [discriminate | lia]). lia.
    + eapply agree_trans; [apply agree_upd_fresh; left; reflexivity | exact A1].
Qed.

Theorem abs_ok_ res tmp X s v :
  res <> tmp -> eval s X = Some v ->
  hoare 5 (abs_code res tmp X) s
        (fun s' => Some (val s' (res, [])) = eval s (EIntr IAbs [X]) /\ agree_except [res; tmp] s' s).
Proof.
  intros D E. eapply hoare_conseq; [|apply (abs_hoare res tmp X s v D E)].
  intros s2 [H1 H2]. split; [|exact H2]. cbn [eval is_inquiry map opt_all]. rewrite E. cbn [eval_intr]. congruence.
Qed.

Theorem sign_ok_ res tmp res_abs tmp_abs A B s a b :
  NoDup [res; tmp; res_abs; tmp_abs] ->
  eval s A = Some a -> eval s B = Some b ->
  (forall x, In x [res; tmp; res_abs; tmp_abs] -> mentions x B = false) ->
  hoare 12 (sign_code res tmp res_abs tmp_abs A B) s
        (fun s' => Some (val s' (res, [])) = eval s (EIntr ISign [A; B]) /\
                   agree_except [res; tmp; res_abs; tmp_abs] s' s).
Proof.
  intros ND Ea Eb Fr. set (T := [res; tmp; res_abs; tmp_abs]).
  assert (Dn : res <> tmp /\ res <> res_abs /\ res <> tmp_abs /\ tmp <> res_abs /\ tmp <> tmp_abs /\ res_abs <> tmp_abs).
  { inversion ND as [|? ? N1 ND1]; subst. inversion ND1 as [|? ? N2 ND2]; subst. inversion ND2 as [|? ? N3 ND3]; subst.
    repeat split; intro E; subst; [apply N1 | apply N1 | apply N1 | apply N2 | apply N2 | apply N3]; cbn [In]; auto. }
  destruct Dn as [D1 [D2 [D3 [D4 [D5 D6]]]]].
  assert (Val : eval s (EIntr ISign [A; B]) = Some (if b >=? 0 then Z.abs a else - Z.abs a)).
  { cbn [eval is_inquiry map opt_all]. rewrite Ea, Eb. reflexivity. }
  rewrite Val. unfold sign_code.
  apply (hoare_app 5 7 _ _ _ (fun s1 => val s1 (res_abs, []) = Z.abs a /\ agree_except T s1 s)).
  - eapply hoare_conseq; [|apply (abs_hoare res_abs tmp_abs A s a D6 Ea)].
    intros s2 [H1 H2]. split; [exact H1|]. eapply agree_weaken; [|exact H2].
    intros y [<-|[<-|[]]]; unfold T; cbn [In]; tauto.
  - intros s1 [V1 A1].
    apply (hoare_assign_cons 5 _ _ _ _ _ [] (Z.abs a)); [reflexivity | cbn [eval]; rewrite V1; reflexivity |].
    set (s2 := upd s1 (res, []) (Z.abs a)).
    assert (A2 : agree_except T s2 s)
      by (eapply agree_trans; [apply agree_upd_fresh; unfold T; cbn [In]; tauto | exact A1]).
    apply (hoare_assign_cons 3 _ _ _ _ _ [] b); [reflexivity | rewrite (eval_agree T s s2 B A2 Fr); exact Eb |].
    set (s3 := upd s2 (tmp, []) b).
    assert (A3 : agree_except T s3 s)
      by (eapply agree_trans; [apply agree_upd_fresh; unfold T; cbn [In]; tauto | exact A2]).
    assert (Vt : val s3 (tmp, []) = b) by apply val_upd_same.
    assert (Vr : val s3 (res, []) = Z.abs a).
    { unfold s3. rewrite val_upd_other by (intro X; inversion X; congruence). apply val_upd_same. }
    eapply hoare_if; [cbn [eval eval_bin]; rewrite Vt; reflexivity|].
    destruct (b <? 0) eqn:L; cbn [b2z Z.eqb].
    + eapply hoare_assign; [reflexivity | cbn [eval eval_bin]; rewrite Vr; reflexivity|]. split.
      * rewrite val_upd_same. apply Z.ltb_lt in L. destruct (b >=? 0) eqn:G; [apply Z.geb_le in G; lia|]. f_equal. lia.
      * eapply agree_trans; [apply agree_upd_fresh; unfold T; cbn [In]; tauto | exact A3].
    + apply hoare_nil. split; [|exact A3]. rewrite Vr. apply Z.ltb_ge in L.
      destruct (b >=? 0) eqn:G; [reflexivity|]. destruct (Z.geb_spec b 0); [discriminate | lia].
Qed.

Definition mm_op (cmp : binop) : Z -> Z -> Z := match cmp with Lt => Z.min | _ => Z.max end.

Lemma mm_step_value cmp r b :
  (cmp = Lt \/ cmp = Gt) ->
  (if (match eval_bin cmp b r with Some c => c | None => 0 end) =? 0 then r else b) = mm_op cmp r b.
Proof.
  intros [->| ->]; cbn [eval_bin mm_op].
  - destruct (b <? r) eqn:L; cbn [b2z Z.eqb]; [apply Z.ltb_lt in L; lia | apply Z.ltb_ge in L; lia].
  - destruct (b >? r) eqn:L; cbn [b2z Z.eqb].
    + apply Z.gtb_lt in L. lia.
    + assert (b <= r) by (destruct (Z.gtb_spec b r); [discriminate | lia]). lia.
Qed.

Lemma minmax_step_hoare cmp res tmp B T s s1 r b :
  (cmp = Lt \/ cmp = Gt) -> res <> tmp -> In res T -> In tmp T ->
  agree_except T s1 s -> val s1 (res, []) = r -> eval s B = Some b ->
  (forall x, In x T -> mentions x B = false) ->
  hoare 5 (minmax_step cmp res tmp B) s1
        (fun s2 => val s2 (res, []) = mm_op cmp r b /\ agree_except T s2 s).
Proof.
  intros C D Ir It A1 Vr Eb Fr. unfold minmax_step.
  apply (hoare_assign_cons 3 _ _ _ _ _ [] b); [reflexivity | rewrite (eval_agree T s s1 B A1 Fr); exact Eb |].
  set (s2 := upd s1 (tmp, []) b).
  assert (A2 : agree_except T s2 s) by (eapply agree_trans; [apply agree_upd_fresh; exact It | exact A1]).
  assert (Vt : val s2 (tmp, []) = b) by apply val_upd_same.
  assert (Vr2 : val s2 (res, []) = r).
  { unfold s2. rewrite val_upd_other by (intro X; inversion X; congruence). exact Vr. }
  assert (Ec : exists c, eval s2 (EBin cmp (EVar tmp) (EVar res)) = Some c /\ eval_bin cmp b r = Some c).
  { cbn [eval]. rewrite Vt, Vr2. destruct C as [->| ->]; cbn [eval_bin]; eauto. }
  destruct Ec as [c [Ec1 Ec2]]. pose proof (mm_step_value cmp r b C) as MV. rewrite Ec2 in MV.
  eapply hoare_if; [exact Ec1|]. destruct (c =? 0).
  - apply hoare_nil. split; [rewrite Vr2; exact MV | exact A2].
  - eapply hoare_assign; [reflexivity | cbn [eval]; rewrite Vt; reflexivity|]. split.
    + rewrite val_upd_same. exact MV.
    + eapply agree_trans; [apply agree_upd_fresh; exact Ir | exact A2].
Qed.

Lemma minmax_steps_hoare cmp res tmp T s :
  (cmp = Lt \/ cmp = Gt) -> res <> tmp -> In res T -> In tmp T ->
  forall rest vs s1 r,
  agree_except T s1 s -> val s1 (res, []) = r -> opt_all (map (eval s) rest) = Some vs ->
  (forall x B, In x T -> In B rest -> mentions x B = false) ->
  hoare (1 + 5 * length rest) (flat_map (minmax_step cmp res tmp) rest) s1
        (fun s2 => val s2 (res, []) = fold_left (mm_op cmp) vs r /\ agree_except T s2 s).
Proof.
  intros C D Ir It. induction rest as [|B rest IH]; intros vs s1 r A1 Vr Ev Fr.
  - cbn [map opt_all] in Ev. inversion Ev as [Ev']. apply hoare_nil. split; [exact Vr | exact A1].
  - cbn [map opt_all] in Ev. destruct (eval s B) as [b|] eqn:Eb; [|discriminate].
    destruct (opt_all (map (eval s) rest)) as [vs'|] eqn:Er; [|discriminate]. inversion Ev; subst vs.
    cbn [flat_map fold_left]. eapply hoare_mono; [|eapply hoare_app].
    2:{ apply (minmax_step_hoare cmp res tmp B T s s1 r b C D Ir It A1 Vr Eb). intros x Hx. eapply Fr; [exact Hx | left; reflexivity]. }
    2:{ intros s2 [V2 A2]. cbn beta. eapply IH; [exact A2 | exact V2 | reflexivity|].
        intros x B' Hx HB. eapply Fr; [exact Hx | right; exact HB]. }
    cbn [length]. lia.
Qed.

Theorem minmax_ok_ cmp res tmp A rest s :
  (cmp = Lt \/ cmp = Gt) -> res <> tmp ->
  (exists v, eval s (EIntr (match cmp with Lt => IMin | _ => IMax end) (A :: rest)) = Some v) ->
  (forall x B, In x [res; tmp] -> In B rest -> mentions x B = false) ->
  hoare (3 + 5 * length rest) (minmax_code cmp res tmp (A :: rest)) s
        (fun s' => Some (val s' (res, [])) = eval s (EIntr (match cmp with Lt => IMin | _ => IMax end) (A :: rest)) /\
                   agree_except [res; tmp] s' s).
Proof.
  intros C D [v Ev] Fr.
  assert (Hargs : exists a vs, eval s A = Some a /\ opt_all (map (eval s) rest) = Some vs /\
                   eval s (EIntr (match cmp with Lt => IMin | _ => IMax end) (A :: rest)) = Some (fold_left (mm_op cmp) vs a)).
  { destruct C as [->| ->]; cbn [eval is_inquiry map opt_all] in *;
      destruct (eval s A) as [a|]; try discriminate;
      destruct (opt_all (map (eval s) rest)) as [vs|]; try discriminate; exists a, vs; repeat split. }
  destruct Hargs as [a [vs [Ea [Evs Val]]]]. rewrite Val. unfold minmax_code.
  apply (hoare_assign_cons (1 + 5 * length rest) _ _ _ _ _ [] a); [reflexivity | exact Ea |].
  eapply hoare_conseq; [|eapply (minmax_steps_hoare cmp res tmp [res; tmp] s C D)].
  - intros s2 [V A2]. split; [rewrite V; reflexivity | exact A2].
  - left; reflexivity.
  - right; left; reflexivity.
  - apply agree_upd_fresh. left; reflexivity.
  - apply val_upd_same.
  - exact Evs.
  - exact Fr.
Qed.

Definition intr_names_ok (k : sintr) (names : list name) : Prop := NoDup names.

(* code that leaves the value of the call `sub` in res, followed by the assignment with the call replaced by res *)
Lemma intr_stmt N T code res s x ix e p sub vs v :
  hoare N code s (fun s' => Some (val s' (res, [])) = eval s sub /\ agree_except T s' s) ->
  ~ In x T -> get_at p e = Some sub ->
  (forall y, In y T -> mentions y e = false) ->
  (forall y i, In y T -> In i ix -> mentions y i = false) ->
  opt_all (map (eval s) ix) = Some vs -> eval s e = Some v ->
  hoare (N + 2) (code ++ [SAssign x ix (put_at p e (EVar res))]) s (fun s2 => agree_except T s2 (upd s (x, vs) v)).
Proof.
  intros Hc Nx G Fe Fi Evs Ev. eapply hoare_app; [exact Hc|]. intros s' [Vr Ag]. cbn beta. eapply hoare_assign.
  - rewrite (evals_agree T s s' ix Ag Fi). exact Evs.
  - rewrite (put_at_eval T s s' res (val s' (res, [])) Ag eq_refl p e sub G (eq_sym Vr) Fe). exact Ev.
  - apply agree_upd_both. exact Ag.
Qed.

Lemma NoDup_pair {A} (a b : A) (rest : list A) : NoDup (a :: b :: rest) -> a <> b.
Proof. intros ND E. inversion ND as [|? ? N1 _]. apply N1. left. symmetry. exact E. Qed.

(* full statement: for every store in which the original assignment executes, the generated code executes
   and ends in the same store up to the new symbols *)
Theorem intr_sound_ k names x ix e p code s vs v :
  intr_apply k names x ix e p = Some code ->
  NoDup names -> ~ In x names ->
  (forall y, In y names -> mentions y e = false) ->
  (forall y i, In y names -> In i ix -> mentions y i = false) ->
  opt_all (map (eval s) ix) = Some vs -> eval s e = Some v ->
  exists N, hoare N code s (fun s2 => agree_except names s2 (upd s (x, vs) v)).
Proof.
  intros Ap ND Nx Fe Fi Evs Ev. unfold intr_apply in Ap.
  destruct (get_at p e) as [sub|] eqn:G; [|discriminate].
  destruct (get_at_eval_some s p e sub v G Ev) as [w Ew].
  assert (Fsub : forall y, In y names -> mentions y sub = false)
    by (intros y Hy; eapply get_at_mentions; [exact G | apply Fe, Hy]).
  (* MIN and MAX: the arguments after the first do not mention the new symbols *)
  assert (Frest : forall f A rest, sub = EIntr f (A :: rest) ->
                    forall y B, In y names -> In B rest -> mentions y B = false).
  { intros f A rest -> y B Hy HB. specialize (Fsub y Hy). cbn [mentions existsb] in Fsub.
    apply orb_false_iff in Fsub as [_ Fsub]. eapply existsb_false; eauto. }
  destruct sub as [z|y|a0 ix0|o e1|o l r|f args]; try discriminate.
  destruct f; try discriminate.
  - (* MIN *)
    destruct args as [|A rest]; [discriminate|]. destruct k; try discriminate.
    destruct names as [|res [|tmp [|? ?]]]; try discriminate. inversion Ap; subst code. eexists.
    eapply (intr_stmt _ [res; tmp] (minmax_code Lt res tmp (A :: rest)) res s x ix e p _ vs v); try eassumption.
    apply (minmax_ok_ Lt res tmp A rest s (or_introl eq_refl) (NoDup_pair _ _ _ ND)); [eauto | exact (Frest _ _ _ eq_refl)].
  - (* MAX *)
    destruct args as [|A rest]; [discriminate|]. destruct k; try discriminate.
    destruct names as [|res [|tmp [|? ?]]]; try discriminate. inversion Ap; subst code. eexists.
    eapply (intr_stmt _ [res; tmp] (minmax_code Gt res tmp (A :: rest)) res s x ix e p _ vs v); try eassumption.
    apply (minmax_ok_ Gt res tmp A rest s (or_intror eq_refl) (NoDup_pair _ _ _ ND)); [eauto | exact (Frest _ _ _ eq_refl)].
  - (* ABS *)
    destruct args as [|X [|? ?]]; try discriminate. destruct k; try discriminate.
    destruct names as [|res [|tmp [|? ?]]]; try discriminate. inversion Ap; subst code.
    assert (Ex : exists xv, eval s X = Some xv).
    { cbn [eval is_inquiry map opt_all] in Ew. destruct (eval s X); [eauto | discriminate]. }
    destruct Ex as [xv Ex]. eexists.
    eapply (intr_stmt _ [res; tmp] (abs_code res tmp X) res s x ix e p _ vs v); try eassumption.
    apply (abs_ok_ res tmp X s xv (NoDup_pair _ _ _ ND) Ex).
  - (* SIGN *)
    destruct args as [|A [|B [|? ?]]]; try discriminate. destruct k; try discriminate.
    destruct names as [|res [|tmp [|res_abs [|tmp_abs [|? ?]]]]]; try discriminate.
    inversion Ap; subst code.
    assert (Eab : exists a b, eval s A = Some a /\ eval s B = Some b).
    { cbn [eval is_inquiry map opt_all] in Ew. destruct (eval s A); [|discriminate].
      destruct (eval s B); [eauto | discriminate]. }
    destruct Eab as [a [b [Ea Eb]]]. eexists.
    eapply (intr_stmt _ [res; tmp; res_abs; tmp_abs] (sign_code res tmp res_abs tmp_abs A B) res s x ix e p _ vs v);
      try eassumption.
    apply (sign_ok_ res tmp res_abs tmp_abs A B s a b ND Ea Eb).
    intros y Hy. specialize (Fsub y Hy). cbn [mentions existsb] in Fsub.
    apply orb_false_iff in Fsub as [_ Fsub]. apply orb_false_iff in Fsub as [Fsub _]. exact Fsub.
Qed.

(* non-vacuity: x = 2 * MAX(y, 3, z) - y with y = 1, z = 7;  names 0=x 1=y 2=z 3=res 4=tmp *)
Example intr_sound_nonvacuous :
  let e := EBin Sub (EBin Mul (ELit 2) (EIntr IMax [EVar 1%nat; ELit 3; EVar 2%nat])) (EVar 1%nat) in
  let s := store_of [((1%nat, []), 1); ((2%nat, []), 7)] [] in
  exists code, intr_apply KMax [3%nat; 4%nat] 0%nat [] e [0%nat; 1%nat] = Some code /\
  eval s e = Some 13 /\ (exists s2 tr, exec 30 code s = Ok s2 tr CNormal /\ val s2 (0%nat, []) = 13).
Proof.
  cbv zeta. eexists. split; [reflexivity|]. split; [reflexivity|]. apply exec_val_witness. vm_compute. reflexivity.
Qed.
