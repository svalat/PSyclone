(* C06 — MATMUL matrix * matrix lowering over EFFECTIVE bounds of (possibly assumed-shape /
   allocatable) operands: triple loop invariant, non-square shapes, all contents. *)
From Coq Require Import List ZArith Bool.
Import ListNotations.
From PV Require Import Fort.Syntax Fort.Sem Fort.Facts C06.Syntax C06.Model C06.Common
                       C06.LinAlgProofs C06.Bounds.
Open Scope Z_scope.

Definition matmat_safe (d : decls) (i j ii r m1 m2 : name) : bool :=
  negb (Nat.eqb r m1) && negb (Nat.eqb r m2) &&
  (fst (dim0 d r) =? fst (dim0 d m1)) && (fst (dim1 d r) =? fst (dim1 d m2)) &&
  (fst (dim1 d m1) =? fst (dim0 d m2)) &&
  negb (Nat.eqb i j) && negb (Nat.eqb i ii) && negb (Nat.eqb j ii) &&
  negb (Nat.eqb i r) && negb (Nat.eqb i m1) && negb (Nat.eqb i m2) &&
  negb (Nat.eqb j r) && negb (Nat.eqb j m1) && negb (Nat.eqb j m2) &&
  negb (Nat.eqb ii r) && negb (Nat.eqb ii m1) && negb (Nat.eqb ii m2).

(* the operands are rank 2, the store carries the effective bounds, the forms are consistent with them *)
Definition operands_ok (fm : forms) (d : decls) (s : store) (ops : list name) : Prop :=
  forall a, In a ops ->
    bnd s a = d a /\ (exists b0 b1, d a = [b0; b1]) /\
    (forall k f b, nth_error (fm a) k = Some f -> nth_error (d a) k = Some b -> form_ok f b).

Lemma operand_bounds fm d s ops a s' :
  operands_ok fm d s ops -> In a ops -> bnd s' = bnd s ->
  (eval s' (fst (mbound fm a 0)) = Some (fst (dim0 d a)) /\ eval s' (snd (mbound fm a 0)) = Some (snd (dim0 d a))) /\
  (eval s' (fst (mbound fm a 1)) = Some (fst (dim1 d a)) /\ eval s' (snd (mbound fm a 1)) = Some (snd (dim1 d a))).
Proof.
  intros Ok In' B. destruct (Ok a In') as [Hb [[b0 [b1 Hd]] Hf]].
  assert (Hb' : bnd s' a = d a) by (rewrite B; exact Hb).
  unfold dim0, dim1. rewrite Hd. cbn [nth]. split.
  - apply (mbound_eval fm d s' a 0 b0 Hb'); [rewrite Hd; reflexivity|]. intros f F. eapply Hf; [exact F | rewrite Hd; reflexivity].
  - apply (mbound_eval fm d s' a 1 b1 Hb'); [rewrite Hd; reflexivity|]. intros f F. eapply Hf; [exact F | rewrite Hd; reflexivity].
Qed.

Theorem matmat_sound_partial_ fm d i j ii r m1 m2 s :
  matmat_safe d i j ii r m1 m2 = true -> operands_ok fm d s [m1; m2] ->
  hoare 7 (matmat_apply fm i j ii r m1 m2) s (fun s2 => agree_except [i; j; ii] s2 (matmat_sem d r m1 m2 s)).
Proof.
  intros Safe Ops. unfold matmat_safe in Safe. unpack_bools Safe.
  assert (L1 : fst (dim0 d r) = fst (dim0 d m1)) by assumption.
  assert (L2 : fst (dim1 d r) = fst (dim1 d m2)) by assumption.
  assert (L3 : fst (dim1 d m1) = fst (dim0 d m2)) by assumption.
  pose proof (fun s' => operand_bounds fm d s [m1; m2] m1 s' Ops (or_introl eq_refl)) as Bm1.
  pose proof (fun s' => operand_bounds fm d s [m1; m2] m2 s' Ops (or_intror (or_introl eq_refl))) as Bm2.
  unfold matmat_apply, matmat_sem, matmat_col, matmat_elem. rewrite L1, L2, <- L3.
  set (lbi := fst (dim0 d m1)). set (lbk := fst (dim1 d m1)). set (lbj := fst (dim1 d m2)).
  set (elem := fun b a => ((r, [lbi + a; lbj + b]),
                 sum_upto (fun q => val s (m1, [lbi + a; lbk + q]) * val s (m2, [lbk + q; lbj + b])) (extent (dim1 d m1)))).
  set (col := fun b => map (elem b) (zseq 0 (extent (dim0 d m1)))).
  destruct (Bm2 s eq_refl) as [_ [Ej1 Ej2]].
  eapply hoare_conseq; [|apply (hoare_do_stores 5 [i; j; ii] r j _ _ (ELit 1) _ s lbj (snd (dim1 d m2)) 1
                                   (fun b pre => pre = flat_map col (zseq 0 b)) Ej1 Ej2 eq_refl)].
  - intros s' [pre [-> HA]]. unfold lbj in HA. rewrite trip_unit in HA. exact HA.
  - discriminate.
  - right. left. reflexivity.
  - intros b s1 pre _ -> HA Vj Hop. rewrite Z.mul_1_r in Vj. set (cj := lbj + Z.of_nat b) in *.
    exists (col (Z.of_nat b)). split; [rewrite zseq_snoc, flat_map_app; cbn [flat_map]; rewrite app_nil_r; reflexivity|].
    split; [intros lv Hlv; apply in_map_iff in Hlv as [a [<- _]]; reflexivity|].
    pose proof (agree_store_all_bnd _ _ _ _ HA) as B1.
    destruct (Bm1 s1 B1) as [[Ei1 Ei2] _].
    eapply hoare_conseq; [|apply (hoare_do_stores 4 [i; ii] r i _ _ (ELit 1) _ s1 lbi (snd (dim0 d m1)) 1
                                     (fun a pre => pre = map (elem (Z.of_nat b)) (zseq 0 a)) Ei1 Ei2 eq_refl)].
    + intros s' [pre [-> HA']]. unfold lbi in HA'. rewrite trip_unit in HA'.
      eapply agree_weaken; [|exact HA']. intros y [<-|[<-|[]]]; cbn; auto.
    + discriminate.
    + left. reflexivity.
    + intros a s2 pre _ -> HA2 Vi Hop2. rewrite Z.mul_1_r in Vi. set (row := lbi + Z.of_nat a) in *.
      exists [elem (Z.of_nat b) (Z.of_nat a)]. split; [rewrite zseq_snoc, map_app; reflexivity|].
      split; [intros lv [<-|[]]; reflexivity|].
      assert (Vij : forall s', same_but ii (r, [row; cj]) s' s2 -> val s' (i, []) = row /\ val s' (j, []) = cj).
      { intros s' HS. rewrite !(same_but_val _ _ _ _ _ _ HS) by (cbn [fst]; congruence).
        split; [exact Vi|]. rewrite Hop2 by (repeat constructor; congruence). exact Vj. }
      eapply hoare_conseq;
        [|apply (init_sum_loop ii _ _ r [EVar i; EVar j] (EIdx r [EVar i; EVar j]) _ s2 (dim1 d m1) [row; cj]
                   (fun q => val s (m1, [row; lbk + q]) * val s (m2, [lbk + q; cj])))]; [|assumption| |].
      * intros s3 [Vr HS]. cbn [store_all fold_left elem fst snd]. fold row cj. rewrite <- Vr.
        apply (same_but_upd_agree _ ii (r, [row; cj])); [exact HS | right; left; reflexivity].
      * intros s' HS. destruct (Vij s' HS) as [Vi' Vj'].
        destruct (Bm1 s') as [_ [Ek1 Ek2]]; [rewrite (same_but_bnd _ _ _ _ HS), (agree_store_all_bnd _ _ _ _ HA2); exact B1|].
        cbn [eval map opt_all]. rewrite Vi', Vj'. repeat split; assumption.
      * intros q s' _ HS Vk. destruct (Vij s' HS) as [Vi' Vj']. cbn [eval map opt_all]. rewrite Vi', Vj', Vk. cbn [opt_all].
        assert (Hrd : forall y ix, y <> r -> y <> i -> y <> j -> y <> ii -> val s' (y, ix) = val s (y, ix)).
        { intros y ix N1 N2 N3 N4. rewrite (same_but_val _ _ _ _ _ _ HS N4 N1).
          rewrite Hop2; [apply Hop | |]; try exact N1; repeat constructor; assumption. }
        rewrite !Hrd by congruence. reflexivity.
    + reflexivity.
  - reflexivity.
Qed.

(* the shape of /verif/seeded/C06-r2-matmul-assumed-shape-ubound-dim: names 0 = r(0:1,0:3) explicit, 1 = m1(0:1,0:2) explicit, 2 = m2(0:,0:) assumed shape with explicit lower
   bounds, actual argument b(5:7,5:8) (non-square 3x4); 3 = i, 4 = j, 5 = ii *)
Definition mm_forms : forms :=
  fun n => match n with
           | O => [DExplicit 0 1; DExplicit 0 3] | S O => [DExplicit 0 1; DExplicit 0 2]
           | S (S O) => [DAssumedLb 0; DAssumedLb 0] | _ => [] end.
Definition mm_actuals : name -> list (Z * Z) :=
  fun n => match n with
           | O => [(0, 1); (0, 3)] | S O => [(0, 1); (0, 2)] | S (S O) => [(5, 7); (5, 8)] | _ => [] end.
Definition mm_decls : decls := eff_decls mm_forms mm_actuals.
Definition mm_store : store :=
  store_of [((1%nat, [0; 0]), 1); ((1%nat, [0; 1]), 2); ((1%nat, [0; 2]), 3); ((1%nat, [1; 0]), 4);
            ((1%nat, [1; 1]), 5); ((1%nat, [1; 2]), 6);
            ((2%nat, [0; 3]), 1); ((2%nat, [1; 3]), 10); ((2%nat, [2; 3]), 100); ((2%nat, [0; 0]), 7)]
           [(0%nat, [(0, 1); (0, 3)]); (1%nat, [(0, 1); (0, 2)]); (2%nat, [(0, 2); (0, 3)])].

Example matmat_nonvacuous :
  mm_decls 2%nat = [(0, 2); (0, 3)] /\
  matmat_safe mm_decls 3%nat 4%nat 5%nat 0%nat 1%nat 2%nat = true /\
  operands_ok mm_forms mm_decls mm_store [1%nat; 2%nat] /\
  val (matmat_sem mm_decls 0%nat 1%nat 2%nat mm_store) (0%nat, [1; 3]) = 654 /\
  (exists s2 tr, exec 30 (matmat_apply mm_forms 3%nat 4%nat 5%nat 0%nat 1%nat 2%nat) mm_store = Ok s2 tr CNormal /\
                 val s2 (0%nat, [1; 3]) = 654).
Proof.
  split; [reflexivity|]. split; [vm_compute; reflexivity|]. split.
  - intros a [<-|[<-|[]]]; (split; [reflexivity|]); (split; [eexists; eexists; reflexivity|]);
      intros k f b; apply eff_dims_form_ok.
  - split; [vm_compute; reflexivity|]. apply exec_val_witness. vm_compute. reflexivity.
Qed.
