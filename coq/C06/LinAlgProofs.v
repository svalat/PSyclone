(* C06 — DOT_PRODUCT and MATMUL (matrix * vector) lowering: correct for all contents and extents when
   the declared lower bounds that the generated loops silently identify are equal; refuted by
   witnesses when they differ (the unchanged code indexes both operands with one loop variable). *)
From Coq Require Import List ZArith Bool.
Import ListNotations.
From PV Require Import Fort.Syntax Fort.Sem Fort.Facts C06.Syntax C06.Model C06.Common C06.ReductionProofs.
Open Scope Z_scope.

Lemma trip_unit b : trip_count (fst b) (snd b) 1 = extent b.
Proof. unfold trip_count, extent. rewrite Z.quot_1_r. reflexivity. Qed.

(* r(rix) = 0; DO q = lo, hi: r(rix) = acc + term  -- shared by DOT_PRODUCT and both MATMULs: when the bounds
   evaluate to b, rix to rv and acc to the value of r(rv) in every store that differs from s only at q and
   r(rv), and term evaluates to g k in iteration k, the block leaves the sum of g over the extent in r(rv) *)
Lemma init_sum_loop q lo hi r rix acc term s (b : Z * Z) rv (g : Z -> Z) :
  q <> r ->
  (forall s', same_but q (r, rv) s' s ->
     eval s' lo = Some (fst b) /\ eval s' hi = Some (snd b) /\
     opt_all (map (eval s') rix) = Some rv /\ eval s' acc = Some (val s' (r, rv))) ->
  (forall k s', (k < extent b)%nat -> same_but q (r, rv) s' s -> val s' (q, []) = fst b + Z.of_nat k ->
     eval s' term = Some (g (Z.of_nat k))) ->
  hoare 5 [SAssign r rix (ELit 0); SDo q lo hi (ELit 1) [SAssign r rix (EBin Add acc term)]] s
        (fun s' => val s' (r, rv) = sum_upto g (extent b) /\ same_but q (r, rv) s' s).
Proof.
  intros Nq Hfix Hterm.
  destruct (Hfix s (same_but_refl _ _ _)) as [_ [_ [Erix _]]].
  apply (hoare_assign_cons 3 _ _ _ _ _ rv 0); [exact Erix | reflexivity |]. set (s1 := upd s (r, rv) 0).
  assert (S1 : same_but q (r, rv) s1 s) by apply same_but_upd_loc.
  destruct (Hfix s1 S1) as [Elo [Ehi _]].
  eapply hoare_conseq; [|apply (hoare_do_cell 1 q lo hi (ELit 1) _ s1 (fst b) (snd b) 1 (r, rv)
                                   (fun i a => a = sum_upto g i) Elo Ehi eq_refl)].
  - intros s' [HA HS]. rewrite <- (trip_unit b). split; [exact HA | exact (same_but_trans _ _ _ _ _ HS S1)].
  - discriminate.
  - intro E. apply Nq. symmetry. exact E.
  - intros i s0 Hi HS Vq HA. rewrite trip_unit in Hi. rewrite Z.mul_1_r in Vq.
    pose proof (same_but_trans _ _ _ _ _ HS S1) as HS0.
    destruct (Hfix s0 HS0) as [_ [_ [Er Ea]]].
    eapply hoare_assign; [exact Er | cbn [eval]; rewrite Ea, (Hterm i s0 Hi HS0 Vq); reflexivity |].
    split; [rewrite val_upd_same, HA; reflexivity | apply same_but_upd_loc].
  - apply val_upd_same.
Qed.

Definition dot_safe (d : decls) (i res hole x : name) (xi : list expr) (ctx : expr)
                    (v1 : name) (r1 : list expr) (v2 : name) (r2 : list expr) : bool :=
  (fst (dim0 d v1) =? fst (dim0 d v2)) &&
  negb (Nat.eqb i res) && negb (Nat.eqb i v1) && negb (Nat.eqb i v2) && negb (Nat.eqb res v1) && negb (Nat.eqb res v2) &&
  negb (Nat.eqb i x) && negb (Nat.eqb res x) &&
  forallb (fun e => negb (mentions i e) && negb (mentions res e)) (r1 ++ r2 ++ xi) &&
  hole_ok hole ctx && negb (mentions i ctx) && negb (mentions res ctx).

(* the generated code, for any bound expressions lo, hi that evaluate to the bounds of the first vector *)
Lemma dot_loops lo hi d i res hole x xi ctx v1 r1 v2 r2 s v xv w :
  dot_safe d i res hole x xi ctx v1 r1 v2 r2 = true ->
  (forall s', bnd s' = bnd s -> eval s' lo = Some (fst (dim0 d v1)) /\ eval s' hi = Some (snd (dim0 d v1))) ->
  dot_sem d v1 r1 v2 r2 s = Some v ->
  opt_all (map (eval s) xi) = Some xv -> eval (upd s (hole, []) v) ctx = Some w ->
  hoare 8 [SAssign res [] (ELit 0);
           SDo i lo hi (ELit 1)
             [SAssign res [] (EBin Add (EVar res) (EBin Mul (EIdx v1 (EVar i :: r1)) (EIdx v2 (EVar i :: r2))))];
           SAssign x xi (subst_var hole (EVar res) ctx)] s
        (fun s2 => agree_except [i; res; hole] s2 (upd s (x, xv) w)).
Proof.
  intros Safe Hbounds Sem Exi Ectx. unfold dot_safe in Safe. unpack_bools Safe.
  assert (Nir : i <> res) by assumption. assert (Hok : hole_ok hole ctx = true) by assumption.
  assert (Ffr : forallb (fun e => negb (mentions i e) && negb (mentions res e)) (r1 ++ r2 ++ xi) = true) by assumption.
  unfold dot_sem in Sem.
  destruct (opt_all (map (eval s) r1)) as [a1|] eqn:E1; [|discriminate].
  destruct (opt_all (map (eval s) r2)) as [a2|] eqn:E2; [|discriminate].
  inversion Sem; subst v. clear Sem.
  replace (fst (dim0 d v2)) with (fst (dim0 d v1)) in * by assumption.
  set (g := fun k => val s (v1, (fst (dim0 d v1) + k) :: a1) * val s (v2, (fst (dim0 d v1) + k) :: a2)) in *.
  pose proof (fresh_exprs i res _ Ffr) as Ffr'.
  (* index expressions evaluate as in s whenever only i and res changed *)
  assert (Hfresh : forall s1 es, same_but i (res, []) s1 s -> (forall e, In e es -> In e (r1 ++ r2 ++ xi)) ->
                     map (eval s1) es = map (eval s) es).
  { intros s1 es A Sub. apply map_ext_in. intros e He. apply (eval_same_but _ _ _ _ e A); apply Ffr', Sub, He. }
  eapply hoare_mono; [|apply (hoare_app 5 2 [_; _] [_] s
                               (fun sL => val sL (res, []) = sum_upto g (extent (dim0 d v1)) /\ same_but i (res, []) sL s))];
    [repeat constructor | apply (init_sum_loop i lo hi res [] (EVar res) _ s (dim0 d v1) [] g Nir) |].
  - intros s' HS. destruct (Hbounds s' (same_but_bnd _ _ _ _ HS)). repeat split; assumption.
  - intros k s' Hk HS Vi. cbn [eval map opt_all]. rewrite Vi.
    rewrite (Hfresh s' r1 HS) by (intros e He; apply in_or_app; left; exact He).
    rewrite (Hfresh s' r2 HS) by (intros e He; apply in_or_app; right; apply in_or_app; left; exact He).
    rewrite E1, E2, !(same_but_val _ _ _ _ _ _ HS) by (cbn [fst]; congruence). reflexivity.
  - intros sL [Vr HS]. apply same_but_agree in HS.
    eapply hoare_conseq; [|apply (ctx_assign [i; res] s sL x xi xv ctx hole (EVar res) _ w HS (f_equal Some Vr) Hok)].
    + intros s2 ->. apply agree_upd_both. eapply agree_weaken; [|exact HS]. intros y [<-|[<-|[]]]; cbn; auto.
    + intros y [<-|[<-|[]]]; assumption.
    + intros y e [<-|[<-|[]]] He; apply Ffr'; apply in_or_app; right; apply in_or_app; right; exact He.
    + exact Exi.
    + exact Ectx.
Qed.

(* the refuting input: x = DOT_PRODUCT(v1, v2) with v1(1:2), v2(0:1) is 2*5 + 3*7 = 31, the generated loop reads
   v2(1), v2(2).  names: 0 = v1, 1 = v2, 2 = x, 3 = i, 4 = res, 5 = hole *)
Definition dx_decls : decls := fun n => match n with O => [(1, 2)] | S O => [(0, 1)] | _ => [] end.
Definition dx_store : store :=
  store_of [((0%nat, [1]), 2); ((0%nat, [2]), 3); ((1%nat, [0]), 5); ((1%nat, [1]), 7)] [(0%nat, [(1, 2)]); (1%nat, [(0, 1)])].

Example dot_safe_nonvacuous :
  let d : decls := fun n => match n with O => [(2, 3)] | S O => [(2, 3)] | _ => [] end in
  let s := store_of [((0%nat, [2]), 2); ((0%nat, [3]), 3); ((1%nat, [2]), 5); ((1%nat, [3]), 7)] [] in
  dot_safe d 3%nat 4%nat 5%nat 2%nat [] (EBin Add (EVar 5%nat) (ELit 1)) 0%nat [] 1%nat [] = true /\
  dot_sem d 0%nat [] 1%nat [] s = Some 31.
Proof. cbv zeta. split; vm_compute; reflexivity. Qed.

Definition matvec_safe (d : decls) (i j r m v : name) : bool :=
  matvec_accept r m v &&
  (fst (dim0 d r) =? fst (dim0 d m)) && (fst (dim1 d m) =? fst (dim0 d v)) &&
  Nat.eqb (extent (dim0 d v)) (extent (dim1 d m)) &&
  negb (Nat.eqb i j) && negb (Nat.eqb i r) && negb (Nat.eqb i m) && negb (Nat.eqb i v) &&
  negb (Nat.eqb j r) && negb (Nat.eqb j m) && negb (Nat.eqb j v).

(* the generated nest, for any bound expressions that evaluate to the bounds of m (rows) and of v *)
Lemma matvec_loops lo1 hi1 lo2 hi2 d i j r m v s :
  matvec_safe d i j r m v = true ->
  (forall s', bnd s' = bnd s ->
     (eval s' lo1 = Some (fst (dim0 d m)) /\ eval s' hi1 = Some (snd (dim0 d m))) /\
     (eval s' lo2 = Some (fst (dim0 d v)) /\ eval s' hi2 = Some (snd (dim0 d v)))) ->
  hoare 7 [SDo i lo1 hi1 (ELit 1)
             [SAssign r [EVar i] (ELit 0);
              SDo j lo2 hi2 (ELit 1)
                [SAssign r [EVar i]
                   (EBin Add (EIdx r [EVar i]) (EBin Mul (EIdx m [EVar i; EVar j]) (EIdx v [EVar j])))]]] s
        (fun s2 => agree_except [i; j] s2 (matvec_sem d r m v s)).
Proof.
  intros Safe Hb. unfold matvec_safe, matvec_accept in Safe. unpack_bools Safe.
  assert (Lrm : fst (dim0 d r) = fst (dim0 d m)) by assumption.
  assert (Lmv : fst (dim1 d m) = fst (dim0 d v)) by assumption.
  assert (Hext : extent (dim0 d v) = extent (dim1 d m)) by assumption.
  unfold matvec_sem, matvec_elem. rewrite Lrm, Lmv, <- Hext.
  set (lbm := fst (dim0 d m)). set (lbv := fst (dim0 d v)).
  set (elem := fun k => ((r, [lbm + k]),
                         sum_upto (fun q => val s (m, [lbm + k; lbv + q]) * val s (v, [lbv + q])) (extent (dim0 d v)))).
  destruct (Hb s eq_refl) as [[E1 E2] _].
  eapply hoare_conseq; [|apply (hoare_do_stores 5 [i; j] r i lo1 hi1 (ELit 1) _ s lbm (snd (dim0 d m)) 1
                                   (fun k pre => pre = map elem (zseq 0 k)) E1 E2 eq_refl)].
  - intros s' [pre [-> HA]]. unfold lbm in HA. rewrite trip_unit in HA. exact HA.
  - discriminate.
  - left. reflexivity.
  - intros k s1 pre Hk -> HA Vi Hop. rewrite Z.mul_1_r in Vi. set (row := lbm + Z.of_nat k) in *.
    exists [elem (Z.of_nat k)]. split; [rewrite zseq_snoc, map_app; reflexivity|]. split; [intros lv [<-|[]]; reflexivity|].
    assert (Vi' : forall s', same_but j (r, [row]) s' s1 -> val s' (i, []) = row).
    { intros s' HS. rewrite (same_but_val _ _ _ _ _ _ HS) by (cbn [fst]; congruence). exact Vi. }
    apply (hoare_mono 5); [repeat constructor|]. eapply hoare_conseq;
      [|apply (init_sum_loop j lo2 hi2 r [EVar i] (EIdx r [EVar i]) _ s1 (dim0 d v) [row]
                 (fun q => val s (m, [row; lbv + q]) * val s (v, [lbv + q])))]; [|assumption| |].
    + intros s2 [Vr HS]. cbn [store_all fold_left elem fst snd]. fold row. rewrite <- Vr.
      apply (same_but_upd_agree _ j (r, [row])); [exact HS | right; left; reflexivity].
    + intros s' HS. destruct (Hb s') as [_ [Elo Ehi]]; [rewrite (same_but_bnd _ _ _ _ HS); apply (agree_store_all_bnd _ _ _ _ HA)|].
      cbn [eval map opt_all]. rewrite (Vi' s' HS). repeat split; assumption.
    + intros q s' Hq HS Vj. cbn [eval map opt_all]. rewrite (Vi' s' HS), Vj. cbn [opt_all].
      assert (Hrd : forall a ix, a <> r -> a <> i -> a <> j -> val s' (a, ix) = val s (a, ix)).
      { intros a ix N1 N2 N3. rewrite (same_but_val _ _ _ _ _ _ HS N3 N1). apply Hop; [repeat constructor; assumption | exact N1]. }
      rewrite !Hrd by congruence. reflexivity.
  - reflexivity.
Qed.

(* the refuting input: r(0:1) = MATMUL(m(1:2,1:2), v(1:2)): r(0) must be 1*5+2*6 = 17 but the loop writes r(1), r(2).
   names: 0 = r, 1 = m, 2 = v, 3 = i, 4 = j *)
Definition mx_decls : decls :=
  fun n => match n with O => [(0, 1)] | S O => [(1, 2); (1, 2)] | S (S O) => [(1, 2)] | _ => [] end.
Definition mx_store : store :=
  store_of [((1%nat, [1; 1]), 1); ((1%nat, [1; 2]), 2); ((1%nat, [2; 1]), 3); ((1%nat, [2; 2]), 4);
            ((2%nat, [1]), 5); ((2%nat, [2]), 6)] [].

Example matvec_safe_nonvacuous :
  let d : decls := fun n => match n with O => [(2, 3)] | S O => [(2, 3); (0, 1)] | S (S O) => [(0, 1)] | _ => [] end in
  let s := store_of [((1%nat, [2; 0]), 1); ((1%nat, [2; 1]), 2); ((1%nat, [3; 0]), 3); ((1%nat, [3; 1]), 4);
                     ((2%nat, [0]), 5); ((2%nat, [1]), 6)] [] in
  matvec_safe d 3%nat 4%nat 0%nat 1%nat 2%nat = true /\
  val (matvec_sem d 0%nat 1%nat 2%nat s) (0%nat, [3]) = 39.
Proof. cbv zeta. split; vm_compute; reflexivity. Qed.
