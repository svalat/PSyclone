(* C06 — declaration forms of dummy arguments and their EFFECTIVE bounds, the bound
   expressions built by matmul2code_trans.py::_get_array_bound for each form, and the faithful model of
   Matmul2CodeTrans._apply_matrix_matrix over them.  Definitions + the evaluation lemma for bounds. *)
From Coq Require Import List ZArith Bool Lia.
Import ListNotations.
From PV Require Import Fort.Syntax Fort.Sem Fort.Facts Base.Harness C06.Syntax C06.Model C06.Common.
Open Scope Z_scope.

(* one dimension of a declaration *)
Inductive dimform :=
| DExplicit (lb ub : Z)      (* a(lb:ub) *)
| DAssumedLb (lb : Z)        (* a(lb:)   assumed shape with explicit lower bound *)
| DAssumed                   (* a(:)     assumed shape *)
| DDeferred.                 (* allocatable: bounds of the actual argument *)

Definition zextent (b : Z * Z) : Z := Z.max 0 (snd b - fst b + 1).

(* bounds seen inside the routine, from the form and the bounds of the actual argument *)
Definition eff_dim (f : dimform) (actual : Z * Z) : Z * Z :=
  match f with
  | DExplicit lb ub => (lb, ub)
  | DAssumedLb lb => (lb, lb + zextent actual - 1)
  | DAssumed => (1, zextent actual)
  | DDeferred => actual
  end.

Fixpoint eff_dims (fs : list dimform) (acts : list (Z * Z)) : list (Z * Z) :=
  match fs, acts with
  | f :: fs', a :: acts' => eff_dim f a :: eff_dims fs' acts'
  | _, _ => []
  end.

Definition forms := name -> list dimform.
Definition eff_decls (fm : forms) (actuals : name -> list (Z * Z)) : decls :=
  fun a => eff_dims (fm a) (actuals a).

(* an assumed-shape dummy has the extent of its actual argument and the requested lower bound *)
Theorem eff_dim_spec f act :
  match f with
  | DExplicit lb ub => eff_dim f act = (lb, ub)
  | DAssumedLb lb => fst (eff_dim f act) = lb /\ zextent (eff_dim f act) = zextent act
  | DAssumed => fst (eff_dim f act) = 1 /\ zextent (eff_dim f act) = zextent act
  | DDeferred => eff_dim f act = act
  end.
Proof. destruct f; cbn [eff_dim fst snd]; unfold zextent; cbn [fst snd]; try split; try reflexivity; lia. Qed.

(* a form is consistent with effective bounds b *)
Definition form_ok (f : dimform) (b : Z * Z) : Prop :=
  match f with
  | DExplicit lb ub => b = (lb, ub)
  | DAssumedLb lb => fst b = lb
  | _ => True
  end.

Lemma eff_dim_form_ok f act : form_ok f (eff_dim f act).
Proof. destruct f; cbn; auto. Qed.

Lemma eff_dims_form_ok : forall fs acts k f b,
  nth_error fs k = Some f -> nth_error (eff_dims fs acts) k = Some b -> form_ok f b.
Proof.
  induction fs as [|f0 fs IH]; intros [|a acts] [|k] f b F N; cbn [eff_dims nth_error] in *; try discriminate.
  - inversion F; inversion N; subst. apply eff_dim_form_ok.
  - eapply IH; eassumption.
Qed.

(* matmul2code_trans.py::_get_array_bound(array, k): (lower, upper) expressions of dimension k (0-based) *)
Definition lbound_of (a : name) (k : nat) : expr := EIntr ILbound [EVar a; ELit (Z.of_nat (S k))].
Definition ubound_of (a : name) (k : nat) : expr := EIntr IUbound [EVar a; ELit (Z.of_nat (S k))].

Definition mbound (fm : forms) (a : name) (k : nat) : expr * expr :=
  match nth_error (fm a) k with
  | Some (DExplicit lb ub) => (ELit lb, ELit ub)
  | Some (DAssumedLb lb) => (ELit lb, ubound_of a k)
  | _ => (lbound_of a k, ubound_of a k)
  end.

(* in every store whose bounds are the effective bounds, the generated bound expressions evaluate to them *)
Lemma mbound_eval fm d s a k b :
  bnd s a = d a -> nth_error (d a) k = Some b ->
  (forall f, nth_error (fm a) k = Some f -> form_ok f b) ->
  eval s (fst (mbound fm a k)) = Some (fst b) /\ eval s (snd (mbound fm a k)) = Some (snd b).
Proof.
  intros Hb N Ok. rewrite <- Hb in N. destruct (inquiry_eval s a k b N) as [EL EU]. fold (lbound_of a k) in EL. fold (ubound_of a k) in EU. unfold mbound.
  destruct (nth_error (fm a) k) as [[lb ub|lb| |]|] eqn:F; cbn [fst snd]; try (split; assumption).
  - specialize (Ok _ eq_refl). cbn in Ok. subst b. split; reflexivity.
  - specialize (Ok _ eq_refl). cbn in Ok. subst lb. split; [reflexivity | assumption].
Qed.

(* matmul2code_trans.py:377-497: r(i,j) = 0; r(i,j) += m1(i,ii) * m2(ii,j), loops j (bounds of m2 dim 2),
   i (m1 dim 1), ii (m1 dim 2) *)
Definition matmat_apply (fm : forms) (i j ii : name) (r m1 m2 : name) : list stmt :=
  let rij := [EVar i; EVar j] in
  [SDo j (fst (mbound fm m2 1)) (snd (mbound fm m2 1)) (ELit 1)
     [SDo i (fst (mbound fm m1 0)) (snd (mbound fm m1 0)) (ELit 1)
        [SAssign r rij (ELit 0);
         SDo ii (fst (mbound fm m1 1)) (snd (mbound fm m1 1)) (ELit 1)
           [SAssign r rij (EBin Add (EIdx r rij)
                                    (EBin Mul (EIdx m1 [EVar i; EVar ii]) (EIdx m2 [EVar ii; EVar j])))]]]].

(* matrix * vector with form-aware bounds (matmul2code_trans.py:318-375) *)
Definition matvecF_apply (fm : forms) (i j : name) (r m v : name) : list stmt :=
  [SDo i (fst (mbound fm m 0)) (snd (mbound fm m 0)) (ELit 1)
     [SAssign r [EVar i] (ELit 0);
      SDo j (fst (mbound fm v 0)) (snd (mbound fm v 0)) (ELit 1)
        [SAssign r [EVar i]
           (EBin Add (EIdx r [EVar i]) (EBin Mul (EIdx m [EVar i; EVar j]) (EIdx v [EVar j])))]]].

(* Fortran value: r(lbr1+a, lbr2+b) = sum_q m1(lb11+a, lb12+q) * m2(lb21+q, lb22+b) over effective bounds d *)
Definition matmat_elem (d : decls) (m1 m2 : name) (s : store) (a b : Z) : Z :=
  sum_upto (fun q => val s (m1, [fst (dim0 d m1) + a; fst (dim1 d m1) + q]) *
                     val s (m2, [fst (dim0 d m2) + q; fst (dim1 d m2) + b]))
           (extent (dim1 d m1)).

Definition matmat_col (d : decls) (r m1 m2 : name) (s : store) (b : Z) : list (loc * Z) :=
  map (fun a => ((r, [fst (dim0 d r) + a; fst (dim1 d r) + b]), matmat_elem d m1 m2 s a b))
      (zseq 0 (extent (dim0 d m1))).

Definition matmat_sem (d : decls) (r m1 m2 : name) (s : store) : store :=
  store_all s (flat_map (matmat_col d r m1 m2 s) (zseq 0 (extent (dim1 d m2)))).
