(* C06 — MATMUL matrix * vector with form-dependent bound expressions (assumed-shape / allocatable
   operands): LinAlgProofs.matvec_loops with the bound expressions of matmul2code's _get_array_bound. *)
From Coq Require Import List ZArith Bool.
Import ListNotations.
From PV Require Import Fort.Syntax Fort.Sem Fort.Facts C06.Syntax C06.Model C06.Common
                       C06.LinAlgProofs C06.Bounds C06.MatMatProofs.
Open Scope Z_scope.

(* a rank-1 operand whose store bounds are the effective bounds and whose form is consistent with them *)
Definition vector_ok (fm : forms) (d : decls) (s : store) (v : name) : Prop :=
  bnd s v = d v /\ (exists b0, d v = [b0]) /\
  (forall k f b, nth_error (fm v) k = Some f -> nth_error (d v) k = Some b -> form_ok f b).

Lemma vector_bounds fm d s v s' :
  vector_ok fm d s v -> bnd s' = bnd s ->
  eval s' (fst (mbound fm v 0)) = Some (fst (dim0 d v)) /\ eval s' (snd (mbound fm v 0)) = Some (snd (dim0 d v)).
Proof.
  intros [Hb [[b0 Hd] Hf]] B. assert (Hb' : bnd s' v = d v) by (rewrite B; exact Hb).
  unfold dim0. rewrite Hd. cbn [nth].
  apply (mbound_eval fm d s' v 0 b0 Hb'); [rewrite Hd; reflexivity|]. intros f F. eapply Hf; [exact F | rewrite Hd; reflexivity].
Qed.

(* names 0 = r(2:3) explicit, 1 = m(2:,:) actual (5:6,7:8), 2 = v(:) actual (4:5); 3 = i, 4 = j *)
Definition mv_forms : forms :=
  fun n => match n with O => [DExplicit 2 3] | S O => [DAssumedLb 2; DAssumed] | S (S O) => [DAssumed] | _ => [] end.
Definition mv_actuals : name -> list (Z * Z) :=
  fun n => match n with O => [(2, 3)] | S O => [(5, 6); (7, 8)] | S (S O) => [(4, 5)] | _ => [] end.
Definition mv_decls : decls := eff_decls mv_forms mv_actuals.
Definition mv_store : store :=
  store_of [((1%nat, [2; 1]), 1); ((1%nat, [2; 2]), 2); ((1%nat, [3; 1]), 3); ((1%nat, [3; 2]), 4);
            ((2%nat, [1]), 5); ((2%nat, [2]), 6)]
           [(0%nat, [(2, 3)]); (1%nat, [(2, 3); (1, 2)]); (2%nat, [(1, 2)])].

Example matvecF_nonvacuous :
  mv_decls 1%nat = [(2, 3); (1, 2)] /\ mv_decls 2%nat = [(1, 2)] /\
  matvec_safe mv_decls 3%nat 4%nat 0%nat 1%nat 2%nat = true /\
  operands_ok mv_forms mv_decls mv_store [1%nat] /\ vector_ok mv_forms mv_decls mv_store 2%nat /\
  val (matvec_sem mv_decls 0%nat 1%nat 2%nat mv_store) (0%nat, [3]) = 39 /\
  (exists s2 tr, exec 30 (matvecF_apply mv_forms 3%nat 4%nat 0%nat 1%nat 2%nat) mv_store = Ok s2 tr CNormal /\
                 val s2 (0%nat, [3]) = 39).
Proof.
  split; [reflexivity|]. split; [reflexivity|]. split; [vm_compute; reflexivity|]. split; [|split].
  - intros a [<-|[]]; (split; [reflexivity|]); (split; [eexists; eexists; reflexivity|]).
    intros k f b; apply eff_dims_form_ok.
  - split; [reflexivity|]. split; [eexists; reflexivity|].
    intros k f b; apply eff_dims_form_ok.
  - split; [vm_compute; reflexivity|]. apply exec_val_witness. vm_compute. reflexivity.
Qed.
