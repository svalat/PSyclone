(* C06 — ArrayAssignment2LoopsTrans (one range per accessor): the loop produced by the faithful model
   computes the Fortran array assignment whenever `aa_safe` holds (the lhs array is read on the rhs only
   through the very same section, strides are syntactically equal, and a range that same_range()
   declares equal really has the same normalised start); and the inputs of the non-vacuity example and of the
   refutation a(2:10) = a(1:9). *)
From Coq Require Import List ZArith Bool Lia.
Import ListNotations.
From PV Require Import Fort.Syntax Fort.Sem Fort.Facts Base.Harness C06.Syntax C06.Model C06.Common.
Open Scope Z_scope.

Definition rng_safe (fx : fixes) (d : decls) (A : name) (p : nat) (lo st : expr) (b : name) (q : nat) (lo' st' : expr) : bool :=
  expr_eqb st st' &&
  (if same_range fx d A p lo st b q lo' st' then expr_eqb (start_norm d A p lo) (start_norm d b q lo') else true).

Fixpoint ranges_safe (fx : fixes) (d : decls) (A : name) (p : nat) (lo st : expr) (b : name) (q : nat) (ix : list index) : bool :=
  match ix with
  | [] => true
  | IExp _ :: r => ranges_safe fx d A p lo st b (S q) r
  | IRange lo' _ st' :: r => rng_safe fx d A p lo st b q lo' st' && ranges_safe fx d A p lo st b (S q) r
  end.

Definition ix_fresh (idx A : name) (i : index) : bool := negb (imentions idx i) && negb (imentions A i).

(* accessor b(ix) may be rewritten: no index/bound expression mentions the loop variable or the written
   array W; if b is the written array it is exactly the written section `wix` (never, when wix = None) *)
Definition acc_safe (fx : fixes) (d : decls) (idx W : name) (wix : option (list index)) (F : name) (p : nat) (lo st : expr)
                    (b : name) (ix : list index) : bool :=
  negb (Nat.eqb idx b) && forallb (ix_fresh idx W) ix &&
  (if Nat.eqb W b then match wix with Some w => list_beq index_eqb ix w | None => false end else true) &&
  ranges_safe fx d F p lo st b 0 ix.

Fixpoint aexpr_safe (chk : name -> list index -> bool) (idx W : name) (e : aexpr) : bool :=
  match e with
  | ALit _ => true
  | AVar x => negb (Nat.eqb idx x) && negb (Nat.eqb W x)
  | ASec b ix => chk b ix
  | AUn _ e1 | AIntr1 _ e1 => aexpr_safe chk idx W e1
  | ABin _ l r | AIntr2 _ l r => aexpr_safe chk idx W l && aexpr_safe chk idx W r
  end.

Definition aa_safe (fx : fixes) (d : decls) (idx : name) (a : aassign) : bool :=
  aa_accept a &&
  match range_pos 0 (aa_ix a) with
  | Some (p, lo, hi, st) =>
      let chk := acc_safe fx d idx (aa_arr a) (Some (aa_ix a)) (aa_arr a) p lo st in
      chk (aa_arr a) (aa_ix a) && aexpr_safe chk idx (aa_arr a) (aa_rhs a)
  | None => false
  end.

Definition bnd_ok (d : decls) (s : store) : Prop := forall b, bnd s b = d b.

Lemma ix_fresh_true idx A i : ix_fresh idx A i = true -> imentions idx i = false /\ imentions A i = false.
Proof. unfold ix_fresh. intro H. apply andb_true_iff in H as [H1 H2]. apply negb_true_iff in H1, H2. auto. Qed.

Lemma range_pos_in : forall ix q p lo hi st, range_pos q ix = Some (p, lo, hi, st) -> In (IRange lo hi st) ix.
Proof.
  induction ix as [|[e|lo' hi' st'] ix IH]; intros q p lo hi st H; cbn [range_pos] in H;
    [discriminate | right; eapply IH, H |]. inversion H; subst. left. reflexivity.
Qed.

Lemma imentions_range x lo hi st :
  imentions x (IRange lo hi st) = false -> mentions x lo = false /\ mentions x hi = false /\ mentions x st = false.
Proof. cbn [imentions]. intro H. apply orb_false_iff in H as [H H3]. apply orb_false_iff in H as [H1 H2]. auto. Qed.

Lemma ix_fresh_range idx W ix lo hi st :
  In (IRange lo hi st) ix -> forallb (ix_fresh idx W) ix = true ->
  (mentions idx lo = false /\ mentions W lo = false) /\ (mentions idx hi = false /\ mentions W hi = false) /\
  (mentions idx st = false /\ mentions W st = false).
Proof.
  intros H Fr. rewrite forallb_forall in Fr. apply Fr, ix_fresh_true in H as [F1 F2].
  apply imentions_range in F1 as [? [? ?]]. apply imentions_range in F2 as [? [? ?]]. auto.
Qed.

Lemma acc_safe_true fx d idx W wix F p lo st b ix :
  acc_safe fx d idx W wix F p lo st b ix = true ->
  idx <> b /\ forallb (ix_fresh idx W) ix = true /\ (W = b -> wix = Some ix) /\ ranges_safe fx d F p lo st b 0 ix = true.
Proof.
  unfold acc_safe. intro S. apply andb_true_iff in S as [S Srg]. apply andb_true_iff in S as [S Ssame].
  apply andb_true_iff in S as [Sidx Sfr]. apply negb_true_iff, Nat.eqb_neq in Sidx. repeat split; try assumption.
  intros <-. rewrite Nat.eqb_refl in Ssame. destruct wix as [w|]; [|discriminate]. apply indices_eqb_eq in Ssame. congruence.
Qed.

Lemma aa_safe_apply fx d idx a : aa_safe fx d idx a = true -> exists prog, aa_apply fx d idx a = Some prog.
Proof.
  unfold aa_safe, aa_apply. intro S. apply andb_true_iff in S as [Acc S]. rewrite Acc.
  destruct (range_pos 0 (aa_ix a)) as [[[[p lo] hi] st]|]; [eauto | discriminate].
Qed.

Lemma start_norm_eval d s a p lo : bnd_ok d s -> eval s (start_norm d a p lo) = eval s lo.
Proof.
  intro Hb. unfold start_norm. destruct (is_lower d a p lo) eqn:E; [|reflexivity].
  destruct (nth_error (d a) p) as [[lb ub]|] eqn:N; [|reflexivity].
  unfold is_lower in E. destruct lo as [z| | | | |f args]; try discriminate.
  - rewrite N in E. apply Z.eqb_eq in E. subst. reflexivity.
  - destruct f; try discriminate.
    destruct args as [|a1 args]; try discriminate. destruct a1 as [|b| | | |]; try discriminate.
    destruct args as [|a2 args]; try discriminate. destruct a2 as [q| | | | |]; try discriminate.
    destruct args; try discriminate.
    apply andb_true_iff in E as [E1 E2]. apply Nat.eqb_eq in E1. apply Z.eqb_eq in E2. subst b q.
    rewrite <- Hb in N. symmetry. apply (proj1 (inquiry_eval s a p (lb, ub) N)).
Qed.

(* the index that replaces a range evaluates, when the loop variable stands at element k of the lhs range, to
   element k of that range (s0 = store at loop entry, s1 = store at the start of the body) *)
Lemma ridx_eval fx d idx F p lo st s0 s1 k l t b q lo' hi' st' :
  bnd_ok d s0 -> eval s0 lo = Some l -> eval s0 st = Some t -> val s1 (idx, []) = l + k * t ->
  eval s1 lo = eval s0 lo -> eval s1 lo' = eval s0 lo' ->
  rng_safe fx d F p lo st b q lo' st' = true ->
  eval s1 (ridx_of fx d idx F p lo st b q lo' st') = ix_val s0 k (IRange lo' hi' st').
Proof.
  intros Hbnd El Et R2 Elo Elo' S. unfold rng_safe in S. apply andb_true_iff in S as [S1 S2].
  apply expr_eqb_eq in S1. subst st'. unfold ridx_of. cbn [ix_val]. rewrite Et.
  destruct (same_range fx d F p lo st b q lo' st) eqn:SR.
  - apply expr_eqb_eq in S2. cbn [eval]. rewrite R2.
    assert (E : eval s0 lo' = Some l).
    { rewrite <- (start_norm_eval d s0 b q lo' Hbnd), <- S2, (start_norm_eval d s0 F p lo Hbnd). exact El. }
    rewrite E. reflexivity.
  - rewrite expr_eqb_refl, orb_true_r. cbn [eval]. rewrite R2, Elo', Elo, El.
    destruct (eval s0 lo') as [l'|]; [|reflexivity]. cbn [eval_bin]. f_equal. lia.
Qed.

Section Iteration.
  (* the lhs range (of accessor F at position p) and one loop iteration k: s0 = store at loop entry,
     s1 = store at the start of the body *)
  Variables (fx : fixes) (d : decls) (idx W F : name) (wix : option (list index)) (p : nat) (lo st : expr).
  Variables (s0 s1 : store) (k l t : Z).
  Hypothesis Hbnd : bnd_ok d s0.
  Hypothesis El : eval s0 lo = Some l.
  Hypothesis Et : eval s0 st = Some t.
  Hypothesis R1 : bnd s1 = bnd s0.
  Hypothesis R2 : val s1 (idx, []) = l + k * t.
  Hypothesis R3 : forall loc, fst loc <> idx -> fst loc <> W -> val s1 loc = val s0 loc.
  Hypothesis R4 : forall w vs, wix = Some w -> opt_all (map (ix_val s0 k) w) = Some vs -> val s1 (W, vs) = val s0 (W, vs).
  Hypothesis Flo : mentions idx lo = false /\ mentions W lo = false.

  Lemma eval_s1 e : mentions idx e = false -> mentions W e = false -> eval s1 e = eval s0 e.
  Proof.
    intros H1 H2. apply eval_names; [exact R1|]. intros loc Hl. apply R3; intro X; rewrite X in Hl; congruence.
  Qed.

  Lemma lower_ixs_eval b : forall ix q,
    ranges_safe fx d F p lo st b q ix = true -> forallb (ix_fresh idx W) ix = true ->
    map (eval s1) (lower_ixs (ridx_of fx d idx F p lo st) b q ix) = map (ix_val s0 k) ix.
  Proof.
    induction ix as [|i ix IH]; intros q S Fr; [reflexivity|].
    cbn [forallb] in Fr. apply andb_true_iff in Fr as [Fi Fr]. apply ix_fresh_true in Fi as [Fi1 Fi2].
    destruct i as [e|lo' hi' st']; cbn [lower_ixs map ranges_safe] in *.
    - cbn [imentions] in Fi1, Fi2. rewrite (eval_s1 e Fi1 Fi2). cbn [ix_val]. f_equal. apply IH; assumption.
    - apply andb_true_iff in S as [S1 S2]. cbn [imentions] in Fi1, Fi2.
      apply orb_false_iff in Fi1 as [Fi1 _]. apply orb_false_iff in Fi1 as [Fi1 _].
      apply orb_false_iff in Fi2 as [Fi2 _]. apply orb_false_iff in Fi2 as [Fi2 _].
      rewrite (ridx_eval fx d idx F p lo st s0 s1 k l t b q lo' hi' st' Hbnd El Et R2
                 (eval_s1 lo (proj1 Flo) (proj2 Flo)) (eval_s1 lo' Fi1 Fi2) S1).
      f_equal. apply IH; assumption.
  Qed.

  Lemma lower_eval e :
    aexpr_safe (acc_safe fx d idx W wix F p lo st) idx W e = true ->
    eval s1 (lower (ridx_of fx d idx F p lo st) e) = aeval s0 k e.
  Proof.
    induction e as [z|x|b ix|o e IH|o e1 IH1 e2 IH2|f e IH|f e1 IH1 e2 IH2]; intro S; cbn [aexpr_safe lower aeval] in *.
    - reflexivity.
    - apply andb_true_iff in S as [S1 S2]. apply negb_true_iff in S1, S2. apply Nat.eqb_neq in S1, S2.
      cbn [eval]. f_equal. apply R3; cbn [fst]; congruence.
    - apply acc_safe_true in S as [Sidx [Sfr [Ssame Srg]]].
      cbn [eval]. rewrite (lower_ixs_eval b ix 0%nat Srg Sfr).
      destruct (opt_all (map (ix_val s0 k) ix)) as [vs|] eqn:E; [|reflexivity]. f_equal.
      destruct (Nat.eq_dec W b) as [EW|EW].
      + subst b. apply (R4 ix vs (Ssame eq_refl) E).
      + apply R3; cbn [fst]; congruence.
    - cbn [eval]. rewrite (IH S). reflexivity.
    - apply andb_true_iff in S as [S1 S2]. cbn [eval]. rewrite (IH1 S1), (IH2 S2). reflexivity.
    - cbn [eval]. rewrite intr_of_not_inquiry. cbn [map opt_all]. rewrite (IH S).
      destruct (aeval s0 k e); [|reflexivity]. apply noninquiry_intr, intr_of_not_inquiry.
    - apply andb_true_iff in S as [S1 S2]. cbn [eval]. rewrite intr_of_not_inquiry.
      cbn [map opt_all]. rewrite (IH1 S1), (IH2 S2).
      destruct (aeval s0 k e1); [|reflexivity]. destruct (aeval s0 k e2); [|reflexivity].
      apply noninquiry_intr, intr_of_not_inquiry.
  Qed.
End Iteration.

Lemma ix_val_range_nth s k : forall ix q0 p lo hi st l t vs,
  range_pos q0 ix = Some (p, lo, hi, st) -> eval s lo = Some l -> eval s st = Some t ->
  opt_all (map (ix_val s k) ix) = Some vs -> nth_error vs (p - q0) = Some (l + k * t) /\ (q0 <= p)%nat.
Proof.
  induction ix as [|i ix IH]; intros q0 p lo hi st l t vs H El Et Hv; [discriminate|].
  cbn [map opt_all] in Hv. destruct (ix_val s k i) as [v|] eqn:Ev; [|discriminate].
  destruct (opt_all (map (ix_val s k) ix)) as [vs'|] eqn:E; [|discriminate]. inversion Hv; subst vs.
  destruct i as [e|lo' hi' st']; cbn [range_pos] in H.
  - destruct (IH (S q0) p lo hi st l t vs' H El Et eq_refl) as [N L]. split; [|lia].
    change (p - q0)%nat with (S p - S q0)%nat. rewrite (Nat.sub_succ_l _ _ L). exact N.
  - inversion H; subst. cbn [ix_val] in Ev. rewrite El, Et in Ev. inversion Ev; subst.
    rewrite Nat.sub_diag. split; [reflexivity | lia].
Qed.

(* the elements of a section with a non-zero stride are distinct locations: their components at the position of
   the range differ *)
Lemma aa_elems_distinct s a p lo hi st l t j lj vs :
  range_pos 0 (aa_ix a) = Some (p, lo, hi, st) -> eval s lo = Some l -> eval s st = Some t -> t <> 0 ->
  opt_all (map (aa_elem s a) (zseq 0 j)) = Some lj -> opt_all (map (ix_val s (Z.of_nat j)) (aa_ix a)) = Some vs ->
  forall lv, In lv lj -> fst lv <> (aa_arr a, vs).
Proof.
  intros RP El Et T0 Hlj Hvs lv Hlv X. destruct (opt_all_in_result _ _ _ _ Hlj Hlv) as [i [Hi Hfi]].
  apply in_zseq in Hi. unfold aa_elem in Hfi.
  destruct (opt_all (map (ix_val s i) (aa_ix a))) as [vs'|] eqn:Hvs'; [|discriminate].
  destruct (aeval s i (aa_rhs a)); [|discriminate]. inversion Hfi; subst lv. cbn [fst] in X. inversion X; subst vs'.
  destruct (ix_val_range_nth s i _ _ _ _ _ _ _ _ _ RP El Et Hvs') as [N1 _].
  destruct (ix_val_range_nth s (Z.of_nat j) _ _ _ _ _ _ _ _ _ RP El Et Hvs) as [N2 _].
  rewrite N1 in N2. inversion N2 as [E]. apply (stride_inj l t _ _ T0) in E. subst i. exact (Z.lt_irrefl _ (proj2 Hi)).
Qed.

Theorem aa_sound_partial_ fx d idx a s s' :
  aa_safe fx d idx a = true -> bnd_ok d s -> aa_sem a s = Some s' ->
  exists prog, aa_apply fx d idx a = Some prog /\ hoare 3 prog s (fun s2 => agree_except [idx] s2 s').
Proof.
  intros Safe Hbnd Sem. unfold aa_safe in Safe. apply andb_true_iff in Safe as [Acc Safe].
  unfold aa_apply. rewrite Acc. unfold aa_sem in Sem.
  destruct (range_pos 0 (aa_ix a)) as [[[[p lo] hi] st]|] eqn:RP; [|discriminate].
  apply andb_true_iff in Safe as [Slhs Srhs].
  destruct (eval s lo) as [l|] eqn:El; [|discriminate]. destruct (eval s hi) as [h|] eqn:Eh; [|discriminate].
  destruct (eval s st) as [t|] eqn:Et; [|discriminate]. destruct (t =? 0) eqn:T0; [discriminate|].
  apply Z.eqb_neq in T0.
  destruct (opt_all (map (aa_elem s a) (zseq 0 (trip_count l h t)))) as [lvs|] eqn:Elvs; [|discriminate].
  inversion Sem; subst s'. clear Sem. eexists. split; [reflexivity|].
  set (W := aa_arr a) in *. set (n := trip_count l h t) in *.
  set (r := ridx_of fx d idx W p lo st).
  destruct (acc_safe_true _ _ _ _ _ _ _ _ _ _ _ Slhs) as [LidxW [Lfr [_ Lrg]]].
  destruct (ix_fresh_range idx W _ _ _ _ (range_pos_in _ _ _ _ _ _ RP) Lfr) as [Flo _].
  (* after j iterations the first j elements are stored *)
  eapply hoare_conseq; [|apply (hoare_do_stores 1 [idx] W idx lo hi st _ s l h t
                                   (fun j lj => opt_all (map (aa_elem s a) (zseq 0 j)) = Some lj)
                                   El Eh Et T0 (or_introl eq_refl))].
  - intros s2 [lj [Hlj HA]]. fold n in Hlj. rewrite Elvs in Hlj. inversion Hlj; subst lj. exact HA.
  - intros j s1 lj Hj Hlj HA R2 Hop. fold n in Hj.
    destruct (opt_all_in _ _ _ (Z.of_nat j) Elvs) as [[locj vj] [Hel _]]; [apply in_zseq_nat, Hj|].
    unfold aa_elem in Hel. fold W in Hel.
    destruct (opt_all (map (ix_val s (Z.of_nat j)) (aa_ix a))) as [vsj|] eqn:Evs; [|discriminate].
    destruct (aeval s (Z.of_nat j) (aa_rhs a)) as [v|] eqn:Ev; [|discriminate]. clear Hel locj vj.
    exists [((W, vsj), v)]. split; [|split; [intros lv [<-|[]]; reflexivity|]].
    { rewrite zseq_snoc, map_app. apply opt_all_app_some; [exact Hlj|].
      cbn [map opt_all]. unfold aa_elem. fold W. rewrite Evs, Ev. reflexivity. }
    pose proof (agree_store_all_bnd _ _ _ _ HA) as R1.
    assert (R3 : forall loc, fst loc <> idx -> fst loc <> W -> val s1 loc = val s loc).
    { intros [b ix] N1 N2. apply Hop; [repeat constructor; exact N1 | exact N2]. }
    (* the element about to be written is not among those already stored *)
    assert (R4 : forall w vs, Some (aa_ix a) = Some w -> opt_all (map (ix_val s (Z.of_nat j)) w) = Some vs ->
                              val s1 (W, vs) = val s (W, vs)).
    { intros w vs Hw Hvs. inversion Hw; subst w.
      rewrite (agree_val _ _ _ _ HA) by (cbn [fst]; intros [X|[]]; congruence).
      apply val_store_all_notin, (aa_elems_distinct s a p lo hi st l t j lj vs RP El Et T0 Hlj Hvs). }
    eapply hoare_assign; [| |apply agree_refl].
    + unfold r. rewrite (lower_ixs_eval fx d idx W W p lo st s s1 (Z.of_nat j) l t Hbnd El Et R1 R2 R3 Flo W (aa_ix a) 0%nat Lrg Lfr).
      exact Evs.
    + unfold r. rewrite (lower_eval fx d idx W W (Some (aa_ix a)) p lo st s s1 (Z.of_nat j) l t Hbnd El Et R1 R2 R3 R4 Flo _ Srhs).
      exact Ev.
  - reflexivity.
Qed.

(* names: 0 = a, 1 = b, 2 = idx, 3 = x;  a(1:9) declared (1:10), b declared (0:9) *)
Definition ex_decls : decls := fun n => match n with O => [(1, 10)] | S O => [(0, 9)] | _ => [] end.
Definition ex_store : store :=
  store_of [((0%nat, [1]), 11); ((0%nat, [2]), 12); ((0%nat, [3]), 13); ((0%nat, [4]), 14); ((1%nat, [0]), 5);
            ((1%nat, [1]), 6); ((1%nat, [2]), 7); ((1%nat, [3]), 8); ((3%nat, []), 2)]
           [(0%nat, [(1, 10)]); (1%nat, [(0, 9)])].

(* a(1:4) = b(0:3) * x + a(1:4): accepted, safe, non-trivial offsets *)
Definition ex_safe : aassign :=
  mkAA 0%nat [IRange (ELit 1) (ELit 4) (ELit 1)]
       (ABin Add (ABin Mul (ASec 1%nat [IRange (ELit 0) (ELit 3) (ELit 1)]) (AVar 3%nat))
                 (ASec 0%nat [IRange (ELit 1) (ELit 4) (ELit 1)])).

Example aa_safe_nonvacuous :
  aa_safe unfixed ex_decls 2%nat ex_safe = true /\ bnd_ok ex_decls ex_store /\
  (exists s', aa_sem ex_safe ex_store = Some s' /\ val s' (0%nat, [2]) = 24).
Proof.
  split; [vm_compute; reflexivity|]. split.
  - intros [|[|b]]; reflexivity.
  - apply some_val_witness. vm_compute. reflexivity.
Qed.

(* the refuting input: a(2:10) = a(1:9) *)
Definition ex_overlap : aassign :=
  mkAA 0%nat [IRange (ELit 2) (ELit 10) (ELit 1)] (ASec 0%nat [IRange (ELit 1) (ELit 9) (ELit 1)]).
