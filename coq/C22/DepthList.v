(* C22 — _create_depth_list: the aggregated depth list demands at least what every individual reader
   (HaloReadAccess) demands.  depth_list_covers_partial: for all reader lists, M, extents -- provided the
   list is not empty (an empty list makes PSyclone fail at code generation, "max()") and not (halo depth 1
   and a GH_INC reader at maximum depth): that case is refuted in Required.v
   (maxm1_exchange_depth_zero_). *)
From Coq Require Import List NArith Bool Lia.
Import ListNotations.
From PV Require Import C22.Model C22.Required C22.Access.
Open Scope N_scope.

Definition ev (M : N) (e : env) (d : hdepth) : N := eval_sd M e (sd_of_hd d).
Definition emax (M : N) (e : env) (l : list hdepth) : N := eval_max M e (map sd_of_hd l).

(* a demand is met: deeper, and annexed dofs are covered explicitly or by an exchange of depth >= 1 *)
Definition meets0 (have need : N * bool) : Prop :=
  fst need <= fst have /\ (snd need = true -> snd have = true \/ 1 <= fst have).

(* readers as HaloReadAccess builds them: only a GH_INC access has needs_clean_outer = False, and it has
   no stencil (hence no variable depth); a maximum-depth reader has no literal/variable part (a stencil
   with a maximum-depth loop is refused); the annexed-only reader has literal depth 1 *)
Definition novar (h : hread) : bool := match hd_var (hr_d h) with None => true | Some _ => false end.
Definition wf (h : hread) : bool :=
  (hr_nco h || novar h)
  && (negb (hd_max (hr_d h)) || ((hd_lit (hr_d h) =? 0) && novar h && negb (hd_ann (hr_d h))))
  && (negb (hd_ann (hr_d h)) || ((hd_lit (hr_d h) =? 1) && novar h)).

Definition maxinc (h : hread) : bool := hd_max (hr_d h) && negb (hr_nco h).

Definition value (M : N) (e : env) (var : option (bool * N)) (lit : N) : N :=
  match var with Some (b, v) => eval_sd M e (SVar b v lit) | None => lit end.

Definition nomax (d : hdepth) : Prop := hd_max d = false /\ hd_ann d = false.

Lemma emax_app : forall M e l x, emax M e (l ++ [x]) = N.max (emax M e l) (ev M e x).
Proof.
  intros M e l x. unfold emax, ev. induction l as [|a r IH]; cbn [map app eval_max fold_right].
  - lia.
  - unfold eval_max in IH. rewrite IH. lia.
Qed.

Lemma emax_cons : forall M e a l, emax M e (a :: l) = N.max (ev M e a) (emax M e l).
Proof. reflexivity. Qed.

Lemma var_eqb_eq : forall x y, var_eqb x y = true -> x = y.
Proof.
  intros [[b1 v1]|] [[b2 v2]|] H; cbn in H; try discriminate; auto.
  apply andb_prop in H. destruct H as [H1 H2]. apply Bool.eqb_prop in H1. apply N.eqb_eq in H2. subst. reflexivity.
Qed.

Lemma ev_plain : forall M e d, hd_max d = false -> hd_maxm1 d = false ->
  ev M e d = value M e (hd_var d) (hd_lit d).
Proof.
  intros M e d H1 H2. unfold ev, sd_of_hd, value. rewrite H1, H2. destruct (hd_var d) as [[b v]|]; reflexivity.
Qed.

Lemma value_mono : forall M e var a b, a <= b -> value M e var a <= value M e var b.
Proof. intros M e [[bb v]|] a b H; cbn; lia. Qed.

Lemma update_first_sound : forall M e acc var lit acc',
  Forall nomax acc -> update_first acc var lit = Some acc' ->
  Forall nomax acc' /\ emax M e acc <= emax M e acc' /\ value M e var lit <= emax M e acc'.
Proof.
  intros M e acc. induction acc as [|d r IH]; intros var lit acc' Hno Hu; cbn [update_first] in Hu.
  - discriminate.
  - inversion Hno as [|? ? Hd Hr]; subst.
    destruct (var_matches d var) eqn:Em.
    + inversion Hu; subst acc'; clear Hu.
      unfold var_matches in Em. apply andb_prop in Em. destruct Em as [Em Ev].
      apply andb_prop in Em. destruct Em as [Em1 Ea]. apply negb_true_iff in Em1.
      apply var_eqb_eq in Ev.
      set (d' := {| hd_max := hd_max d; hd_maxm1 := hd_maxm1 d; hd_var := hd_var d;
                    hd_lit := N.max (hd_lit d) lit; hd_ann := hd_ann d |}).
      assert (Hd' : nomax d') by exact Hd.
      split; [constructor; assumption|].
      rewrite !emax_cons. destruct Hd as [Hdm Hda].
      rewrite (ev_plain M e d Hdm Em1). rewrite (ev_plain M e d' Hdm Em1). cbn [hd_var hd_lit d'].
      pose proof (value_mono M e (hd_var d) (hd_lit d) (N.max (hd_lit d) lit) ltac:(lia)).
      pose proof (value_mono M e (hd_var d) lit (N.max (hd_lit d) lit) ltac:(lia)).
      rewrite Ev in *. split; lia.
    + destruct (update_first r var lit) as [r'|] eqn:Er; [|discriminate].
      inversion Hu; subst acc'; clear Hu.
      destruct (IH var lit r' Hr Er) as [H1 [H2 H3]].
      split; [constructor; assumption|]. rewrite !emax_cons. split; lia.
Qed.

(* the literal used by the loop for a reader *)
Definition loop_lit (h : hread) : N :=
  if negb (hd_lit (hr_d h) =? 0) && negb (hr_nco h) then hd_lit (hr_d h) - 1 else hd_lit (hr_d h).

Lemma depth_loop_step : forall M e h acc,
  Forall nomax acc -> maxinc h = false ->
  Forall nomax (depth_loop [h] acc) /\ emax M e acc <= emax M e (depth_loop [h] acc) /\
  value M e (hd_var (hr_d h)) (loop_lit h) <= emax M e (depth_loop [h] acc).
Proof.
  intros M e h acc Hno Hmi. unfold maxinc in Hmi. cbn [depth_loop]. rewrite Hmi. fold (loop_lit h).
  destruct (update_first acc (hd_var (hr_d h)) (loop_lit h)) as [acc'|] eqn:Eu.
  - exact (update_first_sound M e acc _ _ acc' Hno Eu).
  - destruct ((match hd_var (hr_d h) with Some _ => true | None => false end) || (0 <? loop_lit h)) eqn:Ec.
    + split.
      * apply Forall_app. split; [assumption|]. constructor; [split; reflexivity | constructor].
      * rewrite emax_app. rewrite (ev_plain M e (plain_depth _ _) eq_refl eq_refl).
        cbn [plain_depth hd_var hd_lit]. split; lia.
    + split; [assumption|]. split; [lia|].
      apply orb_false_iff in Ec. destruct Ec as [Ev El]. apply N.ltb_ge in El.
      destruct (hd_var (hr_d h)); [discriminate|]. cbn [value]. lia.
Qed.

Lemma depth_loop_cons : forall h r acc, depth_loop (h :: r) acc = depth_loop r (depth_loop [h] acc).
Proof.
  intros h r acc. cbn [depth_loop].
  destruct (hd_max (hr_d h) && negb (hr_nco h)); [reflexivity|].
  destruct (update_first acc _ _); [reflexivity|].
  destruct (_ || _); reflexivity.
Qed.

Lemma depth_loop_mono : forall M e hs acc, Forall nomax acc ->
  Forall nomax (depth_loop hs acc) /\ emax M e acc <= emax M e (depth_loop hs acc).
Proof.
  intros M e hs. induction hs as [|h r IH]; intros acc Hno.
  - cbn [depth_loop]. split; [assumption | lia].
  - rewrite depth_loop_cons. destruct (maxinc h) eqn:Emi.
    + assert (Hs : depth_loop [h] acc = acc).
      { cbn [depth_loop]. unfold maxinc in Emi. rewrite Emi. reflexivity. }
      rewrite Hs. apply IH. assumption.
    + destruct (depth_loop_step M e h acc Hno Emi) as [H1 [H2 H3]].
      destruct (IH _ H1) as [H4 H5]. split; [assumption | lia].
Qed.

Lemma depth_loop_covers : forall M e hs acc h, Forall nomax acc -> In h hs -> maxinc h = false ->
  value M e (hd_var (hr_d h)) (loop_lit h) <= emax M e (depth_loop hs acc).
Proof.
  intros M e hs. induction hs as [|x r IH]; intros acc h Hno Hin Hmi; [destruct Hin|].
  rewrite depth_loop_cons. destruct Hin as [-> | Hin].
  - destruct (depth_loop_step M e h acc Hno Hmi) as [H1 [H2 H3]].
    destruct (depth_loop_mono M e r _ H1) as [_ H5]. lia.
  - destruct (maxinc x) eqn:Emx.
    + assert (Hs : depth_loop [x] acc = acc).
      { cbn [depth_loop]. unfold maxinc in Emx. rewrite Emx. reflexivity. }
      rewrite Hs. apply IH; assumption.
    + apply IH; [apply (depth_loop_step M e x acc Hno Emx) | assumption | assumption].
Qed.

Lemma wf_elim : forall h, wf h = true ->
  (hr_nco h = true \/ novar h = true) /\
  (hd_max (hr_d h) = true -> hd_lit (hr_d h) = 0 /\ novar h = true /\ hd_ann (hr_d h) = false) /\
  (hd_ann (hr_d h) = true -> hd_lit (hr_d h) = 1 /\ novar h = true).
Proof.
  intros h H. unfold wf in H. apply andb_prop in H. destruct H as [H H3]. apply andb_prop in H. destruct H as [H1 H2].
  split; [apply orb_prop; exact H1|]. split.
  - intros Hm. rewrite Hm in H2. cbn [negb orb] in H2. apply andb_prop in H2. destruct H2 as [H2 Ha].
    apply andb_prop in H2. destruct H2 as [Hl Hv]. apply N.eqb_eq in Hl. apply negb_true_iff in Ha. auto.
  - intros Ha. rewrite Ha in H3. cbn [negb orb] in H3. apply andb_prop in H3. destruct H3 as [Hl Hv].
    apply N.eqb_eq in Hl. auto.
Qed.

(* depth part of a reader's demand is bounded by the value the loop records for it *)
Lemma adj_le_value : forall M e h, wf h = true -> hd_max (hr_d h) = false -> hd_maxm1 (hr_d h) = false ->
  fst (hr_need M e h) <= value M e (hd_var (hr_d h)) (loop_lit h).
Proof.
  intros M e h Hwf Hm Hm1. destruct (wf_elim h Hwf) as [Hnv _].
  unfold hr_need. destruct (hd_ann (hr_d h)); [cbn [fst]; lia|].
  fold (ev M e (hr_d h)). rewrite (ev_plain M e _ Hm Hm1). unfold loop_lit, novar in *.
  destruct (hr_nco h); cbn [negb andb orb fst] in *.
  - rewrite andb_false_r. lia.
  - destruct Hnv as [Hx | Hx]; [discriminate|].
    destruct (hd_var (hr_d h)); [discriminate|]. cbn [value].
    destruct (hd_lit (hr_d h) =? 0) eqn:E0; cbn [negb andb]; lia.
Qed.

Definition start_of (hs : list hread) : list hdepth :=
  if existsb (fun h => hd_max (hr_d h)) hs
  then [ {| hd_max := false; hd_maxm1 := true; hd_var := None; hd_lit := 0; hd_ann := false |} ] else [].

Lemma start_nomax : forall hs, Forall nomax (start_of hs).
Proof. intros hs. unfold start_of. destruct (existsb _ hs); repeat constructor. Qed.

(* every entry of the result is worth at least 1 (the max_depth-1 entry only when M >= 2) *)
Definition entry_pos (M : N) (e : env) (d : hdepth) : Prop := 1 <= ev M e d.

Lemma update_first_pos : forall M e acc var lit acc', update_first acc var lit = Some acc' ->
  Forall (entry_pos M e) acc -> Forall (entry_pos M e) acc'.
Proof.
  intros M e acc. induction acc as [|d r IH]; intros var lit acc' Hu Hp; cbn [update_first] in Hu; [discriminate|].
  inversion Hp as [|? ? Hd Hr]; subst.
  destruct (var_matches d var) eqn:Em.
  - inversion Hu; subst acc'. constructor; [|assumption].
    unfold entry_pos, ev, sd_of_hd in *. cbn [hd_max hd_maxm1 hd_var hd_lit].
    destruct (hd_max d); [assumption|]. destruct (hd_maxm1 d); [assumption|].
    destruct (hd_var d) as [[b v]|]; cbn [eval_sd] in *; lia.
  - destruct (update_first r var lit) as [r'|] eqn:Er; [|discriminate]. inversion Hu; subst acc'.
    constructor; [assumption|]. apply (IH var lit r' Er Hr).
Qed.

Lemma depth_loop_pos : forall M e hs acc, valid_cfg M e ->
  Forall (entry_pos M e) acc -> Forall (entry_pos M e) (depth_loop hs acc).
Proof.
  intros M e hs. induction hs as [|h r IH]; intros acc Hv Hp; [exact Hp|].
  cbn [depth_loop]. destruct (hd_max (hr_d h) && negb (hr_nco h)); [apply IH; assumption|].
  fold (loop_lit h).
  destruct (update_first acc (hd_var (hr_d h)) (loop_lit h)) as [acc'|] eqn:Eu.
  - apply IH; [assumption|]. apply (update_first_pos M e acc _ _ acc' Eu Hp).
  - destruct ((match hd_var (hr_d h) with Some _ => true | None => false end) || (0 <? loop_lit h)) eqn:Ec.
    + apply IH; [assumption|]. apply Forall_app. split; [assumption|]. constructor; [|constructor].
      unfold entry_pos. rewrite (ev_plain M e (plain_depth _ _) eq_refl eq_refl). cbn [plain_depth hd_var hd_lit].
      destruct Hv as [HM He].
      apply orb_prop in Ec. destruct Ec as [Ec | Ec].
      * destruct (hd_var (hr_d h)) as [[b v]|]; [|discriminate]. cbn [value eval_sd]. specialize (He v). destruct b; lia.
      * apply N.ltb_lt in Ec. destruct (hd_var (hr_d h)) as [[b v]|]; cbn [value eval_sd]; lia.
    + apply IH; assumption.
Qed.

Lemma emax_pos : forall M e l, l <> [] -> Forall (entry_pos M e) l -> 1 <= emax M e l.
Proof.
  intros M e [|a r] Hne Hp; [congruence|]. inversion Hp as [|? ? Ha Hr]; subst.
  rewrite emax_cons. unfold entry_pos in Ha. lia.
Qed.

Lemma single_annexed_false : forall l, Forall nomax l -> single_annexed l = false.
Proof.
  intros [|d [|d' r]] H; cbn [single_annexed]; auto. inversion H as [|? ? [_ Ha] _]; subst. exact Ha.
Qed.

Lemma need_le_ev : forall M e h, hd_ann (hr_d h) = false -> fst (hr_need M e h) <= ev M e (hr_d h).
Proof.
  intros M e h Ha. unfold hr_need. rewrite Ha. fold (ev M e (hr_d h)). destruct (hr_nco h); cbn [fst]; lia.
Qed.

Theorem depth_list_covers_partial_ : forall hs h M e,
  In h hs -> valid_cfg M e ->
  forallb wf hs = true ->
  (forall x, In x hs -> hd_maxm1 (hr_d x) = false /\ ev M e (hr_d x) <= M) ->
  create_depth_list hs <> [] ->
  (2 <= M \/ existsb maxinc hs = false) ->
  meets0 (rc_need M e (create_depth_list hs)) (hr_need M e h).
Proof.
  intros hs h M e Hin Hv Hwf Hvalid Hne Hsafe.
  pose proof Hv as [HM He].
  rewrite forallb_forall in Hwf. pose proof (Hwf h Hin) as Hwfh.
  destruct (wf_elim h Hwfh) as [Hnv [Hwmax Hwann]].
  destruct (Hvalid h Hin) as [Hm1 HleM].
  unfold create_depth_list in *.
  destruct (forallb annexed_like hs) eqn:Eall.
  - (* single annexed entry *)
    unfold rc_need. cbn [single_annexed hd_ann].
    rewrite forallb_forall in Eall. specialize (Eall h Hin). unfold annexed_like in Eall.
    unfold meets0, hr_need. destruct (hd_ann (hr_d h)) eqn:Ea; cbn [fst snd].
    + split; [lia | auto].
    + cbn [orb] in Eall. apply andb_prop in Eall. destruct Eall as [El Enco]. apply N.eqb_eq in El.
      apply negb_true_iff in Enco. rewrite Enco in *. cbn [fst snd].
      destruct Hnv as [Hx | Hnv]; [discriminate|].
      assert (Hmx : hd_max (hr_d h) = false).
      { destruct (hd_max (hr_d h)) eqn:Emx; auto. destruct (Hwmax eq_refl) as [Hl0 _]. lia. }
      fold (ev M e (hr_d h)). rewrite (ev_plain M e _ Hmx Hm1). unfold novar in Hnv.
      destruct (hd_var (hr_d h)); [discriminate|]. cbn [value]. rewrite El. split; [cbn; lia | auto].
  - destruct (existsb (fun h0 => hd_max (hr_d h0) && hr_nco h0) hs) eqn:Emn.
    + (* whole halo *)
      unfold rc_need. cbn [single_annexed hd_ann rc_depth map eval_max fold_right sd_of_hd hd_max eval_sd fst snd].
      unfold meets0. cbn [fst snd]. unfold hr_need.
      destruct (hd_ann (hr_d h)) eqn:Ea; cbn [fst snd].
      * split; [lia|]. intros _. right. lia.
      * fold (ev M e (hr_d h)). destruct (hr_nco h); cbn [fst snd]; (split; [lia|]); intros; right; lia.
    + (* the loop *)
      fold (start_of hs) in *.
      pose proof (start_nomax hs) as Hsn.
      destruct (depth_loop_mono M e hs (start_of hs) Hsn) as [Hno Hmono].
      unfold rc_need. rewrite (single_annexed_false _ Hno). unfold rc_depth. fold (emax M e (depth_loop hs (start_of hs))).
      (* all entries are >= 1 *)
      assert (Hpos : 1 <= emax M e (depth_loop hs (start_of hs))).
      { apply emax_pos; [assumption|]. apply depth_loop_pos; [assumption|].
        unfold start_of. destruct (existsb (fun h0 => hd_max (hr_d h0)) hs) eqn:Emx; [|constructor].
        constructor; [|constructor]. unfold entry_pos, ev, sd_of_hd. cbn [hd_max hd_maxm1 eval_sd].
        destruct Hsafe as [H2 | Hnone]; [lia|].
        (* a maximum-depth reader that is neither (max, nco) nor (max, not nco): impossible *)
        exfalso. apply existsb_exists in Emx. destruct Emx as [x [Hx Hxm]].
        assert (Hc1 : (hd_max (hr_d x) && hr_nco x) = false).
        { destruct (hd_max (hr_d x) && hr_nco x) eqn:E; auto.
          assert (existsb (fun h0 => hd_max (hr_d h0) && hr_nco h0) hs = true)
            by (apply existsb_exists; exists x; auto). congruence. }
        assert (Hc2 : maxinc x = false).
        { destruct (maxinc x) eqn:E; auto.
          assert (existsb maxinc hs = true) by (apply existsb_exists; exists x; auto). congruence. }
        unfold maxinc in Hc2. rewrite Hxm in *. destruct (hr_nco x); cbn in *; discriminate. }
      unfold meets0. cbn [fst snd]. split; [|intros _; right; exact Hpos].
      destruct (hd_max (hr_d h)) eqn:Emx.
      * (* maximum-depth reader: not (max, nco) here, so GH_INC: demand M - 1, covered by the max_depth-1 entry *)
        assert (Hnco : hr_nco h = false).
        { destruct (hr_nco h) eqn:E; auto.
          assert (existsb (fun h0 => hd_max (hr_d h0) && hr_nco h0) hs = true)
            by (apply existsb_exists; exists h; rewrite Emx, E; auto). congruence. }
        destruct (Hwmax eq_refl) as [_ [_ Ha]].
        unfold hr_need. rewrite Ha, Hnco. cbn [fst]. unfold sd_of_hd. rewrite Emx. cbn [eval_sd].
        assert (Hst : start_of hs = [ {| hd_max := false; hd_maxm1 := true; hd_var := None; hd_lit := 0; hd_ann := false |} ]).
        { unfold start_of. assert (existsb (fun h0 => hd_max (hr_d h0)) hs = true)
            by (apply existsb_exists; exists h; auto). rewrite H. reflexivity. }
        rewrite Hst in Hmono |- *. unfold emax at 1 in Hmono. cbn [map eval_max fold_right sd_of_hd hd_max hd_maxm1 eval_sd] in Hmono.
        lia.
      * assert (Hmi : maxinc h = false) by (unfold maxinc; rewrite Emx; reflexivity).
        pose proof (depth_loop_covers M e hs (start_of hs) h Hsn Hin Hmi) as Hc.
        pose proof (adj_le_value M e h Hwfh Emx Hm1). lia.
Qed.

(* non-vacuity: a stencil reader (extent variable 0, cell_halo(1) loop) and a GH_INC reader in cell_halo(2) *)
Example depth_list_nonvacuous :
  let h1 := {| hr_d := {| hd_max := false; hd_maxm1 := false; hd_var := Some (false, 0); hd_lit := 1; hd_ann := false |};
               hr_nco := true |} in
  let h2 := {| hr_d := {| hd_max := false; hd_maxm1 := false; hd_var := None; hd_lit := 2; hd_ann := false |};
               hr_nco := false |} in
  forallb wf [h1; h2] = true /\ create_depth_list [h1; h2] <> [] /\ existsb maxinc [h1; h2] = false /\
  map sd_of_hd (create_depth_list [h1; h2]) = [SVar false 0 1; SLit 1].
Proof. vm_compute. repeat split; auto. discriminate. Qed.
