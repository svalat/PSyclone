(* C22 — soundness of the placement predicate: a generated invoke (seen by one field) that satisfies
   [well_placed] never reads a dirty halo / dirty annexed dofs and never leaves a recorded state
   cleaner than the actual one, from ANY admissible initial state, for ANY halo depth M >= 1 and ANY
   run-time stencil extents >= 1.  Induction over the statement list with the abstraction [gamma]. *)
From Coq Require Import List NArith Bool Lia.
Import ListNotations.
From PV Require Import C22.Model.
Open Scope N_scope.

Lemma covers_sound : forall mlo M e h n, valid_cfg M e -> mlo <= M -> covers mlo h n = true ->
  eval_sd M e n <= M -> eval_sd M e n <= N.min (eval_sd M e h) M.
Proof.
  intros mlo M e h n [HM He] Hmlo Hc Hn.
  destruct n as [m | b' v' m | | ].
  - destruct m as [|p].
    + cbn [eval_sd]. lia.
    + cbn [covers] in Hc. destruct h as [k | b v k | | ]; cbn [eval_sd] in *.
      * apply N.leb_le in Hc. lia.
      * apply N.leb_le in Hc. specialize (He v). destruct b; lia.
      * lia.
      * apply N.leb_le in Hc. lia.
  - cbn [covers] in Hc. destruct h as [k | b v k | | ]; cbn [eval_sd] in *; try discriminate.
    + apply andb_prop in Hc. destruct Hc as [Hc Hm]. apply andb_prop in Hc. destruct Hc as [Hb Hv].
      apply N.leb_le in Hm. apply N.eqb_eq in Hv. apply Bool.eqb_prop in Hb. subst. destruct b'; lia.
    + lia.
  - cbn [covers] in Hc. destruct h; cbn [eval_sd] in *; try discriminate. lia.
  - cbn [covers] in Hc. destruct h; cbn [eval_sd] in *; try discriminate; lia.
Qed.

Lemma ge1_sound : forall mlo M e d, valid_cfg M e -> mlo <= M -> ge1 mlo d = true ->
  1 <= N.min (eval_sd M e d) M.
Proof.
  intros mlo M e d [HM He] Hmlo H. destruct d as [n | b v n | | ]; cbn [ge1 eval_sd] in *.
  - apply N.leb_le in H. lia.
  - specialize (He v). destruct b; lia.
  - lia.
  - apply N.leb_le in H. lia.
Qed.

Definition gamma (M : N) (e : env) (a : astate) (s : fstate) : Prop :=
  (forall d, In d (lb a) -> N.min (eval_sd M e d) M <= fa s) /\
  (annk a = true -> fann s = true) /\
  (rok a = true -> fr s <= fa s) /\
  fr s <= M /\ fa s <= M /\ (1 <= fa s -> fann s = true).

Lemma covered_sound : forall mlo M e a s n, valid_cfg M e -> mlo <= M -> gamma M e a s ->
  covered mlo (lb a) n = true -> eval_sd M e n <= M -> eval_sd M e n <= fa s.
Proof.
  intros mlo M e a s n Hv Hmlo Hg Hc Hn. destruct Hg as [Hlb _].
  assert (Hz : n = SLit 0 \/ existsb (fun h => covers mlo h n) (lb a) = true).
  { unfold covered in Hc. destruct n as [m| | | ]; auto. destruct m; auto. }
  destruct Hz as [-> | Hex].
  - cbn [eval_sd]. lia.
  - apply existsb_exists in Hex. destruct Hex as [h [Hin Hcov]].
    pose proof (covers_sound mlo M e h n Hv Hmlo Hcov Hn). specialize (Hlb h Hin). lia.
Qed.

Lemma ge1_list_sound : forall mlo M e a s, valid_cfg M e -> mlo <= M -> gamma M e a s ->
  existsb (ge1 mlo) (lb a) = true -> fann s = true.
Proof.
  intros mlo M e a s Hv Hmlo Hg Hex. apply existsb_exists in Hex. destruct Hex as [h [Hin Hg1]].
  destruct Hg as [Hlb [_ [_ [_ [_ Hinv]]]]]. apply Hinv.
  pose proof (ge1_sound mlo M e h Hv Hmlo Hg1). specialize (Hlb h Hin). lia.
Qed.

Lemma eval_max_ge : forall M e ds d, In d ds -> eval_sd M e d <= eval_max M e ds.
Proof.
  intros M e ds. induction ds as [|x r IH]; intros d Hin; [destruct Hin|].
  cbn [eval_max fold_right]. destruct Hin as [-> | Hin].
  - lia.
  - specialize (IH d Hin). unfold eval_max in IH. lia.
Qed.

Lemma has_max_sound : forall M e a s, gamma M e a s ->
  existsb (sdepth_eqb SMax) (lb a) = true -> fa s = M.
Proof.
  intros M e a s Hg Hex. apply existsb_exists in Hex. destruct Hex as [h [Hin Heq]].
  destruct h; cbn [sdepth_eqb] in Heq; try discriminate.
  destruct Hg as [Hlb [_ [_ [_ [Ha _]]]]]. specialize (Hlb SMax Hin). cbn [eval_sd] in Hlb. lia.
Qed.

Lemma step_sound : forall mlo M e a s st a', valid_cfg M e -> mlo <= M -> gamma M e a s ->
  astep mlo a st = Some a' ->
  match step M e s (amk a) st with
  | Ok s' am' => gamma M e a' s' /\ am' = amk a'
  | Invalid => True
  | DirtyRead | RecordedCleaner => False
  end.
Proof.
  intros mlo M e a s st a' Hv Hmlo Hg Hst.
  pose proof Hg as Hg0.
  destruct Hg as [Hlb [Hann [Hrok [HrM [HaM Hinv]]]]].
  destruct st as [ds checked | reads write | | d]; cbn [astep] in Hst.
  - (* SHx *)
    destruct (rok a) eqn:Erok; [|discriminate]. inversion Hst; subst a'; clear Hst.
    specialize (Hrok eq_refl). cbn [step].
    destruct (fa s <? fr s) eqn:E1; [apply N.ltb_lt in E1; lia|].
    set (dd := N.min (eval_max M e ds) M).
    assert (Hcase : forall s', (fa s' = fa s /\ fr s' = fr s /\ fann s' = fann s /\ dd <= fa s) \/
                               (fa s' = N.max (fa s) dd /\ fr s' = N.max (fr s) dd /\ fann s' = true /\ 1 <= dd) ->
                               gamma M e {| lb := ds ++ lb a; annk := annk a || existsb (ge1 mlo) ds; rok := true; amk := false |} s').
    { intros s' Hc. unfold gamma; cbn [lb annk rok amk].
      assert (Hdd : dd <= fa s') by (destruct Hc as [[? [? [? ?]]] | [? [? [? ?]]]]; lia).
      assert (Hge : fa s <= fa s') by (destruct Hc as [[? [? [? ?]]] | [? [? [? ?]]]]; lia).
      repeat split.
      - intros d Hin. apply in_app_or in Hin. destruct Hin as [Hin | Hin].
        + pose proof (eval_max_ge M e ds d Hin). unfold dd in Hdd. lia.
        + specialize (Hlb d Hin). lia.
      - intros Hk. apply orb_prop in Hk. destruct Hk as [Hk | Hk].
        + destruct Hc as [[? [? [-> ?]]] | [? [? [-> ?]]]]; auto.
        + apply existsb_exists in Hk. destruct Hk as [h [Hin Hg1]].
          pose proof (ge1_sound mlo M e h Hv Hmlo Hg1). pose proof (eval_max_ge M e ds h Hin).
          destruct Hc as [[Ha' [? [-> ?]]] | [? [? [-> ?]]]]; auto.
          apply Hinv. unfold dd in *. lia.
      - intros _. destruct Hc as [[-> [-> [? ?]]] | [-> [-> [? ?]]]]; lia.
      - destruct Hc as [[? [-> [? ?]]] | [? [-> [? ?]]]]; unfold dd in *; lia.
      - destruct Hc as [[-> [? [? ?]]] | [-> [? [? ?]]]]; unfold dd in *; lia.
      - intros H1. destruct Hc as [[Ha' [? [-> ?]]] | [? [? [-> ?]]]]; auto. apply Hinv. lia. }
    destruct (checked && negb (fr s <? dd)) eqn:E2.
    + split; [|reflexivity]. apply Hcase. left.
      apply andb_prop in E2. destruct E2 as [_ E2]. apply negb_true_iff in E2. apply N.ltb_ge in E2.
      repeat split; lia.
    + destruct (dd =? 0) eqn:E3.
      * apply N.eqb_eq in E3. split; [|reflexivity]. apply Hcase. left. repeat split; lia.
      * apply N.eqb_neq in E3. split; [|reflexivity]. apply Hcase. right. cbn [fa fr fann].
        repeat split; lia.
  - (* SLoop *)
    destruct (amk a && negb (rok a)) eqn:E0; [discriminate|].
    destruct (forallb _ reads) eqn:Ereads; [|discriminate].
    cbn [step].
    assert (Hrc : amk a && (fa s <? fr s) = false).
    { destruct (amk a); cbn in *; auto. apply negb_false_iff in E0. specialize (Hrok E0).
      apply N.ltb_ge. lia. }
    rewrite Hrc.
    destruct (forallb (read_valid M e) reads) eqn:Evalid; cbn [negb]; [|exact I].
    assert (Hok : forallb (read_ok M e s) reads = true).
    { apply forallb_forall. intros rd Hin.
      rewrite forallb_forall in Ereads. specialize (Ereads rd Hin).
      rewrite forallb_forall in Evalid. specialize (Evalid rd Hin).
      unfold read_valid in Evalid. apply N.leb_le in Evalid.
      apply andb_prop in Ereads. destruct Ereads as [Hcov Hna].
      unfold read_ok. apply andb_true_intro. split.
      - apply N.leb_le. apply (covered_sound mlo M e a s (fst rd) Hv Hmlo Hg0 Hcov Evalid).
      - destruct (snd rd); cbn [negb orb] in *; auto.
        apply orb_prop in Hna. destruct Hna as [Hk | Hk]; auto.
        apply (ge1_list_sound mlo M e a s Hv Hmlo Hg0 Hk). }
    rewrite Hok. cbn [negb].
    destruct write as [[d ann]|].
    + inversion Hst; subst a'; clear Hst.
      destruct (M <? eval_sd M e d) eqn:EM; [exact I|]. apply N.ltb_ge in EM.
      split; [|reflexivity]. unfold gamma; cbn [lb annk rok amk fa fr fann]. repeat split.
      * intros d0 [<- | []]. lia.
      * intros Hk. apply orb_prop in Hk. destruct Hk as [-> | Hk]; [reflexivity|].
        pose proof (ge1_sound mlo M e d Hv Hmlo Hk). apply orb_true_iff. right. apply N.leb_le. lia.
      * discriminate.
      * exact HrM.
      * exact EM.
      * intros H1. apply orb_true_iff. right. apply N.leb_le. exact H1.
    + inversion Hst; subst a'; clear Hst. split; [|reflexivity].
      unfold gamma; cbn [lb annk rok amk]. repeat split; auto.
  - (* SDirty *)
    inversion Hst; subst a'; clear Hst. cbn [step]. split; [|reflexivity].
    unfold gamma; cbn [lb annk rok amk fa fr fann]. repeat split; auto; lia.
  - (* SClean *)
    inversion Hst; subst a'; clear Hst. cbn [step].
    destruct (M <? eval_sd M e d) eqn:EM; [exact I|]. apply N.ltb_ge in EM.
    split; [|reflexivity]. unfold gamma; cbn [lb annk rok amk fa fr fann]. repeat split; auto; try lia.
    intros Hk. apply andb_prop in Hk. destruct Hk as [Hk1 Hk2].
    pose proof (covered_sound mlo M e a s d Hv Hmlo Hg0 Hk2 EM) as Hd.
    apply orb_prop in Hk1. destruct Hk1 as [Hk1 | Hk1].
    + specialize (Hrok Hk1). lia.
    + pose proof (has_max_sound M e a s Hg0 Hk1). lia.
Qed.

(* [RecordedCleaner] at the end of the run is not excluded here but tied to [rok af = false], which
   [well_placed] then rules out *)
Lemma arun_sound : forall mlo M e p a s af, valid_cfg M e -> mlo <= M -> gamma M e a s ->
  arun mlo p a = Some af ->
  match run M e p s (amk a) with
  | Ok s' _ => gamma M e af s'
  | Invalid => True
  | DirtyRead => False
  | RecordedCleaner => rok af = false
  end.
Proof.
  intros mlo M e p. induction p as [|st r IH]; intros a s af Hv Hmlo Hg Hrun.
  - cbn [arun] in Hrun. inversion Hrun; subst af. cbn [run].
    destruct (fa s <? fr s) eqn:E.
    + apply N.ltb_lt in E. destruct (rok a) eqn:Er; auto.
      destruct Hg as [_ [_ [Hrok _]]]. specialize (Hrok Er). lia.
    + exact Hg.
  - cbn [arun] in Hrun. destruct (astep mlo a st) as [a1|] eqn:Est; [|discriminate].
    pose proof (step_sound mlo M e a s st a1 Hv Hmlo Hg Est) as Hs. cbn [run].
    destruct (step M e s (amk a) st) as [s1 am1 | | | ]; try contradiction; auto.
    destruct Hs as [Hg1 ->]. apply (IH a1 s1 af Hv Hmlo Hg1 Hrun).
Qed.

Lemma init_gamma : forall cfg M s, init_ok cfg M s ->
  forall e, gamma M e {| lb := []; annk := cfg; rok := true; amk := false |} s.
Proof.
  intros cfg M s [H1 [H2 [H3 H4]]] e. unfold gamma; cbn [lb annk rok amk]. repeat split; auto.
  - intros d [].
  - lia.
Qed.

(* never reads dirty + recorded no cleaner, for all M, extents and initial states *)
Theorem placement_safe_ : forall mlo cfg cont p, well_placed mlo cfg cont p = true ->
  forall M e s0, valid_cfg M e -> mlo <= M -> init_ok cfg M s0 ->
  match run M e p s0 false with
  | Ok s _ => fr s <= fa s /\ (cfg && cont = true -> fann s = true)
  | Invalid => True
  | DirtyRead | RecordedCleaner => False
  end.
Proof.
  intros mlo cfg cont p Hwp M e s0 Hv Hmlo Hi. unfold well_placed in Hwp.
  destruct (arun mlo p _) as [af|] eqn:Hrun; [|discriminate].
  apply andb_prop in Hwp. destruct Hwp as [Hrok Hex].
  pose proof (arun_sound mlo M e p _ s0 af Hv Hmlo (init_gamma cfg M s0 Hi e) Hrun) as H.
  cbn [amk] in H.
  destruct (run M e p s0 false) as [s am | | | ]; auto.
  - split.
    + destruct H as [_ [_ [Hr _]]]. apply Hr. exact Hrok.
    + intros Hc. rewrite Hc in Hex. cbn [negb orb] in Hex.
      apply orb_prop in Hex. destruct Hex as [Hk | Hk].
      * destruct H as [_ [Ha _]]. apply Ha. exact Hk.
      * apply (ge1_list_sound mlo M e af s Hv Hmlo H Hk).
  - congruence.
Qed.
