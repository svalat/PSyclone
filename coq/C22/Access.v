(* C22 — PSyclone's halo read / write information against the ground truth.
   read_access_covers_partial : outside the gap [read_gap], what HaloReadAccess records for a reader is at
                                least what the kernel argument really reads (all M, extents);
   read_access_refuted        : in the gap (a kernel whose only updates are GH_WRITE to DISCONTINUOUS
                                fields, reading a continuous field over owned cells) it records nothing
                                although annexed dofs are read;
   halo_read_false_sound      : the same for LFRicLoop._halo_read_access (which decides whether an
                                exchange is created at all);
   write_belief_sound         : what HaloWriteAccess claims is left clean is no more than what is;
   marks_no_cleaner           : the set_dirty/set_clean calls of gen_mark_halos_clean_dirty record a state
                                no cleaner than what the loop computed.
   The structural premises ([compat_r], [compat_w]) relate the two descriptions of the same loop /
   argument; they are evaluated on every reader and writer of the generated invokes by the check. *)
From Coq Require Import List NArith Bool Lia.
Import ListNotations.
From PV Require Import C22.Model C22.Required.
Open Scope N_scope.

Definition ld_of (ubd : option N) : ldepth := match truthy ubd with Some d => LD d | None => LDMax end.

(* how a loop's bound name becomes the generated bound (LFRicLoop._upper_bound_fortran) *)
Definition lkind_of (ub : bound) (ubd : option N) : option lkind :=
  match ub with
  | BNcells | BNcolour => Some (KCells (LD 0))
  | BCellHalo | BColourHalo => Some (KCells (ld_of ubd))
  | BNdofs => Some KDofsOwned
  | BNannexed => Some KDofsAnnexed
  | BDofHalo => Some (KDofsHalo (ld_of ubd))
  | _ => None
  end.

(* what a HaloReadAccess demands at run time: (depth, annexed dofs) *)
Definition hr_need (M : N) (e : env) (h : hread) : N * bool :=
  if hd_ann (hr_d h) then (0, true)
  else
    let full := eval_sd M e (sd_of_hd (hr_d h)) in
    if hr_nco h then (full, false) else (full - 1, true).

(* a demand is met by a recorded demand: deeper, and annexed dofs are covered explicitly, by a depth >= 1
   exchange, or because COMPUTE_ANNEXED_DOFS keeps them clean *)
Definition meets (cfg : bool) (have need : N * bool) : Prop :=
  fst need <= fst have /\ (snd need = true -> snd have = true \/ 1 <= fst have \/ cfg = true).

Definition is_cells (k : lkind) : bool := match k with KCells _ => true | _ => false end.

(* same argument / loop seen by PSyclone (rarg) and by the ground truth (lkind, targ) *)
Definition compat_r (cfg : bool) (a : rarg) (k : lkind) (t : targ) : bool :=
  access_eqb (r_acc a) (t_acc t)
  && negb (r_fine a)
  && (match r_stencil a, t_stencil t with
      | None, None => true
      | Some (ELit n), Some (ELit m) => (n =? m) && (1 <=? n)
      | Some (EVar v), Some (EVar w) => v =? w
      | _, _ => false
      end)
  && (negb (r_disc a) || negb (t_cont t))                       (* discontinuous metadata => discontinuous field *)
  && (match r_acc a with AReadWrite => r_disc a || r_dofkern a | _ => true end) (* GH_READWRITE: discontinuous spaces, or pointwise (built-ins) *)
  && (match r_acc a with AInc | AReadWrite | AReadInc => negb (r_auw a) | _ => true end)
  && (match r_stencil a with Some _ => access_eqb (r_acc a) ARead && is_cells k | None => true end)
  && Bool.eqb (r_dofkern a) (negb (is_cells k))
  && (match r_ub a with
      | BNannexed => cfg                                          (* nannexed only with COMPUTE_ANNEXED_DOFS *)
      | BNcolour => negb (t_cont t) || (access_eqb (r_acc a) ARead && t_ghwc t) || access_eqb (r_acc a) AWrite
      | _ => true
      end).

(* the gap: kernel with all_updates_are_writes that does NOT modify a continuous field, reading a continuous
   field without stencil over owned cells *)
Definition read_gap (a : rarg) (t : targ) : bool :=
  access_eqb (r_acc a) ARead && r_auw a && negb (t_ghwc t) && t_cont t &&
  match r_ub a, r_stencil a with BNcells, None => true | _, _ => false end.

Lemma and9 : forall a b c d e f g h i : bool,
  a && b && c && d && e && f && g && h && i = true ->
  a = true /\ b = true /\ c = true /\ d = true /\ e = true /\ f = true /\ g = true /\ h = true /\
  i = true.
Proof.
  intros a b c d e f g h i H.
  repeat (apply andb_prop in H; destruct H as [H ?]). repeat split; assumption.
Qed.

Lemma access_eqb_eq : forall x y, access_eqb x y = true -> x = y.
Proof. intros [] []; cbn; congruence. Qed.

(* a halo depth is Python-falsy (no depth: the maximum) or positive *)
Lemma truthy_cases : forall ubd, truthy ubd = None \/ exists p, truthy ubd = Some (N.pos p).
Proof. intros [[|p]|]; cbn; eauto. Qed.

(* The theorems below are decision tables: the records are taken apart, the premises unfolded, and the flags
   split.  A flag is split only where the hypothesis that computes the recorded information mentions it. *)
Ltac split_if_in H b := match type of H with context [b] => destruct b | _ => idtac end.

(* keeps [n - 1] and [n + m] of the depths as they are until [lia] sees them *)
Local Opaque N.sub N.add N.mul.

Theorem read_access_covers_partial_ : forall cfg a k t h d ann,
  lkind_of (r_ub a) (r_ubd a) = Some k -> compat_r cfg a k t = true -> read_gap a t = false ->
  read_access a = Some h -> true_need k t = Some (d, ann) ->
  forall M e, valid_cfg M e -> meets cfg (hr_need M e h) (eval_sd M e d, ann).
Proof.
  intros cfg a k t h d ann Hk Hc Hgap Hra Htn M e [HM He].
  destruct a as [acc ub ubd disc dofk auw st fine], t as [tacc cont tst ghwc].
  unfold compat_r, read_gap, lkind_of, read_access, true_need, ld_of in *.
  cbn [r_acc r_ub r_ubd r_disc r_dofkern r_auw r_stencil r_fine t_acc t_cont t_stencil t_ghwc] in *.
  apply and9 in Hc as (Hacc & Hfine & Hst & Hdisc & Hrw & Hauw & Hstc & Hdof & Hub).
  apply access_eqb_eq in Hacc. subst tacc. apply negb_true_iff in Hfine. subst fine.
  pose proof (truthy_cases ubd) as Hubd.
  assert (Hstencil : st = tst /\ match st with Some (ELit n) => 1 <= n | _ => True end).
  { destruct st as [[n|v]|], tst as [[m|w]|]; try discriminate; auto.
    - apply andb_prop in Hst as [H1 H2]. apply N.eqb_eq in H1. apply N.leb_le in H2. subst; auto.
    - apply N.eqb_eq in Hst. subst; auto. }
  destruct Hstencil as [<- Hn]. clear Hst.
  destruct ub; try discriminate Hk; injection Hk as <-; cbn [halo_bound is_cells negb] in *;
    apply Bool.eqb_prop in Hdof; subst dofk.
  all: try (destruct Hubd as [Et | [dd Et]]; rewrite Et in * ).
  all: destruct st as [[n|v]|]; try (apply andb_prop in Hstc as [Hstc _]; apply access_eqb_eq in Hstc; subst acc);
       try discriminate; try specialize (He v).
  all: try destruct acc; cbn [access_eqb andb orb negb] in *; try discriminate.
  all: split_if_in Hra disc; try discriminate; split_if_in Hra auw; try discriminate; cbn [andb orb negb] in *.
  all: split_if_in Htn ghwc; cbn [andb orb negb] in *.
  all: injection Hra as <-; injection Htn as <- <-; unfold meets, hr_need; 
       cbn [hr_d hr_nco hd_ann sd_of_hd sd_of_ld hd_max hd_maxm1 hd_var hd_lit eval_sd fst snd].
  all: split; [lia|].
  all: try discriminate.
  all: intros ->; cbn [negb andb orb] in *; try discriminate; auto; try (right; left; lia).
  all: destruct cfg; auto; discriminate.
Qed.

(* non-vacuity: a GH_READ continuous argument of a GH_INC kernel in the default cell_halo(1) loop *)
Example read_access_covers_nonvacuous :
  let a := {| r_acc := ARead; r_ub := BCellHalo; r_ubd := Some 1; r_disc := false; r_dofkern := false;
              r_auw := false; r_stencil := None; r_fine := false |} in
  let t := {| t_acc := ARead; t_cont := true; t_stencil := None; t_ghwc := false |} in
  lkind_of (r_ub a) (r_ubd a) = Some (KCells (LD 1)) /\ compat_r false a (KCells (LD 1)) t = true /\
  read_gap a t = false /\ (exists h, read_access a = Some h) /\
  true_need (KCells (LD 1)) t = Some (SLit 1, true).
Proof. vm_compute. repeat split; auto. eexists; reflexivity. Qed.

(* The unchanged code in the gap: a kernel that only GH_WRITEs a discontinuous field (all_updates_are_writes)
   reads a continuous field over owned cells: annexed dofs are read, nothing is recorded. *)
Definition gap_reader : rarg :=
  {| r_acc := ARead; r_ub := BNcells; r_ubd := None; r_disc := false; r_dofkern := false;
     r_auw := true; r_stencil := None; r_fine := false |}.
Definition gap_truth : targ := {| t_acc := ARead; t_cont := true; t_stencil := None; t_ghwc := false |}.

Theorem read_access_refuted_ : exists cfg a k t h d ann M e,
  lkind_of (r_ub a) (r_ubd a) = Some k /\ compat_r cfg a k t = true /\
  read_access a = Some h /\ true_need k t = Some (d, ann) /\ valid_cfg M e /\
  ~ meets cfg (hr_need M e h) (eval_sd M e d, ann).
Proof.
  exists false, gap_reader, (KCells (LD 0)), gap_truth.
  eexists. exists (SLit 0), true, 1, (fun _ => 1).
  split; [reflexivity|]. split; [vm_compute; reflexivity|]. split; [vm_compute; reflexivity|].
  split; [vm_compute; reflexivity|]. split; [split; [lia | intros; lia]|].
  unfold meets. vm_compute. intros [_ H]. destruct (H eq_refl) as [H1 | [H1 | H1]]; try discriminate.
  apply H1. reflexivity.
Qed.

(* LFRicLoop._halo_read_access decides whether create_halo_exchanges considers the field at all *)
Definition larg_of (a : rarg) : larg :=
  {| l_acc := r_acc a; l_stencil := (match r_stencil a with Some _ => true | None => false end);
     l_ub := r_ub a; l_disc := r_disc a; l_cellcol := negb (r_dofkern a); l_auw := r_auw a |}.

Theorem halo_read_false_sound_ : forall cfg a k t d ann,
  lkind_of (r_ub a) (r_ubd a) = Some k -> compat_r cfg a k t = true -> read_gap a t = false ->
  halo_read_access cfg (larg_of a) = Some false -> true_need k t = Some (d, ann) ->
  forall M e, eval_sd M e d = 0 /\ (ann = true -> cfg = true).
Proof.
  intros cfg a k t d ann Hk Hc Hgap Hh Htn M e.
  destruct a as [acc ub ubd disc dofk auw st fine], t as [tacc cont tst ghwc].
  unfold compat_r, read_gap, lkind_of, halo_read_access, larg_of, true_need in *.
  cbn [r_acc r_ub r_ubd r_disc r_dofkern r_auw r_stencil r_fine t_acc t_cont t_stencil t_ghwc
       l_acc l_stencil l_ub l_disc l_cellcol l_auw] in *.
  apply and9 in Hc as (Hacc & _ & Hst & Hdisc & _ & Hauw & Hstc & Hdof & Hub).
  apply access_eqb_eq in Hacc. subst tacc.
  (* a stencil access is always considered (or refused), and so is a loop into the halo *)
  destruct st.
  { apply andb_prop in Hstc as [Hstc _]. apply access_eqb_eq in Hstc. subst acc. destruct ub; discriminate Hh. }
  destruct tst; [discriminate|].
  destruct ub; try discriminate Hk; injection Hk as <-; cbn [halo_bound] in Hh;
    try (destruct acc; discriminate Hh).
  all: cbn [is_cells negb] in Hdof; apply Bool.eqb_prop in Hdof; subst dofk.
  all: destruct acc; try (injection Htn as <- <-; split; [reflexivity | discriminate]).
  all: cbn [access_eqb andb orb negb] in *.
  all: destruct disc, auw, cont, ghwc, cfg; try discriminate;
       injection Htn as <- <-; split; reflexivity || discriminate.
Qed.

Definition compat_w (cfg : bool) (w : warg) (k : lkind) (t : targ) : bool :=
  negb (w_fine w)
  && (negb (w_disc w) || negb (t_cont t))
  && Bool.eqb (w_cellcol w) (is_cells k)
  && (match t_acc t with ARead => false | AReadWrite => w_disc w || negb (w_cellcol w) | _ => true end)
  (* under COMPUTE_ANNEXED_DOFS no loop writes a continuous field on owned dofs / owned cells only with
     an increment (LFRicLoop.load: nannexed for built-ins, cell_halo(1) for increments) *)
  && (negb cfg || negb (t_cont t) ||
      match k, t_acc t with
      | KDofsOwned, _ => false
      | KCells (LD 0), (AInc | AReadInc) => false
      | _, _ => true
      end).

Lemma and5 : forall a b c d e : bool, a && b && c && d && e = true ->
  a = true /\ b = true /\ c = true /\ d = true /\ e = true.
Proof. intros a b c d e H. repeat (apply andb_prop in H; destruct H as [H ?]). repeat split; assumption. Qed.

(* the two descriptions of a writer, case by case over the loop bound: the premises are unfolded, the halo
   depth is [None] (maximum) or positive, and the kind [k] is replaced by its value *)
Ltac writer_cases w t Hk Hc :=
  destruct w as [disc cellcol ub ubd fine], t as [acc cont tst ghwc];
  unfold compat_w, lkind_of, ld_of in *; cbn [w_disc w_cellcol w_ub w_ubd w_fine t_acc t_cont] in *;
  apply and5 in Hc as (Hfine & Hdisc & Hcc & Hacc & Hcfg);
  apply negb_true_iff in Hfine; subst fine; apply Bool.eqb_prop in Hcc; subst cellcol;
  destruct ub; try discriminate Hk;
  try (destruct (truthy_cases ubd) as [Et | [p Et]]; rewrite Et in * );
  injection Hk as <-.

(* what HaloWriteAccess claims (used by [required]) is no cleaner than what the loop really leaves *)
Theorem write_belief_sound_ : forall cfg w k t,
  lkind_of (w_ub w) (w_ubd w) = Some k -> compat_w cfg w k t = true ->
  forall M e,
  sat (eval_sd M e (fst (true_after k t)), snd (true_after k t) || (1 <=? eval_sd M e (fst (true_after k t))))
      (after_write cfg M (write_access w)).
Proof.
  intros cfg w k t Hk Hc M e.
  writer_cases w t Hk Hc.
  all: unfold sat, after_write, write_access;
       cbn [w_disc w_cellcol w_ub w_ubd w_fine hw_max hw_lit hw_dirty_outer halo_bound is_cells true_after
            t_acc t_cont andb negb orb fst snd] in *; try rewrite Et.
  all: destruct acc; try discriminate; destruct disc, cont; try discriminate;
       cbn [negb orb andb sd_of_ld eval_sd fst snd] in *.
  all: split; [lia|].
  all: try (destruct cfg; discriminate).
  all: intros _; try reflexivity; apply orb_true_iff; right; apply N.leb_le; lia.
Qed.

(* the recorded state after the set_dirty/set_clean calls generated for a written field is no cleaner than
   what the loop computed: r' = max (if set_dirty then 0 else r) clean <= a'  (r <= M always) *)
Theorem marks_no_cleaner_ : forall cfg w k t,
  lkind_of (w_ub w) (w_ubd w) = Some k -> compat_w cfg w k t = true ->
  forall M e r, r <= M ->
  let mk := marks (write_access w) in
  N.max (if fst mk then 0 else r) (match snd mk with Some d => eval_sd M e d | None => 0 end)
    <= eval_sd M e (fst (true_after k t)).
Proof.
  intros cfg w k t Hk Hc M e r Hr.
  writer_cases w t Hk Hc.
  all: unfold marks, write_access;
       cbn [w_disc w_cellcol w_ub w_ubd w_fine hw_max hw_lit hw_dirty_outer halo_bound is_cells true_after
            t_acc t_cont andb negb orb fst snd N.eqb] in *; try rewrite Et.
  all: destruct acc; try discriminate; destruct disc, cont; try discriminate;
       cbn [negb orb andb sd_of_ld eval_sd fst snd N.eqb] in *.
  all: repeat match goal with |- context [0 <? ?x] => destruct (N.ltb_spec 0 x) end; cbn [eval_sd]; lia.
Qed.

(* With the repair of props/C22/fix.patch (the GH_WRITE special case only applies when the loop's
   iteration-space field is not discontinuous) the condition PSyclone evaluates coincides with the ground
   truth's kernel kind, the gap is empty and both statements hold at full strength. *)
Lemma read_gap_closed : forall a t, r_auw a = t_ghwc t -> read_gap a t = false.
Proof.
  intros a t H. unfold read_gap. rewrite H. destruct (access_eqb (r_acc a) ARead); cbn [andb]; auto.
  destruct (t_ghwc t); cbn [andb negb]; auto.
Qed.

