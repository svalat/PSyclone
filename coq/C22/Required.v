(* C22 — the decision tree of LFRicHaloExchange.required.
   [rc_need]: what the aggregated read information (a list of HaloDepth) demands at run time;
   [after_write]: what PSyclone believes the previous writer left clean (HaloWriteAccess).
   required_sound_partial: when [required] answers "not required" the belief covers the demand, for
   all M and extents -- provided the list is not the single "max_depth-1" entry (req_safe).
   required_refuted: without that condition the statement is FALSE of the code as it is today. *)
From Coq Require Import List NArith Bool Lia.
Import ListNotations.
From PV Require Import C22.Model.
Open Scope N_scope.

(* a demand / a state: (halo depth, annexed dofs) *)
Definition sat (st need : N * bool) : Prop :=
  fst need <= fst st /\ (snd need = true -> snd st = true).

Definition rc_depth (M : N) (e : env) (rc : list hdepth) : N :=
  eval_max M e (map sd_of_hd rc).

(* the single annexed entry only demands clean annexed dofs (its literal 1 is the depth of the
   exchange that is the only way to clean them) *)
Definition rc_need (M : N) (e : env) (rc : list hdepth) : N * bool :=
  if single_annexed rc then (0, true) else (rc_depth M e rc, false).

Definition after_write (cfg : bool) (M : N) (c : hwrite) : N * bool :=
  let full := if hw_max c then M else hw_lit c in
  ((if hw_dirty_outer c then full - 1 else full),
   cfg || hw_max c || (1 <=? hw_lit c)).

Definition req_safe (rc : list hdepth) : bool :=
  match rc with [d] => negb (hd_maxm1 d) | _ => true end.

Lemma single_cases : forall rc, single_annexed rc = true -> exists d, rc = [d] /\ hd_ann d = true.
Proof.
  intros rc H. destruct rc as [|d [|d' r]]; cbn in H; try discriminate. exists d. auto.
Qed.

Lemma required_gen_sound : forall fixed cfg rc w k,
  (fixed = true \/ req_safe rc = true) -> required_gen fixed cfg rc w = (false, k) ->
  forall M e s0, (cfg = true -> snd s0 = true) ->
  rc_depth M e rc <= M ->
  sat (match w with Some c => after_write cfg M c | None => s0 end) (rc_need M e rc).
Proof.
  intros fixed cfg rc w k Hsafe Hreq M e s0 Hs0 Hval.
  unfold required_gen in Hreq.
  destruct (cfg && single_annexed rc) eqn:E1.
  - apply andb_prop in E1. destruct E1 as [-> Hsa]. unfold rc_need. rewrite Hsa.
    destruct w as [c|]; unfold sat; cbn [fst snd after_write]; split; auto; try lia.
  - destruct w as [c|]; [|discriminate].
    destruct (hw_max c) eqn:Emax.
    + destruct (hw_dirty_outer c) eqn:Edo; cbn [negb] in Hreq.
      * destruct rc as [|d r]; [discriminate|]. destruct (hd_max d); discriminate.
      * unfold rc_need. destruct (single_annexed rc) eqn:Esa;
          unfold sat, after_write; rewrite Emax, Edo; cbn [fst snd]; split; auto; try lia.
    + destruct (hw_lit c =? 0) eqn:El0; [discriminate|]. apply N.eqb_neq in El0.
      destruct ((hw_lit c =? 1) && hw_dirty_outer c) eqn:E3.
      * destruct (single_annexed rc) eqn:Esa; [|discriminate].
        apply andb_prop in E3. destruct E3 as [E3a E3b]. apply N.eqb_eq in E3a.
        unfold rc_need. rewrite Esa. unfold sat, after_write. rewrite Emax, E3b. cbn [fst snd].
        split; [lia|]. intros _. apply orb_true_iff. right. apply N.leb_le. lia.
      * set (clean := if hw_dirty_outer c then hw_lit c - 1 else hw_lit c) in *.
        destruct ((1 <? N.of_nat (length rc)) && existsb (fun d => clean <? hd_lit d) rc); [discriminate|].
        destruct rc as [|d [|d' r]]; try discriminate.
        destruct ((match hd_var d with Some _ => true | None => false end) || hd_max d || (fixed && hd_maxm1 d)) eqn:E4;
          [discriminate|].
        destruct (clean <? hd_lit d) eqn:E5; [discriminate|]. apply N.ltb_ge in E5.
        apply orb_false_iff in E4. destruct E4 as [E4 E4f].
        apply orb_false_iff in E4. destruct E4 as [E4v E4m].
        assert (Hm1 : hd_maxm1 d = false).
        { destruct Hsafe as [-> | Hsafe]; [exact E4f|].
          cbn [req_safe] in Hsafe. apply negb_true_iff in Hsafe. exact Hsafe. }
        unfold rc_need, sat, after_write. rewrite Emax. cbn [single_annexed].
        destruct (hd_ann d) eqn:Eann; cbn [fst snd].
        -- split; [lia|]. intros _. apply orb_true_iff. right. apply N.leb_le. lia.
        -- split; [|discriminate].
           unfold rc_depth. cbn [map eval_max fold_right]. unfold sd_of_hd. rewrite E4m, Hm1.
           destruct (hd_var d); [discriminate|]. cbn [eval_sd]. fold clean. lia.
Qed.

(* non-vacuity: a redundantly computing discontinuous writer (depth 2) and a reader of depth 2 *)
Example required_sound_nonvacuous :
  let rc := [plain_depth None 2] in
  let w := Some {| hw_max := false; hw_lit := 2; hw_dirty_outer := false |} in
  req_safe rc = true /\ required false rc w = (false, true).
Proof. vm_compute. auto. Qed.

(* The unchanged code: a lone "max_depth-1" requirement (a GH_INC reader computed redundantly to the
   maximum depth) is compared through its literal_depth 0: after a writer that cleans to literal depth 1
   the exchange is "not required", but with halo depth 3 the reader needs depth 2. *)
Theorem required_refuted_ : exists cfg rc w k M e,
  required cfg rc (Some w) = (false, k) /\ valid_cfg M e /\ rc_depth M e rc <= M /\
  ~ sat (after_write cfg M w) (rc_need M e rc).
Proof.
  exists false,
    [ {| hd_max := false; hd_maxm1 := true; hd_var := None; hd_lit := 0; hd_ann := false |} ],
    {| hw_max := false; hw_lit := 1; hw_dirty_outer := false |}, true, 3, (fun _ => 1).
  split; [vm_compute; reflexivity|]. split; [split; [lia| intros; lia]|]. split; [vm_compute; discriminate|].
  unfold sat. vm_compute. intros [H _]. apply H. reflexivity.
Qed.

(* the witness comes from real readers: _create_depth_list of one GH_INC reader whose loop goes to the
   maximum halo depth is the single max_depth-1 entry *)
Example refuted_witness_is_reachable :
  let reader := {| r_acc := AInc; r_ub := BCellHalo; r_ubd := None; r_disc := false; r_dofkern := false;
                   r_auw := false; r_stencil := None; r_fine := false |} in
  match read_access reader with
  | Some h => create_depth_list [h] =
              [ {| hd_max := false; hd_maxm1 := true; hd_var := None; hd_lit := 0; hd_ann := false |} ]
  | None => False
  end.
Proof. vm_compute. reflexivity. Qed.

(* Second defect of the unchanged code (annexed dofs off, halo depth 1): the same reader gets an exchange
   of depth max_halo_depth_mesh-1 = 0, i.e. none, although it reads annexed dofs (for literal depth 1 the
   code does exchange to depth 1 for exactly that reason). *)
Theorem maxm1_exchange_depth_zero_ :
  let reader := {| r_acc := AInc; r_ub := BCellHalo; r_ubd := None; r_disc := false; r_dofkern := false;
                   r_auw := false; r_stencil := None; r_fine := false |} in
  exists h, read_access reader = Some h /\
    eval_max 1 (fun _ => 1) (map sd_of_hd (create_depth_list [h])) = 0 /\
    true_need (KCells LDMax) {| t_acc := AInc; t_cont := true; t_stencil := None; t_ghwc := false |}
      = Some (SMaxM1, true).
Proof. cbn zeta. eexists. split; [vm_compute; reflexivity|]. split; vm_compute; reflexivity. Qed.
