(* C22 — the untransformed placement is well placed: for every field whose loops are drawn from the base-case
   universe (Place.universe: loops as LFRicLoop.load creates them, all access modes / continuities / stencil
   kinds), AT MOST THREE loops touching the field, outside the gap [read_gap].  Proved by an exhaustive sweep
   lifted with forallb_forall: the bound is part of the statement.  The 2 x (55^3 + 110^3)-odd loop lists are
   swept through the classes of loops that [place_from] can tell apart (2 x (17^3 + 23^3)-odd lists of classes).
   With Placement.placement_safe_ this gives never-reads-dirty for all M, extents, initial states. *)
From Coq Require Import List NArith Bool Lia.
Import ListNotations.
From PV Require Import C22.Model C22.Placement C22.Required C22.Access C22.Place.
Open Scope N_scope.

Lemma lists_upto3_complete : forall {A} (u : list A) (ls : list A),
  (length ls <= 3)%nat -> Forall (fun x => In x u) ls -> In ls (lists_upto3 u).
Proof.
  intros A u ls Hlen Hall. unfold lists_upto3.
  destruct ls as [|a [|b [|c [|d r]]]]; cbn [length] in Hlen; try lia.
  - apply in_or_app. left. left. reflexivity.
  - apply in_or_app. right. apply in_or_app. left. inversion Hall; subst. apply in_map_iff. exists a. auto.
  - apply in_or_app. right. apply in_or_app. right. apply in_or_app. left.
    inversion Hall as [|? ? Ha Hr]; subst. inversion Hr as [|? ? Hb _]; subst.
    apply in_flat_map. exists a. split; [assumption|]. apply in_map_iff. exists b. auto.
  - apply in_or_app. right. apply in_or_app. right. apply in_or_app. right.
    inversion Hall as [|? ? Ha Hr]; subst. inversion Hr as [|? ? Hb Hr2]; subst. inversion Hr2 as [|? ? Hc _]; subst.
    apply in_flat_map. exists a. split; [assumption|]. apply in_flat_map. exists b. split; [assumption|].
    apply in_map_iff. exists c. auto.
Qed.

(* What [place_from] looks at in a loop.  The seven fields of a [ploop] reach the placement only through these
   five values, and the 55 / 110 loops of a universe outside the gap fall into 17 / 23 classes; the sweep runs
   over lists of classes, which keeps the evaluated term small for a checker without a bytecode machine. *)
Record lsig := { s_wants : bool; s_writes : bool; s_me : list hread; s_stmts : list stmt; s_w : hwrite }.

Definition sig_of (cfg : bool) (l : ploop) : lsig :=
  {| s_wants := match halo_read_access cfg (larg_of (pl_rarg l)) with Some true => true | _ => false end;
     s_writes := pl_writes l;
     s_me := if pl_reads l then match read_access (pl_rarg l) with Some h => [h] | None => [] end else [];
     s_stmts := loop_stmt l :: mark_stmts l;
     s_w := write_access (pl_warg l) |}.

Fixpoint readers_sig (ss : list lsig) : list hread :=
  match ss with
  | [] => []
  | s :: r => if s_writes s then s_me s else s_me s ++ readers_sig r
  end.

Fixpoint place_sig (cfg : bool) (ss : list lsig) (p : prev) : list stmt :=
  match ss with
  | [] => []
  | s :: r =>
      let hx : list stmt :=
        match p with
        | PHx => []
        | _ =>
            if s_wants s then
              let dl := create_depth_list (readers_sig ss) in
              let rq := required cfg dl (match p with PLoop w => Some w | _ => None end) in
              if fst rq then [SHx (map sd_of_hd dl) (negb (snd rq))] else []
            else []
        end in
      let p1 := match hx with [] => p | _ => PHx end in
      hx ++ s_stmts s ++ place_sig cfg r (if s_writes s then PLoop (s_w s) else p1)
  end.

Lemma readers_from_sig : forall cfg ls, readers_from ls = readers_sig (map (sig_of cfg) ls).
Proof. intros cfg ls. induction ls as [|l r IH]; cbn; [|rewrite IH]; reflexivity. Qed.

Lemma place_from_sig : forall cfg ls p, place_from cfg ls p = place_sig cfg (map (sig_of cfg) ls) p.
Proof.
  intros cfg ls. induction ls as [|l r IH]; intros p; [reflexivity|].
  cbn [place_from map place_sig]. rewrite (readers_from_sig cfg (l :: r)), IH. reflexivity.
Qed.

(* transparent: [nodup] runs it inside the sweep *)
Definition lsig_eq_dec : forall x y : lsig, {x = y} + {x <> y}.
Proof. repeat decide equality. Defined.

Definition classes (cfg cont : bool) : list lsig :=
  nodup lsig_eq_dec (map (sig_of cfg) (filter outside_gap (universe cfg cont))).

Lemma sig_in_classes : forall cfg cont l, In l (universe cfg cont) -> outside_gap l = true ->
  In (sig_of cfg l) (classes cfg cont).
Proof. intros cfg cont l Hin Hgap. apply nodup_In, in_map, filter_In. auto. Qed.

Lemma sweep : forall cfg cont,
  forallb (fun ss => well_placed 1 cfg cont (place_sig cfg ss PNone)) (lists_upto3 (classes cfg cont)) = true.
Proof. intros [|] [|]; vm_compute; reflexivity. Qed.

Theorem place_well_placed_bounded_ : forall cfg cont ls,
  (length ls <= 3)%nat -> Forall (fun l => In l (universe cfg cont)) ls ->
  forallb outside_gap ls = true ->
  well_placed 1 cfg cont (place cfg ls) = true.
Proof.
  intros cfg cont ls Hlen Hall Hgap. unfold place. rewrite place_from_sig.
  apply (proj1 (forallb_forall _ _) (sweep cfg cont)), lists_upto3_complete.
  - rewrite map_length. exact Hlen.
  - rewrite forallb_forall in Hgap. rewrite Forall_forall in Hall. apply Forall_forall.
    intros s Hs. apply in_map_iff in Hs as [l [<- Hl]]. apply sig_in_classes; auto.
Qed.

Lemma in_bools : forall b : bool, In b bools.
Proof. intros [|]; cbn; auto. Qed.

(* every base-case loop with one of the stencil kinds is in the universe of its continuity *)
Lemma universe_spec : forall cfg l, base_ok cfg l = true -> In (pl_st l) stencils ->
  In l (universe cfg (pl_cont l)).
Proof.
  intros cfg l Hok Hst. unfold universe. apply filter_In. split.
  - destruct l as [ub acc disc cont st auw gh]. cbn [pl_st] in Hst.
    assert (Hub : In ub [BNcells; BCellHalo; BNdofs; BNannexed]).
    { unfold base_ok in Hok. cbn [pl_ub] in Hok.
      destruct ub; cbn [ub_eqb orb andb] in Hok; try discriminate; cbn; auto. }
    unfold all_ploops.
    apply in_flat_map. exists ub. split; [exact Hub|].
    apply in_flat_map. exists acc. split; [destruct acc; cbn; auto 6|].
    apply in_flat_map. exists disc. split; [apply in_bools|].
    apply in_flat_map. exists cont. split; [apply in_bools|].
    apply in_flat_map. exists st. split; [exact Hst|].
    apply in_flat_map. exists auw. split; [apply in_bools|].
    apply in_map_iff. exists gh. split; [reflexivity | apply in_bools].
  - rewrite Hok. cbn [andb]. apply Bool.eqb_reflx.
Qed.

(* non-vacuity: setval_c(f) ; kernel reading f with a stencil of extent ext (loop over owned cells) ; kernel
   incrementing f (loop to cell_halo(1)); f continuous, annexed dofs off: two exchanges are placed *)
Definition ex_invoke : list ploop :=
  [ {| pl_ub := BNdofs; pl_acc := AWrite; pl_disc := false; pl_cont := true; pl_st := None; pl_auw := false; pl_ghwc := false |};
    {| pl_ub := BNcells; pl_acc := ARead; pl_disc := false; pl_cont := true; pl_st := Some (EVar 0); pl_auw := true; pl_ghwc := false |};
    {| pl_ub := BCellHalo; pl_acc := AInc; pl_disc := false; pl_cont := true; pl_st := None; pl_auw := false; pl_ghwc := false |} ].

Example place_nonvacuous :
  forallb (base_ok false) ex_invoke = true /\ forallb (fun l => pl_cont l) ex_invoke = true /\
  forallb outside_gap ex_invoke = true /\
  place false ex_invoke =
    [ SLoop [(SLit 0, false)] (Some (SLit 0, false)); SDirty;
      SHx [SVar false 0 0] false;
      SLoop [(SVar false 0 0, true)] None;
      SLoop [(SLit 0, true)] (Some (SLit 0, true)); SDirty ] /\
  well_placed 1 false true (place false ex_invoke) = true.
Proof. vm_compute. repeat split; reflexivity. Qed.
