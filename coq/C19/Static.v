(* C19 — a static sufficient condition for the run-time no-alias guard.  Every rhs
   reference to the assigned array has either the subscripts of the lhs (textually) or subscripts
   that differ from them by a non-zero literal offset in some dimension. *)
From Coq Require Import List ZArith Bool Lia.
Import ListNotations.
From PV Require Import Fort.Syntax Fort.Sem Fort.Facts C19.Model C19.Algebra C19.Assign C19.Main C19.Exact.
Open Scope Z_scope.

(* e = base + offset, syntactically *)
Definition base_off (e : expr) : expr * Z :=
  match e with
  | EBin Add b (ELit c) => (b, c)
  | EBin Sub b (ELit c) => (b, - c)
  | ELit c => (ELit 0, c)
  | _ => (e, 0)
  end.

Definition diff_lit (e1 e2 : expr) : bool :=
  expr_eqb (fst (base_off e1)) (fst (base_off e2)) && negb (snd (base_off e1) =? snd (base_off e2)).

Fixpoint offs (ix iy : list expr) : bool :=
  match ix, iy with e1 :: r1, e2 :: r2 => diff_lit e1 e2 || offs r1 r2 | _, _ => false end.

Definition ref_name (e : expr) : name := match e with EVar x => x | EIdx a _ => a | _ => O end.

Definition distinct (lhs r : expr) : bool :=
  negb (Nat.eqb (ref_name lhs) (ref_name r)) ||
  match lhs, r with EIdx _ ix, EIdx _ iy => offs ix iy | _, _ => false end.

Lemma base_off_eval s e v : eval s e = Some v ->
  exists vb, eval s (fst (base_off e)) = Some vb /\ v = vb + snd (base_off e).
Proof.
  intro H.
  assert (D : exists vb, eval s e = Some vb /\ v = vb + 0) by (exists v; split; [exact H | ring]).
  destruct e as [z| | | |o l r|]; cbn [base_off fst snd]; try exact D.
  - cbn in H. inversion H; subst. exists 0. split; [reflexivity | ring].
  - destruct o; try exact D; destruct r as [c| | | | |]; try exact D; cbn [fst snd];
      cbn [eval] in H; destruct (eval s l) as [a|]; try discriminate; cbn in H; inversion H; subst;
      exists a; (split; [reflexivity | ring]).
Qed.

Lemma diff_lit_sound s e1 e2 v1 v2 : diff_lit e1 e2 = true -> eval s e1 = Some v1 -> eval s e2 = Some v2 -> v1 <> v2.
Proof.
  unfold diff_lit. intros H E1 E2. apply andb_true_iff in H as [H1 H2]. apply expr_eqb_eq in H1.
  apply negb_true_iff, Z.eqb_neq in H2.
  destruct (base_off_eval s e1 v1 E1) as [b1 [B1 V1]]. destruct (base_off_eval s e2 v2 E2) as [b2 [B2 V2]].
  rewrite H1 in B1. rewrite B1 in B2. inversion B2; subst. lia.
Qed.

Lemma offs_sound s : forall ix iy vs ws, offs ix iy = true ->
  opt_all (map (eval s) ix) = Some vs -> opt_all (map (eval s) iy) = Some ws -> vs <> ws.
Proof.
  induction ix as [|e1 r1 IH]; intros [|e2 r2] vs ws H Hx Hy; try discriminate.
  cbn [offs] in H. cbn [map opt_all] in Hx, Hy.
  destruct (eval s e1) as [v1|] eqn:E1; [|discriminate]. destruct (opt_all (map (eval s) r1)) as [vs'|] eqn:R1; [|discriminate].
  destruct (eval s e2) as [v2|] eqn:E2; [|discriminate]. destruct (opt_all (map (eval s) r2)) as [ws'|] eqn:R2; [|discriminate].
  inversion Hx; inversion Hy; subst. intro X. inversion X; subst.
  apply orb_true_iff in H as [H | H].
  - apply (diff_lit_sound s e1 e2 v2 v2 H E1 E2). reflexivity.
  - apply (IH r2 ws' ws' H eq_refl R2). reflexivity.
Qed.

Lemma ref_loc_name s r l : ref_loc s r = Some l -> fst l = ref_name r.
Proof.
  destruct r; cbn [ref_loc ref_name]; try discriminate.
  - intro H. inversion H. reflexivity.
  - destruct (opt_all (map (eval s) ix)); [|discriminate]. intro H. inversion H. reflexivity.
Qed.

Lemma lhs_name x ix : ref_name (lhs_expr x ix) = x.
Proof. destruct ix; reflexivity. Qed.

Lemma distinct_sound s x ix vs r l : distinct (lhs_expr x ix) r = true ->
  opt_all (map (eval s) ix) = Some vs -> ref_loc s r = Some l -> l <> (x, vs).
Proof.
  unfold distinct. intros H Hx Hl X. subst l. apply orb_true_iff in H as [H | H].
  - apply negb_true_iff, Nat.eqb_neq in H. apply H. rewrite lhs_name.
    pose proof (ref_loc_name s r _ Hl) as N. cbn [fst] in N. exact N.
  - destruct ix as [|e0 r0]; [discriminate|]. cbn [lhs_expr] in H.
    destruct r as [| |b iy| | |]; try discriminate. cbn [ref_loc] in Hl.
    destruct (opt_all (map (eval s) iy)) as [ws|] eqn:Hy; [|discriminate]. inversion Hl; subst.
    apply (offs_sound s (e0 :: r0) iy vs vs H Hx Hy). reflexivity.
Qed.

Section Static.
Variable acts : list name.
Variable L : list loc.

(* the domain guard alone: every active location the assignment touches lies in L *)
Definition guardDom (s : store) (x : name) (ix : list expr) (e : expr) : bool :=
  match opt_all (map (eval s) ix) with
  | None => false
  | Some vs =>
      memloc (x, vs) L &&
      forallb (fun st : bool * expr =>
                 match plug acts (snd st) (lhs_expr x ix) with
                 | Some (r, _) => match ref_loc s r with Some l => memloc l L | None => false end
                 | None => true
                 end) (split_terms true e)
  end.

Definition alias_free_assign (x : name) (ix : list expr) (e : expr) : bool :=
  forallb (fun st : bool * expr =>
             match plug acts (snd st) (lhs_expr x ix) with
             | Some (r, _) => expr_eqb r (lhs_expr x ix) || distinct (lhs_expr x ix) r
             | None => true
             end) (split_terms true e).

Fixpoint alias_free_stmt (s : stmt) : bool :=
  let go := (fix go (l : list stmt) : bool := match l with [] => true | y :: r => alias_free_stmt y && go r end) in
  match s with
  | SAssign x ix e => alias_free_assign x ix e
  | SIf _ th el => go th && go el
  | SDo _ _ _ _ body => go body
  | _ => true
  end.
Fixpoint alias_free (l : list stmt) : bool := match l with [] => true | y :: r => alias_free_stmt y && alias_free r end.

Lemma af_go l :
  (fix go (l : list stmt) : bool := match l with [] => true | y :: r => alias_free_stmt y && go r end) l = alias_free l.
Proof. induction l as [|s l IH]; [reflexivity|]. cbn [alias_free]. rewrite <- IH. reflexivity. Qed.

(* alias_free => the run-time no-alias guard holds, for every store *)
Theorem alias_free_guard s x ix e : alias_free_assign x ix e = true ->
  guardDom s x ix e = true -> guardA acts L s x ix e = true.
Proof.
  unfold alias_free_assign, guardDom, guardA. intros HS HD.
  destruct (opt_all (map (eval s) ix)) as [vs|] eqn:Hx; [|discriminate].
  apply andb_true_iff in HD as [D1 D2]. rewrite D1. cbn [andb].
  rewrite forallb_forall in *. intros st Hst. specialize (HS st Hst). specialize (D2 st Hst).
  destruct (plug acts (snd st) (lhs_expr x ix)) as [[r t']|]; [|reflexivity].
  destruct (ref_loc s r) as [l|] eqn:Hl; [|discriminate]. rewrite D2. cbn [andb].
  destruct (expr_eqb r (lhs_expr x ix)); [reflexivity|]. cbn [orb] in *.
  apply negb_true_iff. apply loc_eqb_neq. apply (distinct_sound s x ix vs r l HS Hx Hl).
Qed.

Lemma alias_free_Forall l : alias_free l = true -> Forall (fun s => alias_free_stmt s = true) l.
Proof.
  induction l as [|s l IH]; cbn [alias_free]; intro H; constructor; apply andb_true_iff in H as [H1 H2]; auto.
Qed.

Lemma af_runl p a a' : alias_free p = true ->
  runl guardDom gLT p a = Some a' -> runl (guardA acts L) gLT p a = Some a'.
Proof.
  intro HP. apply (runl_transfer _ _ _ _ (fun s => alias_free_stmt s = true)); [| | | auto | apply alias_free_Forall, HP].
  - intros c th el H. cbn [alias_free_stmt] in H. rewrite !af_go in H. apply andb_true_iff in H as [H1 H2].
    split; apply alias_free_Forall; assumption.
  - intros x lo hi st body H. cbn [alias_free_stmt] in H. rewrite af_go in H. apply alias_free_Forall, H.
  - intros s x ix e H. apply alias_free_guard, H.
Qed.

End Static.

(* which generated kernels fall in the fully static class (harness: evidence only) *)
Definition static_check (c : corr_case) : bool :=
  match c with
  | (lp, sk, acts, tl, _) => safe (mkFlags lp sk) acts tl && lit_l tl && alias_free acts tl
  end.

(* non-vacuity: do i = 2, 8, 3 ; a(i) = a(i-1) + 2*b(i) *)
Definition p_st : list stmt :=
  [SDo 9%nat (ELit 2) (ELit 8) (ELit 3)
     [SAssign 0%nat [EVar 9%nat]
        (EBin Add (EIdx 0%nat [EBin Sub (EVar 9%nat) (ELit 1)]) (EBin Mul (ELit 2) (EIdx 1%nat [EVar 9%nat])))]].
Definition s_st : store := store_of [((0%nat, [1]), 2); ((0%nat, [4]), -1); ((1%nat, [2]), 3); ((1%nat, [8]), 1)] [].

Example static_nonvacuous :
  safe (mkFlags true true) [0%nat; 1%nat] p_st = true /\ lit_l p_st = true /\ alias_free [0%nat; 1%nat] p_st = true /\
  (exists q, adj (mkFlags true true) [0%nat; 1%nat] p_st = Some q) /\
  (exists s', runl (guardDom [0%nat; 1%nat] L_lit) gLT p_st s_st = Some s' /\ val s' (0%nat, [2]) <> val s_st (0%nat, [2])) /\
  (* and the aliasing witness of the open finding is outside the class *)
  alias_free [0%nat; 1%nat]
    [SAssign 0%nat [EVar 9%nat] (EBin Add (EIdx 0%nat [EBin Add (EVar 7%nat) (ELit 1)]) (EIdx 1%nat [EVar 9%nat]))] = false.
Proof.
  split; [vm_compute; reflexivity|]. split; [vm_compute; reflexivity|]. split; [vm_compute; reflexivity|].
  split; [eexists; vm_compute; reflexivity|]. split; [|vm_compute; reflexivity].
  destruct (opt_test (runl (guardDom [0%nat; 1%nat] L_lit) gLT p_st s_st)
              (fun s => negb (val s (0%nat, [2]) =? val s_st (0%nat, [2])))) as [s' [E X]]; [vm_compute; reflexivity|].
  exists s'. split; [exact E|]. apply negb_true_iff, Z.eqb_neq in X. exact X.
Qed.
