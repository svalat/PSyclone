(* C19 — the adjoint of a linear program is its transpose: sequences (reversal), IF on passive
   data, DO loops (reversal with the bounds arithmetic of loop_node), by induction on the program. *)
From Coq Require Import List ZArith Bool Lia.
Import ListNotations.
From PV Require Import Fort.Syntax Fort.Sem C19.Model C19.Algebra C19.Terms C19.Arith C19.Assign.
Open Scope Z_scope.

Lemma run1_if gA gL c th el st :
  run1 gA gL (SIf c th el) st =
  match eval st c with Some v => runl gA gL (if v =? 0 then el else th) st | None => None end.
Proof. reflexivity. Qed.

Lemma run1_do gA gL x lo hi stp body st :
  run1 gA gL (SDo x lo hi stp body) st =
  match eval st lo, eval st hi, eval st stp with
  | Some l, Some h, Some t =>
      if (t =? 0) || negb (gL l h t stp) then None
      else match iter (runl gA gL body) x (ivals0 l t (trip_count l h t)) st with
           | Some s' => Some (upd s' (x, []) (l + Z.of_nat (trip_count l h t) * t))
           | None => None
           end
  | _, _, _ => None
  end.
Proof. reflexivity. Qed.

Lemma adj_stmt_if fl acts c th el :
  adj_stmt fl acts (SIf c th el) =
  if has_act acts c then None
  else match adj fl acts th, adj fl acts el with Some a, Some b => Some [SIf c a b] | _, _ => None end.
Proof. reflexivity. Qed.

Lemma adj_stmt_do fl acts x lo hi st body :
  adj_stmt fl acts (SDo x lo hi st body) =
  if act acts x || has_act acts lo || has_act acts hi || has_act acts st then None
  else if negb (unit_step st) && negb (lo_paren fl) && starts_minus lo then None
  else match adj fl acts body with
       | Some b => Some [SDo x (rev_start fl lo hi st) lo (negate st) b]
       | None => None
       end.
Proof. reflexivity. Qed.

Lemma safe_go fl acts LV E l :
  (fix go (l : list stmt) : bool := match l with [] => true | x :: r => safe_stmt fl acts LV E x && go r end) l
  = safe_l fl acts LV E l.
Proof. induction l as [|s l IH]; [reflexivity|]. cbn [safe_l]. rewrite <- IH. reflexivity. Qed.

Lemma safe_stmt_if fl acts LV E c th el :
  safe_stmt fl acts LV E (SIf c th el) =
  stmt_act acts (SIf c th el) && (pure acts LV E c && safe_l fl acts LV E th && safe_l fl acts LV E el).
Proof. cbn [safe_stmt]. rewrite !safe_go. reflexivity. Qed.

Lemma safe_stmt_do fl acts LV E x lo hi st body :
  safe_stmt fl acts LV E (SDo x lo hi st body) =
  stmt_act acts (SDo x lo hi st body) &&
  (negb (memn x acts) && memn x LV && negb (memn x E) &&
   pure acts LV E lo && pure acts LV E hi && pure acts LV E st &&
   (unit_step st || lo_paren fl || expr_eqb (capture hi lo) (EBin Sub hi lo)) &&
   safe_l fl acts LV (x :: E) body).
Proof. cbn [safe_stmt]. rewrite !safe_go. reflexivity. Qed.

Lemma iter_snoc body x v vs : forall s,
  iter body x (vs ++ [v]) s = andThen (iter body x vs) (fun s => body (upd s (x, []) v)) s.
Proof.
  unfold andThen. induction vs as [|w vs IH]; intro s; cbn [app iter].
  - destruct (body (upd s (x, []) v)); reflexivity.
  - destruct (body (upd s (x, []) w)); [apply IH | reflexivity].
Qed.

Lemma safe_stmt_active fl acts LV E s : safe_stmt fl acts LV E s = true -> stmt_act acts s = true.
Proof. destruct s; cbn [safe_stmt]; intro H; apply andb_true_iff in H as [H _]; try exact H; discriminate. Qed.

(* a program all of whose statements are active has no hoisted part *)
Lemma safe_all_active fl acts LV E p : safe_l fl acts LV E p = true ->
  filter (fun s1 => negb (stmt_act acts s1)) p = [].
Proof.
  induction p as [|s p IH]; [reflexivity|]. cbn [safe_l filter]. intro H.
  apply andb_true_iff in H as [H1 H2]. rewrite (safe_stmt_active _ _ _ _ _ H1). apply IH, H2.
Qed.

Lemma adj_safe fl acts LV E p : safe_l fl acts LV E p = true -> adj fl acts p = adj_active fl acts p.
Proof.
  intro H. unfold adj. rewrite (safe_all_active _ _ _ _ _ H). destruct (adj_active fl acts p); reflexivity.
Qed.

(* A run under the guards (gA, gL) is a run under (gA', gL') when the first pair implies the second
   on every statement that satisfies a static condition P which sub-statements inherit. *)
Section Transfer.
Variables gA gA' : store -> name -> list expr -> expr -> bool.
Variables gL gL' : Z -> Z -> Z -> expr -> bool.
Variable P : stmt -> Prop.
Hypothesis PIf : forall c th el, P (SIf c th el) -> Forall P th /\ Forall P el.
Hypothesis PDo : forall x lo hi st body, P (SDo x lo hi st body) -> Forall P body.
Hypothesis HA : forall s x ix e, P (SAssign x ix e) -> gA s x ix e = true -> gA' s x ix e = true.
Hypothesis HL : forall s x lo hi st body l h t, P (SDo x lo hi st body) ->
  eval s lo = Some l -> eval s hi = Some h -> eval s st = Some t ->
  gL l h t st = true -> gL' l h t st = true.

Let T1 (s : stmt) : Prop := P s -> forall a a', run1 gA gL s a = Some a' -> run1 gA' gL' s a = Some a'.

Lemma runl_transfer_aux l : Forall T1 l -> Forall P l ->
  forall a a', runl gA gL l a = Some a' -> runl gA' gL' l a = Some a'.
Proof.
  induction 1 as [|s l Hs _ IH]; intros HP a a' Hr; [exact Hr|]. inversion HP as [|? ? P1 P2]; subst.
  cbn [runl] in *. destruct (run1 gA gL s a) eqn:Q; [|discriminate]. rewrite (Hs P1 _ _ Q). apply (IH P2), Hr.
Qed.

Lemma iter_transfer body x :
  (forall a a', runl gA gL body a = Some a' -> runl gA' gL' body a = Some a') ->
  forall vs a a', iter (runl gA gL body) x vs a = Some a' -> iter (runl gA' gL' body) x vs a = Some a'.
Proof.
  intro HB. induction vs as [|v vs IH]; intros a a' Hi; [exact Hi|]. cbn [iter] in *.
  destruct (runl gA gL body (upd a (x, []) v)) eqn:Q; [|discriminate]. rewrite (HB _ _ Q). apply IH, Hi.
Qed.

Lemma run1_transfer s : T1 s.
Proof.
  induction s using stmt_ind'; intros HP a a' HR; try discriminate.
  - cbn [run1] in *. destruct (opt_all (map (eval a) ix)); [|discriminate]. destruct (eval a e); [|discriminate].
    destruct (gA a x ix e) eqn:G; [|discriminate]. rewrite (HA _ _ _ _ HP G). exact HR.
  - destruct (PIf _ _ _ HP) as [Pth Pel]. rewrite run1_if in *. destruct (eval a c) as [v|]; [|discriminate].
    destruct (v =? 0); [apply (runl_transfer_aux el H0 Pel), HR | apply (runl_transfer_aux th H Pth), HR].
  - rewrite run1_do in *. destruct (eval a lo) as [l|] eqn:El; [|discriminate].
    destruct (eval a hi) as [h|] eqn:Eh; [|discriminate]. destruct (eval a st) as [t|] eqn:Et; [|discriminate].
    destruct ((t =? 0) || negb (gL l h t st)) eqn:Q; [discriminate|]. apply orb_false_iff in Q as [Q1 Q2].
    apply negb_false_iff in Q2. rewrite Q1, (HL _ _ _ _ _ _ _ _ _ HP El Eh Et Q2). cbn [negb orb].
    destruct (iter (runl gA gL body) x _ a) eqn:Q'; [|discriminate].
    rewrite (iter_transfer body x (runl_transfer_aux body H (PDo _ _ _ _ _ HP)) _ _ _ Q'). exact HR.
Qed.

Lemma runl_transfer p : Forall P p ->
  forall a a', runl gA gL p a = Some a' -> runl gA' gL' p a = Some a'.
Proof. apply runl_transfer_aux. apply Forall_forall. intros s _. apply run1_transfer. Qed.
End Transfer.

Lemma Forall_trivial {A} (l : list A) : Forall (fun _ => True) l.
Proof. apply Forall_forall. trivial. Qed.

(* no static condition: guards can be weakened pointwise *)
Section Mono.
Variables gA gA' : store -> name -> list expr -> expr -> bool.
Variables gL gL' : Z -> Z -> Z -> expr -> bool.
Hypothesis HA : forall s x ix e, gA s x ix e = true -> gA' s x ix e = true.
Hypothesis HL : forall l h t st, gL l h t st = true -> gL' l h t st = true.

Lemma run1_mono s a a' : run1 gA gL s a = Some a' -> run1 gA' gL' s a = Some a'.
Proof. apply (run1_transfer gA gA' gL gL' (fun _ => True)); auto using Forall_trivial. Qed.

Lemma runl_mono p a a' : runl gA gL p a = Some a' -> runl gA' gL' p a = Some a'.
Proof. apply (runl_transfer gA gA' gL gL' (fun _ => True)); auto using Forall_trivial. Qed.
End Mono.

Lemma eval_mulneg s e t : eval s e = Some t -> eval s (EBin Mul (ELit (-1)) e) = Some (- t).
Proof. intro H. cbn [eval]. rewrite H. cbn [eval_bin]; f_equal; try ring. Qed.

Lemma negate_eval s st t : eval s st = Some t -> eval s (negate st) = Some (- t).
Proof.
  destruct st as [z|x0|a ix|o e|o l r|f args]; cbn [negate]; intro H; try (apply eval_mulneg; exact H).
  - cbn [eval] in H. inversion H; subst. destruct (_ <? 0); cbn [eval option_map eval_un]; reflexivity.
  - destruct o; [|apply eval_mulneg; exact H].
    cbn [eval] in H. destruct (eval s e) as [t1|]; [|discriminate]. cbn in H. inversion H; subst. f_equal. ring.
Qed.

Section Main.
Variable fl : flags.
Variable acts : list name.
Variable LV : list name.
Variable L : list loc.
Hypothesis NDL : NoDup L.
Hypothesis Lact : forall l, In l L -> act acts (fst l) = true.

Notation rel := (rel acts LV).
Notation G1 := (run1 (guardA acts L) guardL).
Notation GL := (runl (guardA acts L) guardL).

(* the transposition property of one statement / of a statement list *)
Definition TS (s : stmt) : Prop := forall E q sx sy sx',
  safe_stmt fl acts LV E s = true -> adj_stmt fl acts s = Some q -> rel E sx sy -> G1 s sx = Some sx' ->
  exists sy', run q sy = Some sy' /\ dot L sx' sy = dot L sx sy' /\ rel E sx sx' /\ rel E sy sy'.

Definition TL (p : list stmt) : Prop := forall E q sx sy sx',
  safe_l fl acts LV E p = true -> adj_active fl acts p = Some q -> rel E sx sy -> GL p sx = Some sx' ->
  exists sy', run q sy = Some sy' /\ dot L sx' sy = dot L sx sy' /\ rel E sx sx' /\ rel E sy sy'.

Lemma dot_loopvar_l x s y v : act acts x = false -> dot L (upd s (x, []) v) y = dot L s y.
Proof. intro A. apply dot_upd_l_notin. intro I. apply Lact in I. cbn [fst] in I. congruence. Qed.
Lemma dot_loopvar_r x s y v : act acts x = false -> dot L s (upd y (x, []) v) = dot L s y.
Proof. intro A. apply dot_upd_r_notin. intro I. apply Lact in I. cbn [fst] in I. congruence. Qed.

(* the adjoint of a sequence is the reversed sequence of the adjoints — all lengths *)
Theorem seq_transpose p : Forall TS p -> TL p.
Proof.
  induction 1 as [|s p Hs _ IH]; intros E q sx sy sx' HS HA.
  - injection HA as <-. apply transposes_id.
  - cbn [safe_l] in HS. apply andb_true_iff in HS as [HS1 HS2].
    cbn [adj_active] in HA. rewrite (safe_stmt_active _ _ _ _ _ HS1) in HA.
    destruct (adj_active fl acts p) as [a|] eqn:Ha; [|discriminate].
    destruct (adj_stmt fl acts s) as [b|] eqn:Hb; [|discriminate]. injection HA as <-.
    intros R HR. rewrite run_eq, runl_app.
    exact (transposes_seq acts LV L E (G1 s) (GL p) (run b) (run a)
             (fun sx sy sx' => Hs E b sx sy sx' HS1 Hb) (fun sx sy sx' => IH E a sx sy sx' HS2 Ha) sx sy sx' R HR).
Qed.

(* one iteration: both runs set the DO variable to v first; afterwards its value is not compared *)
Lemma transposes_enter E x v f g : act acts x = false -> memn x LV = true -> memn x E = false ->
  transposes acts LV L (x :: E) f g ->
  transposes acts LV L E (fun s => f (upd s (x, []) v)) (fun s => g (upd s (x, []) v)).
Proof.
  intros Ax HLV HE H sx sy sx' R HR.
  destruct (H _ _ sx' (rel_enter acts LV E sx sy x v R) HR) as [sy' [G [D [R1 R2]]]].
  rewrite dot_loopvar_r, dot_loopvar_l in D by exact Ax.
  exists sy'. split; [exact G|]. split; [exact D|].
  split; (eapply rel_trans; [apply rel_invis; eassumption | apply (rel_weaken _ _ _ x); eassumption]).
Qed.

(* a DO body executed for a list of values of the DO variable: the adjoint runs the values in reverse *)
Lemma iter_transpose E x f g : act acts x = false -> memn x LV = true -> memn x E = false ->
  transposes acts LV L (x :: E) f g ->
  forall vs, transposes acts LV L E (iter f x vs) (iter g x (rev vs)).
Proof.
  intros Ax HLV HE H. induction vs as [|v vs IH]; [apply transposes_id|].
  intros sx sy sx' R HR. cbn [rev]. rewrite iter_snoc.
  exact (transposes_seq acts LV L E _ _ _ _ (transposes_enter E x v f g Ax HLV HE H) IH sx sy sx' R HR).
Qed.

Lemma unit_step_val s st t : unit_step st = true -> eval s st = Some t -> t = 1 \/ t = -1.
Proof.
  destruct st as [z| | | | |]; try discriminate. cbn [unit_step eval]. intros U H. inversion H as [H0]. subst t.
  destruct z as [|p|p]; try discriminate; destruct p; try discriminate; auto.
Qed.

Lemma rev_bounds E lo hi st sx sy l h t :
  unit_step st || lo_paren fl || expr_eqb (capture hi lo) (EBin Sub hi lo) = true ->
  pure acts LV E lo = true -> pure acts LV E hi = true -> pure acts LV E st = true ->
  rel E sx sy -> eval sx lo = Some l -> eval sx hi = Some h -> eval sx st = Some t -> t <> 0 ->
  guardL l h t st = true ->
  exists l', eval sy (rev_start fl lo hi st) = Some l' /\ eval sy lo = Some l /\
             eval sy (negate st) = Some (- t) /\
             ivals0 l' (- t) (trip_count l' l (- t)) = rev (ivals0 l t (trip_count l h t)).
Proof.
  intros Hc Plo Phi Pst R El Eh Et Nt Hg.
  rewrite <- (pure_eval acts LV E lo sx sy Plo R) in El. rewrite <- (pure_eval acts LV E hi sx sy Phi R) in Eh.
  rewrite <- (pure_eval acts LV E st sx sy Pst R) in Et.
  unfold rev_start. destruct (unit_step st) eqn:U.
  - exists h. split; [exact Eh|]. split; [exact El|]. split; [apply negate_eval, Et|].
    apply rev_vals_unit. apply (unit_step_val sy st t U Et).
  - cbn [orb] in Hc.
    assert (Ep : eval sy (pasted fl hi lo) = Some (h - l)).
    { unfold pasted. destruct (lo_paren fl).
      - cbn [eval]. rewrite Eh, El. reflexivity.
      - cbn [orb] in Hc. apply expr_eqb_eq in Hc. rewrite Hc. cbn [eval]. rewrite Eh, El. reflexivity. }
    exists (h - Z.rem (h - l) t). split.
    + cbn [eval is_inquiry map opt_all]. rewrite Eh, Ep, Et. cbn [eval_intr].
      apply Z.eqb_neq in Nt. rewrite Nt. reflexivity.
    + split; [exact El|]. split; [apply negate_eval, Et|]. apply rev_vals; [exact Nt|].
      unfold guardL in Hg. rewrite U in Hg. cbn [orb] in Hg. apply negb_true_iff in Hg.
      intros [B1 [B2 B3]]. rewrite B1 in Hg. cbn in Hg.
      apply Z.ltb_lt in B2. apply Z.ltb_lt in B3. rewrite B2, B3 in Hg. discriminate.
Qed.

Theorem do_transpose x lo hi st body : TL body -> TS (SDo x lo hi st body).
Proof.
  intros HB E q sx sy sx' HS HA R HR.
  rewrite safe_stmt_do in HS. apply andb_true_iff in HS as [_ HS].
  repeat (apply andb_true_iff in HS as [HS ?]).
  rename H into Sbody, H0 into Hcap, H1 into Pst, H2 into Phi, H3 into Plo, H4 into HE, H5 into HLV.
  apply negb_true_iff in HS, HE. assert (Ax : act acts x = false) by exact HS.
  rewrite adj_stmt_do in HA. rewrite Ax in HA. cbn [orb] in HA.
  destruct (has_act acts lo || has_act acts hi || has_act acts st); [discriminate|].
  destruct (negb (unit_step st) && negb (lo_paren fl) && starts_minus lo); [discriminate|].
  rename HA into HA'.
  rewrite (adj_safe _ _ _ _ _ Sbody) in HA'.
  destruct (adj_active fl acts body) as [b|] eqn:Hb; [|discriminate]. inversion HA'; subst q. clear HA'.
  rewrite run1_do in HR.
  destruct (eval sx lo) as [l|] eqn:El; [|discriminate]. destruct (eval sx hi) as [h|] eqn:Eh; [|discriminate].
  destruct (eval sx st) as [t|] eqn:Et; [|discriminate].
  destruct ((t =? 0) || negb (guardL l h t st)) eqn:Hg; [discriminate|].
  apply orb_false_iff in Hg as [Nt Hg]. apply Z.eqb_neq in Nt. apply negb_false_iff in Hg.
  destruct (iter (GL body) x (ivals0 l t (trip_count l h t)) sx) as [s1|] eqn:Hit; [|discriminate].
  inversion HR; subst sx'. clear HR.
  destruct (rev_bounds E lo hi st sx sy l h t Hcap Plo Phi Pst R El Eh Et Nt Hg) as [l' [B1 [B2 [B3 B4]]]].
  destruct (iter_transpose E x (GL body) (run b) Ax HLV HE
              (fun sx1 sy1 sx1' => HB (x :: E) b sx1 sy1 sx1' Sbody Hb) _ sx sy s1 R Hit) as [sy1 [Q1 [D1 [R1 R2]]]].
  exists (upd sy1 (x, []) (l' + Z.of_nat (trip_count l' l (- t)) * - t)).
  split.
  - rewrite run_eq. cbn [runl]. rewrite run1_do, B1, B2, B3.
    assert (Nt' : (- t =? 0) = false) by (apply Z.eqb_neq; lia). rewrite Nt'. unfold gLT at 1. cbn [orb negb].
    rewrite B4. rewrite run_eq in Q1. rewrite Q1. reflexivity.
  - split; [rewrite dot_loopvar_l, dot_loopvar_r by exact Ax; exact D1|].
    split; (eapply rel_trans; [eassumption | apply rel_invis; assumption]).
Qed.

Theorem if_transpose c th el : TL th -> TL el -> TS (SIf c th el).
Proof.
  intros Hth Hel E q sx sy sx' HS HA R HR.
  rewrite safe_stmt_if in HS. apply andb_true_iff in HS as [_ HS].
  apply andb_true_iff in HS as [HS Sel]. apply andb_true_iff in HS as [Pc Sth].
  rewrite adj_stmt_if in HA. destruct (has_act acts c); [discriminate|].
  rewrite (adj_safe _ _ _ _ _ Sth), (adj_safe _ _ _ _ _ Sel) in HA.
  destruct (adj_active fl acts th) as [a|] eqn:Ha; [|discriminate].
  destruct (adj_active fl acts el) as [b|] eqn:Hb; [|discriminate]. inversion HA; subst q. clear HA.
  rewrite run1_if in HR. destruct (eval sx c) as [v|] eqn:Ec; [|discriminate].
  assert (Ec' : eval sy c = Some v) by (rewrite (pure_eval acts LV E c sx sy Pc R); exact Ec).
  assert (Q : run [SIf c a b] sy = run (if v =? 0 then b else a) sy).
  { rewrite run_eq. cbn [runl]. rewrite run1_if, Ec'.
    destruct (runl gT gLT (if v =? 0 then b else a) sy); reflexivity. }
  rewrite Q. destruct (v =? 0).
  - apply (Hel E b sx sy sx' Sel Hb R HR).
  - apply (Hth E a sx sy sx' Sth Ha R HR).
Qed.

Theorem stmt_transpose : forall s, TS s.
Proof.
  induction s using stmt_ind'.
  - intros E q sx sy sx' HS HA R HR. cbn [adj_stmt] in HA.
    apply (assign_transpose fl acts LV L NDL E x ix e q sx sy sx' HS HA R HR).
  - apply if_transpose; apply seq_transpose; assumption.
  - apply do_transpose. apply seq_transpose. assumption.
  - intros E q sx sy sx' HS. discriminate.
  - intros E q sx sy sx' HS. discriminate.
  - intros E q sx sy sx' HS. discriminate.
  - intros E q sx sy sx' HS. cbn [safe_stmt] in HS. rewrite andb_false_r in HS. discriminate.
  - intros E q sx sy sx' HS. cbn [safe_stmt] in HS. rewrite andb_false_r in HS. discriminate.
  - intros E q sx sy sx' HS. cbn [safe_stmt] in HS. rewrite andb_false_r in HS. discriminate.
Qed.

Theorem prog_transpose p : TL p.
Proof. apply seq_transpose. apply Forall_forall. intros s _. apply stmt_transpose. Qed.

End Main.
