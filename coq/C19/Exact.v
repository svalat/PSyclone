(* C19 — the loop guard made exact: the reversed DO bounds are right for every non-empty loop; the
   empty-loop exception stated precisely; the run-time loop guard replaced by "non-empty or unit
   step" and discharged statically for loops whose bounds and step are literals. *)
From Coq Require Import List ZArith Bool Lia.
Import ListNotations.
From PV Require Import Fort.Syntax Fort.Sem C19.Model C19.Algebra C19.Arith C19.Assign C19.Main C19.Theorems.
Open Scope Z_scope.

(* the exception: an empty loop with 0 < |lo-hi| < |step| is reversed into a loop that runs once, at lo *)
Theorem reversed_empty_exception l h t : t <> 0 -> bad_empty l h t ->
  ivals0 l t (trip_count l h t) = [] /\
  ivals0 (h - Z.rem (h - l) t) (- t) (trip_count (h - Z.rem (h - l) t) l (- t)) = [l].
Proof.
  intros N [E [B1 B2]]. split; [rewrite E; reflexivity|].
  assert (A : Z.abs (h - l) < Z.abs t) by (replace (h - l) with (- (l - h)) by ring; rewrite Z.abs_opp; exact B2).
  assert (Q : Z.quot (h - l) t = 0) by (apply Z.quot_small_iff; assumption).
  pose proof (Z.quot_rem' (h - l) t) as R. rewrite Q in R.
  rewrite rev_trip by exact N. rewrite Q. replace (Z.to_nat (Z.max 0 (0 + 1))) with 1%nat by reflexivity.
  replace (h - Z.rem (h - l) t) with l by lia.
  unfold ivals0. cbn [zseq0 map]. f_equal. ring.
Qed.

(* non-vacuity: step 3 not aligned (1,4,7 for hi = 8), negative step not aligned (9,6,3 for hi = 2) *)
Example exact_step3_unaligned :
  trip_count 1 8 3 <> 0%nat /\ ivals0 1 3 (trip_count 1 8 3) = [1; 4; 7] /\
  ivals0 (8 - Z.rem (8 - 1) 3) (- 3) (trip_count (8 - Z.rem (8 - 1) 3) 1 (- 3)) = [7; 4; 1].
Proof. split; [discriminate|]. split; reflexivity. Qed.

Example exact_negative_step :
  trip_count 9 2 (-3) <> 0%nat /\ ivals0 9 (-3) (trip_count 9 2 (-3)) = [9; 6; 3] /\
  ivals0 (2 - Z.rem (2 - 9) (-3)) (- -3) (trip_count (2 - Z.rem (2 - 9) (-3)) 9 (- -3)) = [3; 6; 9].
Proof. split; [discriminate|]. split; reflexivity. Qed.

(* a simpler loop guard: "the loop is non-empty or has unit step", decidable from the evaluated bounds *)
Definition guardNE (l h t : Z) (stp : expr) : bool := unit_step stp || negb (trip_count l h t =? 0)%nat.

Lemma guardNE_guardL l h t stp : guardNE l h t stp = true -> guardL l h t stp = true.
Proof.
  unfold guardNE, guardL. destruct (unit_step stp); [reflexivity|]. cbn [orb]. intro H.
  apply negb_true_iff in H. rewrite H. reflexivity.
Qed.

Section NE.
Variable fl : flags.
Variable acts : list name.
Variable L : list loc.
Hypothesis NDL : NoDup L.
Hypothesis Lact : forall l, In l L -> act acts (fst l) = true.

Definition runNE : list stmt -> store -> option store := runl (guardA acts L) guardNE.

(* literal loops need no run-time loop guard: every DO has literal bounds and step, and is not an
   empty loop with 0 < |lo-hi| < |step| (decided statically) *)
Fixpoint lit_loops (s : stmt) : bool :=
  let go := (fix go (l : list stmt) : bool := match l with [] => true | x :: r => lit_loops x && go r end) in
  match s with
  | SIf _ th el => go th && go el
  | SDo _ (ELit l) (ELit h) (ELit t) body => guardL l h t (ELit t) && go body
  | SDo _ _ _ _ _ => false
  | _ => true
  end.
Fixpoint lit_l (l : list stmt) : bool := match l with [] => true | x :: r => lit_loops x && lit_l r end.

Lemma lit_go l :
  (fix go (l : list stmt) : bool := match l with [] => true | x :: r => lit_loops x && go r end) l = lit_l l.
Proof. induction l as [|s l IH]; [reflexivity|]. cbn [lit_l]. rewrite <- IH. reflexivity. Qed.

Lemma lit_l_Forall l : lit_l l = true -> Forall (fun s => lit_loops s = true) l.
Proof.
  induction l as [|s l IH]; cbn [lit_l]; intro H; constructor; apply andb_true_iff in H as [H1 H2]; auto.
Qed.

(* with literal bounds the loop guard was evaluated when lit_loops was *)
Lemma lit_runl p a a' : lit_l p = true ->
  runl (guardA acts L) gLT p a = Some a' -> runl (guardA acts L) guardL p a = Some a'.
Proof.
  intro HL. apply (runl_transfer _ _ _ _ (fun s => lit_loops s = true)); [| | auto | | apply lit_l_Forall, HL].
  - intros c th el H. cbn [lit_loops] in H. rewrite !lit_go in H. apply andb_true_iff in H as [H1 H2].
    split; apply lit_l_Forall; assumption.
  - intros x lo hi st body H. destruct lo; try discriminate. destruct hi; try discriminate. destruct st; try discriminate. cbn [lit_loops] in H. rewrite lit_go in H.
    apply andb_true_iff in H as [_ H]. apply lit_l_Forall, H.
  - intros s x lo hi st body l h t H El Eh Et _. destruct lo; try discriminate. destruct hi; try discriminate. destruct st; try discriminate.
    cbn [lit_loops eval] in *. apply andb_true_iff in H as [H _]. congruence.
Qed.

(* the only run-time guards left are those of the assignments (active data in L, no aliasing) *)
Theorem dot_adjoint_literal_loops p q sx sy sx' :
  safe fl acts p = true -> lit_l p = true -> adj fl acts p = Some q ->
  same_passive acts (lvars_l p) sx sy ->
  runl (guardA acts L) gLT p sx = Some sx' ->
  exists sy', run q sy = Some sy' /\ dot L sx' sy = dot L sx sy' /\
              same_passive acts (lvars_l p) sx sx' /\ same_passive acts (lvars_l p) sy sy'.
Proof.
  intros HS HLt HA R HR. apply (dot_adjoint fl acts L NDL Lact p q sx sy sx' HS HA R).
  apply lit_runl; assumption.
Qed.

End NE.

(* non-vacuity of the literal-loop theorem: do i = 1, 8, 3 (not aligned) then do j = 9, 2, -3 (negative, not aligned) *)
Definition p_lit : list stmt :=
  [SDo 9%nat (ELit 1) (ELit 8) (ELit 3)
     [SAssign 0%nat [EVar 9%nat] (EBin Add (EIdx 0%nat [EVar 9%nat]) (EBin Mul (ELit 2) (EIdx 1%nat [EVar 9%nat])))];
   SDo 10%nat (ELit 9) (ELit 2) (ELit (-3))
     [SAssign 1%nat [EVar 10%nat] (EBin Sub (EIdx 1%nat [EVar 10%nat]) (EIdx 0%nat [EBin Sub (EVar 10%nat) (ELit 1)]))]].
Definition L_lit : list loc := flat_map (fun a => map (fun i => (a, [i])) [1; 2; 3; 4; 5; 6; 7; 8; 9]) [0%nat; 1%nat].
Definition s_lit : store := store_of [((0%nat, [4]), 2); ((0%nat, [5]), -1); ((1%nat, [4]), 3); ((1%nat, [6]), 1)] [].

Example literal_loops_nonvacuous :
  safe (mkFlags true true) [0%nat; 1%nat] p_lit = true /\ lit_l p_lit = true /\
  (exists q, adj (mkFlags true true) [0%nat; 1%nat] p_lit = Some q) /\
  (exists s', runl (guardA [0%nat; 1%nat] L_lit) gLT p_lit s_lit = Some s' /\ val s' (1%nat, [6]) <> val s_lit (1%nat, [6])).
Proof.
  split; [vm_compute; reflexivity|]. split; [vm_compute; reflexivity|]. split; [eexists; vm_compute; reflexivity|].
  destruct (opt_test (runl (guardA [0%nat; 1%nat] L_lit) gLT p_lit s_lit)
              (fun s => negb (val s (1%nat, [6]) =? val s_lit (1%nat, [6])))) as [s' [E X]]; [vm_compute; reflexivity|].
  exists s'. split; [exact E|]. apply negb_true_iff, Z.eqb_neq in X. exact X.
Qed.
