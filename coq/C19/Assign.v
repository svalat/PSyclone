(* C19 — AssignmentTrans: the adjoint of one tangent-linear assignment is its transpose
   (assign_transpose), for every linear assignment shape of the subset. *)
From Coq Require Import List ZArith Bool.
Import ListNotations.
From PV Require Import Fort.Syntax Fort.Sem Fort.Facts C19.Model C19.Algebra C19.Terms.
Open Scope Z_scope.

Definition gT : store -> name -> list expr -> expr -> bool := fun _ _ _ _ => true.
Definition gLT : Z -> Z -> Z -> expr -> bool := fun _ _ _ _ => true.

Lemma run_eq : run = runl gT gLT.
Proof. reflexivity. Qed.

Definition andThen (f g : store -> option store) (s : store) : option store :=
  match f s with Some s' => g s' | None => None end.

Lemma runl_app gA gL a : forall b s, runl gA gL (a ++ b) s = andThen (runl gA gL a) (runl gA gL b) s.
Proof.
  induction a as [|x a IH]; intros b s; [reflexivity|]. unfold andThen in *. cbn [app runl].
  destruct (run1 gA gL x s); [apply IH | reflexivity].
Qed.

Definition sgn (sg : bool) (k : Z) : Z := if sg then k else - k.

Fixpoint tsum (s : store) (ts : list (bool * expr)) : option Z :=
  match ts with
  | [] => Some 0
  | (sg, t) :: r => match eval s t, tsum s r with Some v, Some w => Some (sgn sg v + w) | _, _ => None end
  end.

Lemma tsum_app s a : forall b, tsum s (a ++ b) =
  match tsum s a, tsum s b with Some v, Some w => Some (v + w) | _, _ => None end.
Proof.
  induction a as [|[sg t] a IH]; intro b; cbn [app tsum].
  - destruct (tsum s b); reflexivity.
  - rewrite IH. destruct (eval s t), (tsum s a), (tsum s b); try reflexivity. f_equal. ring.
Qed.

Lemma tsum_single s sg e v : eval s e = Some v -> tsum s [(sg, e)] = Some (sgn sg v).
Proof. intro H. cbn [tsum]. rewrite H. f_equal. ring. Qed.

(* the right-hand side is the signed sum of its terms *)
Lemma split_eval s e : forall sg v, eval s e = Some v -> tsum s (split_terms sg e) = Some (sgn sg v).
Proof.
  induction e; intros sg v H; try exact (tsum_single s sg _ v H).
  destruct o; try exact (tsum_single s sg _ v H).
  - cbn [eval] in H. destruct (eval s e1) as [a|]; [|discriminate]. destruct (eval s e2) as [b|]; [|discriminate].
    cbn in H. inversion H; subst. cbn [split_terms]. rewrite tsum_app, (IHe1 sg a eq_refl), (IHe2 sg b eq_refl).
    f_equal. destruct sg; cbn; ring.
  - cbn [eval] in H. destruct (eval s e1) as [a|]; [|discriminate]. destruct (eval s e2) as [b|]; [|discriminate].
    cbn in H. inversion H; subst. cbn [split_terms]. rewrite tsum_app, (IHe1 sg a eq_refl), (IHe2 (negb sg) b eq_refl).
    f_equal. destruct sg; cbn; ring.
Qed.

(* What the emitted increments do to the adjoint store: for each term k * r of the right-hand side
   whose reference r (at location l) is not the left-hand side (at l0), y(l) += k * y(l0).
   [sumax] is the contribution of those terms to the tangent-linear value, [ssum] that of the
   deferred self terms with coefficients ks. *)
Definition step_ax (l0 : loc) (s : store) (kl : Z * loc) : store :=
  upd s (snd kl) (val s (snd kl) + fst kl * val s l0).
Definition apply_ax (l0 : loc) (ax : list (Z * loc)) (s : store) : store := fold_left (step_ax l0) ax s.
Fixpoint sumax (s : store) (ax : list (Z * loc)) : Z :=
  match ax with [] => 0 | kl :: r => fst kl * val s (snd kl) + sumax s r end.

Fixpoint ssum (df : list (expr * bool)) (ks : list Z) : Z :=
  match df, ks with d :: df', k :: ks' => sgn (snd d) k + ssum df' ks' | _, _ => 0 end.

Section Assign.
Variable fl : flags.
Variable acts : list name.
Variable LV : list name.
Variable L : list loc.
Hypothesis NDL : NoDup L.

Notation rel := (rel acts LV).

(* g is the transpose of f on the active data L, and both leave the passive data alone *)
Definition transposes (E : list name) (f g : store -> option store) : Prop :=
  forall sx sy sx', rel E sx sy -> f sx = Some sx' ->
  exists sy', g sy = Some sy' /\ dot L sx' sy = dot L sx sy' /\ rel E sx sx' /\ rel E sy sy'.

Lemma transposes_id E : transposes E Some Some.
Proof.
  intros sx sy sx' R H. injection H as <-. exists sy. repeat split; reflexivity || apply rel_refl.
Qed.

(* <f2 (f1 x), y> = <f1 x, g2 y> = <x, g1 (g2 y)>.  f1 keeps the passive data, so f2 can be paired with y
   before g1 is run on g2 y. *)
Lemma transposes_seq E f1 f2 g1 g2 : transposes E f1 g1 -> transposes E f2 g2 ->
  transposes E (andThen f1 f2) (andThen g2 g1).
Proof.
  intros H1 H2 sx sy sx' R HR. unfold andThen in *. destruct (f1 sx) as [sx1|] eqn:F1; [|discriminate].
  destruct (H1 sx sy sx1 R F1) as [_ [_ [_ [R1 _]]]].
  destruct (H2 sx1 sy sx' (rel_trans _ _ _ _ _ _ (rel_sym _ _ _ _ _ R1) R) HR) as [sy1 [G2 [D2 [R2 R3]]]].
  destruct (H1 sx sy1 sx1 (rel_trans _ _ _ _ _ _ R R3) F1) as [sy' [G1 [D1 [_ R4]]]].
  exists sy'. rewrite G2. split; [exact G1|]. split; [rewrite D2; exact D1|].
  split; eapply rel_trans; eassumption.
Qed.

Lemma apply_ax_sem l0 sx E : forall ax sy,
  (forall k l, In (k, l) ax -> l <> l0 /\ In l L /\ act acts (fst l) = true) ->
  val (apply_ax l0 ax sy) l0 = val sy l0 /\
  dot L sx (apply_ax l0 ax sy) = dot L sx sy + sumax sx ax * val sy l0 /\
  rel E sy (apply_ax l0 ax sy).
Proof.
  induction ax as [|[k l] ax IH]; intros sy H.
  - cbn. split; [reflexivity|]. split; [ring | apply rel_refl].
  - destruct (H k l (or_introl eq_refl)) as [N [I A]].
    destruct (IH (step_ax l0 sy (k, l))) as [V [D R]]; [intros k' l' Hin; apply (H k' l'); right; exact Hin|].
    assert (S0 : val (step_ax l0 sy (k, l)) l0 = val sy l0).
    { unfold step_ax. cbn [fst snd]. apply val_upd_other. intro X. apply N. symmetry. exact X. }
    assert (S1 : dot L sx (step_ax l0 sy (k, l)) = dot L sx sy + val sx l * (k * val sy l0)).
    { unfold step_ax. cbn [fst snd]. rewrite dot_upd_r by assumption. ring. }
    unfold apply_ax in *. cbn [fold_left]. rewrite V, D, S0, S1.
    split; [reflexivity|]. split.
    + cbn [sumax fst snd]. ring.
    + eapply rel_trans; [|exact R]. apply rel_upd_act; [exact A | apply rel_refl].
Qed.

Section OneAssign.
Variable E : list name.
Variable x : name.
Variable ix : list expr.
Variable sx : store.
Variable vs : list Z.
Hypothesis Hvs : opt_all (map (eval sx) ix) = Some vs.
Hypothesis Hix : pure_l acts LV E ix = true.

Let lhs := lhs_expr x ix.
Let l0 : loc := (x, vs).

Lemma lhs_eval s : rel E sx s -> eval s lhs = Some (val s l0).
Proof.
  intro R. pose proof (pure_l_eval acts LV E ix sx s Hix R) as P. rewrite Hvs in P.
  unfold lhs, lhs_expr, l0. destruct ix as [|e0 r].
  - cbn in Hvs. inversion Hvs. reflexivity.
  - cbn [eval]. rewrite P. reflexivity.
Qed.

(* the per-term tests of first_sign_ok and of guardA (at the store sx) *)
Definition selfp (st : bool * expr) : bool :=
  match plug acts (snd st) lhs with Some (r, _) => expr_eqb r lhs | None => false end.

Definition gterm (st : bool * expr) : bool :=
  match plug acts (snd st) lhs with
  | Some (r, _) =>
      match ref_loc sx r with
      | Some l => memloc l L && (expr_eqb r lhs || negb (loc_eqb l l0))
      | None => false
      end
  | None => true
  end.

(* the deferred term d is k times the left-hand side; k = 1 if it is a bare reference *)
Definition dfP (d : expr * bool) (k : Z) : Prop :=
  (forall s, rel E sx s -> eval s (fst d) = Some (k * val s l0)) /\ (is_ref (fst d) = true -> k = 1).

Lemma run_assign_ref s r e l v : ref_loc s r = Some l -> eval s e = Some v ->
  forall st, match r with EVar y => Some (SAssign y [] e) | EIdx a ixr => Some (SAssign a ixr e) | _ => None end = Some st ->
  run1 gT gLT st s = Some (upd s l v).
Proof.
  intros Hl He st Hst. destruct r; try discriminate; inversion Hst; subst; cbn [run1 ref_loc] in *.
  - cbn [map opt_all]. rewrite He. inversion Hl. reflexivity.
  - destruct (opt_all (map (eval s) ix0)); [|discriminate]. rewrite He. inversion Hl. reflexivity.
Qed.

Lemma terms_sem : forall ts em df V,
  Forall (fun st : bool * expr => lin_term acts (snd st) = true /\ term_pure acts LV E (snd st) = true) ts ->
  adj_terms acts lhs ts = Some (em, df) ->
  forallb gterm ts = true ->
  tsum sx ts = Some V ->
  exists ax ks,
    (forall k l, In (k, l) ax -> l <> l0 /\ In l L /\ act acts (fst l) = true) /\
    V = sumax sx ax + ssum df ks * val sx l0 /\
    Forall2 dfP df ks /\
    map snd df = map fst (filter selfp ts) /\
    (forall sy, rel E sx sy -> runl gT gLT em sy = Some (apply_ax l0 ax sy)).
Proof.
  induction ts as [|[sg t] rest IH]; intros em df V HF HA HG HT.
  - cbn in HA. inversion HA; subst. cbn in HT. inversion HT; subst.
    exists [], []. split; [intros k l []|]. split; [cbn; ring|]. split; [constructor|].
    split; [reflexivity|]. intros sy _. reflexivity.
  - inversion HF as [|? ? [Hlin Hpure] HF']; subst. cbn [snd] in Hlin, Hpure.
    cbn [adj_terms] in HA. destruct (adj_terms acts lhs rest) as [[em0 df0]|] eqn:HA0; [|discriminate].
    rewrite (lin_has_act acts t Hlin) in HA. cbn [negb] in HA.
    destruct (term_sem acts t lhs Hlin) as [r [t' [Pl [AR [E1 [E2 E3]]]]]]. rewrite Pl in HA.
    cbn [forallb] in HG. apply andb_true_iff in HG as [Hg HG'].
    unfold gterm in Hg. cbn [snd] in Hg. rewrite Pl in Hg.
    cbn [tsum] in HT. destruct (eval sx t) as [v|] eqn:Ev; [|discriminate].
    destruct (tsum sx rest) as [W|] eqn:HW; [|discriminate]. inversion HT; subst V. clear HT.
    destruct (IH em0 df0 W HF' eq_refl HG' eq_refl) as [ax0 [ks0 [Hax [HV [HD [HM HR]]]]]].
    rewrite E1 in Ev. destruct (kof acts sx t) as [k|] eqn:Hk; [|discriminate].
    destruct (eval sx r) as [vr|] eqn:Hvr; [|discriminate]. cbn [mulo] in Ev. inversion Ev; subst v. clear Ev.
    assert (Kof : forall s, rel E sx s -> kof acts s t = Some k).
    { intros s R. rewrite (kof_rel acts LV E t sx s Hlin Hpure R). exact Hk. }
    destruct (ref_loc sx r) as [l|] eqn:Hl; [|discriminate].
    apply andb_true_iff in Hg as [HinL Hal]. apply memloc_In in HinL.
    destruct (expr_eqb r lhs) eqn:Heq.
    + (* a self term: deferred *)
      pose proof (expr_eqb_eq _ _ Heq) as Hr. subst r. inversion HA; subst em df. clear HA.
      exists ax0, (k :: ks0). split; [exact Hax|].
      rewrite (lhs_eval sx (rel_refl _ _ _ _)) in Hvr. inversion Hvr; subst vr.
      split; [cbn [ssum snd]; rewrite HV; destruct sg; cbn [sgn]; ring|].
      split.
      * constructor; [|exact HD]. split; cbn [fst].
        -- intros s R. rewrite E2, (Kof s R), (lhs_eval s R). reflexivity.
        -- intro Hr. specialize (E3 Hr sx). rewrite Hk in E3. inversion E3. reflexivity.
      * split; [|exact HR]. cbn [filter]. unfold selfp at 1. cbn [snd]. rewrite Pl.
        rewrite Heq. cbn [map fst snd]. f_equal. exact HM.
    + (* another reference: an increment is emitted *)
      cbn [orb] in Hal. apply negb_true_iff in Hal.
      assert (Nl : l <> l0). { intro X. subst l. rewrite loc_eqb_refl in Hal. discriminate. }
      pose proof (ref_loc_act acts sx r l AR Hl) as Al.
      pose proof (ref_loc_eval sx r l Hl) as Er. rewrite Hvr in Er. inversion Er; subst vr. clear Er.
      assert (Hst : exists st, em = st :: em0 /\ df = df0 /\
                match r with EVar y => Some (SAssign y [] (EBin (opb sg) r t'))
                           | EIdx a ixr => Some (SAssign a ixr (EBin (opb sg) r t')) | _ => None end = Some st).
      { destruct r; try discriminate; inversion HA; subst; eexists; repeat split. }
      destruct Hst as [st [-> [-> Hst]]].
      exists ((sgn sg k, l) :: ax0), ks0.
      split.
      { intros k' l' [X | X]; [inversion X; subst; auto | apply (Hax k' l' X)]. }
      split; [cbn [sumax fst snd]; rewrite HV; destruct sg; cbn [sgn]; ring|].
      split; [exact HD|]. split.
      { cbn [filter]. unfold selfp at 1. cbn [snd]. rewrite Pl, Heq. exact HM. }
      intros sy R. cbn [runl].
      assert (Hl' : ref_loc sy r = Some l).
      { rewrite (ref_loc_rel acts LV E sx sy r AR (plug_ref_pure acts LV E t lhs r t' Hlin Hpure Pl) R). exact Hl. }
      assert (Ee : eval sy (EBin (opb sg) r t') = Some (val sy l + sgn sg k * val sy l0)).
      { cbn [eval]. rewrite (ref_loc_eval sy r l Hl'), E2, (Kof sy R), (lhs_eval sy R). cbn [mulo].
        destruct sg; cbn [opb eval_bin sgn]; f_equal; ring. }
      rewrite (run_assign_ref sy r _ l _ Hl' Ee st Hst).
      change (apply_ax l0 ((sgn sg k, l) :: ax0) sy) with (apply_ax l0 ax0 (step_ax l0 sy (sgn sg k, l))).
      apply HR. unfold step_ax. cbn [fst snd]. apply rel_upd_act; assumption.
Qed.

Lemma fold_eval s w : forall rest ks acc A,
  rel E sx s -> w = val s l0 ->
  Forall2 dfP rest ks -> eval s acc = Some (A * w) ->
  eval s (fold_left (fun a (d : expr * bool) => EBin (opb (snd d)) a (fst d)) rest acc) = Some ((A + ssum rest ks) * w).
Proof.
  intros rest ks acc A R Hw HF. revert acc A. induction HF as [|d k rest ks [Hd _] _ IH]; intros acc A Ha.
  - cbn. rewrite Ha. f_equal. ring.
  - cbn [fold_left ssum]. rewrite (IH (EBin (opb (snd d)) acc (fst d)) (A + sgn (snd d) k)).
    + f_equal. ring.
    + cbn [eval]. rewrite Ha, (Hd s R), <- Hw. destruct (snd d); cbn [opb eval_bin sgn]; f_equal; ring.
Qed.

Lemma finish_sem df ks sy :
  Forall2 dfP df ks ->
  (sign_kept fl || match df with [] => true | d :: _ => snd d end = true) ->
  In l0 L -> act acts x = true -> rel E sx sy ->
  exists sy', runl gT gLT (finish fl x ix df) sy = Some sy' /\
    dot L sx sy' = dot L sx sy + val sx l0 * (ssum df ks * val sy l0 - val sy l0) /\ rel E sy sy'.
Proof.
  intros HF Hs Hin Ax R.
  assert (P : opt_all (map (eval sy) ix) = Some vs). { rewrite (pure_l_eval acts LV E ix sx sy Hix R). exact Hvs. }
  assert (Upd : forall v, dot L sx (upd sy l0 v) = dot L sx sy + val sx l0 * (v - val sy l0) /\ rel E sy (upd sy l0 v)).
  { intro v. split; [apply dot_upd_r; assumption | apply rel_upd_act; [exact Ax | apply rel_refl]]. }
  destruct HF as [|[t sg] k rest ks' [Hd Hone] HF'].
  - exists (upd sy l0 0). cbn [finish runl run1 eval]. rewrite P. unfold gT at 1.
    destruct (Upd 0) as [U1 U2]. split; [reflexivity|]. split; [rewrite U1; cbn [ssum]; ring | exact U2].
  - cbn [fst snd] in *. cbn [finish].
    destruct (match rest with [] => is_ref t && (sg || negb (sign_kept fl)) | _ :: _ => false end) eqn:C.
    + destruct rest; [|discriminate]. inversion HF'; subst ks'.
      apply andb_true_iff in C as [C1 C2]. rewrite (Hone C1).
      assert (sg = true). { destruct sg; [reflexivity|]. destruct (sign_kept fl); cbn in *; discriminate. }
      subst sg. exists sy. split; [reflexivity|]. split; [cbn [ssum sgn snd]; ring | apply rel_refl].
    + set (t0 := if sign_kept fl && negb sg then EUn Neg t else t).
      assert (E0 : eval sy t0 = Some (sgn sg k * val sy l0)).
      { unfold t0. destruct sg.
        - rewrite andb_false_r. cbn [sgn]. apply Hd, R.
        - destruct (sign_kept fl); [|cbn in Hs; discriminate]. cbn [andb negb eval].
          rewrite (Hd sy R). cbn [option_map eval_un sgn]. f_equal. ring. }
      pose proof (fold_eval sy (val sy l0) rest ks' t0 (sgn sg k) R eq_refl HF' E0) as Ef.
      exists (upd sy l0 ((sgn sg k + ssum rest ks') * val sy l0)). cbn [runl run1]. rewrite P, Ef. unfold gT at 1.
      destruct (Upd ((sgn sg k + ssum rest ks') * val sy l0)) as [U1 U2].
      split; [reflexivity|]. split; [rewrite U1; cbn [ssum snd]; ring | exact U2].
Qed.

End OneAssign.

Theorem assign_transpose E x ix e q sx sy sx' :
  safe_stmt fl acts LV E (SAssign x ix e) = true ->
  adj_assign fl acts x ix e = Some q ->
  rel E sx sy ->
  run1 (guardA acts L) guardL (SAssign x ix e) sx = Some sx' ->
  exists sy', run q sy = Some sy' /\ dot L sx' sy = dot L sx sy' /\ rel E sx sx' /\ rel E sy sy'.
Proof.
  intros HS HA R HR. rewrite run_eq.
  cbn [safe_stmt] in HS. apply andb_true_iff in HS as [_ HS]. repeat (apply andb_true_iff in HS as [HS ?]).
  rename H into Hbody, H0 into Hix, H1 into HnLV. rename HS into Hact.
  assert (Ax : act acts x = true) by exact Hact.
  cbn [run1] in HR. destruct (opt_all (map (eval sx) ix)) as [vs|] eqn:Hvs; [|discriminate].
  destruct (eval sx e) as [v|] eqn:Hv; [|discriminate].
  destruct (guardA acts L sx x ix e) eqn:HG; [|discriminate]. inversion HR; subst sx'. clear HR.
  unfold guardA in HG. rewrite Hvs in HG. apply andb_true_iff in HG as [Hin HG]. apply memloc_In in Hin.
  assert (Rx : rel E sx (upd sx (x, vs) v)) by (apply rel_upd_act; [exact Ax | apply rel_refl]).
  unfold adj_assign in HA. rewrite Ax in HA. cbn [negb orb] in HA.
  destruct (has_act_l acts ix) eqn:Hai; [discriminate|].
  assert (P : opt_all (map (eval sy) ix) = Some vs). { rewrite (pure_l_eval acts LV E ix sx sy Hix R). exact Hvs. }
  destruct (is_zero_lit e) eqn:Hz.
  - (* x(ix) = 0.0 *)
    inversion HA; subst q. destruct e; try discriminate. destruct z; try discriminate.
    cbn in Hv. inversion Hv; subst v.
    exists (upd sy (x, vs) 0). cbn [runl run1 eval]. rewrite P. unfold gT at 1.
    split; [reflexivity|]. split.
    + rewrite dot_upd_l, dot_upd_r by assumption. ring.
    + split; [exact Rx | apply rel_upd_act; [exact Ax | apply rel_refl]].
  - cbn [orb] in Hbody. apply andb_true_iff in Hbody as [Hterms Hsign].
    destruct (negb (forallb (fun st : bool * expr => lin_term acts (snd st)) (split_terms true e))); [discriminate|].
    destruct (adj_terms acts (lhs_expr x ix) (split_terms true e)) as [[em df]|] eqn:HT; [|discriminate].
    inversion HA; subst q. clear HA.
    pose proof (split_eval sx e true v Hv) as Hsum. cbn [sgn] in Hsum.
    assert (HF : Forall (fun st : bool * expr => lin_term acts (snd st) = true /\ term_pure acts LV E (snd st) = true)
                        (split_terms true e)).
    { apply Forall_forall. intros st Hst. rewrite forallb_forall in Hterms. apply andb_true_iff, Hterms, Hst. }
    destruct (terms_sem E x ix sx vs Hvs Hix (split_terms true e) em df v HF HT HG Hsum)
      as [ax [ks [Hax [HV [HD [HM HRun]]]]]].
    destruct (apply_ax_sem (x, vs) sx E ax sy Hax) as [V1 [D1 R1]].
    assert (Hs : sign_kept fl || match df with [] => true | d :: _ => snd d end = true).
    { unfold first_sign_ok in Hsign. destruct (sign_kept fl); [reflexivity|]. cbn [orb] in *.
      destruct df as [|d df']; [reflexivity|]. cbn [map] in HM. unfold selfp in HM.
      destruct (filter _ (split_terms true e)) as [|[sg0 t0] fr]; [discriminate|].
      cbn [map fst] in HM. inversion HM. congruence. }
    destruct (finish_sem E x ix sx vs Hvs Hix df ks (apply_ax (x, vs) ax sy) HD Hs Hin Ax (rel_trans _ _ _ _ _ _ R R1))
      as [sy' [F1 [F2 F3]]].
    exists sy'. rewrite runl_app. unfold andThen. rewrite (HRun sy R). split; [exact F1|]. split.
    + rewrite dot_upd_l by assumption. rewrite F2, D1, V1, HV. ring.
    + split; [exact Rx | eapply rel_trans; eassumption].
Qed.

End Assign.
