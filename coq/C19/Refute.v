(* C19 — concrete programs and stores on the faithful model: where the unchanged code's adjoint is
   not the transpose (evaluated in Properties/C19.v), and an instance satisfying the hypotheses of
   the partial theorem. *)
From Coq Require Import List ZArith Bool.
Import ListNotations.
From PV Require Import Fort.Syntax Fort.Sem C19.Model C19.Theorems.
Open Scope Z_scope.

(* names: a=0 b=1 c=2 n=6 kk=7 i=9 *)
Definition a_ : name := 0%nat. Definition b_ : name := 1%nat. Definition c_ : name := 2%nat.
Definition w_ : name := 3%nat. Definition s_ : name := 4%nat. Definition n_ : name := 6%nat.
Definition kk_ : name := 7%nat. Definition m_ : name := 8%nat. Definition i_ : name := 9%nat.
Definition j_ : name := 10%nat.
Definition unchanged : flags := mkFlags false false.

Definition violates (L : list loc) (p q : list stmt) (sx sy : store) : bool :=
  match run p sx, run q sy with
  | Some sx', Some sy' => negb (dot L sx' sy =? dot L sx sy')
  | _, _ => false
  end.

Definition elems (names : list name) (idx : list Z) : list loc :=
  flat_map (fun a => map (fun i => (a, [i])) idx) names.

Fixpoint nodupb (L : list loc) : bool :=
  match L with [] => true | x :: r => negb (memloc x r) && nodupb r end.

Lemma nodupb_NoDup L : nodupb L = true -> NoDup L.
Proof.
  induction L as [|x L IH]; intro H; [constructor|]. cbn [nodupb] in H. apply andb_true_iff in H as [H1 H2].
  constructor; [|apply IH, H2]. intro I. apply Algebra.memloc_In in I. rewrite I in H1. discriminate.
Qed.

(* --- 1. do i = kk+1, n, 3 ; a(i) = 2*b(i) + 3*c(i) ; n = 7, kk = 0 : the reversed loop starts at
   n - MOD(n - kk + 1, 3).  The run is inside the guarded semantics; only the parenthesisation is missing. *)
Definition p_mod : list stmt :=
  [SDo i_ (EBin Add (EVar kk_) (ELit 1)) (EVar n_) (ELit 3)
     [SAssign a_ [EVar i_] (EBin Add (EBin Mul (ELit 2) (EIdx b_ [EVar i_])) (EBin Mul (ELit 3) (EIdx c_ [EVar i_])))]].
Definition L_mod : list loc := elems [0; 1; 2]%nat [1; 2; 3; 4; 5; 6; 7].
Definition sx_mod : store := store_of [((6%nat, []), 7); ((7%nat, []), 0); ((1%nat, [1]), 1)] [].
Definition sy_mod : store := store_of [((6%nat, []), 7); ((7%nat, []), 0); ((0%nat, [1]), 1)] [].

(* --- 2. do i = 5, 4, 2 ; a(i) = a(i) + 3*c(i) : the adjoint runs once.  Excluded from the partial
   theorem by the loop guard only, and not repaired by the parenthesisation / sign fixes. *)
Definition p_empty : list stmt :=
  [SDo i_ (ELit 5) (ELit 4) (ELit 2)
     [SAssign a_ [EVar i_] (EBin Add (EIdx a_ [EVar i_]) (EBin Mul (ELit 3) (EIdx c_ [EVar i_])))]].
Definition L_empty : list loc := elems [0; 2]%nat [4; 5].
Definition sx_empty : store := store_of [((2%nat, [5]), 1)] [].
Definition sy_empty : store := store_of [((0%nat, [5]), 1)] [].

(* --- 3. c(1) = b(1) - 2*c(1) : the sign of the first deferred term is dropped *)
Definition p_sign : list stmt :=
  [SAssign c_ [ELit 1] (EBin Sub (EIdx b_ [ELit 1]) (EBin Mul (ELit 2) (EIdx c_ [ELit 1])))].
Definition L_sign : list loc := elems [1; 2]%nat [1].
Definition s_sign : store := store_of [((2%nat, [1]), 1)] [].

(* --- 4. do i = 1, n ; a(i) = a(kk+1) + b(i) ; n = 2, kk = 0 : a(i) and a(kk+1) alias at i = 1 *)
Definition p_alias : list stmt :=
  [SDo i_ (ELit 1) (EVar n_) (ELit 1)
     [SAssign a_ [EVar i_] (EBin Add (EIdx a_ [EBin Add (EVar kk_) (ELit 1)]) (EIdx b_ [EVar i_]))]].
Definition L_alias : list loc := elems [0; 1]%nat [1; 2].
Definition s_alias : store := store_of [((6%nat, []), 2); ((7%nat, []), 0); ((0%nat, [1]), 1)] [].

(* non-vacuity of the partial theorem:
   do i = n, 1, -2 ; a(i+1) = a(i+1) + 2*a(i) - w*b(i) (w = name 3 passive) with an IF and a nested loop *)
Definition p_ok : list stmt :=
  [SDo i_ (EVar n_) (ELit 1) (EUn Neg (ELit 2))
     [SAssign a_ [EBin Add (EVar i_) (ELit 1)]
        (EBin Sub (EBin Add (EIdx a_ [EBin Add (EVar i_) (ELit 1)]) (EBin Mul (ELit 2) (EIdx a_ [EVar i_])))
                  (EBin Mul (EIdx w_ [EVar i_]) (EIdx b_ [EVar i_])));
      SIf (EBin Gt (EVar i_) (ELit 2))
        [SAssign s_ [] (EBin Add (EVar s_) (EIdx b_ [EVar i_]))]
        [SDo j_ (EVar i_) (ELit 5) (ELit 3) [SAssign b_ [EVar j_] (EBin Mul (EVar m_) (EIdx a_ [EVar j_]))]]]].
Definition acts_ok : list name := [0; 1; 4]%nat.
Definition L_ok : list loc := (4%nat, []) :: elems [0; 1]%nat [0; 1; 2; 3; 4; 5; 6; 7; 8].
Definition sx_ok : store :=
  store_of [((6%nat, []), 6); ((8%nat, []), -3); ((3%nat, [2]), 2); ((3%nat, [4]), -1); ((3%nat, [6]), 5);
            ((0%nat, [1]), 1); ((0%nat, [2]), -2); ((0%nat, [4]), 3); ((0%nat, [6]), 1); ((0%nat, [7]), 2);
            ((1%nat, [2]), 4); ((1%nat, [4]), 1); ((1%nat, [6]), -1); ((4%nat, []), 2)] [].
(* the vector y: other active data, same passive data *)
Definition sy_ok : store :=
  upd (upd (upd (upd (upd (upd (upd (upd (upd sx_ok (0%nat, [1]) 0) (0%nat, [2]) 0) (0%nat, [3]) 2) (0%nat, [5]) (-1))
       (0%nat, [7]) 1) (1%nat, [2]) 1) (1%nat, [5]) 3) (1%nat, [4]) 0) (4%nat, []) (-2).

Example nonvacuous :
  NoDup L_ok /\ (forall l, In l L_ok -> act acts_ok (fst l) = true) /\
  safe unchanged acts_ok p_ok = true /\
  (exists q, adj unchanged acts_ok p_ok = Some q) /\
  same_passive acts_ok (lvars_l p_ok) sx_ok sy_ok /\
  (exists sx', runG acts_ok L_ok p_ok sx_ok = Some sx' /\ val sx' (0%nat, [7]) <> val sx_ok (0%nat, [7])).
Proof.
  split; [apply nodupb_NoDup; vm_compute; reflexivity|].
  split.
  { assert (X : forallb (fun l => act acts_ok (fst l)) L_ok = true) by (vm_compute; reflexivity).
    rewrite forallb_forall in X. exact X. }
  split; [vm_compute; reflexivity|].
  split; [eexists; vm_compute; reflexivity|].
  split.
  { apply same_passive_rel. unfold sy_ok. repeat (apply Terms.rel_upd_act; [reflexivity|]). apply Terms.rel_refl. }
  destruct (Algebra.opt_test (runG acts_ok L_ok p_ok sx_ok)
              (fun s => negb (val s (0%nat, [7]) =? val sx_ok (0%nat, [7])))) as [sx' [E X]]; [vm_compute; reflexivity|].
  exists sx'. split; [exact E|]. apply negb_true_iff, Z.eqb_neq in X. exact X.
Qed.
