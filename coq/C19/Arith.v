(* C19 — the arithmetic of loop reversal: with start' = hi - rem (hi - lo) step, stop' = lo and
   step' = -step the reversed DO visits the values of the original DO in reverse order, unless the
   original DO is empty with 0 < |lo - hi| < |step|. *)
From Coq Require Import List ZArith Bool Lia.
Import ListNotations.
From PV Require Import Fort.Sem C19.Model.
Open Scope Z_scope.

Lemma zseq0_shift (f : Z -> Z) n : forall k, map f (zseq0 (k + 1) n) = map (fun i => f (i + 1)) (zseq0 k n).
Proof. induction n as [|n IH]; intro k; [reflexivity|]. cbn [zseq0 map]. rewrite IH. reflexivity. Qed.

Lemma ivals0_cons l t n : ivals0 l t (S n) = l :: ivals0 (l + t) t n.
Proof.
  unfold ivals0. cbn [zseq0 map]. f_equal; [ring|].
  rewrite (zseq0_shift (fun i => l + i * t) n 0). apply map_ext. intro i. ring.
Qed.

Lemma ivals0_snoc n : forall l t, ivals0 l t (S n) = ivals0 l t n ++ [l + Z.of_nat n * t].
Proof.
  induction n as [|n IH]; intros l t.
  - unfold ivals0; cbn; try reflexivity; f_equal; ring.
  - rewrite (ivals0_cons l t (S n)). rewrite (IH (l + t) t). rewrite (ivals0_cons l t n). cbn [app].
    f_equal. f_equal. f_equal. rewrite Nat2Z.inj_succ. ring.
Qed.

Lemma ivals0_rev n : forall l t, ivals0 (l + (Z.of_nat n - 1) * t) (- t) n = rev (ivals0 l t n).
Proof.
  induction n as [|n IH]; intros l t; [reflexivity|].
  rewrite (ivals0_cons l t n). cbn [rev]. rewrite <- (IH (l + t) t). rewrite (ivals0_snoc n). f_equal.
  - f_equal. rewrite Nat2Z.inj_succ. ring.
  - f_equal. rewrite Nat2Z.inj_succ. ring.
Qed.

(* the trip count of the reversed loop, without case analysis *)
Lemma rev_trip l h t : t <> 0 ->
  trip_count (h - Z.rem (h - l) t) l (- t) = Z.to_nat (Z.max 0 (Z.quot (h - l) t + 1)).
Proof.
  intro N. unfold trip_count. do 2 f_equal.
  pose proof (Z.quot_rem' (h - l) t) as E.
  replace (l - (h - Z.rem (h - l) t) + - t) with ((Z.quot (h - l) t + 1) * (- t)) by lia.
  apply Z.quot_mul. lia.
Qed.

Lemma quot_same_sign d t : t <> 0 -> 0 <= d * t -> Z.quot (d + t) t = Z.quot d t + 1 /\ 0 <= Z.quot d t.
Proof.
  intros N S. split.
  - replace (d + t) with (d + 1 * t) by ring. apply Z.quot_add; [exact N|]. nia.
  - destruct (Z_lt_le_dec 0 t) as [P|P].
    + apply Z.quot_pos; nia.
    + replace d with (- - d) by ring. replace t with (- - t) at 1 by ring.
      rewrite Z.quot_opp_opp by lia. apply Z.quot_pos; nia.
Qed.

Lemma quot_opp_sign d t : t <> 0 -> d * t < 0 -> Z.abs t <= Z.abs d ->
  Z.quot (d + t) t <= 0 /\ Z.quot d t + 1 <= 0.
Proof.
  intros N S A. destruct (Z_lt_le_dec 0 t) as [P|P].
  - assert (D : d <= - t) by nia. split.
    + replace (d + t) with (- (- (d + t))) by ring. rewrite Z.quot_opp_l by lia.
      pose proof (Z.quot_pos (- (d + t)) t). lia.
    + replace d with (- - d) by ring. rewrite Z.quot_opp_l by lia.
      pose proof (Z.quot_le_lower_bound (- d) t 1). lia.
  - assert (T : t < 0) by lia. assert (D : - t <= d) by nia. split.
    + replace t with (- - t) at 2 by ring. rewrite Z.quot_opp_r by lia.
      pose proof (Z.quot_pos (d + t) (- t)). lia.
    + replace t with (- - t) by ring. rewrite Z.quot_opp_r by lia.
      pose proof (Z.quot_le_lower_bound d (- t) 1). lia.
Qed.

Definition bad_empty (l h t : Z) : Prop :=
  trip_count l h t = 0%nat /\ 0 < Z.abs (l - h) < Z.abs t.

(* the heart of loop_node's correctness *)
Theorem rev_vals l h t : t <> 0 -> ~ bad_empty l h t ->
  ivals0 (h - Z.rem (h - l) t) (- t) (trip_count (h - Z.rem (h - l) t) l (- t))
  = rev (ivals0 l t (trip_count l h t)).
Proof.
  intros N G. rewrite rev_trip by exact N.
  destruct (Z_lt_le_dec (( h - l) * t) 0) as [S|S].
  - (* opposite signs: the original loop is empty, and so is the reversed one unless |h - l| < |t| *)
    destruct (Z_lt_le_dec (Z.abs (h - l)) (Z.abs t)) as [B|A].
    + exfalso. apply G. split; [|lia]. unfold trip_count.
      replace (Z.quot (h - l + t) t) with 0; [reflexivity|]. symmetry. apply Z.quot_small_iff; [exact N | nia].
    + destruct (quot_opp_sign (h - l) t N S A) as [Q1 Q2].
      unfold trip_count. rewrite !Z.max_l by lia. reflexivity.
  - destruct (quot_same_sign (h - l) t N S) as [Q1 Q2].
    unfold trip_count. replace (h - l + t) with ((h - l) + t) by ring. rewrite Q1.
    rewrite <- ivals0_rev. f_equal.
    rewrite Z.max_r by lia. rewrite Z2Nat.id by lia.
    pose proof (Z.quot_rem' (h - l) t). lia.
Qed.

(* unit steps: MOD(...) is not emitted, the start is hi itself *)
Corollary rev_vals_unit l h t : t = 1 \/ t = -1 ->
  ivals0 h (- t) (trip_count h l (- t)) = rev (ivals0 l t (trip_count l h t)).
Proof.
  intro U. assert (N : t <> 0) by lia.
  assert (R : Z.rem (h - l) t = 0).
  { destruct U; subst; [apply Z.rem_1_r|]. replace (-1) with (- (1)) by reflexivity.
    rewrite Z.rem_opp_r by lia. apply Z.rem_1_r. }
  pose proof (rev_vals l h t N) as H. rewrite R in H. replace (h - 0) with h in H by ring.
  apply H. intros [_ B]. lia.
Qed.

Lemma trip_count_nonneg l h t : 0 <= Z.of_nat (trip_count l h t).
Proof. lia. Qed.
