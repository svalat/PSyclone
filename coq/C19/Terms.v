(* C19 — linear terms: a term accepted by AssignmentTrans.validate evaluates to (coefficient) * (its
   active reference), the coefficient depending on passive data only; the relation [rel] between the
   store of the tangent-linear run and the store of the adjoint run. *)
From Coq Require Import List ZArith Bool.
Import ListNotations.
From PV Require Import Fort.Syntax Fort.Sem Fort.Facts C19.Model C19.Algebra.
Open Scope Z_scope.

Lemma names_go_l l :
  (fix go (l : list expr) : list name := match l with [] => [] | x :: r => names x ++ go r end) l = names_l l.
Proof. induction l as [|x l IH]; [reflexivity|]. cbn [names_l]. rewrite <- IH. reflexivity. Qed.

Lemma names_EIdx a ix : names (EIdx a ix) = a :: names_l ix.
Proof. cbn [names]. rewrite names_go_l. reflexivity. Qed.
Lemma names_EIntr f args : names (EIntr f args) = names_l args.
Proof. cbn [names]. rewrite names_go_l. reflexivity. Qed.

Lemma in_names_l n ix : In n (names_l ix) <-> exists e, In e ix /\ In n (names e).
Proof.
  induction ix as [|e ix IH]; cbn [names_l].
  - split; [intros [] | intros [e [[] _]]].
  - rewrite in_app_iff, IH. split.
    + intros [H | [e' [H1 H2]]]; [exists e; split; [left; reflexivity | exact H] | exists e'; split; [right|]; assumption].
    + intros [e' [[H1 | H1] H2]]; [subst; left; exact H2 | right; exists e'; split; assumption].
Qed.

Lemma ereads_names s e : forall l, In l (ereads s e) -> In (fst l) (names e).
Proof.
  induction e using expr_ind'; intros l Hl; cbn [ereads] in Hl.
  - destruct Hl.
  - destruct Hl as [E | []]. subst. left. reflexivity.
  - rewrite names_EIdx. apply in_app_or in Hl as [Hl | Hl].
    + right. apply in_flat_map in Hl as [e [H1 H2]]. apply in_names_l. exists e. split; [exact H1|].
      rewrite Forall_forall in H. apply (H e H1 l H2).
    + destruct (opt_all (map (eval s) ix)); [|destruct Hl]. destruct Hl as [E | []]. subst. left. reflexivity.
  - apply IHe, Hl.
  - cbn [names]. apply in_or_app. apply in_app_or in Hl as [Hl | Hl]; [left; apply IHe1 | right; apply IHe2]; exact Hl.
  - rewrite names_EIntr. rewrite Forall_forall in H.
    assert (G : forall l0 : list expr, (forall e, In e l0 -> In e args) -> In l (flat_map (ereads s) l0) -> In (fst l) (names_l args)).
    { intros l0 Sub Hin. apply in_flat_map in Hin as [e [H1 H2]]. apply in_names_l. exists e.
      split; [apply Sub, H1 | apply (H e (Sub e H1) l H2)]. }
    destruct (is_inquiry f).
    + destruct args as [|a0 r]; [destruct Hl|]. apply (G r); [intros e He; right; exact He | exact Hl].
    + apply (G args); [auto | exact Hl].
Qed.

Section Terms.
Variable acts : list name.
Variable LV : list name.

Notation act := (act acts).
Notation has_act := (has_act acts).
Notation has_act_l := (has_act_l acts).
Notation lin_term := (lin_term acts).
Notation plug := (plug acts).

Definition vis (E : list name) (n : name) : bool :=
  negb (memn n acts) && (memn n E || negb (memn n LV)).

(* the locations on which the two runs agree: all passive data except the scalar location of a DO
   variable that is not in scope *)
Definition visl (E : list name) (l : loc) : bool :=
  negb (memn (fst l) acts) &&
  (memn (fst l) E || negb (memn (fst l) LV) || negb (match snd l with [] => true | _ => false end)).

Lemma vis_visl E l : vis E (fst l) = true -> visl E l = true.
Proof.
  unfold vis, visl. intro H. apply andb_true_iff in H as [H1 H2]. rewrite H1. cbn [andb].
  rewrite H2. reflexivity.
Qed.

(* same array bounds, same passive data (DO variables that are not in scope excepted) *)
Definition rel (E : list name) (s1 s2 : store) : Prop :=
  bnd s1 = bnd s2 /\ forall l, visl E l = true -> val s1 l = val s2 l.

Lemma rel_refl E s : rel E s s.
Proof. split; reflexivity. Qed.
Lemma rel_sym E s1 s2 : rel E s1 s2 -> rel E s2 s1.
Proof. intros [H1 H2]. split; [symmetry; exact H1 | intros l Hl; symmetry; apply H2, Hl]. Qed.
Lemma rel_trans E s1 s2 s3 : rel E s1 s2 -> rel E s2 s3 -> rel E s1 s3.
Proof.
  intros [H1 H2] [H3 H4]. split; [congruence | intros l Hl; rewrite H2, H4 by exact Hl; reflexivity].
Qed.

Lemma visl_not_act E l : visl E l = true -> act (fst l) = false.
Proof. unfold visl, Model.act. intro H. apply andb_true_iff in H as [H _]. apply negb_true_iff in H. exact H. Qed.

Lemma rel_upd_act E s1 s2 l v : act (fst l) = true -> rel E s1 s2 -> rel E s1 (upd s2 l v).
Proof.
  intros A [H1 H2]. split; [rewrite bnd_upd; exact H1|]. intros l' Hl.
  rewrite val_upd_other; [apply H2, Hl|]. intro E'. subst. apply visl_not_act in Hl. congruence.
Qed.

Lemma rel_upd_both E s1 s2 l v : rel E s1 s2 -> rel E (upd s1 l v) (upd s2 l v).
Proof.
  intros [H1 H2]. split; [rewrite !bnd_upd; exact H1|]. intros l' Hl. rewrite !val_upd.
  destruct (loc_eq_dec l' l); [reflexivity | apply H2, Hl].
Qed.

(* entering a DO on x: both runs set x to the same value *)
Lemma rel_enter E s1 s2 x v : rel E s1 s2 -> rel (x :: E) (upd s1 (x, []) v) (upd s2 (x, []) v).
Proof.
  intros [H1 H2]. split; [rewrite !bnd_upd; exact H1|]. intros l Hl. rewrite !val_upd.
  destruct (loc_eq_dec l (x, [])) as [e|n]; [reflexivity|]. apply H2.
  unfold visl in *. apply andb_true_iff in Hl as [Hl1 Hl2]. rewrite Hl1. cbn [andb].
  destruct l as [y iy]. cbn [fst snd] in *. unfold memn in Hl2. cbn [existsb] in Hl2.
  destruct (Nat.eqb y x) eqn:Q.
  - apply Nat.eqb_eq in Q. subst y. destruct iy; [exfalso; apply n; reflexivity|]. apply orb_true_r.
  - cbn [orb] in Hl2. exact Hl2.
Qed.

(* leaving it: the scalar location of an out-of-scope DO variable is not compared *)
Lemma rel_invis E s x v : memn x LV = true -> memn x E = false -> rel E s (upd s (x, []) v).
Proof.
  intros H1 H2. split; [rewrite bnd_upd; reflexivity|]. intros l Hl. rewrite val_upd_other; [reflexivity|].
  intro Q. subst l. unfold visl in Hl. cbn [fst snd] in Hl. rewrite H1, H2 in Hl.
  rewrite andb_false_r in Hl. discriminate.
Qed.

Lemma rel_weaken E x s1 s2 : rel (x :: E) s1 s2 -> rel E s1 s2.
Proof.
  intros [H1 H2]. split; [exact H1|]. intros l Hl. apply H2. unfold visl in *.
  apply andb_true_iff in Hl as [Hl1 Hl2]. rewrite Hl1. cbn [andb]. unfold memn in *. cbn [existsb].
  destruct (Nat.eqb (fst l) x), (existsb (Nat.eqb (fst l)) E); cbn [orb] in *; try reflexivity; exact Hl2.
Qed.

Lemma pure_eval E e s1 s2 : pure acts LV E e = true -> rel E s1 s2 -> eval s2 e = eval s1 e.
Proof.
  intros P [H1 H2]. apply eval_frame; [symmetry; exact H1|]. intros l Hl. symmetry. apply H2.
  apply vis_visl. apply ereads_names in Hl. unfold pure in P. rewrite forallb_forall in P. apply (P _ Hl).
Qed.

Lemma pure_l_eval E ix s1 s2 : pure_l acts LV E ix = true -> rel E s1 s2 ->
  opt_all (map (eval s2) ix) = opt_all (map (eval s1) ix).
Proof.
  intros P R. apply opt_all_map_ext. intros e He. unfold pure_l in P. rewrite forallb_forall in P.
  apply (pure_eval E); [apply P, He | exact R].
Qed.

Lemma has_act_bin o l r : has_act (EBin o l r) = has_act l || has_act r.
Proof. unfold Model.has_act. cbn [names]. apply existsb_app. Qed.
Lemma has_act_var x : has_act (EVar x) = act x.
Proof. unfold Model.has_act. cbn. apply orb_false_r. Qed.
Lemma has_act_idx a ix : has_act (EIdx a ix) = act a || has_act_l ix.
Proof. unfold Model.has_act, Model.has_act_l. rewrite names_EIdx. reflexivity. Qed.

Lemma lin_has_act t : lin_term t = true -> has_act t = true.
Proof.
  induction t; cbn [Model.lin_term]; intro H; try discriminate.
  - rewrite has_act_var. exact H.
  - rewrite has_act_idx. apply andb_true_iff in H as [H _]. rewrite H. reflexivity.
  - destruct o; [|discriminate]. apply IHt, H.
  - destruct o; try discriminate. rewrite has_act_bin. apply orb_true_iff in H as [H | H];
      apply andb_true_iff in H as [H1 H2].
    + rewrite (IHt1 H1). reflexivity.
    + rewrite (IHt2 H2). apply orb_true_r.
Qed.

Lemma plug_none t lhs : has_act t = false -> plug t lhs = None.
Proof.
  induction t; cbn [Model.plug]; intro H; try reflexivity.
  - rewrite has_act_var in H. rewrite H. reflexivity.
  - rewrite has_act_idx in H. apply orb_false_iff in H as [H _]. rewrite H. reflexivity.
  - destruct o; [|reflexivity]. rewrite (IHt H). reflexivity.
  - destruct o; try reflexivity. rewrite has_act_bin in H. apply orb_false_iff in H as [H1 H2].
    rewrite (IHt1 H1), (IHt2 H2). reflexivity.
Qed.

(* the coefficient of a linear term *)
Fixpoint kof (s : store) (t : expr) : option Z :=
  match t with
  | EVar _ | EIdx _ _ => Some 1
  | EUn Neg e => option_map Z.opp (kof s e)
  | EBin Mul l r =>
      if has_act l then match kof s l, eval s r with Some k, Some v => Some (k * v) | _, _ => None end
      else match eval s l, kof s r with Some v, Some k => Some (v * k) | _, _ => None end
  | _ => None
  end.

Definition mulo (k v : option Z) : option Z :=
  match k, v with Some a, Some b => Some (a * b) | _, _ => None end.

Definition aref (r : expr) : Prop :=
  (exists x, r = EVar x /\ act x = true) \/
  (exists a ix, r = EIdx a ix /\ act a = true /\ has_act_l ix = false).

Lemma mulo_opp k v : option_map Z.opp (mulo k v) = mulo (option_map Z.opp k) v.
Proof. destruct k, v; cbn; try reflexivity. f_equal. ring. Qed.

Lemma term_sem t lhs : lin_term t = true ->
  exists r t', plug t lhs = Some (r, t') /\ aref r /\
    (forall s, eval s t = mulo (kof s t) (eval s r)) /\
    (forall s, eval s t' = mulo (kof s t) (eval s lhs)) /\
    (is_ref t' = true -> forall s, kof s t = Some 1).
Proof.
  induction t; cbn [Model.lin_term]; intro H; try discriminate.
  - exists (EVar x), lhs. cbn [Model.plug]. rewrite H. split; [reflexivity|]. split; [left; eauto|].
    split; [|split]; intros; cbn [kof mulo]; try reflexivity.
    + destruct (eval s (EVar x)); [f_equal; ring | reflexivity].
    + destruct (eval s lhs); [f_equal; ring | reflexivity].
  - apply andb_true_iff in H as [H1 H2]. apply negb_true_iff in H2.
    exists (EIdx a ix), lhs. cbn [Model.plug]. rewrite H1. split; [reflexivity|].
    split; [right; exists a, ix; auto|].
    split; [|split]; intros; cbn [kof mulo]; try reflexivity.
    + destruct (eval s (EIdx a ix)); [f_equal; ring | reflexivity].
    + destruct (eval s lhs); [f_equal; ring | reflexivity].
  - destruct o; [|discriminate]. destruct (IHt H) as [r [t' [P [A [E1 [E2 _]]]]]].
    exists r, (EUn Neg t'). cbn [Model.plug]. rewrite P. split; [reflexivity|]. split; [exact A|].
    split; [|split]; [intro s .. | discriminate].
    + cbn [eval kof]. rewrite E1. apply mulo_opp.
    + cbn [eval kof]. rewrite E2. apply mulo_opp.
  - destruct o; try discriminate. apply orb_true_iff in H as [H | H]; apply andb_true_iff in H as [H1 H2].
    + apply negb_true_iff in H2. destruct (IHt1 H1) as [r [t' [P [A [E1 [E2 _]]]]]].
      exists r, (EBin Mul t' t2). cbn [Model.plug]. rewrite P. split; [reflexivity|]. split; [exact A|].
      pose proof (lin_has_act _ H1) as HA.
      split; [|split]; [intro s .. | discriminate]; cbn [eval kof]; rewrite HA.
      * rewrite E1. destruct (kof s t1), (eval s r), (eval s t2); cbn; try reflexivity. f_equal. ring.
      * rewrite E2. destruct (kof s t1), (eval s lhs), (eval s t2); cbn; try reflexivity. f_equal. ring.
    + apply negb_true_iff in H1. destruct (IHt2 H2) as [r [t' [P [A [E1 [E2 _]]]]]].
      exists r, (EBin Mul t1 t'). cbn [Model.plug]. rewrite (plug_none _ lhs H1), P.
      split; [reflexivity|]. split; [exact A|].
      split; [|split]; [intro s .. | discriminate]; cbn [eval kof]; rewrite H1.
      * rewrite E1. destruct (eval s t1), (kof s t2), (eval s r); cbn; try reflexivity. f_equal. ring.
      * rewrite E2. destruct (eval s t1), (kof s t2), (eval s lhs); cbn; try reflexivity. f_equal. ring.
Qed.

Lemma kof_rel E t s1 s2 : lin_term t = true -> term_pure acts LV E t = true -> rel E s1 s2 ->
  kof s2 t = kof s1 t.
Proof.
  intros H P R. induction t; cbn [Model.lin_term Model.term_pure] in *; try discriminate; try reflexivity.
  - destruct o; [|discriminate]. cbn [kof]. rewrite (IHt H P). reflexivity.
  - destruct o; try discriminate. cbn [kof]. apply orb_true_iff in H as [H | H]; apply andb_true_iff in H as [H1 H2].
    + rewrite (lin_has_act _ H1) in *. apply andb_true_iff in P as [P1 P2].
      rewrite (IHt1 H1 P1), (pure_eval E _ _ _ P2 R). reflexivity.
    + apply negb_true_iff in H1. rewrite H1 in *. apply andb_true_iff in P as [P1 P2].
      rewrite (IHt2 H2 P2), (pure_eval E _ _ _ P1 R). reflexivity.
Qed.

Lemma plug_ref_pure E t lhs r t' : lin_term t = true -> term_pure acts LV E t = true ->
  plug t lhs = Some (r, t') -> match r with EIdx _ ix => pure_l acts LV E ix = true | _ => True end.
Proof.
  revert r t'. induction t; intros r t' H P Q; cbn [Model.lin_term Model.term_pure Model.plug] in *; try discriminate.
  - rewrite H in Q. inversion Q; subst. exact I.
  - apply andb_true_iff in H as [H1 H2]. rewrite H1 in Q. inversion Q; subst. exact P.
  - destruct o; [|discriminate]. destruct (plug t lhs) as [[r0 e']|] eqn:Pl; [|discriminate].
    inversion Q; subst. apply (IHt _ _ H P eq_refl).
  - destruct o; try discriminate. apply orb_true_iff in H as [H | H]; apply andb_true_iff in H as [H1 H2].
    + rewrite (lin_has_act _ H1) in P. apply andb_true_iff in P as [P1 P2].
      destruct (plug t1 lhs) as [[r0 l']|] eqn:Pl.
      * inversion Q; subst. apply (IHt1 _ _ H1 P1 eq_refl).
      * destruct (term_sem t1 lhs H1) as [r1 [t1' [Pl' _]]]. congruence.
    + apply negb_true_iff in H1. rewrite H1 in P. apply andb_true_iff in P as [P1 P2].
      rewrite (plug_none _ lhs H1) in Q. destruct (plug t2 lhs) as [[r0 r']|] eqn:Pl; [|discriminate].
      inversion Q; subst. apply (IHt2 _ _ H2 P2 eq_refl).
Qed.

Lemma ref_loc_eval s r l : ref_loc s r = Some l -> eval s r = Some (val s l).
Proof.
  destruct r; cbn [ref_loc eval]; try discriminate.
  - intro H. inversion H. reflexivity.
  - destruct (opt_all (map (eval s) ix)); [|discriminate]. intro H. inversion H. reflexivity.
Qed.

Lemma ref_loc_rel E s1 s2 r : aref r -> match r with EIdx _ ix => pure_l acts LV E ix = true | _ => True end ->
  rel E s1 s2 -> ref_loc s2 r = ref_loc s1 r.
Proof.
  intros [[x [-> _]] | [a [ix [-> _]]]] P R; cbn [ref_loc]; [reflexivity|].
  rewrite (pure_l_eval E ix s1 s2 P R). reflexivity.
Qed.

Lemma ref_loc_act s r l : aref r -> ref_loc s r = Some l -> act (fst l) = true.
Proof.
  intros [[x [-> A]] | [a [ix [-> [A _]]]]]; cbn [ref_loc].
  - intro H. inversion H. exact A.
  - destruct (opt_all (map (eval s) ix)); [|discriminate]. intro H. inversion H. exact A.
Qed.

End Terms.
