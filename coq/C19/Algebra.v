(* C19 — basic facts: syntactic equality is equality, the inner product under point updates. *)
From Coq Require Import List ZArith Bool.
Import ListNotations.
From PV Require Import Fort.Syntax Fort.Sem Fort.Facts C19.Model.
Open Scope Z_scope.

Lemma unop_eqb_eq a b : unop_eqb a b = true -> a = b.
Proof. destruct a, b; simpl; congruence. Qed.
Lemma binop_eqb_eq a b : binop_eqb a b = true -> a = b.
Proof. destruct a, b; simpl; congruence. Qed.
Lemma intr_eqb_eq a b : intr_eqb a b = true -> a = b.
Proof. destruct a, b; simpl; congruence. Qed.

Definition leq_ := (fix leq (x y : list expr) {struct x} : bool :=
                match x, y with
                | [], [] => true
                | u :: x', v :: y' => expr_eqb u v && leq x' y'
                | _, _ => false
                end).

Lemma leq_eq x : Forall (fun u => forall v, expr_eqb u v = true -> u = v) x ->
  forall y, leq_ x y = true -> x = y.
Proof.
  induction 1 as [|u x Hu _ IH]; intros [|v y] H; try discriminate; [reflexivity|].
  cbn in H. apply andb_true_iff in H as [H1 H2]. f_equal; [apply Hu, H1 | apply IH, H2].
Qed.

Lemma expr_eqb_eq a : forall b, expr_eqb a b = true -> a = b.
Proof.
  induction a using expr_ind'; intros [] E; cbn in E; try discriminate.
  - apply Z.eqb_eq in E. congruence.
  - apply Nat.eqb_eq in E. congruence.
  - apply andb_true_iff in E as [E1 E2]. apply Nat.eqb_eq in E1. apply (leq_eq _ H) in E2. congruence.
  - apply andb_true_iff in E as [E1 E2]. apply unop_eqb_eq in E1. apply IHa in E2. congruence.
  - apply andb_true_iff in E as [E E3]. apply andb_true_iff in E as [E1 E2].
    apply binop_eqb_eq in E1. apply IHa1 in E2. apply IHa2 in E3. congruence.
  - apply andb_true_iff in E as [E1 E2]. apply intr_eqb_eq in E1. apply (leq_eq _ H) in E2. congruence.
Qed.

Lemma memn_In x l : memn x l = true <-> In x l.
Proof.
  unfold memn. rewrite existsb_exists. split.
  - intros [y [H1 H2]]. apply Nat.eqb_eq in H2. subst. exact H1.
  - intro H. exists x. split; [exact H | apply Nat.eqb_refl].
Qed.

Lemma memloc_In l L : memloc l L = true <-> In l L.
Proof. apply existsb_loc_eqb. Qed.

Lemma dot_comm L x y : dot L x y = dot L y x.
Proof. induction L as [|l L IH]; [reflexivity|]. cbn [dot]. rewrite IH. ring. Qed.

Lemma dot_ext_l L x x' y : (forall l, In l L -> val x l = val x' l) -> dot L x y = dot L x' y.
Proof.
  induction L as [|l L IH]; intro H; [reflexivity|]. cbn [dot].
  rewrite (H l) by (left; reflexivity). rewrite IH; [reflexivity|]. intros l' Hl. apply H. right. exact Hl.
Qed.

Lemma dot_upd_l_notin L x y l v : ~ In l L -> dot L (upd x l v) y = dot L x y.
Proof.
  intro N. apply dot_ext_l. intros l' Hl. apply val_upd_other. intro E. subst. contradiction.
Qed.

Lemma dot_upd_r_notin L x y l v : ~ In l L -> dot L x (upd y l v) = dot L x y.
Proof. intro N. rewrite !(dot_comm L x). apply dot_upd_l_notin, N. Qed.

Lemma dot_upd_l L x y l v : NoDup L -> In l L ->
  dot L (upd x l v) y = dot L x y + (v - val x l) * val y l.
Proof.
  induction L as [|l0 L IH]; intros ND I; [destruct I|].
  inversion ND as [|? ? N ND']; subst. cbn [dot]. destruct I as [E | I].
  - subst. rewrite val_upd_same. rewrite dot_upd_l_notin by exact N. ring.
  - rewrite IH by assumption. rewrite val_upd_other; [ring|]. intro E. subst. contradiction.
Qed.

Lemma dot_upd_r L x y l v : NoDup L -> In l L ->
  dot L x (upd y l v) = dot L x y + val x l * (v - val y l).
Proof. intros ND I. rewrite !(dot_comm L x), dot_upd_l by assumption. ring. Qed.

Lemma opt_all_map_ext {A} (f g : A -> option Z) l :
  (forall x, In x l -> f x = g x) -> opt_all (map f l) = opt_all (map g l).
Proof.
  induction l as [|a l IH]; intro H; [reflexivity|]. cbn [map opt_all].
  rewrite (H a) by (left; reflexivity). rewrite IH; [reflexivity|]. intros x Hx. apply H. right. exact Hx.
Qed.

(* a test evaluated on an optional result names the result *)
Lemma opt_test {A} (o : option A) (f : A -> bool) :
  match o with Some a => f a | None => false end = true -> exists a, o = Some a /\ f a = true.
Proof. destruct o as [a|]; [exists a; auto | discriminate]. Qed.
