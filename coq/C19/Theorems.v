(* C19 — the program-level theorem: [same_passive] is [rel] at the top level, spelt out without the
   scope argument; <A x, y> = <x, A* y> for every safe program by Main.prog_transpose. *)
From Coq Require Import List ZArith Bool.
Import ListNotations.
From PV Require Import Fort.Syntax Fort.Sem C19.Model C19.Algebra C19.Terms C19.Main.
Open Scope Z_scope.

(* the two runs start from the same array bounds and the same passive data; the scalar locations of
   the DO variables LV are exempt (both programs define them before use and leave different values) *)
Definition same_passive (acts LV : list name) (s1 s2 : store) : Prop :=
  bnd s1 = bnd s2 /\
  forall l, act acts (fst l) = false -> (~ In (fst l) LV \/ snd l <> []) -> val s1 l = val s2 l.

Lemma same_passive_rel acts LV s1 s2 : same_passive acts LV s1 s2 <-> rel acts LV [] s1 s2.
Proof.
  unfold same_passive, rel, visl. split; intros [H1 H2]; (split; [exact H1|]); intros l.
  - intro V. apply andb_true_iff in V as [V1 V2]. apply negb_true_iff in V1. cbn [memn existsb orb] in V2.
    apply H2; [exact V1|]. apply orb_true_iff in V2 as [V2 | V2]; apply negb_true_iff in V2.
    + left. intro I. apply memn_In in I. congruence.
    + right. destruct (snd l); [discriminate | discriminate].
  - intros A C. apply H2. unfold act in A. rewrite A. cbn [negb andb memn existsb orb].
    destruct C as [C | C].
    + destruct (memn (fst l) LV) eqn:Q; [apply memn_In in Q; contradiction | reflexivity].
    + destruct (snd l); [contradiction | apply orb_true_r].
Qed.

Section Thms.
Variable fl : flags.
Variable acts : list name.
Variable L : list loc.          (* the active data: where the inner product is taken *)
Hypothesis NDL : NoDup L.
Hypothesis Lact : forall l, In l L -> act acts (fst l) = true.

(* <A x, y> = <x, A* y> and passive data kept, for every program of the linear subset *)
Theorem dot_adjoint p q sx sy sx' :
  safe fl acts p = true ->
  adj fl acts p = Some q ->
  same_passive acts (lvars_l p) sx sy ->
  runG acts L p sx = Some sx' ->
  exists sy', run q sy = Some sy' /\
              dot L sx' sy = dot L sx sy' /\
              same_passive acts (lvars_l p) sx sx' /\ same_passive acts (lvars_l p) sy sy'.
Proof.
  intros HS HA R HR. unfold safe in HS. rewrite (adj_safe _ _ _ _ _ HS) in HA.
  apply same_passive_rel in R.
  destruct (prog_transpose fl acts (lvars_l p) L NDL Lact p [] q sx sy sx' HS HA R HR) as [sy' [Q [D [R1 R2]]]].
  exists sy'. split; [exact Q|]. split; [exact D|]. split; apply same_passive_rel; assumption.
Qed.

Theorem passive_preserved p q sx sy sx' sy' :
  safe fl acts p = true -> adj fl acts p = Some q -> same_passive acts (lvars_l p) sx sy ->
  runG acts L p sx = Some sx' -> run q sy = Some sy' ->
  same_passive acts (lvars_l p) sx sx' /\ same_passive acts (lvars_l p) sy sy'.
Proof.
  intros HS HA R HR HQ. destruct (dot_adjoint p q sx sy sx' HS HA R HR) as [sy'' [Q [_ [P1 P2]]]].
  rewrite HQ in Q. inversion Q; subst. split; assumption.
Qed.

End Thms.
