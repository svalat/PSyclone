(* Static (name-level) footprints: every location read / written by a run of [ss] has a name that
   occurs syntactically in [ss].  Consequences: name-level frame and "not assigned => unchanged".
   Continues Fort/Facts.v; no axioms. *)
From Coq Require Import List ZArith Bool Lia.
Import ListNotations.
From PV Require Import Fort.Syntax Fort.Sem Fort.Facts.
Open Scope Z_scope.

(* names occurring in an expression (over-approximates [ereads]: the unevaluated array argument of an
   inquiry intrinsic is included) *)
Fixpoint enames (e : expr) : list name :=
  match e with
  | ELit _ => []
  | EVar x => [x]
  | EIdx a ix => a :: flat_map enames ix
  | EUn _ e1 => enames e1
  | EBin _ l r => enames l ++ enames r
  | EIntr _ args => flat_map enames args
  end.

(* names that may be written: assignment targets and DO variables *)
Fixpoint wnames_stmt (st : stmt) : list name :=
  match st with
  | SAssign x _ _ => [x]
  | SIf _ th el => flat_map wnames_stmt th ++ flat_map wnames_stmt el
  | SDo x _ _ _ body => x :: flat_map wnames_stmt body
  | SRegion _ body => flat_map wnames_stmt body
  | SDir _ body => flat_map wnames_stmt body
  | SExit | SCycle | SReturn | SPrint _ => []
  end.
Definition wnames (ss : list stmt) : list name := flat_map wnames_stmt ss.

Fixpoint rnames_stmt (st : stmt) : list name :=
  match st with
  | SAssign _ ix e => enames e ++ flat_map enames ix
  | SIf c th el => enames c ++ flat_map rnames_stmt th ++ flat_map rnames_stmt el
  | SDo _ lo hi st body => enames lo ++ enames hi ++ enames st ++ flat_map rnames_stmt body
  | SPrint es => flat_map enames es
  | SRegion _ body => flat_map rnames_stmt body
  | SDir _ body => flat_map rnames_stmt body
  | SExit | SCycle | SReturn => []
  end.
Definition rnames (ss : list stmt) : list name := flat_map rnames_stmt ss.

Lemma wnames_cons st ss : wnames (st :: ss) = wnames_stmt st ++ wnames ss.
Proof. reflexivity. Qed.
Lemma rnames_cons st ss : rnames (st :: ss) = rnames_stmt st ++ rnames ss.
Proof. reflexivity. Qed.
Lemma wnames_app ss1 ss2 : wnames (ss1 ++ ss2) = wnames ss1 ++ wnames ss2.
Proof. apply flat_map_app. Qed.
Lemma rnames_app ss1 ss2 : rnames (ss1 ++ ss2) = rnames ss1 ++ rnames ss2.
Proof. apply flat_map_app. Qed.

(** ** Expressions *)

Lemma ereads_list_names s es l :
  Forall (fun e => forall l, In l (ereads s e) -> In (fst l) (enames e)) es ->
  In l (flat_map (ereads s) es) -> In (fst l) (flat_map enames es).
Proof.
  induction 1 as [|e es He Hes IH]; cbn [flat_map]; intro H; [exact H|].
  apply in_or_app. apply in_app_or in H as [H|H]; [left; apply He, H|right; apply IH, H].
Qed.

Lemma ereads_names s e : forall l, In l (ereads s e) -> In (fst l) (enames e).
Proof.
  induction e using expr_ind'; intros l Hl; cbn [ereads enames] in *.
  - destruct Hl.
  - destruct Hl as [<-|[]]. left; reflexivity.
  - apply in_app_or in Hl as [Hl|Hl].
    + right. apply (ereads_list_names s ix l H Hl).
    + destruct (opt_all (map (eval s) ix)); [|destruct Hl]. destruct Hl as [<-|[]]. left; reflexivity.
  - apply IHe, Hl.
  - apply in_or_app. apply in_app_or in Hl as [Hl|Hl]; [left; apply IHe1, Hl|right; apply IHe2, Hl].
  - destruct (is_inquiry f).
    + destruct args as [|a0 r]; [destruct Hl|]. cbn [flat_map]. apply in_or_app. right.
      apply (ereads_list_names s r l (Forall_inv_tail H) Hl).
    + apply (ereads_list_names s args l H Hl).
Qed.

Lemma ereads_names_list s es l : In l (flat_map (ereads s) es) -> In (fst l) (flat_map enames es).
Proof.
  apply ereads_list_names. apply Forall_forall. intros e _. apply ereads_names.
Qed.

(** ** Runners *)

Definition fp_ok (W R : list name) (r : runner) : Prop :=
  forall s s' tr c, r s = Ok s' tr c ->
  (forall l, In l (writes tr) -> In (fst l) W) /\ (forall l, In l (reads tr) -> In (fst l) R).

Lemma fp_weaken W R W' R' r : incl W W' -> incl R R' -> fp_ok W R r -> fp_ok W' R' r.
Proof.
  intros IW IR H s s' tr c E. destruct (H _ _ _ _ E) as [H1 H2].
  split; intros l Hl; [apply IW, H1, Hl|apply IR, H2, Hl].
Qed.

Lemma fp_ext W R (r r' : runner) : (forall s, r s = r' s) -> fp_ok W R r' -> fp_ok W R r.
Proof. intros E H s s' tr c Hr. rewrite E in Hr. exact (H _ _ _ _ Hr). Qed.

Lemma fp_ret W R : fp_ok W R (fun s => Ok s [] CNormal).
Proof. intros s s' tr c H. inversion H; subst. split; intros l []. Qed.

Lemma fp_set_run W R x v : In (fst x) W -> fp_ok W R (set_run x v).
Proof.
  intros Hx s s' tr c H. unfold set_run in H. inversion H; subst. cbn [writes reads In].
  split; [intros l [<-|[]]; exact Hx|intros l []].
Qed.

Lemma fp_map_ctl W R g (r : runner) : fp_ok W R r -> fp_ok W R (fun s => map_ctl g (r s)).
Proof.
  intros Hr s s' tr c H. cbv beta in H. destruct (r s) as [sa tra ca| |] eqn:E; try discriminate.
  cbn [map_ctl] in H. inversion H; subst. exact (Hr _ _ _ _ E).
Qed.

Lemma fp_bind W R g (r K : runner) :
  fp_ok W R r -> fp_ok W R K -> fp_ok W R (fun s => bind_run g (r s) K).
Proof.
  intros Hr HK s s' tr c H. cbv beta in H.
  destruct (r s) as [sa tra ca| |] eqn:E; try discriminate.
  destruct (Hr _ _ _ _ E) as [A1 A2].
  destruct ca; try (cbn [bind_run] in H; inversion H; subst; split; assumption).
  cbn [bind_run] in H. apply prepend_ok_inv in H as [trb [E2 ->]].
  destruct (HK _ _ _ _ E2) as [B1 B2]. rewrite writes_app, reads_app.
  split; intros l Hl; apply in_app_or in Hl as [Hl|Hl]; auto.
Qed.

Lemma fp_iter_run W R run x v : In x W -> fp_ok W R run -> fp_ok W R (iter_run run x v).
Proof.
  intros Hx Hr. unfold iter_run.
  apply (fp_bind W R (fun c => c) (set_run (x, []) v) (fun s1 => map_ctl cyc2norm (run s1))).
  - apply fp_set_run. exact Hx.
  - apply fp_map_ctl, Hr.
Qed.

Lemma fp_do_loop W R run x l t :
  In x W -> fp_ok W R run -> forall n k, fp_ok W R (do_loop run x l t n k).
Proof.
  intros Hx Hr. induction n as [|n IH]; intro k.
  - apply (fp_set_run W R (x, []) (l + k * t)). exact Hx.
  - eapply fp_ext; [intro s; apply do_loop_S|].
    apply (fp_bind W R exit2norm (iter_run run x (l + k * t)) (do_loop run x l t n (k + 1))).
    + apply fp_iter_run; assumption.
    + apply IH.
Qed.

Lemma reads_region r tra c :
  reads (Enter r :: tra ++ match c with CNormal => [Leave r] | _ => [] end) = reads tra.
Proof. cbn [reads]. rewrite reads_app. destruct c; cbn [reads]; apply app_nil_r. Qed.

Lemma reads_rds_app R tr : reads (rds R ++ tr) = R ++ reads tr.
Proof. rewrite reads_app, reads_rds. reflexivity. Qed.

Lemma fp_prepend_rds W R (Rs : list loc) o s' tr c :
  (forall l, In l Rs -> In (fst l) R) ->
  (forall s0 tr0 c0, o = Ok s0 tr0 c0 ->
     (forall l, In l (writes tr0) -> In (fst l) W) /\ (forall l, In l (reads tr0) -> In (fst l) R)) ->
  prepend (rds Rs) o = Ok s' tr c ->
  (forall l, In l (writes tr) -> In (fst l) W) /\ (forall l, In l (reads tr) -> In (fst l) R).
Proof.
  intros HR Ho H. apply prepend_ok_inv in H as [tr0 [E ->]].
  destruct (Ho _ _ _ E) as [A1 A2]. rewrite writes_rds_app, reads_rds_app.
  split; [exact A1|]. intros l Hl. apply in_app_or in Hl as [Hl|Hl]; auto.
Qed.

Lemma fp_exec_stmt (run : list stmt -> store -> outcome) st :
  (forall ss, fp_ok (wnames ss) (rnames ss) (run ss)) ->
  fp_ok (wnames_stmt st) (rnames_stmt st) (exec_stmt run st).
Proof.
  intros Hrun.
  destruct st as [x ix e|c th el|x lo hi st body| | | |es|r body|d body];
    intros s s' tr c0 H; cbn [exec_stmt wnames_stmt rnames_stmt] in *.
  - destruct (opt_all (map (eval s) ix)) as [vs|]; try discriminate.
    destruct (eval s e) as [v|]; try discriminate. inversion H; subst; clear H.
    rewrite writes_rds_app, reads_rds_app. cbn [writes reads]. rewrite app_nil_r. split.
    + intros l [<-|[]]. left; reflexivity.
    + intros l Hl. apply in_or_app. apply in_app_or in Hl as [Hl|Hl];
        [left; apply (ereads_names s e l Hl)|right; apply (ereads_names_list s ix l Hl)].
  - destruct (eval s c) as [v|]; try discriminate.
    apply (fp_prepend_rds _ _ _ _ _ _ _) with (3 := H).
    + intros l Hl. apply in_or_app. left. apply (ereads_names s c l Hl).
    + intros s0 tr0 c1 E. destruct (Hrun _ _ _ _ _ E) as [A1 A2].
      split; intros l Hl; [specialize (A1 l Hl)|specialize (A2 l Hl)];
        destruct (v =? 0); unfold wnames, rnames in *;
        repeat (apply in_or_app; auto; right); auto; apply in_or_app; auto.
  - destruct (eval s lo) as [l|]; try discriminate.
    destruct (eval s hi) as [h|]; try discriminate.
    destruct (eval s st) as [t|]; try discriminate.
    destruct (t =? 0); try discriminate.
    apply (fp_prepend_rds _ _ _ _ _ _ _) with (3 := H).
    + intros l0 Hl. apply in_app_or in Hl as [Hl|Hl].
      * apply in_or_app. left. apply (ereads_names s lo l0 Hl).
      * apply in_or_app. right. apply in_or_app. apply in_app_or in Hl as [Hl|Hl].
        -- left. apply (ereads_names s hi l0 Hl).
        -- right. apply in_or_app. left. apply (ereads_names s st l0 Hl).
    + intros s0 tr0 c1 E.
      refine (fp_do_loop (x :: wnames body) _ (run body) x l t (or_introl eq_refl) _ _ _ _ _ _ _ E).
      apply (fp_weaken (wnames body) (rnames body)); [| |apply Hrun].
      * intros a Ha. right; exact Ha.
      * intros a Ha. apply in_or_app. right. apply in_or_app. right. apply in_or_app. right. exact Ha.
  - inversion H; subst. split; intros l [].
  - inversion H; subst. split; intros l [].
  - inversion H; subst. split; intros l [].
  - destruct (opt_all (map (eval s) es)) as [vs|]; try discriminate.
    injection H as I1 I2 I3; subst s' tr c0.
    rewrite writes_rds_app, reads_rds_app. cbn [writes reads]. rewrite app_nil_r. split.
    + intros l [].
    + intros l Hl. apply (ereads_names_list s es l Hl).
  - destruct (run body s) as [sa tra ca| |] eqn:E; try discriminate.
    inversion H; subst; clear H. rewrite writes_region, reads_region. exact (Hrun _ _ _ _ _ E).
  - exact (Hrun _ _ _ _ _ H).
Qed.

Lemma fp_exec f : forall ss, fp_ok (wnames ss) (rnames ss) (exec f ss).
Proof.
  induction f as [|f IH]; intro ss.
  - intros s s' tr c H. discriminate.
  - destruct ss as [|st rest]; [apply fp_ret|].
    eapply fp_ext; [intro s; apply exec_cons|]. rewrite wnames_cons, rnames_cons.
    apply (fp_bind _ _ (fun c => c) (exec_stmt (exec f) st) (exec f rest)).
    + apply (fp_weaken (wnames_stmt st) (rnames_stmt st)); [apply incl_appl, incl_refl..|].
      apply fp_exec_stmt, IH.
    + apply (fp_weaken (wnames rest) (rnames rest)); [apply incl_appr, incl_refl..|]. apply IH.
Qed.

(** ** Main statements *)

Theorem exec_writes_names f ss s s' tr c l :
  exec f ss s = Ok s' tr c -> In l (writes tr) -> In (fst l) (wnames ss).
Proof. intros H. apply (fp_exec f ss _ _ _ _ H). Qed.

Theorem exec_reads_names f ss s s' tr c l :
  exec f ss s = Ok s' tr c -> In l (reads tr) -> In (fst l) (rnames ss).
Proof. intros H. apply (fp_exec f ss _ _ _ _ H). Qed.

(* a location whose name is neither an assignment target nor a DO variable in [ss] is unchanged *)
Theorem exec_unchanged_names f ss s s' tr c l :
  exec f ss s = Ok s' tr c -> ~ In (fst l) (wnames ss) -> val s' l = val s l.
Proof.
  intros H N. apply (exec_unchanged _ _ _ _ _ _ _ H). intro W. apply N.
  apply (exec_writes_names _ _ _ _ _ _ _ H W).
Qed.

(* under the hypotheses of [exec_frame], agreement on a location is preserved *)
Theorem exec_frame_agree f ss s1 s1' tr c s2 :
  exec f ss s1 = Ok s1' tr c -> bnd s2 = bnd s1 ->
  (forall l, In l (exposed tr) -> val s2 l = val s1 l) ->
  exists s2', exec f ss s2 = Ok s2' tr c /\ bnd s2' = bnd s2 /\
    (forall l, In l (writes tr) -> val s2' l = val s1' l) /\
    (forall l, ~ In l (writes tr) -> val s2' l = val s2 l) /\
    (forall l, val s2 l = val s1 l -> val s2' l = val s1' l).
Proof.
  intros H Hb Hag. destruct (exec_frame _ _ _ _ _ _ _ H Hb Hag) as [s2' [R1 [R2 [R3 R4]]]].
  exists s2'. repeat (split; [assumption|]). intros l E.
  destruct (in_dec loc_eq_dec l (writes tr)) as [I|N]; [apply R3, I|].
  rewrite R4 by exact N. rewrite (exec_unchanged _ _ _ _ _ _ _ H N). exact E.
Qed.

(* name-level frame: stores with the same bounds that agree on every location whose NAME is read in
   [ss] produce the same trace and control state; the final stores agree wherever the initial ones
   did (in particular on all locations with a read name) and on everything written; locations whose
   name is not written are unchanged. *)
Theorem exec_frame_names f ss s1 s1' tr c s2 :
  exec f ss s1 = Ok s1' tr c -> bnd s2 = bnd s1 ->
  (forall l, In (fst l) (rnames ss) -> val s2 l = val s1 l) ->
  exists s2', exec f ss s2 = Ok s2' tr c /\ bnd s2' = bnd s2 /\
    (forall l, In l (writes tr) -> val s2' l = val s1' l) /\
    (forall l, val s2 l = val s1 l -> val s2' l = val s1' l) /\
    (forall l, ~ In (fst l) (wnames ss) -> val s2' l = val s2 l).
Proof.
  intros H Hb Hag.
  destruct (exec_frame_agree f ss s1 s1' tr c s2 H Hb) as [s2' [R1 [R2 [R3 [R4 R5]]]]].
  { intros l Hl. apply Hag. apply (exec_reads_names _ _ _ _ _ _ _ H), exposed_incl_reads, Hl. }
  exists s2'. repeat (split; [assumption|]). intros l N. apply R4. intro W. apply N.
  apply (exec_writes_names _ _ _ _ _ _ _ H W).
Qed.

Print Assumptions exec_frame_names.
Print Assumptions exec_unchanged_names.
