(* General facts about the MiniFortran semantics (Fort/Sem.v).
   NO axioms are used (in particular no FunctionalExtensionality): all store equalities are
   stated pointwise, or with the store equivalence [steq] (not [seq], which would shadow [List.seq]). *)
From Coq Require Import List ZArith Bool Lia Permutation.
Import ListNotations.
From PV Require Import Fort.Syntax Fort.Sem.
Open Scope Z_scope.

(** * Small utilities *)

Lemma loc_eqb_refl l : loc_eqb l l = true.
Proof. apply loc_eqb_eq; reflexivity. Qed.

Lemma loc_eqb_neq a b : loc_eqb a b = false <-> a <> b.
Proof.
  split.
  - intros E H. apply loc_eqb_eq in H. congruence.
  - intros H. destruct (loc_eqb a b) eqn:E; [|reflexivity]. apply loc_eqb_eq in E. contradiction.
Qed.

Lemma existsb_loc_eqb l W : existsb (loc_eqb l) W = true <-> In l W.
Proof.
  rewrite existsb_exists. split.
  - intros [y [Hy E]]. apply loc_eqb_eq in E. subst; assumption.
  - intros H. exists l. split; [assumption | apply loc_eqb_refl].
Qed.

Definition steq (s1 s2 : store) : Prop := (forall l, val s1 l = val s2 l) /\ bnd s1 = bnd s2.

Lemma steq_refl s : steq s s.
Proof. split; reflexivity. Qed.
Lemma steq_sym s1 s2 : steq s1 s2 -> steq s2 s1.
Proof. intros [H1 H2]; split; [intro l; symmetry; apply H1 | symmetry; exact H2]. Qed.
Lemma steq_trans s1 s2 s3 : steq s1 s2 -> steq s2 s3 -> steq s1 s3.
Proof. intros [H1 H2] [H3 H4]; split; [intro l; rewrite H1; apply H3 | congruence]. Qed.

Lemma val_upd_same s l v : val (upd s l v) l = v.
Proof. unfold upd; cbn [val]. rewrite loc_eqb_refl. reflexivity. Qed.

Lemma val_upd_other s l v l' : l' <> l -> val (upd s l v) l' = val s l'.
Proof. intro H. unfold upd; cbn [val]. apply loc_eqb_neq in H. rewrite H. reflexivity. Qed.

Lemma val_upd s l v l' : val (upd s l v) l' = if loc_eq_dec l' l then v else val s l'.
Proof.
  destruct (loc_eq_dec l' l) as [->|N]; [apply val_upd_same | apply val_upd_other, N].
Qed.

Lemma bnd_upd s l v : bnd (upd s l v) = bnd s.
Proof. reflexivity. Qed.

Lemma upd_comm s l1 l2 v1 v2 :
  l1 <> l2 -> steq (upd (upd s l1 v1) l2 v2) (upd (upd s l2 v2) l1 v1).
Proof.
  intro N. split; [|reflexivity]. intro l. rewrite !val_upd.
  destruct (loc_eq_dec l l2), (loc_eq_dec l l1); try reflexivity. congruence.
Qed.

Lemma upd_shadow s l v1 v2 : steq (upd (upd s l v1) l v2) (upd s l v2).
Proof.
  split; [|reflexivity]. intro l'. rewrite !val_upd. destruct (loc_eq_dec l' l); reflexivity.
Qed.

Lemma upd_steq s1 s2 l v : steq s1 s2 -> steq (upd s1 l v) (upd s2 l v).
Proof.
  intros [H1 H2]. split; [|exact H2]. intro l'. rewrite !val_upd. destruct (loc_eq_dec l' l); auto.
Qed.

Lemma reads_app t1 t2 : reads (t1 ++ t2) = reads t1 ++ reads t2.
Proof. induction t1 as [|e t1 IH]; [reflexivity|]. destruct e; cbn [reads app]; rewrite ?IH; reflexivity. Qed.
Lemma writes_app t1 t2 : writes (t1 ++ t2) = writes t1 ++ writes t2.
Proof. induction t1 as [|e t1 IH]; [reflexivity|]. destruct e; cbn [writes app]; rewrite ?IH; reflexivity. Qed.
Lemma outputs_app t1 t2 : outputs (t1 ++ t2) = outputs t1 ++ outputs t2.
Proof. induction t1 as [|e t1 IH]; [reflexivity|]. destruct e; cbn [outputs app]; rewrite ?IH; reflexivity. Qed.
Lemma regions_app t1 t2 : regions (t1 ++ t2) = regions t1 ++ regions t2.
Proof. induction t1 as [|e t1 IH]; [reflexivity|]. destruct e; cbn [regions app]; rewrite ?IH; reflexivity. Qed.

Lemma reads_rds ls : reads (rds ls) = ls.
Proof. unfold rds. induction ls as [|a ls IH]; [reflexivity|]. cbn [map reads]. rewrite IH. reflexivity. Qed.
Lemma writes_rds ls : writes (rds ls) = [].
Proof. unfold rds. induction ls as [|a ls IH]; [reflexivity|]. cbn [map writes]. rewrite IH. reflexivity. Qed.
Lemma outputs_rds ls : outputs (rds ls) = [].
Proof. unfold rds. induction ls as [|a ls IH]; [reflexivity|]. cbn [map outputs]. rewrite IH. reflexivity. Qed.
Lemma regions_rds ls : regions (rds ls) = [].
Proof. unfold rds. induction ls as [|a ls IH]; [reflexivity|]. cbn [map regions]. rewrite IH. reflexivity. Qed.
Lemma rds_app l1 l2 : rds (l1 ++ l2) = rds l1 ++ rds l2.
Proof. apply map_app. Qed.

(** ** Upward-exposed reads *)

Lemma in_exposed_from l W tr :
  In l (exposed_from W tr) <-> ~ In l W /\ In l (exposed tr).
Proof.
  unfold exposed. revert W. induction tr as [|e tr IH]; intros W.
  - cbn [exposed_from In]. tauto.
  - destruct e as [l0|l0|vs|r|r]; cbn [exposed_from existsb].
    + destruct (existsb (loc_eqb l0) W) eqn:E.
      * apply existsb_loc_eqb in E. rewrite IH. cbn [In]. split; [tauto|].
        intros [H1 [H2|H2]]; [subst; contradiction | tauto].
      * assert (N : ~ In l0 W) by (rewrite <- existsb_loc_eqb; congruence).
        cbn [In]. rewrite IH. split.
        -- intros [H|[H1 H2]]; [subst; tauto | tauto].
        -- tauto.
    + rewrite IH. rewrite (IH [l0]). cbn [In]. tauto.
    + apply IH.
    + apply IH.
    + apply IH.
Qed.

Lemma in_exposed_cons_wr l l0 tr :
  In l (exposed (Wr l0 :: tr)) <-> l <> l0 /\ In l (exposed tr).
Proof.
  unfold exposed at 1. cbn [exposed_from]. rewrite in_exposed_from. cbn [In].
  split; intros [H1 H2]; (split; [|exact H2]).
  - intro H. apply H1. left. symmetry; exact H.
  - intros [H|[]]. apply H1. symmetry; exact H.
Qed.

Lemma in_exposed_from_app l W t1 t2 :
  In l (exposed_from W (t1 ++ t2)) <->
  In l (exposed_from W t1) \/ (~ In l W /\ ~ In l (writes t1) /\ In l (exposed t2)).
Proof.
  revert W. induction t1 as [|e t1 IH]; intros W.
  - cbn [app exposed_from writes In]. rewrite in_exposed_from. tauto.
  - destruct e as [l0|l0|vs|r|r]; cbn [app exposed_from writes].
    + destruct (existsb (loc_eqb l0) W) eqn:E.
      * apply IH.
      * cbn [In]. rewrite IH. tauto.
    + rewrite IH. cbn [In]. split.
      * intros [H|[H1 [H2 H3]]]; [tauto|]. right. repeat split; auto. intros [H|H]; auto.
      * intros [H|[H1 [H2 H3]]]; [tauto|]. right. repeat split; auto. intros [H|H]; auto.
    + apply IH.
    + apply IH.
    + apply IH.
Qed.

Lemma in_exposed_app l t1 t2 :
  In l (exposed (t1 ++ t2)) <-> In l (exposed t1) \/ (~ In l (writes t1) /\ In l (exposed t2)).
Proof.
  unfold exposed at 1 2. rewrite in_exposed_from_app. cbn [In]. tauto.
Qed.

Lemma exposed_rds ls : exposed (rds ls) = ls.
Proof.
  unfold exposed. induction ls as [|a ls IH]; [reflexivity|].
  cbn [rds map exposed_from existsb]. f_equal. exact IH.
Qed.

Lemma exposed_incl_reads l tr : In l (exposed tr) -> In l (reads tr).
Proof.
  unfold exposed. generalize (@nil loc) as W. induction tr as [|e tr IH]; intros W H.
  - exact H.
  - destruct e as [l0|l0|vs|r|r]; cbn [exposed_from reads] in *; eauto.
    destruct (existsb (loc_eqb l0) W).
    + right. eauto.
    + destruct H as [H|H]; [left; exact H | right; eauto].
Qed.

Lemma in_exposed_rds_app_l l R tr : In l R -> In l (exposed (rds R ++ tr)).
Proof. intro H. apply in_exposed_app. left. rewrite exposed_rds. exact H. Qed.

Lemma in_exposed_rds_app_r l R tr : In l (exposed tr) -> In l (exposed (rds R ++ tr)).
Proof. intro H. apply in_exposed_app. right. rewrite writes_rds. split; [intros []|exact H]. Qed.

Lemma writes_rds_app R tr : writes (rds R ++ tr) = writes tr.
Proof. rewrite writes_app, writes_rds. reflexivity. Qed.

(** * Outcome combinators and the one-step unfolding of [exec] *)

Definition runner := store -> outcome.

(* run [K] after [o] when [o] ended normally; otherwise stop, mapping the control state with [g] *)
Definition bind_run (g : ctl -> ctl) (o : outcome) (K : runner) : outcome :=
  match o with
  | Ok s1 tr1 CNormal => prepend tr1 (K s1)
  | Ok s1 tr1 c => Ok s1 tr1 (g c)
  | other => other
  end.

Definition then_run (o : outcome) (K : runner) : outcome := bind_run (fun c => c) o K.

Definition map_ctl (g : ctl -> ctl) (o : outcome) : outcome :=
  match o with Ok s tr c => Ok s tr (g c) | other => other end.

Definition cyc2norm (c : ctl) : ctl := match c with CCycle => CNormal | c => c end.
Definition exit2norm (c : ctl) : ctl := match c with CExit => CNormal | c => c end.

(* the effect of the head statement, parametrised by how nested blocks are run *)
Definition exec_stmt (run : list stmt -> store -> outcome) (st : stmt) (s : store) : outcome :=
  match st with
  | SAssign x ix e =>
      match opt_all (map (eval s) ix), eval s e with
      | Some vs, Some v =>
          Ok (upd s (x, vs) v) (rds (ereads s e ++ flat_map (ereads s) ix) ++ [Wr (x, vs)]) CNormal
      | _, _ => Fault
      end
  | SIf c th el =>
      match eval s c with
      | Some v => prepend (rds (ereads s c)) (run (if v =? 0 then el else th) s)
      | None => Fault
      end
  | SDo x lo hi st body =>
      match eval s lo, eval s hi, eval s st with
      | Some l, Some h, Some t =>
          if t =? 0 then Fault
          else prepend (rds (ereads s lo ++ ereads s hi ++ ereads s st))
                       (do_loop (run body) x l t (trip_count l h t) 0 s)
      | _, _, _ => Fault
      end
  | SExit => Ok s [] CExit
  | SCycle => Ok s [] CCycle
  | SReturn => Ok s [] CReturn
  | SPrint es =>
      match opt_all (map (eval s) es) with
      | Some vs => Ok s (rds (flat_map (ereads s) es) ++ [Out vs]) CNormal
      | None => Fault
      end
  | SRegion r body =>
      match run body s with
      | Ok s1 tr c => Ok s1 (Enter r :: tr ++ (match c with CNormal => [Leave r] | _ => [] end)) c
      | other => other
      end
  | SDir _ body => run body s
  end.

Lemma exec_0 ss s : exec 0 ss s = OutOfFuel.
Proof. reflexivity. Qed.

Lemma exec_nil f s : exec (S f) [] s = Ok s [] CNormal.
Proof. reflexivity. Qed.

Lemma exec_cons f st rest s :
  exec (S f) (st :: rest) s = then_run (exec_stmt (exec f) st s) (exec f rest).
Proof.
  change (exec (S f) (st :: rest) s) with
    (let r1 := exec_stmt (exec f) st s in
     match r1 with
     | Ok s1 tr1 CNormal => prepend tr1 (exec f rest s1)
     | other => other
     end).
  cbv zeta. destruct (exec_stmt (exec f) st s) as [s1 tr1 c| |]; [destruct c|..]; reflexivity.
Qed.

Lemma prepend_nil o : prepend [] o = o.
Proof. destruct o; reflexivity. Qed.

Lemma prepend_prepend t1 t2 o : prepend t1 (prepend t2 o) = prepend (t1 ++ t2) o.
Proof. destruct o; cbn [prepend]; [rewrite app_assoc|..]; reflexivity. Qed.

Lemma prepend_ok_inv t o s tr c :
  prepend t o = Ok s tr c -> exists tr0, o = Ok s tr0 c /\ tr = t ++ tr0.
Proof.
  destruct o as [s0 tr0 c0| |]; cbn [prepend]; intro H; try discriminate.
  inversion H; subst. eauto.
Qed.

Lemma prepend_not_oof t o : prepend t o <> OutOfFuel -> o <> OutOfFuel.
Proof. intros H E. subst. apply H. reflexivity. Qed.

Lemma prepend_oof t o : prepend t o = OutOfFuel <-> o = OutOfFuel.
Proof. destruct o; cbn [prepend]; split; congruence. Qed.

Lemma prepend_fault t o : prepend t o = Fault <-> o = Fault.
Proof. destruct o; cbn [prepend]; split; congruence. Qed.

Lemma bind_run_prepend g t o K : bind_run g (prepend t o) K = prepend t (bind_run g o K).
Proof.
  destruct o as [s tr c| |]; cbn [prepend bind_run]; try reflexivity.
  destruct c; cbn [prepend]; try reflexivity. symmetry. apply prepend_prepend.
Qed.

Lemma then_run_prepend t o K : then_run (prepend t o) K = prepend t (then_run o K).
Proof. apply bind_run_prepend. Qed.

Lemma then_run_assoc o K1 K2 :
  then_run (then_run o K1) K2 = then_run o (fun s => then_run (K1 s) K2).
Proof.
  destruct o as [s tr c| |]; try reflexivity.
  destruct c; try reflexivity.
  unfold then_run at 2 3. cbn [bind_run]. apply then_run_prepend.
Qed.

Lemma then_run_ret o : then_run o (fun s => Ok s [] CNormal) = o.
Proof.
  destruct o as [s tr c| |]; try reflexivity.
  destruct c; try reflexivity. unfold then_run; cbn [bind_run prepend]. rewrite app_nil_r. reflexivity.
Qed.

Lemma then_run_ok_inv o K s' tr c :
  then_run o K = Ok s' tr c ->
  (exists s1 tr1 tr2, o = Ok s1 tr1 CNormal /\ K s1 = Ok s' tr2 c /\ tr = tr1 ++ tr2)
  \/ (c <> CNormal /\ o = Ok s' tr c).
Proof.
  destruct o as [s1 tr1 c1| |]; try discriminate.
  destruct c1; unfold then_run; cbn [bind_run]; intro H.
  - apply prepend_ok_inv in H as [tr0 [H1 H2]]. left. eauto 6.
  - inversion H; subst. right. split; [discriminate|reflexivity].
  - inversion H; subst. right. split; [discriminate|reflexivity].
  - inversion H; subst. right. split; [discriminate|reflexivity].
Qed.

(** * Fuel monotonicity *)

Lemma do_loop_mono (run run' : runner) x l t :
  (forall s, run s <> OutOfFuel -> run' s = run s) ->
  forall n k s, do_loop run x l t n k s <> OutOfFuel ->
                do_loop run' x l t n k s = do_loop run x l t n k s.
Proof.
  intros Hm. induction n as [|n IH]; intros k s H; [reflexivity|].
  cbn [do_loop] in *.
  destruct (run (upd s (x, []) (l + k * t))) as [s2 tr c| |] eqn:E.
  - rewrite Hm by (rewrite E; discriminate). rewrite E.
    destruct c; try reflexivity; f_equal; apply IH; eapply prepend_not_oof; exact H.
  - rewrite Hm by (rewrite E; discriminate). rewrite E. reflexivity.
  - contradiction.
Qed.

Lemma exec_stmt_mono (run run' : list stmt -> store -> outcome) st s :
  (forall ss s, run ss s <> OutOfFuel -> run' ss s = run ss s) ->
  exec_stmt run st s <> OutOfFuel -> exec_stmt run' st s = exec_stmt run st s.
Proof.
  intros Hm H. destruct st as [x ix e|c th el|x lo hi st body| | | |es|r body|d body];
    cbn [exec_stmt] in *; try reflexivity.
  - destruct (eval s c); [|reflexivity]. f_equal. apply Hm. eapply prepend_not_oof; exact H.
  - destruct (eval s lo), (eval s hi), (eval s st); try reflexivity.
    destruct (_ =? 0); [reflexivity|]. f_equal. apply do_loop_mono.
    + intros s0. apply Hm.
    + eapply prepend_not_oof; exact H.
  - destruct (run body s) as [s1 tr c| |] eqn:E.
    + rewrite Hm by (rewrite E; discriminate). rewrite E. reflexivity.
    + rewrite Hm by (rewrite E; discriminate). rewrite E. reflexivity.
    + contradiction.
  - apply Hm, H.
Qed.

Lemma exec_mono_eq f : forall f' ss s,
  (f <= f')%nat -> exec f ss s <> OutOfFuel -> exec f' ss s = exec f ss s.
Proof.
  induction f as [|f IH]; intros f' ss s Hle H.
  - exfalso. apply H. reflexivity.
  - destruct f' as [|f']; [lia|]. destruct ss as [|st rest]; [reflexivity|].
    rewrite !exec_cons in *.
    assert (E : exec_stmt (exec f') st s = exec_stmt (exec f) st s).
    { apply exec_stmt_mono.
      - intros ss0 s0. apply IH. lia.
      - intro X. rewrite X in H. apply H. reflexivity. }
    rewrite E. destruct (exec_stmt (exec f) st s) as [s1 tr1 c| |]; try reflexivity.
    destruct c; try reflexivity. unfold then_run in *; cbn [bind_run] in *.
    f_equal. apply IH; [lia|]. eapply prepend_not_oof; exact H.
Qed.

Theorem exec_mono f f' ss s r :
  exec f ss s = r -> r <> OutOfFuel -> (f <= f')%nat -> exec f' ss s = r.
Proof. intros H N L. subst r. apply exec_mono_eq; assumption. Qed.

Lemma do_loop_mono_exec f f' body x l t n k s r :
  do_loop (exec f body) x l t n k s = r -> r <> OutOfFuel -> (f <= f')%nat ->
  do_loop (exec f' body) x l t n k s = r.
Proof.
  intros H N L. subst r. apply do_loop_mono; [|exact N].
  intros s0 H0. apply exec_mono_eq; assumption.
Qed.

Lemma exec_det f1 f2 ss s r1 r2 :
  exec f1 ss s = r1 -> exec f2 ss s = r2 -> r1 <> OutOfFuel -> r2 <> OutOfFuel -> r1 = r2.
Proof.
  intros H1 H2 N1 N2.
  rewrite <- (exec_mono _ (Nat.max f1 f2) _ _ _ H1 N1) by lia.
  rewrite <- (exec_mono _ (Nat.max f1 f2) _ _ _ H2 N2) by lia. reflexivity.
Qed.

(* fuel-free big-step judgement *)
Definition yields (ss : list stmt) (s : store) (r : outcome) : Prop :=
  exists f, exec f ss s = r /\ r <> OutOfFuel.

Lemma yields_det ss s r1 r2 : yields ss s r1 -> yields ss s r2 -> r1 = r2.
Proof. intros [f1 [H1 N1]] [f2 [H2 N2]]. eapply exec_det; eassumption. Qed.

(** * Sequencing *)

(* exact equation; the continuation gets the fuel left after the spine of [ss1] *)
Lemma exec_app_eq f : forall ss1 ss2 s,
  exec f (ss1 ++ ss2) s = then_run (exec f ss1 s) (exec (f - length ss1) ss2).
Proof.
  induction f as [|f IH]; intros ss1 ss2 s; [reflexivity|].
  destruct ss1 as [|st rest].
  - cbn [app length]. rewrite exec_nil. unfold then_run; cbn [bind_run].
    rewrite prepend_nil, Nat.sub_0_r. reflexivity.
  - cbn [app length]. rewrite !exec_cons, then_run_assoc. cbn [Nat.sub].
    destruct (exec_stmt (exec f) st s) as [s1 tr1 c| |]; try reflexivity.
    destruct c; try reflexivity. unfold then_run; cbn [bind_run]. f_equal. rewrite IH. reflexivity.
Qed.

Lemma exec_normal_fuel f : forall ss s s' tr,
  exec f ss s = Ok s' tr CNormal -> (length ss < f)%nat.
Proof.
  induction f as [|f IH]; intros ss s s' tr H; [discriminate|].
  destruct ss as [|st rest]; [cbn [length]; lia|].
  rewrite exec_cons in H. apply then_run_ok_inv in H as [[s1 [tr1 [tr2 [H1 [H2 H3]]]]]|[N _]].
  - apply IH in H2. cbn [length]. lia.
  - congruence.
Qed.

(* ss1 completes normally: continue with ss2 *)
Theorem exec_app f1 f2 ss1 ss2 s s1 tr1 r :
  exec f1 ss1 s = Ok s1 tr1 CNormal -> exec f2 ss2 s1 = r -> r <> OutOfFuel ->
  exec (f1 + f2) (ss1 ++ ss2) s = prepend tr1 r.
Proof.
  intros H1 H2 N. rewrite exec_app_eq.
  rewrite (exec_mono f1 (f1 + f2) _ _ _ H1) by (discriminate || lia).
  unfold then_run; cbn [bind_run]. f_equal.
  apply exec_normal_fuel in H1 as L. eapply exec_mono; [exact H2|exact N|lia].
Qed.

Corollary exec_app_ok f1 f2 ss1 ss2 s s1 tr1 s2 tr2 c :
  exec f1 ss1 s = Ok s1 tr1 CNormal -> exec f2 ss2 s1 = Ok s2 tr2 c ->
  exec (f1 + f2) (ss1 ++ ss2) s = Ok s2 (tr1 ++ tr2) c.
Proof. intros H1 H2. rewrite (exec_app _ _ _ _ _ _ _ _ H1 H2); [reflexivity|discriminate]. Qed.

(* ss1 ends with EXIT / CYCLE / RETURN or faults: that is the result *)
Theorem exec_app_abrupt f ss1 ss2 s s1 tr1 c :
  exec f ss1 s = Ok s1 tr1 c -> c <> CNormal -> exec f (ss1 ++ ss2) s = Ok s1 tr1 c.
Proof. intros H N. rewrite exec_app_eq, H. destruct c; try reflexivity. contradiction. Qed.

Theorem exec_app_fault f ss1 ss2 s : exec f ss1 s = Fault -> exec f (ss1 ++ ss2) s = Fault.
Proof. intros H. rewrite exec_app_eq, H. reflexivity. Qed.

Theorem exec_app_inv f ss1 ss2 s s' tr c :
  exec f (ss1 ++ ss2) s = Ok s' tr c ->
  (exists s1 tr1 tr2, exec f ss1 s = Ok s1 tr1 CNormal /\ exec f ss2 s1 = Ok s' tr2 c /\ tr = tr1 ++ tr2)
  \/ (c <> CNormal /\ exec f ss1 s = Ok s' tr c).
Proof.
  rewrite exec_app_eq. intro H.
  apply then_run_ok_inv in H as [[s1 [tr1 [tr2 [H1 [H2 H3]]]]]|H]; [left|right; exact H].
  exists s1, tr1, tr2. repeat split; auto.
  eapply exec_mono; [exact H2|discriminate|lia].
Qed.

Theorem exec_app_fault_inv f ss1 ss2 s :
  exec f (ss1 ++ ss2) s = Fault ->
  exec f ss1 s = Fault \/ exists s1 tr1, exec f ss1 s = Ok s1 tr1 CNormal /\ exec f ss2 s1 = Fault.
Proof.
  rewrite exec_app_eq. destruct (exec f ss1 s) as [s1 tr1 c| |] eqn:E; try discriminate; auto.
  destruct c; try discriminate. unfold then_run; cbn [bind_run]. rewrite prepend_fault. intro H.
  right. exists s1, tr1. split; [reflexivity|]. eapply exec_mono; [exact H|discriminate|lia].
Qed.

Lemma exec_cons_ok f1 f2 st rest s s1 tr1 s2 tr2 c :
  exec f1 [st] s = Ok s1 tr1 CNormal -> exec f2 rest s1 = Ok s2 tr2 c ->
  exec (f1 + f2) (st :: rest) s = Ok s2 (tr1 ++ tr2) c.
Proof. apply (exec_app_ok f1 f2 [st] rest). Qed.

Lemma exec_cons_inv f st rest s s' tr c :
  exec f (st :: rest) s = Ok s' tr c ->
  (exists s1 tr1 tr2, exec f [st] s = Ok s1 tr1 CNormal /\ exec f rest s1 = Ok s' tr2 c /\ tr = tr1 ++ tr2)
  \/ (c <> CNormal /\ exec f [st] s = Ok s' tr c).
Proof. apply (exec_app_inv f [st] rest). Qed.

Lemma exec_single f st s : exec (S (S f)) [st] s = exec_stmt (exec (S f)) st s.
Proof. rewrite exec_cons. apply then_run_ret. Qed.

Lemma exec_dir f d body s : exec (S (S f)) [SDir d body] s = exec (S f) body s.
Proof. apply exec_single. Qed.

Lemma exec_if f c th el s v :
  eval s c = Some v ->
  exec (S (S f)) [SIf c th el] s = prepend (rds (ereads s c)) (exec (S f) (if v =? 0 then el else th) s).
Proof. intro E. rewrite exec_single. cbn [exec_stmt]. rewrite E. reflexivity. Qed.

Lemma exec_assign f x ix e s vs v :
  opt_all (map (eval s) ix) = Some vs -> eval s e = Some v ->
  exec (S (S f)) [SAssign x ix e] s =
  Ok (upd s (x, vs) v) (rds (ereads s e ++ flat_map (ereads s) ix) ++ [Wr (x, vs)]) CNormal.
Proof. intros E1 E2. rewrite exec_single. cbn [exec_stmt]. rewrite E1, E2. reflexivity. Qed.

(* a DO statement in terms of [do_loop] *)
Lemma exec_do f x lo hi st body s l h t :
  eval s lo = Some l -> eval s hi = Some h -> eval s st = Some t -> t <> 0 ->
  exec (S (S f)) [SDo x lo hi st body] s =
  prepend (rds (ereads s lo ++ ereads s hi ++ ereads s st))
          (do_loop (exec (S f) body) x l t (trip_count l h t) 0 s).
Proof.
  intros E1 E2 E3 N. rewrite exec_single. cbn [exec_stmt]. rewrite E1, E2, E3.
  apply Z.eqb_neq in N. rewrite N. reflexivity.
Qed.

(* inversion: a successful DO statement evaluated its bounds and ran [do_loop] *)
Lemma exec_do_inv f x lo hi st body s s' tr c :
  exec f [SDo x lo hi st body] s = Ok s' tr c ->
  exists f' l h t tr0, f = S (S f') /\
    eval s lo = Some l /\ eval s hi = Some h /\ eval s st = Some t /\ t <> 0 /\
    do_loop (exec (S f') body) x l t (trip_count l h t) 0 s = Ok s' tr0 c /\
    tr = rds (ereads s lo ++ ereads s hi ++ ereads s st) ++ tr0.
Proof.
  intro H. destruct f as [|[|f']]; try discriminate.
  - rewrite exec_cons in H. apply then_run_ok_inv in H as [[s1 [tr1 [tr2 [_ [H2 _]]]]]|[N H]].
    + discriminate.
    + exfalso. cbn [exec_stmt] in H.
      destruct (eval s lo), (eval s hi), (eval s st); try discriminate.
      destruct (_ =? 0); try discriminate.
      apply prepend_ok_inv in H as [tr0 [H _]].
      destruct (trip_count _ _ _); cbn [do_loop exec] in H; [inversion H; subst; auto | discriminate].
  - rewrite exec_single in H. cbn [exec_stmt] in H.
    destruct (eval s lo) as [l|], (eval s hi) as [h|], (eval s st) as [t|]; try discriminate.
    destruct (t =? 0) eqn:E; try discriminate. apply Z.eqb_neq in E.
    apply prepend_ok_inv in H as [tr0 [H1 H2]].
    exists f', l, h, t, tr0. repeat split; auto.
Qed.

(** ** Sequences of runners and the iterations of a DO loop *)

Fixpoint seq_runs (rs : list runner) (s : store) : outcome :=
  match rs with
  | [] => Ok s [] CNormal
  | r :: rest => then_run (r s) (seq_runs rest)
  end.

Lemma seq_runs_app rs1 rs2 s :
  seq_runs (rs1 ++ rs2) s = then_run (seq_runs rs1 s) (seq_runs rs2).
Proof.
  revert s. induction rs1 as [|r rs1 IH]; intro s; cbn [app seq_runs].
  - unfold then_run; cbn [bind_run]. rewrite prepend_nil. reflexivity.
  - rewrite then_run_assoc. destruct (r s) as [s1 tr1 c| |]; try reflexivity.
    destruct c; try reflexivity. unfold then_run; cbn [bind_run]. f_equal. rewrite IH. reflexivity.
Qed.

Definition set_run (x : loc) (v : Z) : runner := fun s => Ok (upd s x v) [Wr x] CNormal.

(* one iteration of a DO loop over [x] with loop-variable value [v]: assign x, run the body;
   CYCLE is normal completion of the iteration, EXIT / RETURN are passed on *)
Definition iter_run (run : runner) (x : name) (v : Z) : runner :=
  fun s => then_run (set_run (x, []) v s) (fun s1 => map_ctl cyc2norm (run s1)).

Definition iters (run : runner) (x : name) (vs : list Z) : runner :=
  seq_runs (map (iter_run run x) vs).

Lemma iter_run_eq run x v s :
  iter_run run x v s = prepend [Wr (x, [])] (map_ctl cyc2norm (run (upd s (x, []) v))).
Proof. reflexivity. Qed.

Lemma iter_run_ok run x v s s' tr c :
  run (upd s (x, []) v) = Ok s' tr c ->
  iter_run run x v s = Ok s' (Wr (x, []) :: tr) (cyc2norm c).
Proof. intro H. rewrite iter_run_eq, H. reflexivity. Qed.

Lemma iter_run_ok_inv run x v s s' tr c :
  iter_run run x v s = Ok s' tr c ->
  exists tr0 c0, run (upd s (x, []) v) = Ok s' tr0 c0 /\ tr = Wr (x, []) :: tr0 /\ c = cyc2norm c0.
Proof.
  rewrite iter_run_eq. intro H. apply prepend_ok_inv in H as [tr0 [H1 H2]].
  destruct (run (upd s (x, []) v)) as [s2 tr2 c2| |]; try discriminate.
  cbn [map_ctl] in H1. inversion H1; subst. eauto.
Qed.

Lemma iters_nil run x s : iters run x [] s = Ok s [] CNormal.
Proof. reflexivity. Qed.

Lemma iters_cons run x v vs s :
  iters run x (v :: vs) s = then_run (iter_run run x v s) (iters run x vs).
Proof. reflexivity. Qed.

Lemma iters_app run x vs1 vs2 s :
  iters run x (vs1 ++ vs2) s = then_run (iters run x vs1 s) (iters run x vs2).
Proof. unfold iters. rewrite map_app. apply seq_runs_app. Qed.

(* k, k+1, ..., k+n-1 *)
Fixpoint zseq (k : Z) (n : nat) : list Z :=
  match n with O => [] | S n' => k :: zseq (k + 1) n' end.

(* the values taken by the loop variable in iterations k .. k+n-1 *)
Definition ivals (l t k : Z) (n : nat) : list Z := map (fun i => l + i * t) (zseq k n).

Lemma zseq_app k n1 n2 : zseq k (n1 + n2) = zseq k n1 ++ zseq (k + Z.of_nat n1) n2.
Proof.
  revert k. induction n1 as [|n1 IH]; intro k.
  - cbn [Nat.add zseq app]. rewrite Z.add_0_r. reflexivity.
  - cbn [Nat.add zseq app]. rewrite IH. do 3 f_equal. lia.
Qed.

Lemma in_zseq i k n : In i (zseq k n) <-> k <= i < k + Z.of_nat n.
Proof.
  revert k. induction n as [|n IH]; intro k; cbn [zseq In].
  - lia.
  - rewrite IH. lia.
Qed.

Lemma zseq_length k n : length (zseq k n) = n.
Proof. revert k. induction n as [|n IH]; intro k; cbn [zseq length]; [|rewrite IH]; reflexivity. Qed.

Lemma zseq_NoDup k n : NoDup (zseq k n).
Proof.
  revert k. induction n as [|n IH]; intro k; cbn [zseq]; constructor.
  - rewrite in_zseq. lia.
  - apply IH.
Qed.

Lemma ivals_app l t k n1 n2 : ivals l t k (n1 + n2) = ivals l t k n1 ++ ivals l t (k + Z.of_nat n1) n2.
Proof. unfold ivals. rewrite zseq_app, map_app. reflexivity. Qed.

Lemma in_ivals v l t k n : In v (ivals l t k n) <-> exists i, k <= i < k + Z.of_nat n /\ v = l + i * t.
Proof.
  unfold ivals. rewrite in_map_iff. split.
  - intros [i [H1 H2]]. apply in_zseq in H2. eauto.
  - intros [i [H1 H2]]. exists i. rewrite in_zseq. auto.
Qed.

Lemma ivals_NoDup l t k n : t <> 0 -> NoDup (ivals l t k n).
Proof.
  intro N. unfold ivals. apply FinFun.Injective_map_NoDup; [|apply zseq_NoDup].
  intros a b H. assert (E : a * t = b * t) by lia. apply Z.mul_cancel_r in E; assumption.
Qed.

Lemma do_loop_0 run x l t k s :
  do_loop run x l t 0 k s = Ok (upd s (x, []) (l + k * t)) [Wr (x, [])] CNormal.
Proof. reflexivity. Qed.

(* first iteration, all cases at once *)
Lemma do_loop_S run x l t n k s :
  do_loop run x l t (S n) k s =
  bind_run exit2norm (iter_run run x (l + k * t) s) (do_loop run x l t n (k + 1)).
Proof.
  rewrite iter_run_eq. cbn [do_loop].
  destruct (run (upd s (x, []) (l + k * t))) as [s2 tr c| |]; try reflexivity.
  destruct c; reflexivity.
Qed.

Lemma do_loop_S_normal run x l t n k s s2 tr c :
  run (upd s (x, []) (l + k * t)) = Ok s2 tr c -> c = CNormal \/ c = CCycle ->
  do_loop run x l t (S n) k s = prepend (Wr (x, []) :: tr) (do_loop run x l t n (k + 1) s2).
Proof. intros H [->| ->]; cbn [do_loop]; rewrite H; reflexivity. Qed.

Lemma do_loop_S_exit run x l t n k s s2 tr :
  run (upd s (x, []) (l + k * t)) = Ok s2 tr CExit ->
  do_loop run x l t (S n) k s = Ok s2 (Wr (x, []) :: tr) CNormal.
Proof. intros H; cbn [do_loop]; rewrite H; reflexivity. Qed.

Lemma do_loop_S_return run x l t n k s s2 tr :
  run (upd s (x, []) (l + k * t)) = Ok s2 tr CReturn ->
  do_loop run x l t (S n) k s = Ok s2 (Wr (x, []) :: tr) CReturn.
Proof. intros H; cbn [do_loop]; rewrite H; reflexivity. Qed.

(* split n = n1 + n2: run the first n1 iterations, then (unless one of them exits/returns) the loop
   for the remaining n2 *)
Theorem do_loop_split run x l t n1 : forall n2 k s,
  do_loop run x l t (n1 + n2) k s =
  bind_run exit2norm (iters run x (ivals l t k n1) s) (do_loop run x l t n2 (k + Z.of_nat n1)).
Proof.
  induction n1 as [|n1 IH]; intros n2 k s.
  - cbn [Nat.add ivals zseq map]. rewrite iters_nil. cbn [bind_run].
    rewrite prepend_nil. cbn [Z.of_nat]. rewrite Z.add_0_r. reflexivity.
  - cbn [Nat.add]. rewrite do_loop_S. unfold ivals. cbn [zseq map]. fold (ivals l t (k + 1) n1).
    rewrite iters_cons.
    destruct (iter_run run x (l + k * t) s) as [s1 tr1 c| |]; try reflexivity.
    destruct c; try reflexivity.
    unfold then_run. cbn [bind_run]. rewrite bind_run_prepend. f_equal.
    rewrite IH. replace (k + 1 + Z.of_nat n1) with (k + Z.of_nat (S n1)) by lia. reflexivity.
Qed.

(* the whole loop = all iterations, then the final assignment of the loop variable *)
Corollary do_loop_iters run x l t n k s :
  do_loop run x l t n k s =
  bind_run exit2norm (iters run x (ivals l t k n) s) (set_run (x, []) (l + (k + Z.of_nat n) * t)).
Proof. rewrite <- (Nat.add_0_r n) at 1. apply do_loop_split. Qed.

Corollary do_loop_last run x l t n k s :
  do_loop run x l t (S n) k s =
  bind_run exit2norm (iters run x (ivals l t k n) s) (do_loop run x l t 1 (k + Z.of_nat n)).
Proof. rewrite <- (Nat.add_1_r n). apply do_loop_split. Qed.

(* no iteration exits: plain composition *)
Corollary do_loop_split_normal run x l t n1 n2 k s s1 tr1 :
  iters run x (ivals l t k n1) s = Ok s1 tr1 CNormal ->
  do_loop run x l t (n1 + n2) k s = prepend tr1 (do_loop run x l t n2 (k + Z.of_nat n1) s1).
Proof. intro H. rewrite do_loop_split, H. reflexivity. Qed.

(* the result of do_loop is never CExit/CCycle *)
Lemma do_loop_ctl run x l t n : forall k s s' tr c,
  do_loop run x l t n k s = Ok s' tr c -> c = CNormal \/ c = CReturn.
Proof.
  induction n as [|n IH]; intros k s s' tr c H.
  - inversion H; auto.
  - cbn [do_loop] in H. destruct (run _) as [s2 tr2 c2| |]; try discriminate.
    destruct c2; try (inversion H; auto; fail);
      apply prepend_ok_inv in H as [tr0 [H _]]; eapply IH; exact H.
Qed.

(** * Expression frame *)

Lemma eval_intr_bnd s1 s2 f args vs :
  bnd s2 = bnd s1 -> eval_intr s2 f args vs = eval_intr s1 f args vs.
Proof. intro Hb. unfold eval_intr, dim_of. rewrite Hb. reflexivity. Qed.

Definition expr_frame_P (s1 s2 : store) (e : expr) : Prop :=
  (forall l, In l (ereads s1 e) -> val s2 l = val s1 l) ->
  eval s2 e = eval s1 e /\ ereads s2 e = ereads s1 e.

Lemma evals_frame_aux s1 s2 es :
  Forall (expr_frame_P s1 s2) es ->
  (forall l, In l (flat_map (ereads s1) es) -> val s2 l = val s1 l) ->
  map (eval s2) es = map (eval s1) es /\ flat_map (ereads s2) es = flat_map (ereads s1) es.
Proof.
  induction 1 as [|e es He Hes IH]; intro H; [split; reflexivity|].
  cbn [map flat_map] in *.
  destruct He as [E1 E2]; [intros l Hl; apply H, in_or_app; left; exact Hl|].
  destruct IH as [E3 E4]; [intros l Hl; apply H, in_or_app; right; exact Hl|].
  rewrite E1, E2, E3, E4. split; reflexivity.
Qed.

Lemma expr_frame_aux s1 s2 (Hb : bnd s2 = bnd s1) e : expr_frame_P s1 s2 e.
Proof.
  induction e using expr_ind'; unfold expr_frame_P in *.
  - intros _. split; reflexivity.
  - intros H. cbn [eval ereads]. rewrite (H (x, [])) by (left; reflexivity). split; reflexivity.
  - rename H into IH. intros H. cbn [eval ereads] in *.
    destruct (evals_frame_aux s1 s2 ix IH) as [E1 E2];
      [intros l Hl; apply H, in_or_app; left; exact Hl|].
    rewrite E1, E2. destruct (opt_all (map (eval s1) ix)) as [vs|]; [|split; reflexivity].
    rewrite (H (a, vs)) by (apply in_or_app; right; left; reflexivity). split; reflexivity.
  - intros H. cbn [eval ereads] in *. destruct (IHe H) as [E1 E2]. rewrite E1, E2. split; reflexivity.
  - intros H. cbn [eval ereads] in *.
    destruct IHe1 as [E1 E2]; [intros l0 Hl; apply H, in_or_app; left; exact Hl|].
    destruct IHe2 as [E3 E4]; [intros l0 Hl; apply H, in_or_app; right; exact Hl|].
    rewrite E1, E2, E3, E4. split; reflexivity.
  - rename H into IH. intros H. cbn [eval ereads] in *. destruct (is_inquiry f).
    + destruct args as [|a0 r]; [split; reflexivity|].
      destruct (evals_frame_aux s1 s2 r (Forall_inv_tail IH) H) as [E1 E2].
      rewrite E1, E2. split; [|reflexivity].
      destruct (opt_all (map (eval s1) r)); [apply eval_intr_bnd, Hb|reflexivity].
    + destruct (evals_frame_aux s1 s2 args IH H) as [E1 E2].
      rewrite E1, E2. split; [|reflexivity].
      destruct (opt_all (map (eval s1) args)); [apply eval_intr_bnd, Hb|reflexivity].
Qed.

Theorem expr_frame s1 s2 e :
  bnd s2 = bnd s1 -> (forall l, In l (ereads s1 e) -> val s2 l = val s1 l) ->
  eval s2 e = eval s1 e /\ ereads s2 e = ereads s1 e.
Proof. intros Hb H. apply expr_frame_aux; assumption. Qed.

Corollary eval_frame s1 s2 e :
  bnd s2 = bnd s1 -> (forall l, In l (ereads s1 e) -> val s2 l = val s1 l) -> eval s2 e = eval s1 e.
Proof. intros Hb H. apply expr_frame; assumption. Qed.

Corollary ereads_frame s1 s2 e :
  bnd s2 = bnd s1 -> (forall l, In l (ereads s1 e) -> val s2 l = val s1 l) -> ereads s2 e = ereads s1 e.
Proof. intros Hb H. apply expr_frame; assumption. Qed.

Theorem exprs_frame s1 s2 es :
  bnd s2 = bnd s1 -> (forall l, In l (flat_map (ereads s1) es) -> val s2 l = val s1 l) ->
  map (eval s2) es = map (eval s1) es /\ flat_map (ereads s2) es = flat_map (ereads s1) es.
Proof.
  intros Hb H. apply evals_frame_aux; [|exact H].
  apply Forall_forall. intros e _. apply expr_frame_aux, Hb.
Qed.

Corollary eval_steq s1 s2 e : steq s1 s2 -> eval s2 e = eval s1 e /\ ereads s2 e = ereads s1 e.
Proof. intros [H1 H2]. apply expr_frame; [symmetry; exact H2 | intros l _; symmetry; apply H1]. Qed.

(** * Statement frame / footprint *)

(* [frame_ok r]: a successful run of [r] from s1 can be replayed, with the same trace and control
   state, from any s2 that has the same bounds and agrees with s1 on the upward-exposed reads;
   the final stores agree on everything written, and nothing else is changed. *)
Definition frame_ok (r : runner) : Prop :=
  forall s1 s1' tr c, r s1 = Ok s1' tr c ->
  forall s2, bnd s2 = bnd s1 -> (forall l, In l (exposed tr) -> val s2 l = val s1 l) ->
  exists s2', r s2 = Ok s2' tr c /\ bnd s2' = bnd s2 /\
    (forall l, In l (writes tr) -> val s2' l = val s1' l) /\
    (forall l, ~ In l (writes tr) -> val s2' l = val s2 l).

Lemma frame_ok_wb r : frame_ok r ->
  forall s s' tr c, r s = Ok s' tr c ->
  bnd s' = bnd s /\ forall l, ~ In l (writes tr) -> val s' l = val s l.
Proof.
  intros Hr s s' tr c H.
  destruct (Hr _ _ _ _ H s eq_refl (fun _ _ => eq_refl)) as [s2' [H1 [H2 [H3 H4]]]].
  rewrite H in H1. inversion H1; subst. auto.
Qed.

Lemma frame_ok_steq (r : runner) s1 s1' tr c s2 :
  frame_ok r -> steq s1 s2 -> r s1 = Ok s1' tr c ->
  exists s2', r s2 = Ok s2' tr c /\ steq s1' s2'.
Proof.
  intros Hr [Hv Hb] H.
  destruct (Hr _ _ _ _ H s2 (eq_sym Hb)) as [s2' [R1 [R2 [R3 R4]]]];
    [intros l _; symmetry; apply Hv|].
  destruct (frame_ok_wb _ Hr _ _ _ _ H) as [Wb Wv].
  exists s2'. split; [exact R1|]. split.
  - intro l. destruct (in_dec loc_eq_dec l (writes tr)) as [I|N].
    + symmetry. apply R3, I.
    + rewrite R4, Wv by exact N. apply Hv.
  - congruence.
Qed.

Lemma frame_ok_ext (r r' : runner) : (forall s, r s = r' s) -> frame_ok r' -> frame_ok r.
Proof.
  intros E Hr s1 s1' tr c H s2 Hb Hag. rewrite E in H.
  destruct (Hr _ _ _ _ H s2 Hb Hag) as [s2' [H1 H2]]. exists s2'. rewrite E. auto.
Qed.

Lemma frame_ret : frame_ok (fun s => Ok s [] CNormal).
Proof.
  intros s1 s1' tr c H s2 Hb Hag. inversion H; subst. exists s2.
  split; [reflexivity|]. split; [reflexivity|]. split; [intros l []|reflexivity].
Qed.

Lemma frame_set_run x v : frame_ok (set_run x v).
Proof.
  intros s1 s1' tr c H s2 Hb Hag. unfold set_run in *. inversion H; subst. exists (upd s2 x v).
  split; [reflexivity|]. split; [reflexivity|]. cbn [writes In]. split.
  - intros l [<-|[]]. rewrite !val_upd_same. reflexivity.
  - intros l N. apply val_upd_other. intro E. apply N. left. symmetry. exact E.
Qed.

Lemma frame_map_ctl g (r : runner) : frame_ok r -> frame_ok (fun s => map_ctl g (r s)).
Proof.
  intros Hr s1 s1' tr c H s2 Hb Hag. cbv beta in *.
  destruct (r s1) as [sa tra ca| |] eqn:E; try discriminate. cbn [map_ctl] in H.
  inversion H; subst. destruct (Hr _ _ _ _ E s2 Hb Hag) as [s2' [R1 R2]].
  exists s2'. rewrite R1. cbn [map_ctl]. auto.
Qed.

Lemma frame_bind g (r K : runner) :
  frame_ok r -> frame_ok K -> frame_ok (fun s => bind_run g (r s) K).
Proof.
  intros Hr HK s1 s1' tr c H s2 Hb Hag. cbv beta in *.
  destruct (r s1) as [sa tra ca| |] eqn:E1; try discriminate.
  destruct (frame_ok_wb r Hr _ _ _ _ E1) as [Wb1 Wv1].
  destruct ca;
    try (cbn [bind_run] in H; inversion H; subst;
         destruct (Hr _ _ _ _ E1 s2 Hb Hag) as [sa2 [R1 R2]];
         exists sa2; rewrite R1; cbn [bind_run]; auto; fail).
  cbn [bind_run] in H. apply prepend_ok_inv in H as [trb [E2 ->]].
  destruct (Hr _ _ _ _ E1 s2 Hb) as [sa2 [R1 [R2 [R3 R4]]]].
  { intros l Hl. apply Hag, in_exposed_app. left; exact Hl. }
  destruct (frame_ok_wb K HK _ _ _ _ E2) as [Wb2 Wv2].
  destruct (HK _ _ _ _ E2 sa2) as [sb2 [Q1 [Q2 [Q3 Q4]]]].
  { congruence. }
  { intros l Hl. destruct (in_dec loc_eq_dec l (writes tra)) as [I|N]; [apply R3, I|].
    rewrite R4, Wv1 by exact N. apply Hag, in_exposed_app. right; split; assumption. }
  exists sb2. rewrite R1. cbn [bind_run]. rewrite Q1. cbn [prepend].
  split; [reflexivity|]. split; [congruence|]. split.
  - intros l Hl. rewrite writes_app in Hl.
    destruct (in_dec loc_eq_dec l (writes trb)) as [I|N]; [apply Q3, I|].
    rewrite Q4, Wv2 by exact N. apply R3. apply in_app_or in Hl as [Hl|Hl]; [assumption|contradiction].
  - intros l Hl. rewrite writes_app in Hl.
    rewrite Q4, R4; [reflexivity| |]; intro X; apply Hl, in_or_app; auto.
Qed.

Lemma frame_then (r K : runner) :
  frame_ok r -> frame_ok K -> frame_ok (fun s => then_run (r s) K).
Proof. apply frame_bind. Qed.

Lemma frame_iter_run run x v : frame_ok run -> frame_ok (iter_run run x v).
Proof.
  intro Hr. unfold iter_run.
  apply (frame_then (set_run (x, []) v) (fun s1 => map_ctl cyc2norm (run s1))).
  - apply frame_set_run.
  - apply frame_map_ctl, Hr.
Qed.

Lemma frame_seq_runs rs : Forall frame_ok rs -> frame_ok (seq_runs rs).
Proof.
  induction 1 as [|r rs Hr Hrs IH].
  - apply frame_ret.
  - apply (frame_then r (seq_runs rs)); assumption.
Qed.

Lemma frame_iters run x vs : frame_ok run -> frame_ok (iters run x vs).
Proof.
  intro Hr. apply frame_seq_runs. apply Forall_forall. intros r Hin.
  apply in_map_iff in Hin as [v [<- _]]. apply frame_iter_run, Hr.
Qed.

Lemma frame_do_loop run x l t : frame_ok run -> forall n k, frame_ok (do_loop run x l t n k).
Proof.
  intro Hr. induction n as [|n IH]; intro k.
  - apply (frame_set_run (x, []) (l + k * t)).
  - eapply frame_ok_ext; [intro s; apply do_loop_S|].
    apply (frame_bind exit2norm (iter_run run x (l + k * t)) (do_loop run x l t n (k + 1))).
    + apply frame_iter_run, Hr.
    + apply IH.
Qed.

Lemma writes_region r tra c :
  writes (Enter r :: tra ++ match c with CNormal => [Leave r] | _ => [] end) = writes tra.
Proof. cbn [writes]. rewrite writes_app. destruct c; cbn [writes]; apply app_nil_r. Qed.

Lemma in_exposed_region l r tra tl : In l (exposed tra) -> In l (exposed (Enter r :: tra ++ tl)).
Proof. intro H. change (In l (exposed (tra ++ tl))). apply in_exposed_app. left; exact H. Qed.

Lemma frame_exec_stmt (run : list stmt -> store -> outcome) st :
  (forall ss, frame_ok (run ss)) -> frame_ok (exec_stmt run st).
Proof.
  intros Hrun.
  destruct st as [x ix e|c th el|x lo hi st body| | | |es|r body|d body];
    intros s1 s1' tr c0 H s2 Hb Hag; cbn [exec_stmt] in *.
  - (* SAssign *)
    destruct (opt_all (map (eval s1) ix)) as [vs|] eqn:E1; try discriminate.
    destruct (eval s1 e) as [v|] eqn:E2; try discriminate. inversion H; subst; clear H.
    assert (A : forall l, In l (ereads s1 e ++ flat_map (ereads s1) ix) -> val s2 l = val s1 l)
      by (intros l Hl; apply Hag, in_exposed_rds_app_l, Hl).
    destruct (expr_frame s1 s2 e Hb) as [X1 X2];
      [intros l Hl; apply A, in_or_app; left; exact Hl|].
    destruct (exprs_frame s1 s2 ix Hb) as [Y1 Y2];
      [intros l Hl; apply A, in_or_app; right; exact Hl|].
    rewrite Y1, X1, X2, Y2, E1, E2. exists (upd s2 (x, vs) v).
    split; [reflexivity|]. split; [reflexivity|]. rewrite writes_rds_app. cbn [writes In]. split.
    + intros l [<-|[]]. rewrite !val_upd_same. reflexivity.
    + intros l N. apply val_upd_other. intro E. apply N. left. symmetry. exact E.
  - (* SIf *)
    destruct (eval s1 c) as [v|] eqn:E; try discriminate.
    apply prepend_ok_inv in H as [tr0 [H ->]].
    destruct (expr_frame s1 s2 c Hb) as [X1 X2];
      [intros l Hl; apply Hag, in_exposed_rds_app_l, Hl|].
    rewrite X1, X2, E.
    destruct (Hrun _ _ _ _ _ H s2 Hb) as [s2' [R1 [R2 [R3 R4]]]];
      [intros l Hl; apply Hag, in_exposed_rds_app_r, Hl|].
    exists s2'. rewrite R1. cbn [prepend]. rewrite writes_rds_app. auto.
  - (* SDo *)
    destruct (eval s1 lo) as [l|] eqn:E1; try discriminate.
    destruct (eval s1 hi) as [h|] eqn:E2; try discriminate.
    destruct (eval s1 st) as [t|] eqn:E3; try discriminate.
    destruct (t =? 0) eqn:E4; try discriminate.
    apply prepend_ok_inv in H as [tr0 [H ->]].
    assert (A : forall l, In l (ereads s1 lo ++ ereads s1 hi ++ ereads s1 st) -> val s2 l = val s1 l)
      by (intros l0 Hl; apply Hag, in_exposed_rds_app_l, Hl).
    destruct (expr_frame s1 s2 lo Hb) as [X1 X2];
      [intros l0 Hl; apply A, in_or_app; left; exact Hl|].
    destruct (expr_frame s1 s2 hi Hb) as [Y1 Y2];
      [intros l0 Hl; apply A, in_or_app; right; apply in_or_app; left; exact Hl|].
    destruct (expr_frame s1 s2 st Hb) as [Z1 Z2];
      [intros l0 Hl; apply A, in_or_app; right; apply in_or_app; right; exact Hl|].
    rewrite X1, X2, Y1, Y2, Z1, Z2, E1, E2, E3, E4.
    destruct (frame_do_loop (run body) x l t (Hrun body) _ _ _ _ _ _ H s2 Hb)
      as [s2' [R1 [R2 [R3 R4]]]];
      [intros l0 Hl; apply Hag, in_exposed_rds_app_r, Hl|].
    exists s2'. rewrite R1. cbn [prepend]. rewrite writes_rds_app. auto.
  - inversion H; subst. exists s2. split; [reflexivity|]. split; [reflexivity|].
    split; [intros l []|reflexivity].
  - inversion H; subst. exists s2. split; [reflexivity|]. split; [reflexivity|].
    split; [intros l []|reflexivity].
  - inversion H; subst. exists s2. split; [reflexivity|]. split; [reflexivity|].
    split; [intros l []|reflexivity].
  - (* SPrint *)
    destruct (opt_all (map (eval s1) es)) as [vs|] eqn:E1; try discriminate.
    injection H as I1 I2 I3; subst s1' tr c0.
    destruct (exprs_frame s1 s2 es Hb) as [Y1 Y2];
      [intros l Hl; apply Hag, in_exposed_rds_app_l, Hl|].
    rewrite Y1, Y2, E1. exists s2.
    split; [reflexivity|]. split; [reflexivity|]. rewrite writes_rds_app. cbn [writes].
    split; [intros l []|reflexivity].
  - (* SRegion *)
    destruct (run body s1) as [sa tra ca| |] eqn:E; try discriminate.
    inversion H; subst; clear H.
    destruct (Hrun _ _ _ _ _ E s2 Hb) as [s2' [R1 [R2 [R3 R4]]]];
      [intros l Hl; apply Hag, in_exposed_region, Hl|].
    exists s2'. rewrite R1. rewrite writes_region. auto.
  - (* SDir *)
    apply (Hrun _ _ _ _ _ H s2 Hb Hag).
Qed.

Lemma frame_exec f : forall ss, frame_ok (exec f ss).
Proof.
  induction f as [|f IH]; intro ss.
  - intros s1 s1' tr c H. discriminate.
  - destruct ss as [|st rest]; [apply frame_ret|].
    eapply frame_ok_ext; [intro s; apply exec_cons|].
    apply (frame_then (exec_stmt (exec f) st) (exec f rest)).
    + apply frame_exec_stmt, IH.
    + apply IH.
Qed.

(* The footprint theorem, with upward-exposed reads. *)
Theorem exec_frame f ss s1 s1' tr c s2 :
  exec f ss s1 = Ok s1' tr c ->
  bnd s2 = bnd s1 ->
  (forall l, In l (exposed tr) -> val s2 l = val s1 l) ->
  exists s2', exec f ss s2 = Ok s2' tr c /\ bnd s2' = bnd s2 /\
    (forall l, In l (writes tr) -> val s2' l = val s1' l) /\
    (forall l, ~ In l (writes tr) -> val s2' l = val s2 l).
Proof. intros H Hb Hag. exact (frame_exec f ss _ _ _ _ H s2 Hb Hag). Qed.

(* weaker version with all reads *)
Corollary exec_frame_reads f ss s1 s1' tr c s2 :
  exec f ss s1 = Ok s1' tr c ->
  bnd s2 = bnd s1 ->
  (forall l, In l (reads tr) -> val s2 l = val s1 l) ->
  exists s2', exec f ss s2 = Ok s2' tr c /\ bnd s2' = bnd s2 /\
    (forall l, In l (writes tr) -> val s2' l = val s1' l) /\
    (forall l, ~ In l (writes tr) -> val s2' l = val s2 l).
Proof. intros H Hb Hag. apply (exec_frame _ _ _ _ _ _ _ H Hb). intros l Hl. apply Hag, exposed_incl_reads, Hl. Qed.

Corollary exec_unchanged f ss s s' tr c l :
  exec f ss s = Ok s' tr c -> ~ In l (writes tr) -> val s' l = val s l.
Proof. intros H N. apply (frame_ok_wb _ (frame_exec f ss) _ _ _ _ H), N. Qed.

Corollary exec_bnd f ss s s' tr c : exec f ss s = Ok s' tr c -> bnd s' = bnd s.
Proof. intros H. apply (frame_ok_wb _ (frame_exec f ss) _ _ _ _ H). Qed.

Corollary do_loop_unchanged f body x l t n k s s' tr c l0 :
  do_loop (exec f body) x l t n k s = Ok s' tr c -> ~ In l0 (writes tr) -> val s' l0 = val s l0.
Proof.
  intros H N.
  apply (frame_ok_wb _ (frame_do_loop _ x l t (frame_exec f body) n k) _ _ _ _ H), N.
Qed.

Corollary exec_steq f ss s1 s1' tr c s2 :
  steq s1 s2 -> exec f ss s1 = Ok s1' tr c ->
  exists s2', exec f ss s2 = Ok s2' tr c /\ steq s1' s2'.
Proof. exact (frame_ok_steq _ s1 s1' tr c s2 (frame_exec f ss)). Qed.

(** * Bernstein commutation *)

(* running B after A, when A does not write anything B reads upward-exposed *)
Lemma run_after (rA rB : runner) s sA trA cA sB trB cB :
  frame_ok rA -> frame_ok rB ->
  rA s = Ok sA trA cA -> rB s = Ok sB trB cB ->
  (forall l, In l (writes trA) -> ~ In l (exposed trB)) ->
  exists sAB, rB sA = Ok sAB trB cB /\ bnd sAB = bnd s /\
    (forall l, In l (writes trB) -> val sAB l = val sB l) /\
    (forall l, ~ In l (writes trB) -> val sAB l = val sA l).
Proof.
  intros HA HB EA EB D.
  destruct (frame_ok_wb _ HA _ _ _ _ EA) as [Wb Wv].
  destruct (HB _ _ _ _ EB sA Wb) as [sAB [R1 [R2 [R3 R4]]]].
  { intros l Hl. apply Wv. intro I. exact (D l I Hl). }
  exists sAB. split; [exact R1|]. split; [congruence|]. split; assumption.
Qed.

Theorem bernstein_runs (rA rB : runner) s sA trA sB trB :
  frame_ok rA -> frame_ok rB ->
  rA s = Ok sA trA CNormal -> rB s = Ok sB trB CNormal ->
  (forall l, In l (writes trA) -> ~ In l (writes trB)) ->
  (forall l, In l (writes trA) -> ~ In l (exposed trB)) ->
  (forall l, In l (writes trB) -> ~ In l (exposed trA)) ->
  exists sAB sBA,
    then_run (rA s) rB = Ok sAB (trA ++ trB) CNormal /\
    then_run (rB s) rA = Ok sBA (trB ++ trA) CNormal /\
    steq sAB sBA /\ bnd sAB = bnd s /\
    (forall l, In l (writes trA) -> val sAB l = val sA l) /\
    (forall l, In l (writes trB) -> val sAB l = val sB l) /\
    (forall l, ~ In l (writes trA) -> ~ In l (writes trB) -> val sAB l = val s l).
Proof.
  intros HA HB EA EB DW DAB DBA.
  destruct (run_after rA rB _ _ _ _ _ _ _ HA HB EA EB DAB) as [sAB [P1 [P2 [P3 P4]]]].
  destruct (run_after rB rA _ _ _ _ _ _ _ HB HA EB EA DBA) as [sBA [Q1 [Q2 [Q3 Q4]]]].
  destruct (frame_ok_wb _ HA _ _ _ _ EA) as [_ WA].
  destruct (frame_ok_wb _ HB _ _ _ _ EB) as [_ WB].
  exists sAB, sBA. rewrite EA, EB. unfold then_run; cbn [bind_run]. rewrite P1, Q1. cbn [prepend].
  split; [reflexivity|]. split; [reflexivity|].
  assert (CA : forall l, In l (writes trA) -> val sAB l = val sA l).
  { intros l I. apply P4. exact (DW l I). }
  assert (CN : forall l, ~ In l (writes trA) -> ~ In l (writes trB) -> val sAB l = val s l).
  { intros l NA NB. rewrite P4 by exact NB. apply WA, NA. }
  split; [|auto].
  split; [|congruence]. intro l.
  destruct (in_dec loc_eq_dec l (writes trA)) as [IA|NA].
  - rewrite CA, Q3 by exact IA. reflexivity.
  - destruct (in_dec loc_eq_dec l (writes trB)) as [IB|NB].
    + rewrite P3 by exact IB. rewrite Q4 by exact NA. reflexivity.
    + rewrite CN by assumption. rewrite Q4 by exact NA. symmetry. apply WB, NB.
Qed.

(* Blocks A and B, both completing normally from s, with no flow (write -> exposed read), anti
   (exposed read -> write) or output (write -> write) dependence between them, commute. *)
Theorem bernstein fA fB A B s sA trA sB trB :
  exec fA A s = Ok sA trA CNormal -> exec fB B s = Ok sB trB CNormal ->
  (forall l, In l (writes trA) -> ~ In l (writes trB)) ->
  (forall l, In l (writes trA) -> ~ In l (exposed trB)) ->
  (forall l, In l (writes trB) -> ~ In l (exposed trA)) ->
  exists sAB sBA,
    exec (fA + fB) (A ++ B) s = Ok sAB (trA ++ trB) CNormal /\
    exec (fA + fB) (B ++ A) s = Ok sBA (trB ++ trA) CNormal /\
    steq sAB sBA /\
    (forall l, In l (writes trA) -> val sAB l = val sA l) /\
    (forall l, In l (writes trB) -> val sAB l = val sB l) /\
    (forall l, ~ In l (writes trA) -> ~ In l (writes trB) -> val sAB l = val s l).
Proof.
  intros EA EB DW DAB DBA.
  destruct (bernstein_runs (exec fA A) (exec fB B) _ _ _ _ _ (frame_exec _ _) (frame_exec _ _)
              EA EB DW DAB DBA) as [sAB [sBA [P1 [P2 [P3 [_ P4]]]]]].
  rewrite EA, EB in *. unfold then_run in *; cbn [bind_run] in *.
  apply prepend_ok_inv in P1 as [t1 [P1 T1]]. apply prepend_ok_inv in P2 as [t2 [P2 T2]].
  apply app_inv_head in T1, T2. subst t1 t2.
  exists sAB, sBA.
  split; [apply (exec_app_ok _ _ _ _ _ _ _ _ _ _ EA P1)|].
  split; [rewrite Nat.add_comm; apply (exec_app_ok _ _ _ _ _ _ _ _ _ _ EB P2)|].
  split; assumption.
Qed.

(* The classical statement: W(A) disjoint from R(B) + W(B) and W(B) disjoint from R(A) + W(A). *)
Corollary bernstein_reads fA fB A B s sA trA sB trB :
  exec fA A s = Ok sA trA CNormal -> exec fB B s = Ok sB trB CNormal ->
  (forall l, In l (writes trA) -> ~ In l (reads trB ++ writes trB)) ->
  (forall l, In l (writes trB) -> ~ In l (reads trA ++ writes trA)) ->
  exists sAB sBA,
    exec (fA + fB) (A ++ B) s = Ok sAB (trA ++ trB) CNormal /\
    exec (fA + fB) (B ++ A) s = Ok sBA (trB ++ trA) CNormal /\
    steq sAB sBA /\
    (forall l, In l (writes trA) -> val sAB l = val sA l) /\
    (forall l, In l (writes trB) -> val sAB l = val sB l) /\
    (forall l, ~ In l (writes trA) -> ~ In l (writes trB) -> val sAB l = val s l).
Proof.
  intros EA EB D1 D2. apply (bernstein _ _ _ _ _ _ _ _ _ EA EB).
  - intros l I X. apply (D1 l I), in_or_app. right; exact X.
  - intros l I X. apply (D1 l I), in_or_app. left. apply exposed_incl_reads, X.
  - intros l I X. apply (D2 l I), in_or_app. left. apply exposed_incl_reads, X.
Qed.


(* Assumption audit: all three must print "Closed under the global context". *)
Print Assumptions exec_mono.
Print Assumptions exec_frame.
Print Assumptions bernstein.
