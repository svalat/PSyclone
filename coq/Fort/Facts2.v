(* Permutation of independent iterations.  Continues Fort/Facts.v; no axioms.

   Setting: a family of runners [f i] (i in some index type I: loop-variable values for one loop,
   pairs for a loop nest, thread/chunk ids for an OpenMP schedule ...).  Footprints are taken
   relative to ONE store s: [f i s = Ok (sts i) (trs i) CNormal].  If no runner writes a location
   that another one reads upward-exposed, then running them one after another in any order replays
   exactly these traces, and the final store is determined location by location by the (unique)
   writer.  Locations written by several runners (the DO variable, OpenMP-private temporaries) are
   collected in a predicate P and excluded from the conclusion; because independence is stated with
   [exposed], a location that every iteration writes before reading creates no dependence. *)
From Coq Require Import List ZArith Bool Lia Permutation.
Import ListNotations.
From PV Require Import Fort.Syntax Fort.Sem Fort.Facts.
Open Scope Z_scope.

Lemma written_by_dec {I : Type} (trs : I -> list event) (l : loc) (ix : list I) :
  (exists i, In i ix /\ In l (writes (trs i))) \/ (forall i, In i ix -> ~ In l (writes (trs i))).
Proof.
  induction ix as [|i ix IH].
  - right. intros i [].
  - destruct (in_dec loc_eq_dec l (writes (trs i))) as [Y|N].
    + left. exists i. split; [left; reflexivity|exact Y].
    + destruct IH as [[j [Hj Wj]]|IH].
      * left. exists j. split; [right; exact Hj|exact Wj].
      * right. intros j [<-|Hj]; [exact N|apply IH, Hj].
Qed.

(* Sequential composition of pairwise independent runners, started from any store s0 that agrees
   with s on what they read. *)
Theorem seq_runs_indep {I : Type} (f : I -> runner) (sts : I -> store) (trs : I -> list event)
        (s : store) (ix : list I) :
  NoDup ix ->
  (forall i, In i ix -> frame_ok (f i)) ->
  (forall i, In i ix -> f i s = Ok (sts i) (trs i) CNormal) ->
  (forall i j l, In i ix -> In j ix -> i <> j ->
                 In l (writes (trs i)) -> ~ In l (exposed (trs j))) ->
  forall s0, bnd s0 = bnd s ->
  (forall i l, In i ix -> In l (exposed (trs i)) -> val s0 l = val s l) ->
  exists s', seq_runs (map f ix) s0 = Ok s' (flat_map trs ix) CNormal /\ bnd s' = bnd s /\
    (forall l, (forall i, In i ix -> ~ In l (writes (trs i))) -> val s' l = val s0 l) /\
    (forall i l, In i ix -> In l (writes (trs i)) ->
                 (forall j, In j ix -> j <> i -> ~ In l (writes (trs j))) ->
                 val s' l = val (sts i) l).
Proof.
  induction ix as [|i ix IH]; intros ND HF HR HD s0 Hb Hag.
  - exists s0. cbn [map seq_runs flat_map]. split; [reflexivity|]. split; [exact Hb|].
    split; [reflexivity|]. intros i l [].
  - inversion ND as [|? ? Ni ND']; subst.
    assert (Ri := HR i (or_introl eq_refl)).
    destruct (HF i (or_introl eq_refl) _ _ _ _ Ri s0 Hb) as [s1 [R1 [R2 [R3 R4]]]].
    { intros l Hl. apply (Hag i l (or_introl eq_refl) Hl). }
    destruct (IH ND') with (s0 := s1) as [s' [Q1 [Q2 [Q3 Q4]]]].
    + intros j Hj. apply HF. right; exact Hj.
    + intros j Hj. apply HR. right; exact Hj.
    + intros j k l Hj Hk. apply HD; right; assumption.
    + congruence.
    + intros j l Hj Hl. rewrite R4.
      * apply (Hag j l (or_intror Hj) Hl).
      * intro W. apply (HD i j l (or_introl eq_refl) (or_intror Hj)); [|exact W|exact Hl].
        intro E. subst j. contradiction.
    + exists s'. cbn [map seq_runs flat_map]. rewrite R1. unfold then_run; cbn [bind_run].
      rewrite Q1. cbn [prepend]. split; [reflexivity|]. split; [exact Q2|]. split.
      * intros l Hl. rewrite Q3.
        -- apply R4. apply Hl. left; reflexivity.
        -- intros j Hj. apply Hl. right; exact Hj.
      * intros i0 l [<-|Hi0] Wl Hoth.
        -- rewrite Q3; [apply R3, Wl|].
           intros j Hj. apply Hoth; [right; exact Hj|]. intro E. subst j. contradiction.
        -- apply Q4; [exact Hi0|exact Wl|]. intros j Hj Nj. apply Hoth; [right; exact Hj|exact Nj].
Qed.

(* Any two orders give the same store, except possibly on locations written by several runners
   (which must all be in P). *)
Theorem seq_runs_perm {I : Type} (f : I -> runner) (sts : I -> store) (trs : I -> list event)
        (P : loc -> Prop) (s : store) (ix ix' : list I) :
  NoDup ix -> Permutation ix ix' ->
  (forall i, In i ix -> frame_ok (f i)) ->
  (forall i, In i ix -> f i s = Ok (sts i) (trs i) CNormal) ->
  (forall i j l, In i ix -> In j ix -> i <> j ->
                 In l (writes (trs i)) -> ~ In l (exposed (trs j))) ->
  (forall i j l, In i ix -> In j ix -> i <> j ->
                 In l (writes (trs i)) -> In l (writes (trs j)) -> P l) ->
  exists sA sB,
    seq_runs (map f ix) s = Ok sA (flat_map trs ix) CNormal /\
    seq_runs (map f ix') s = Ok sB (flat_map trs ix') CNormal /\
    bnd sA = bnd s /\ bnd sB = bnd s /\
    (forall l, ~ P l -> val sA l = val sB l) /\
    (* and the common value is known: *)
    (forall i l, In i ix -> In l (writes (trs i)) -> ~ P l -> val sA l = val (sts i) l) /\
    (forall l, (forall i, In i ix -> ~ In l (writes (trs i))) -> val sA l = val s l).
Proof.
  intros ND PM HF HR HD HP.
  assert (IN : forall i, In i ix' -> In i ix)
    by (intros i Hi; apply (Permutation_in _ (Permutation_sym PM) Hi)).
  destruct (seq_runs_indep f sts trs s ix ND HF HR HD s eq_refl (fun _ _ _ _ => eq_refl))
    as [sA [A1 [A2 [A3 A4]]]].
  assert (HF' : forall i, In i ix' -> frame_ok (f i)) by (intros i Hi; apply HF, IN, Hi).
  assert (HR' : forall i, In i ix' -> f i s = Ok (sts i) (trs i) CNormal)
    by (intros i Hi; apply HR, IN, Hi).
  assert (HD' : forall i j l, In i ix' -> In j ix' -> i <> j ->
                 In l (writes (trs i)) -> ~ In l (exposed (trs j)))
    by (intros i j l Hi Hj; apply HD; apply IN; assumption).
  destruct (seq_runs_indep f sts trs s ix' (Permutation_NoDup PM ND) HF' HR' HD' s eq_refl
              (fun _ _ _ _ => eq_refl)) as [sB [B1 [B2 [B3 B4]]]].
  exists sA, sB. split; [exact A1|]. split; [exact B1|]. split; [exact A2|]. split; [exact B2|].
  assert (U : forall i l, In i ix -> In l (writes (trs i)) -> ~ P l ->
                          forall j, In j ix -> j <> i -> ~ In l (writes (trs j))).
  { intros i l Hi Wl NP j Hj Nj Wj. apply NP. apply (HP i j l Hi Hj); auto. }
  split; [|split].
  - intros l NP. destruct (written_by_dec trs l ix) as [[i [Hi Wl]]|N].
    + rewrite (A4 i l Hi Wl (U i l Hi Wl NP)). symmetry. apply (B4 i l).
      * apply (Permutation_in _ PM Hi).
      * exact Wl.
      * intros j Hj. apply (U i l Hi Wl NP), IN, Hj.
    + rewrite A3 by exact N. symmetry. apply B3. intros i Hi. apply N, IN, Hi.
  - intros i l Hi Wl NP. apply (A4 i l Hi Wl (U i l Hi Wl NP)).
  - exact A3.
Qed.

(** * DO-loop iterations in any order *)

(* [run] executes the loop body (e.g. [exec f body]); [vs] are the values taken by the loop variable x.
   Footprints [trs v] are those of the BODY started from s with x := v; the write of x that starts
   every iteration is added by [iter_run].  Independence is required only for locations other than
   the loop variable: x is written before it is read in every iteration, so it is never
   upward-exposed.  (The body may even write x; nothing is claimed about x at the end.)
   P-locations (OpenMP PRIVATE scalars, inner loop variables) may be written by several iterations provided
   no iteration reads them upward-exposed from another iteration's write (first hypothesis, which covers every
   location but x); nothing is claimed about P-locations at the end. *)
Theorem iters_perm_private (run : runner) (x : name) (P : loc -> Prop) (vs vs' : list Z) (s : store)
        (sts : Z -> store) (trs : Z -> list event) :
  frame_ok run -> NoDup vs -> Permutation vs vs' ->
  (forall v, In v vs -> exists c, run (upd s (x, []) v) = Ok (sts v) (trs v) c /\
                                  (c = CNormal \/ c = CCycle)) ->
  (forall v w l, In v vs -> In w vs -> v <> w -> l <> (x, []) -> In l (writes (trs v)) ->
                 ~ In l (exposed (trs w))) ->
  (forall v w l, In v vs -> In w vs -> v <> w -> l <> (x, []) -> In l (writes (trs v)) ->
                 In l (writes (trs w)) -> P l) ->
  exists sA sB,
    iters run x vs s = Ok sA (flat_map (fun v => Wr (x, []) :: trs v) vs) CNormal /\
    iters run x vs' s = Ok sB (flat_map (fun v => Wr (x, []) :: trs v) vs') CNormal /\
    bnd sA = bnd s /\ bnd sB = bnd s /\
    (forall l, l <> (x, []) -> ~ P l -> val sA l = val sB l) /\
    (forall v l, In v vs -> In l (writes (trs v)) -> l <> (x, []) -> ~ P l ->
                 val sA l = val (sts v) l) /\
    (forall l, l <> (x, []) -> (forall v, In v vs -> ~ In l (writes (trs v))) -> val sA l = val s l).
Proof.
  intros Hrun ND PM HR HD HW.
  destruct (seq_runs_perm (iter_run run x) sts (fun v => Wr (x, []) :: trs v)
              (fun l => l = (x, []) \/ P l) s vs vs' ND PM)
    as [sA [sB [A1 [A2 [A3 [A4 [A5 [A6 A7]]]]]]]].
  - intros v _. apply frame_iter_run, Hrun.
  - intros v Hv. destruct (HR v Hv) as [c [E Hc]]. rewrite (iter_run_ok _ _ _ _ _ _ _ E).
    destruct Hc as [-> | ->]; reflexivity.
  - intros v w l Hv Hw Nvw Wl El. apply in_exposed_cons_wr in El as [Nx El].
    cbn [writes In] in Wl. destruct Wl as [Wl|Wl]; [congruence|].
    exact (HD v w l Hv Hw Nvw Nx Wl El).
  - intros v w l Hv Hw Nvw Wv Ww. cbn [writes In] in Wv, Ww.
    destruct (loc_eq_dec l (x, [])) as [E|Nx]; [left; exact E|right].
    destruct Wv as [Wv|Wv]; [congruence|]. destruct Ww as [Ww|Ww]; [congruence|].
    exact (HW v w l Hv Hw Nvw Nx Wv Ww).
  - exists sA, sB. unfold iters. split; [exact A1|]. split; [exact A2|].
    split; [exact A3|]. split; [exact A4|]. split; [|split].
    + intros l Nx NP. apply A5. intros [E|Q]; [exact (Nx E)|exact (NP Q)].
    + intros v l Hv Wl Nx NP. apply (A6 v l Hv); [right; exact Wl|].
      intros [E|Q]; [exact (Nx E)|exact (NP Q)].
    + intros l Nx N. apply A7. intros v Hv [E|W]; [congruence|exact (N v Hv W)].
Qed.

(* no location is written by two iterations *)
Theorem iters_perm (run : runner) (x : name) (vs vs' : list Z) (s : store)
        (sts : Z -> store) (trs : Z -> list event) :
  frame_ok run -> NoDup vs -> Permutation vs vs' ->
  (forall v, In v vs -> exists c, run (upd s (x, []) v) = Ok (sts v) (trs v) c /\
                                  (c = CNormal \/ c = CCycle)) ->
  (forall v w l, In v vs -> In w vs -> v <> w -> l <> (x, []) -> In l (writes (trs v)) ->
                 ~ In l (exposed (trs w)) /\ ~ In l (writes (trs w))) ->
  exists sA sB,
    iters run x vs s = Ok sA (flat_map (fun v => Wr (x, []) :: trs v) vs) CNormal /\
    iters run x vs' s = Ok sB (flat_map (fun v => Wr (x, []) :: trs v) vs') CNormal /\
    bnd sA = bnd s /\ bnd sB = bnd s /\
    (forall l, l <> (x, []) -> val sA l = val sB l) /\
    (forall v l, In v vs -> In l (writes (trs v)) -> l <> (x, []) -> val sA l = val (sts v) l) /\
    (forall l, l <> (x, []) -> (forall v, In v vs -> ~ In l (writes (trs v))) -> val sA l = val s l).
Proof.
  intros Hrun ND PM HR HD.
  destruct (iters_perm_private run x (fun _ => False) vs vs' s sts trs Hrun ND PM HR)
    as [sA [sB [A1 [A2 [A3 [A4 [A5 [A6 A7]]]]]]]].
  - intros v w l Hv Hw Nvw Nx Wl. apply (HD v w l Hv Hw Nvw Nx Wl).
  - intros v w l Hv Hw Nvw Nx Wv Ww. apply (HD v w l Hv Hw Nvw Nx Wv), Ww.
  - exists sA, sB. repeat split; auto.
Qed.

(* The same, phrased for a whole [do_loop]: the sequential loop (n iterations from iteration 0,
   values l, l+t, ...) agrees with ANY schedule [vs'] of its iterations on every location other than
   the loop variable. *)
Theorem do_loop_any_order (run : runner) (x : name) (l t : Z) (n : nat) (vs' : list Z) (s : store)
        (sts : Z -> store) (trs : Z -> list event) :
  frame_ok run -> t <> 0 -> Permutation (ivals l t 0 n) vs' ->
  (forall v, In v (ivals l t 0 n) ->
             exists c, run (upd s (x, []) v) = Ok (sts v) (trs v) c /\ (c = CNormal \/ c = CCycle)) ->
  (forall v w l0, In v (ivals l t 0 n) -> In w (ivals l t 0 n) -> v <> w -> l0 <> (x, []) ->
                  In l0 (writes (trs v)) -> ~ In l0 (exposed (trs w)) /\ ~ In l0 (writes (trs w))) ->
  exists sA sB,
    do_loop run x l t n 0 s =
      Ok (upd sA (x, []) (l + Z.of_nat n * t))
         (flat_map (fun v => Wr (x, []) :: trs v) (ivals l t 0 n) ++ [Wr (x, [])]) CNormal /\
    iters run x vs' s = Ok sB (flat_map (fun v => Wr (x, []) :: trs v) vs') CNormal /\
    bnd sA = bnd s /\ bnd sB = bnd s /\
    (forall l0, l0 <> (x, []) -> val (upd sA (x, []) (l + Z.of_nat n * t)) l0 = val sB l0) /\
    (forall v l0, In v (ivals l t 0 n) -> In l0 (writes (trs v)) -> l0 <> (x, []) ->
                  val sA l0 = val (sts v) l0) /\
    (forall l0, l0 <> (x, []) -> (forall v, In v (ivals l t 0 n) -> ~ In l0 (writes (trs v))) ->
                val sA l0 = val s l0).
Proof.
  intros Hrun Nt PM HR HD.
  destruct (iters_perm run x _ vs' s sts trs Hrun (ivals_NoDup l t 0 n Nt) PM HR HD)
    as [sA [sB [A1 [A2 [A3 [A4 [A5 [A6 A7]]]]]]]].
  exists sA, sB. split.
  - rewrite do_loop_iters, A1. cbn [bind_run set_run prepend]. rewrite Z.add_0_l. reflexivity.
  - split; [exact A2|]. split; [exact A3|]. split; [exact A4|]. split; [|split; assumption].
    intros l0 Nx. rewrite val_upd_other by exact Nx. apply A5, Nx.
Qed.

(* Instance for a DO statement of the language: if [SDo x lo hi st body] is run with enough fuel
   and its iterations are independent, the result is that of any schedule of the iterations. *)
Theorem exec_do_any_order f x lo hi st body s l h t (vs' : list Z)
        (sts : Z -> store) (trs : Z -> list event) :
  eval s lo = Some l -> eval s hi = Some h -> eval s st = Some t -> t <> 0 ->
  let vs := ivals l t 0 (trip_count l h t) in
  Permutation vs vs' ->
  (forall v, In v vs -> exists c, exec (S f) body (upd s (x, []) v) = Ok (sts v) (trs v) c /\
                                  (c = CNormal \/ c = CCycle)) ->
  (forall v w l0, In v vs -> In w vs -> v <> w -> l0 <> (x, []) -> In l0 (writes (trs v)) ->
                  ~ In l0 (exposed (trs w)) /\ ~ In l0 (writes (trs w))) ->
  exists s' tr sB,
    exec (S (S f)) [SDo x lo hi st body] s = Ok s' tr CNormal /\
    tr = rds (ereads s lo ++ ereads s hi ++ ereads s st) ++
         flat_map (fun v => Wr (x, []) :: trs v) vs ++ [Wr (x, [])] /\
    iters (exec (S f) body) x vs' s = Ok sB (flat_map (fun v => Wr (x, []) :: trs v) vs') CNormal /\
    bnd s' = bnd s /\ bnd sB = bnd s /\
    (forall l0, l0 <> (x, []) -> val s' l0 = val sB l0).
Proof.
  intros E1 E2 E3 Nt vs PM HR HD.
  destruct (do_loop_any_order (exec (S f) body) x l t (trip_count l h t) vs' s sts trs
              (frame_exec _ _) Nt PM HR HD) as [sA [sB [A1 [A2 [A3 [A4 [A5 _]]]]]]].
  eexists _, _, sB. split.
  - rewrite (exec_do f x lo hi st body s l h t E1 E2 E3 Nt), A1. cbn [prepend]. reflexivity.
  - split; [reflexivity|]. split; [exact A2|]. split; [exact A3|]. split; [exact A4|exact A5].
Qed.

Print Assumptions seq_runs_perm.
Print Assumptions iters_perm.
Print Assumptions iters_perm_private.
Print Assumptions exec_do_any_order.
