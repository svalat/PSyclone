(* C20 — GenObl.table_ok read row by row, and one row of the generated table exhibited. *)
From Coq Require Import List String.
From PV Require Import C20.Model C20.Proofs C20.GenCode C20.GenObl.

Lemma table_instance_ok i d : In (i, d) table -> instance_ok i d.
Proof. intro Hin. exact (proj1 (Forall_forall _ _) table_ok (i, d) Hin). Qed.

(* non-vacuity on the generated table: a real entry *)
Example table_nonempty : exists i d, In (i, d) table /\ i_name i = "inc_X_plus_Y"%string /\ i_dm i = true /\ i_annexed i = true.
Proof.
  destruct (groups_cover_serial groups builtin_names serial_coverage "inc_X_plus_Y"%string) with (dm := true) (ann := true)
    as (i & d & H1 & H2 & H3 & H4 & _).
  - vm_compute. tauto.
  - exists i, d. auto.
Qed.
