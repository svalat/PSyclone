(* C20 — boolean tests that imply the obligations of Model.v.  The generated table is finite data,
   so each obligation is established for all of its rows by evaluating one of these tests.

   The loop body is compared with the documented formula as a tree: the lowered right-hand side has
   to be the formula of the guide itself (for a reduction, accumulator + summand).  Equal trees
   are equal functions of the inputs for every interpretation of the uninterpreted operators. *)
From Coq Require Import List ZArith Bool String.
Import ListNotations.
From PV Require Import C20.Model.
Open Scope Z_scope.

Lemma forallb_Forall {A} (f : A -> bool) (P : A -> Prop) :
  (forall a, f a = true -> P a) -> forall l, forallb f l = true -> Forall P l.
Proof. intros H l Hl. apply Forall_forall. intros a Ha. exact (H a (proj1 (forallb_forall f l) Hl a Ha)). Qed.

Definition bexpr_eq_dec (a b : bexpr) : {a = b} + {a <> b}.
Proof. repeat decide equality. Defined.

Definition args_eq_dec (a b : list akind) : {a = b} + {a <> b}.
Proof. repeat decide equality. Defined.

Definition kern_matchesb (k : kern) (d : dspec) : bool :=
  match d, k with
  | DPointwise out rhs, KAssign out' rhs' => Nat.eqb out' out && if bexpr_eq_dec rhs' rhs then true else false
  | DSum g, KReduce rhs' => red_free g && if bexpr_eq_dec rhs' (XBin OAdd XRed g) then true else false
  | DSum g, KReduceLocal rhs' => red_free g && if bexpr_eq_dec rhs' (XBin OAdd XLoc g) then true else false
  | DRandom out, KRandom out' => Nat.eqb out' out
  | _, _ => false
  end.

Lemma kern_matchesb_sound k d : kern_matchesb k d = true -> kern_matches k d.
Proof.
  destruct d as [out rhs|g|out], k as [out' rhs'|rhs'|rhs'|out']; cbn [kern_matchesb kern_matches];
    try discriminate.
  - intros [Ho H]%andb_true_iff. apply Nat.eqb_eq in Ho.
    destruct (bexpr_eq_dec rhs' rhs) as [->|]; [auto | discriminate].
  - intros [Hg H]%andb_true_iff.
    destruct (bexpr_eq_dec rhs' (XBin OAdd XRed g)) as [->|]; [split; [exact Hg | reflexivity] | discriminate].
  - intros [Hg H]%andb_true_iff.
    destruct (bexpr_eq_dec rhs' (XBin OAdd XLoc g)) as [->|]; [split; [exact Hg | reflexivity] | discriminate].
  - apply Nat.eqb_eq.
Qed.

Lemma doc_agree_refl d : doc_agree d d.
Proof. repeat split. destruct (d_spec d); cbn [spec_equiv]; auto. Qed.

(* the upper bound that lfric_loop.py is documented to choose *)
Definition is_doc_hi (dm annexed reduction : bool) (b : bound) : bool :=
  match b with
  | BUndf _ => negb dm
  | BLastAnnexed _ => dm && (annexed && negb reduction)
  | BLastOwned _ => dm && negb (annexed && negb reduction)
  | _ => false
  end.

Lemma is_doc_hi_sound dm annexed reduction b : is_doc_hi dm annexed reduction b = true ->
  forall L, eval_bound L b = doc_hi dm annexed reduction L.
Proof. destruct b, dm, annexed, reduction; cbn; intros H L; (discriminate H || reflexivity). Qed.

Definition range_okb (i : instance) (d : docentry) : bool :=
  match i_lo i with BLit 1 => true | _ => false end &&
  is_doc_hi (i_dm i) (i_annexed i) (is_reduction_spec (d_spec d)) (i_hi i) &&
  match bound_field (i_hi i) with Some k => arg_is_field (i_args i) k | None => true end.

Lemma range_okb_sound i d : range_okb i d = true -> range_ok i d.
Proof.
  unfold range_okb, range_ok. intros [[Hlo Hhi]%andb_true_iff Hfld]%andb_true_iff. repeat split.
  - destruct (i_lo i) as [[|[| |]|]| | | |]; try discriminate. reflexivity.
  - now apply is_doc_hi_sound.
  - intros k Hk. now rewrite Hk in Hfld.
Qed.

Definition omp_okb (i : instance) (d : docentry) : bool :=
  match i_omp i with
  | None => negb (kern_is_local (i_kern i))
  | Some o => omp_default_shared o && omp_private_df o &&
      match omp_form_of o with
      | OReprod r =>
          is_reduction_spec (d_spec d) && kern_is_local (i_kern i) && negb (omp_reduction_plus_red o) &&
          rp_local_zeroed r && rp_thread_index_set r && rp_thread_index_private r && rp_final_sum_all_threads r
      | _ => negb (kern_is_local (i_kern i)) &&
             Bool.eqb (omp_reduction_plus_red o) (is_reduction_spec (d_spec d))
      end
  end.

Definition skeleton_okb (i : instance) (d : docentry) : bool :=
  (if args_eq_dec (i_args i) (d_args d) then true else false) &&
  Bool.eqb (i_zero_before i) (is_reduction_spec (d_spec d)) &&
  Bool.eqb (i_global_sum i) (is_reduction_spec (d_spec d) && i_dm i) &&
  omp_okb i d.

Lemma skeleton_okb_sound i d : skeleton_okb i d = true -> skeleton_ok i d.
Proof.
  unfold skeleton_okb, skeleton_ok, omp_okb.
  destruct (args_eq_dec (i_args i) (d_args d)) as [Ha|]; [|discriminate].
  rewrite !andb_true_iff, !eqb_true_iff. intros [[[_ Hz] Hg] Ho]. repeat split; try assumption.
  destruct (i_omp i) as [o|]; [|now apply negb_true_iff].
  destruct (omp_form_of o); rewrite !andb_true_iff, ?negb_true_iff, ?eqb_true_iff in Ho; tauto.
Qed.

Lemma instance_ok_rows tbl :
  forallb (fun p => String.eqb (i_name (fst p)) (d_name (snd p))) tbl = true ->
  Forall (fun p => kern_matches (i_kern (fst p)) (d_spec (snd p))) tbl ->
  Forall (fun p => range_ok (fst p) (snd p)) tbl ->
  Forall (fun p => skeleton_ok (fst p) (snd p)) tbl ->
  Forall (fun p => instance_ok (fst p) (snd p)) tbl.
Proof.
  rewrite forallb_forall, !Forall_forall. intros N K R S p Hp.
  exact (conj (proj1 (String.eqb_eq _ _) (N p Hp)) (conj (K p Hp) (conj (R p Hp) (S p Hp)))).
Qed.
