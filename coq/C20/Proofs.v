(* C20 — proofs about the model: generic loop theorems (all sizes, all values, all aliasing
   patterns, all interpretations of the uninterpreted operators), the composition
   "generated obligations => the invoke computes the documented result", what the coverage tests of
   Model.v establish, and one concrete instance run. *)
From Coq Require Import List ZArith Bool Lia String Permutation.
Import ListNotations.
From PV Require Import C20.Model.
Open Scope Z_scope.

Definition store_eq (a b : store) : Prop :=
  (forall f d, fdat a f d = fdat b f d) /\ (forall k, sval a k = sval b k) /\
  rvar a = rvar b /\ lvar a = lvar b /\ rcnt a = rcnt b.

Lemma store_eq_refl a : store_eq a a.
Proof. repeat split. Qed.

Lemma eval_agree O bind a b df e :
  (forall f, fdat a f df = fdat b f df) -> (forall k, sval a k = sval b k) ->
  red_free e = true \/ (rvar a = rvar b /\ lvar a = lvar b) ->
  eval O bind a df e = eval O bind b df e.
Proof.
  intros Hf Hs. induction e as [k|k| | |z|e IH|o x IHx y IHy|f x IHx y IHy|c kd e IH];
    cbn [eval red_free]; rewrite ?andb_true_iff; intro H; auto.
  - destruct H as [H|[H _]]; [discriminate | exact H].
  - destruct H as [H|[_ H]]; [discriminate | exact H].
  - now rewrite IH.
  - destruct H as [[Hx Hy]|H]; rewrite IHx, IHy; auto.
  - destruct H as [[Hx Hy]|H]; rewrite IHx, IHy; auto.
  - now rewrite IH.
Qed.

Lemma zrange_n_In lo n x : In x (zrange_n lo n) <-> lo <= x < lo + Z.of_nat n.
Proof.
  revert lo. induction n as [|n IH]; intro lo; cbn [zrange_n].
  - cbn. lia.
  - cbn [In]. rewrite IH. lia.
Qed.

Lemma zrange_In lo hi x : In x (zrange lo hi) <-> lo <= x <= hi.
Proof. unfold zrange. rewrite zrange_n_In. lia. Qed.

Lemma zrange_n_NoDup lo n : NoDup (zrange_n lo n).
Proof.
  revert lo. induction n as [|n IH]; intro lo; cbn [zrange_n]; constructor.
  - rewrite zrange_n_In. lia.
  - apply IH.
Qed.

Lemma zrange_NoDup lo hi : NoDup (zrange lo hi).
Proof. apply zrange_n_NoDup. Qed.

Lemma zrange_empty lo hi : hi < lo -> zrange lo hi = [].
Proof. intro H. unfold zrange. replace (Z.to_nat (hi - lo + 1)) with O by lia. reflexivity. Qed.

Lemma permuted_range lo hi order : Permutation (zrange lo hi) order ->
  NoDup order /\ forall x, In x order <-> lo <= x <= hi.
Proof.
  intro P. split.
  - eapply Permutation_NoDup; [exact P | apply zrange_NoDup].
  - intro x. rewrite <- zrange_In. split; apply Permutation_in; [symmetry|]; exact P.
Qed.

Lemma run_loop_cons O bind k d l s : run_loop O bind k (d :: l) s = run_loop O bind k l (run_iter O bind k s d).
Proof. reflexivity. Qed.

Lemma upd_f_same s f d v : fdat (upd_f s f d v) f d = v.
Proof. cbn. now rewrite Nat.eqb_refl, Z.eqb_refl. Qed.

Lemma upd_f_other s f d v f' d' : f' <> f \/ d' <> d -> fdat (upd_f s f d v) f' d' = fdat s f' d'.
Proof. intro H. cbn. destruct (Nat.eqb_spec f' f), (Z.eqb_spec d' d); cbn; tauto. Qed.

Section Frame.
  Variables (O : ops) (bind : nat -> fid) (k : kern) (out : nat).
  Hypothesis iter_frame : forall s d f x, f <> bind out \/ x <> d -> fdat (run_iter O bind k s d) f x = fdat s f x.

  Lemma run_loop_frame l : forall s f x, f <> bind out \/ ~ In x l -> fdat (run_loop O bind k l s) f x = fdat s f x.
  Proof.
    induction l as [|d l IH]; intros s f x H; [reflexivity|]. cbn [In] in H.
    rewrite run_loop_cons, IH, iter_frame; [reflexivity | |]; intuition congruence.
  Qed.
End Frame.

Section Pointwise.
  Variables (O : ops) (bind : nat -> fid) (out : nat) (rhs : bexpr).
  Let k := KAssign out rhs.

  Lemma assign_frame s d f x : f <> bind out \/ x <> d -> fdat (run_iter O bind k s d) f x = fdat s f x.
  Proof. apply upd_f_other. Qed.

  (* The loop over any duplicate-free index list sets exactly those elements of the written field
     to the right-hand side evaluated in the ORIGINAL store (also when the written field is an
     input, as for inc_X_plus_Y, or aliases another argument), and changes nothing else. *)
  Lemma run_loop_assign : forall l s, NoDup l ->
    (forall df, In df l -> fdat (run_loop O bind k l s) (bind out) df = eval O bind s df rhs) /\
    (forall f d, f <> bind out \/ ~ In d l -> fdat (run_loop O bind k l s) f d = fdat s f d) /\
    (forall j, sval (run_loop O bind k l s) j = sval s j) /\
    rvar (run_loop O bind k l s) = rvar s /\ rcnt (run_loop O bind k l s) = rcnt s /\
    lvar (run_loop O bind k l s) = lvar s.
  Proof.
    induction l as [|d l IH]; intros s ND.
    - cbn. repeat split; auto. intros df [].
    - inversion ND as [|? ? Hni ND']; subst.
      (* the scalars of [run_iter s d] are those of [s] *)
      destruct (IH (run_iter O bind k s d) ND') as (A & _ & Scalars).
      split; [|split; [intros f x; apply run_loop_frame, assign_frame | exact Scalars]].
      intros df [->|Hin]; rewrite run_loop_cons.
      + rewrite (run_loop_frame O bind k out assign_frame) by (right; exact Hni). apply upd_f_same.
      + rewrite (A df Hin). apply eval_agree; [|reflexivity | right; split; reflexivity].
        intro f. apply assign_frame. right. intros ->. contradiction.
  Qed.

  Lemma run_loop_assign_perm l l' s : NoDup l -> Permutation l l' ->
    store_eq (run_loop O bind k l s) (run_loop O bind k l' s).
  Proof.
    intros ND P.
    destruct (run_loop_assign l s ND) as (A & B & C & D & E & F).
    destruct (run_loop_assign l' s (Permutation_NoDup P ND)) as (A' & B' & C' & D' & E' & F').
    repeat split; try congruence.
    intros f d.
    destruct (Nat.eq_dec f (bind out)) as [->|Hf]; [destruct (in_dec Z.eq_dec d l) as [Hin|Hout]|].
    - now rewrite (A d Hin), (A' d (Permutation_in _ P Hin)).
    - rewrite B, B'; auto. right. contradict Hout. exact (Permutation_in _ (Permutation_sym P) Hout).
    - now rewrite B, B' by auto.
  Qed.

  Lemma iterations_commute s d1 d2 : d1 <> d2 ->
    store_eq (run_iter O bind k (run_iter O bind k s d1) d2) (run_iter O bind k (run_iter O bind k s d2) d1).
  Proof.
    intro Hd. apply (run_loop_assign_perm [d1; d2] [d2; d1] s); [|constructor].
    constructor; [intros [H|[]]; congruence | constructor; [intros [] | constructor]].
  Qed.
End Pointwise.

Lemma zsum_app a b : zsum (a ++ b) = zsum a + zsum b.
Proof. unfold zsum. induction a as [|x a IH]; simpl; [reflexivity|]. rewrite IH. lia. Qed.

Lemma zsum_perm a b : Permutation a b -> zsum a = zsum b.
Proof. unfold zsum. induction 1; simpl; lia. Qed.

Lemma fold_left_add l a : fold_left Z.add l a = a + zsum l.
Proof.
  unfold zsum. revert a. induction l as [|x l IH]; intro a; simpl; [lia|].
  rewrite IH. lia.
Qed.

(* A reduction loop adds to an accumulator: the shared reduction variable, or (reproducible OpenMP
   reductions, [local = true]) the executing thread's element of the local array.  Both are
   treated at once. *)
Definition acc (local : bool) (s : store) : Z := if local then lvar s else rvar s.
Definition set_acc (local : bool) (s : store) (v : Z) : store := if local then set_loc s v else set_red s v.
Definition kreduce (local : bool) (rhs : bexpr) : kern := if local then KReduceLocal rhs else KReduce rhs.

Lemma acc_set_acc local s v : acc local (set_acc local s v) = v.
Proof. now destruct local. Qed.

Lemma set_acc_twice local s v w : set_acc local (set_acc local s v) w = set_acc local s w.
Proof. now destruct local. Qed.

Lemma set_acc_same local s : set_acc local s (acc local s) = s.
Proof. now destruct local, s. Qed.

Lemma run_iter_kreduce O bind local rhs s d :
  run_iter O bind (kreduce local rhs) s d = set_acc local s (eval O bind s d rhs).
Proof. now destruct local. Qed.

Section SumOver.
  Variables (O : ops) (bind : nat -> fid) (g : bexpr).

  Lemma sum_over_cons s d l : sum_over O bind s g (d :: l) = eval O bind s d g + sum_over O bind s g l.
  Proof. reflexivity. Qed.

  Lemma sum_over_app s a b : sum_over O bind s g (a ++ b) = sum_over O bind s g a + sum_over O bind s g b.
  Proof. unfold sum_over. now rewrite map_app, zsum_app. Qed.

  Lemma sum_over_perm s l l' : Permutation l l' -> sum_over O bind s g l = sum_over O bind s g l'.
  Proof. intro P. unfold sum_over. apply zsum_perm. now apply Permutation_map. Qed.

  Lemma sum_over_chunks s chunks a :
    fold_left Z.add (map (sum_over O bind s g) chunks) a = a + sum_over O bind s g (List.concat chunks).
  Proof.
    rewrite fold_left_add. f_equal.
    induction chunks as [|c r IH]; [reflexivity|].
    cbn [map List.concat]. rewrite sum_over_app, <- IH. reflexivity.
  Qed.

  Lemma sum_over_set_acc local s v l : red_free g = true ->
    sum_over O bind (set_acc local s v) g l = sum_over O bind s g l.
  Proof.
    intro Hfree. unfold sum_over. f_equal. apply map_ext. intro df.
    apply eval_agree; [| | left; exact Hfree]; now destruct local.
  Qed.
End SumOver.

Section Reduction.
  Variables (O : ops) (bind : nat -> fid) (rhs g : bexpr) (local : bool).
  Hypothesis Hfree : red_free g = true.
  Hypothesis Hrhs : forall s df, eval O bind s df rhs = acc local s + eval O bind s df g.

  Lemma run_loop_accumulate : forall l s,
    run_loop O bind (kreduce local rhs) l s = set_acc local s (acc local s + sum_over O bind s g l).
  Proof.
    induction l as [|d l IH]; intro s.
    - unfold sum_over. cbn. now rewrite Z.add_0_r, set_acc_same.
    - rewrite run_loop_cons, run_iter_kreduce, Hrhs.
      rewrite IH, sum_over_set_acc, set_acc_twice, acc_set_acc, sum_over_cons by exact Hfree. f_equal. lia.
  Qed.

  Lemma thread_acc_sum s c :
    acc local (run_loop O bind (kreduce local rhs) c (set_acc local s 0)) = sum_over O bind s g c.
  Proof. now rewrite run_loop_accumulate, sum_over_set_acc, !acc_set_acc. Qed.
End Reduction.

Section ParallelReduction.
  Variables (O : ops) (bind : nat -> fid) (rhs g : bexpr).
  Hypothesis Hfree : red_free g = true.

  (* OpenMP reduction(+:red) with any split of the iterations over threads *)
  Lemma run_omp_reduction_sum :
    (forall s df, eval O bind s df rhs = rvar s + eval O bind s df g) -> forall chunks s,
    run_omp_reduction O bind (KReduce rhs) chunks s = set_red s (rvar s + sum_over O bind s g (List.concat chunks)).
  Proof.
    intros Hrhs chunks s. unfold run_omp_reduction. rewrite <- sum_over_chunks. do 2 f_equal.
    apply map_ext. exact (thread_acc_sum O bind rhs g false Hfree Hrhs s).
  Qed.

  (* the reproducible scheme: for any number of threads and any assignment of the iterations to
     threads, per-thread partial sums accumulated from zero and then added over the threads give the
     reduction variable's old value plus the sum of g over all assigned iterations *)
  Lemma run_reprod_sum :
    (forall s df, eval O bind s df rhs = lvar s + eval O bind s df g) -> forall chunks s,
    run_reprod O bind (KReduceLocal rhs) true true chunks s = set_red s (rvar s + sum_over O bind s g (List.concat chunks)).
  Proof.
    intros Hrhs chunks s. unfold run_reprod. rewrite <- sum_over_chunks. do 2 f_equal.
    apply map_ext. exact (thread_acc_sum O bind rhs g true Hfree Hrhs s).
  Qed.
End ParallelReduction.

Section Random.
  Variables (O : ops) (bind : nat -> fid) (out : nat).
  Let k := KRandom out.

  Lemma random_frame s d f x : f <> bind out \/ x <> d -> fdat (run_iter O bind k s d) f x = fdat s f x.
  Proof. apply upd_f_other. Qed.

  (* the i-th executed iteration receives the (rcnt+i)-th random number; nothing else changes *)
  Lemma run_loop_random : forall l s, NoDup l ->
    (forall i df, nth_error l i = Some df ->
        fdat (run_loop O bind k l s) (bind out) df = o_rand O (rcnt s + i)%nat) /\
    (forall f d, f <> bind out \/ ~ In d l -> fdat (run_loop O bind k l s) f d = fdat s f d) /\
    (forall j, sval (run_loop O bind k l s) j = sval s j) /\
    rvar (run_loop O bind k l s) = rvar s /\
    rcnt (run_loop O bind k l s) = (rcnt s + List.length l)%nat.
  Proof.
    induction l as [|d l IH]; intros s ND.
    - cbn. repeat split; auto. intros [|i] df H; discriminate.
    - inversion ND as [|? ? Hni ND']; subst.
      (* [run_iter s d] has drawn one number more than [s]; its other scalars are those of [s] *)
      destruct (IH (run_iter O bind k s d) ND') as (A & _ & C & D & E).
      split; [|split; [intros f x; apply run_loop_frame, random_frame | split; [exact C | split; [exact D |]]]].
      + intros [|i] df H; cbn [nth_error] in H; rewrite run_loop_cons.
        * injection H as <-. rewrite (run_loop_frame O bind k out random_frame) by (right; exact Hni).
          rewrite Nat.add_0_r. apply upd_f_same.
        * rewrite (A i df H). f_equal. cbn. lia.
      + rewrite run_loop_cons, E. cbn. lia.
  Qed.
End Random.

(* which schedules the run time may choose for an instance *)
Definition valid_schedule (i : instance) (d : docentry) (L : layout) (sch : schedule) : Prop :=
  let iters := zrange (eval_bound L (i_lo i)) (eval_bound L (i_hi i)) in
  match sch with
  | SSerial => kern_is_local (i_kern i) = false      (* also: non-reprod OpenMP with one thread *)
  | SPerm order => i_omp i <> None /\ is_reduction_spec (d_spec d) = false /\ Permutation iters order
  | SChunks chunks => i_omp i <> None /\ is_reduction_spec (d_spec d) = true /\ Permutation iters (List.concat chunks)
  end.

(* the documented result on one process, for the documented range [1, doc_hi] *)
Definition doc_post (O : ops) (bind : nat -> fid) (L : layout) (dm ann : bool) (d : dspec) (s s' : store) : Prop :=
  let hi := doc_hi dm ann (is_reduction_spec d) L in
  match d with
  | DPointwise out rhs =>
      (forall df, 1 <= df <= hi -> fdat s' (bind out) df = eval O bind s df rhs) /\
      (forall f df, f <> bind out \/ ~ (1 <= df <= hi) -> fdat s' f df = fdat s f df) /\
      (forall j, sval s' j = sval s j) /\ rvar s' = rvar s
  | DSum g =>
      rvar s' = sum_over O bind s g (zrange 1 hi) /\
      (forall f df, fdat s' f df = fdat s f df) /\ (forall j, sval s' j = sval s j)
  | DRandom out =>
      (exists order, Permutation (zrange 1 hi) order /\
         forall n df, nth_error order n = Some df -> fdat s' (bind out) df = o_rand O (rcnt s + n)%nat) /\
      (forall f df, f <> bind out \/ ~ (1 <= df <= hi) -> fdat s' f df = fdat s f df) /\
      (forall j, sval s' j = sval s j) /\ rvar s' = rvar s
  end.

Lemma iters_doc i d L : range_ok i d ->
  zrange (eval_bound L (i_lo i)) (eval_bound L (i_hi i)) =
  zrange 1 (doc_hi (i_dm i) (i_annexed i) (is_reduction_spec (d_spec d)) L).
Proof. intros (Hlo & Hhi & _). now rewrite Hlo, Hhi. Qed.

Lemma reprod_of_spec i d : skeleton_ok i d ->
  match reprod_of i with
  | Some r => kern_is_local (i_kern i) = true /\ rp_local_zeroed r = true /\ rp_final_sum_all_threads r = true
  | None => kern_is_local (i_kern i) = false
  end.
Proof.
  intros (_ & _ & _ & H). unfold reprod_of. destruct (i_omp i) as [o|]; [|exact H].
  destruct H as (_ & _ & H). destruct (omp_form_of o) as [| |r].
  - exact (proj1 H).
  - exact (proj1 H).
  - destruct H as (_ & A & _ & B & _ & _ & C). auto.
Qed.

Lemma pointwise_post O bind L dm ann out rhs' rhs order s :
  (forall s df, eval O bind s df rhs' = eval O bind s df rhs) ->
  Permutation (zrange 1 (doc_hi dm ann false L)) order ->
  doc_post O bind L dm ann (DPointwise out rhs) s (run_loop O bind (KAssign out rhs') order s).
Proof.
  intros Hev [ND Hin]%permuted_range.
  destruct (run_loop_assign O bind out rhs' order s ND) as (A & B & C & D & _).
  repeat split; auto.
  - intros df Hdf. rewrite A by now apply Hin. apply Hev.
  - intros f df H. apply B. now rewrite Hin.
Qed.

Lemma random_post O bind L dm ann out order s :
  Permutation (zrange 1 (doc_hi dm ann false L)) order ->
  doc_post O bind L dm ann (DRandom out) s (run_loop O bind (KRandom out) order s).
Proof.
  intro P. destruct (permuted_range _ _ _ P) as [ND Hin].
  destruct (run_loop_random O bind out order s ND) as (A & B & C & D & _).
  repeat split; auto.
  - exists order. split; auto.
  - intros f df H. apply B. now rewrite Hin.
Qed.

(* the store that run_loop_accumulate, run_omp_reduction_sum and run_reprod_sum all arrive at, from
   the zeroed reduction variable *)
Lemma sum_post O bind L dm ann g order s : red_free g = true ->
  Permutation (zrange 1 (doc_hi dm ann true L)) order ->
  let s0 := set_red s 0 in
  doc_post O bind L dm ann (DSum g) s (set_red s0 (rvar s0 + sum_over O bind s0 g order)).
Proof.
  intros Hfree P s0. subst s0. unfold doc_post. cbn [is_reduction_spec]. repeat split.
  cbn [rvar set_red]. rewrite Z.add_0_l, (sum_over_perm O bind g s _ _ P).
  exact (sum_over_set_acc O bind g false s 0 order Hfree).
Qed.

Theorem instance_correct : forall i d, instance_ok i d ->
  forall O bind L sch s, valid_schedule i d L sch ->
  doc_post O bind L (i_dm i) (i_annexed i) (d_spec d) s (run_instance O bind L i sch s).
Proof.
  intros i d (_ & Hk & Hr & Hsk) O bind L sch s Hv.
  pose proof (reprod_of_spec i d Hsk) as Hrp.
  destruct Hsk as (_ & Hzero & _ & _).
  unfold run_instance, valid_schedule in *. rewrite (iters_doc i d L Hr) in *. rewrite Hzero.
  destruct (d_spec d) as [out rhs|g|out], (i_kern i) as [out' rhs'|rhs'|rhs'|out'];
    cbn [kern_matches is_reduction_spec kern_is_local] in *; try contradiction.
  - destruct Hk as [-> Hev]. destruct sch as [|order|chunks].
    + exact (pointwise_post O bind L _ _ out rhs' rhs _ s (Hev O bind) (Permutation_refl _)).
    + exact (pointwise_post O bind L _ _ out rhs' rhs _ s (Hev O bind) (proj2 (proj2 Hv))).
    + destruct Hv as (_ & H & _). discriminate.
  - destruct Hk as [Hfree Hev]. specialize (Hev O bind). destruct sch as [|order|chunks].
    + rewrite (run_loop_accumulate O bind rhs' g false Hfree Hev).
      exact (sum_post O bind L _ _ g _ s Hfree (Permutation_refl _)).
    + destruct Hv as (_ & H & _). discriminate.
    + destruct (reprod_of i) as [r|]; [destruct Hrp as (Hrp & _); discriminate|].
      rewrite (run_omp_reduction_sum O bind rhs' g Hfree Hev).
      exact (sum_post O bind L _ _ g _ s Hfree (proj2 (proj2 Hv))).
  - (* thread-local accumulation: only under the reproducible scheme, which the skeleton makes complete *)
    destruct Hk as [Hfree Hev]. specialize (Hev O bind). destruct sch as [|order|chunks].
    + discriminate.
    + destruct Hv as (_ & H & _). discriminate.
    + destruct (reprod_of i) as [r|]; [|discriminate]. destruct Hrp as (_ & -> & ->).
      rewrite (run_reprod_sum O bind rhs' g Hfree Hev).
      exact (sum_post O bind L _ _ g _ s Hfree (proj2 (proj2 Hv))).
  - subst out'. destruct sch as [|order|chunks].
    + exact (random_post O bind L _ _ out _ s (Permutation_refl _)).
    + exact (random_post O bind L _ _ out _ s (proj2 (proj2 Hv))).
    + destruct Hv as (_ & H & _). discriminate.
Qed.

(* One entry per MPI process: its layout, argument binding, store and OpenMP schedule.  The
   generated code computes the local sum over the process' owned DoFs and then the global sum of the
   local results (scalar_type%get_sum, an MPI all-reduce: modelled as the exact sum).  Every global
   DoF is owned by exactly one process, so this is the documented SUM over the whole field. *)
Record rank := mkRank { r_lay : layout; r_bind : nat -> fid; r_store : store; r_sched : schedule }.

Definition global_sum (locals : list Z) : Z := zsum locals.

Theorem dm_reduction_global : forall i d g, instance_ok i d -> d_spec d = DSum g -> i_dm i = true ->
  forall O (ranks : list rank),
  (forall r, In r ranks -> valid_schedule i d (r_lay r) (r_sched r)) ->
  i_global_sum i = true /\
  global_sum (map (fun r => rvar (run_instance O (r_bind r) (r_lay r) i (r_sched r) (r_store r))) ranks) =
  zsum (map (fun r => sum_over O (r_bind r) (r_store r) g (zrange 1 (last_owned (r_lay r)))) ranks).
Proof.
  intros i d g Hok Hd Hdm O ranks Hv. split.
  - destruct Hok as (_ & _ & _ & (_ & _ & Hgs & _)). rewrite Hgs, Hd, Hdm. reflexivity.
  - unfold global_sum. f_equal. apply map_ext_in. intros r Hr.
    pose proof (instance_correct i d Hok O (r_bind r) (r_lay r) (r_sched r) (r_store r) (Hv r Hr)) as H.
    unfold doc_post in H. rewrite Hd in H. destruct H as (H & _). rewrite H.
    unfold doc_hi. rewrite Hdm. cbn [is_reduction_spec negb andb]. rewrite andb_false_r. reflexivity.
Qed.

Lemma covered_sound tbl n dm ann form : covered tbl n dm ann form = true ->
  exists i d, In (i, d) tbl /\ i_name i = n /\ i_dm i = dm /\ i_annexed i = ann /\ omp_code i = form.
Proof.
  unfold covered. rewrite existsb_exists. intros [[i d] [Hin H]]. exists i, d. split; [exact Hin|].
  unfold setting_eqb in H. cbn [fst] in H.
  rewrite !andb_true_iff, String.eqb_eq, !Bool.eqb_true_iff, Nat.eqb_eq in H. tauto.
Qed.

Lemma form_covered_sound tbl form names : form_covered tbl form names = true ->
  forall n, In n names -> forall dm ann, exists i d,
    In (i, d) tbl /\ i_name i = n /\ i_dm i = dm /\ i_annexed i = ann /\ omp_code i = form.
Proof.
  unfold form_covered. rewrite forallb_forall. intros H n Hn dm ann.
  specialize (H n Hn). repeat (apply andb_true_iff in H as [H ?]).
  assert (C : covered tbl n dm ann form = true) by (destruct dm, ann; assumption).
  exact (covered_sound _ _ _ _ _ C).
Qed.

(* The table is the concatenation of one group of rows per built-in; a name is looked up group by
   group, so the four settings are searched among the rows of its own built-in only.  (Looking at
   the first row's name adds nothing to what is established; it spares the search through the
   groups of the other built-ins, which is most of the evaluation.  It is an [if] because vm_compute
   evaluates both arguments of [&&].) *)
Definition groups_cover (groups : list (list (instance * docentry))) (form : nat) (names : list string) : bool :=
  forallb (fun n => existsb (fun g =>
    match g with
    | (i, _) :: _ => if String.eqb (i_name i) n then form_covered g form [n] else false
    | [] => false
    end) groups) names.

Lemma groups_cover_sound groups form names : groups_cover groups form names = true ->
  forall n, In n names -> forall dm ann, exists i d,
    In (i, d) (List.concat groups) /\ i_name i = n /\ i_dm i = dm /\ i_annexed i = ann /\ omp_code i = form.
Proof.
  unfold groups_cover. rewrite forallb_forall. intros H n Hn dm ann.
  apply H, existsb_exists in Hn as (g & Hg & Hc).
  assert (Hc' : form_covered g form [n] = true).
  { destruct g as [|[i0 d0] g']; [discriminate|]. destruct (String.eqb (i_name i0) n); [exact Hc | discriminate]. }
  destruct (form_covered_sound g form [n] Hc' n (or_introl eq_refl) dm ann) as (i & d & Hin & Hi).
  exists i, d. split; [apply in_concat; exists g; split; assumption | exact Hi].
Qed.

Lemma omp_code_0 i : omp_code i = 0%nat -> i_omp i = None.
Proof. unfold omp_code. destruct (i_omp i) as [o|]; [destruct (omp_form_of o); discriminate | reflexivity]. Qed.

Lemma groups_cover_serial groups names : groups_cover groups 0 names = true ->
  forall n, In n names -> forall dm ann, exists i d,
    In (i, d) (List.concat groups) /\ i_name i = n /\ i_dm i = dm /\ i_annexed i = ann /\ i_omp i = None.
Proof.
  intros H n Hn dm ann.
  destruct (groups_cover_sound _ _ _ H n Hn dm ann) as (i & d & A & B & C & D & E).
  exists i, d. repeat split; auto. now apply omp_code_0.
Qed.

Definition ex_ops : ops := mkOps Z.quot Z.pow (fun _ _ z => z) (fun n => Z.of_nat n).
Definition ex_store : store :=
  mkStore (fun f d => Z.of_nat f * 100 + d) (fun k => Z.of_nat k + 2) 77 55 0.
Definition ex_inc_X_plus_Y : instance :=
  mkInst "inc_X_plus_Y" true true [AFld TReal true; AFld TReal false] false None
         (BLit 1) (BLastAnnexed 0) (KAssign 0 (XBin OAdd (XFld 0) (XFld 1))) false.
Definition ex_doc_inc_X_plus_Y : docentry :=
  mkDoc "inc_X_plus_Y" [AFld TReal true; AFld TReal false] (DPointwise 0 (XBin OAdd (XFld 0) (XFld 1))).
Definition ex_layout : layout := mkLayout 9 5 7 (fun _ => 9).

Example ex_instance_ok : instance_ok ex_inc_X_plus_Y ex_doc_inc_X_plus_Y.
Proof.
  repeat split; try reflexivity.
  intros k H. cbn in H. inversion H; subst. reflexivity.
Qed.

(* in place AND aliased (both arguments bound to field 3): every DoF 1..7 is doubled, 8.. untouched *)
Example ex_inplace_aliased :
  let s' := run_instance ex_ops (fun _ => 3%nat) ex_layout ex_inc_X_plus_Y SSerial ex_store in
  map (fdat s' 3%nat) [1; 2; 7; 8; 9] = [602; 604; 614; 308; 309].
Proof. vm_compute. reflexivity. Qed.

Example ex_valid_perm :
  valid_schedule (mkInst "inc_X_plus_Y" true true [AFld TReal true; AFld TReal false] false
                    (Some (mkOmp OParDo true true false "static")) (BLit 1) (BLastAnnexed 0)
                    (KAssign 0 (XBin OAdd (XFld 0) (XFld 1))) false)
                 ex_doc_inc_X_plus_Y ex_layout (SPerm [7; 3; 1; 2; 6; 5; 4]).
Proof.
  split; [discriminate | split; [reflexivity|]].
  change (Permutation (zrange 1 7) [7; 3; 1; 2; 6; 5; 4]).
  apply NoDup_Permutation.
  - apply zrange_NoDup.
  - repeat constructor; cbn; lia.
  - intro x. rewrite zrange_In. cbn. lia.
Qed.
