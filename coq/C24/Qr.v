(* C24 -- the tag key of quadrature (and ordinary) arguments, as extracted from the tree under test by
   props/C24/translate.py (GenQr.v): names are injective on argument TEXTS because the tag is built from the
   TEXT.  If the key becomes the variable name, [qr_tag_is_text_tag] no longer holds and this file fails.  Axiom-free. *)
From Coq Require Import List Bool String.
Import ListNotations.
From PV Require Import C24.Fresh C24.Model C24.Proofs C24.GenQr.
Open Scope string_scope.

Definition key_of (f : key_field) (a : sarg) : string := match f with QText => text a | QVarname => root a end.
Definition qr_tag (a : sarg) : string := qr_tag_prefix ++ key_of qr_tag_key a.
Definition arg_tag (a : sarg) : string := arg_tag_prefix ++ key_of arg_tag_key a.
Definition qr_name (F : st) (a : sarg) : string :=
  match lookup (qr_tag a) (tags F) with Some n => n | None => "" end.

(* the extracted keys are the ones Model.v uses: tag "AlgArgs_" ++ text, root = variable name *)
Lemma qr_tag_is_text_tag : forall a, qr_tag a = tagof (text a).
Proof. intro a. reflexivity. Qed.
Lemma arg_tag_is_text_tag : forall a, arg_tag a = tagof (text a).
Proof. intro a. reflexivity. Qed.
Lemma qr_root_is_varname : forall a, key_of qr_root_key a = root a.
Proof. intro a. reflexivity. Qed.

Theorem qr_names_injective_on_texts_ : forall pre ks a b,
    In (text a) (texts_of RQr ks) -> In (text b) (texts_of RQr ks) -> text a <> text b ->
    qr_name (final pre ks) a <> qr_name (final pre ks) b.
Proof.
  intros pre ks a b Ha Hb Hne E. apply Hne. unfold qr_name in E. rewrite !qr_tag_is_text_tag in E.
  exact (name_of_inj_texts _ _ _ _ _ _ Ha Hb E).
Qed.

(* two kernels with quadrature objects qrs(1) and qrs(2): different dummies *)
Definition ex_qr : list kcall :=
  [ {| k_builtin := false; k_slots := [Plain (v "f1")]; k_qr := [ix "qrs" "1"] |};
    {| k_builtin := false; k_slots := [Plain (v "f1")]; k_qr := [ix "QRS" " 2"] |} ].
Lemma ex_qr_names :
  qr_name (final pre0 ex_qr) (ix "qrs" "1") = "qrs" /\ qr_name (final pre0 ex_qr) (ix "QRS" " 2") = "qrs_1" /\
  psy_dummies pre0 ex_qr = ["f1"; "qrs"; "qrs_1"] /\ alg_args pre0 ex_qr = ["f1"; "qrs(1)"; "qrs(2)"].
Proof. vm_compute. repeat split. Qed.
