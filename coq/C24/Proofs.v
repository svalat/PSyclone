(* C24 -- the default path of coq/C24/Model.v.  Find-or-create keeps the invariant [wf] (every name handed
   out is recorded, names of different tags differ by more than case), so naming is injective on the texts
   of an invoke ([name_of_inj_texts]); hence de-duplicating names is the same as naming the de-duplicated
   texts and the dummy list is the list of names of the repaired actual list
   ([dummies_are_names_of_fixed]); [bound_ok] read block by block gives the binding of every kernel
   argument.  Last, the invokes of the witnesses and examples.  Axiom-free. *)
From Coq Require Import List Bool String Ascii.
Import ListNotations.
From PV Require Import C24.Fresh C24.Model.
Open Scope string_scope.

Lemma mem_str_app : forall x a b, mem_str x (a ++ b) = mem_str x a || mem_str x b.
Proof.
  intros x a b; induction a as [|y a IH]; simpl; [reflexivity|].
  destruct (String.eqb x y); [reflexivity | exact IH].
Qed.

Lemma lookup_app : forall t a b,
    lookup t (a ++ b) = match lookup t a with Some v => Some v | None => lookup t b end.
Proof.
  intros t a b; induction a as [|[k v] a IH]; simpl; [reflexivity|].
  destruct (String.eqb t k); [reflexivity | exact IH].
Qed.

Lemma lookup_snoc : forall t l k v n,
    lookup t (l ++ [(k, v)]) = Some n -> lookup t l = Some n \/ (t = k /\ n = v).
Proof.
  intros t l k v n H. rewrite lookup_app in H. destruct (lookup t l); [left; exact H|].
  simpl in H. destruct (String.eqb_spec t k); [right; split; congruence | discriminate].
Qed.

Lemma lookup_In : forall t l n, lookup t l = Some n -> In (t, n) l.
Proof.
  intros t l n; induction l as [|[k v] l IH]; simpl; [discriminate|].
  destruct (String.eqb_spec t k) as [E|E]; intro H.
  - inversion H; subst; left; reflexivity.
  - right; apply IH; exact H.
Qed.

Lemma lookup_None : forall t l, lookup t l = None -> ~ In t (map fst l).
Proof.
  intros t l; induction l as [|[k v] l IH]; simpl; [tauto|].
  destruct (String.eqb_spec t k) as [E|E]; [discriminate|].
  intros H [H'|H']; [congruence | exact (IH H H')].
Qed.

Lemma role_eqb_eq : forall a b, role_eqb a b = true <-> a = b.
Proof. intros [] []; simpl; split; congruence. Qed.

(* every name handed out is recorded (normalised) in [used], and the names of two tags differ by more than case *)
Definition wf (s : st) : Prop :=
  (forall k n, lookup k (tags s) = Some n -> In (normalize n) (used s)) /\
  (forall k1 k2 n1 n2, lookup k1 (tags s) = Some n1 -> lookup k2 (tags s) = Some n2 ->
                       normalize n1 = normalize n2 -> k1 = k2).

Lemma foc_wf : forall s tag rt, wf s -> wf (foc s tag rt).
Proof.
  intros s tag rt [Hused Hinj]. unfold foc.
  destruct (lookup tag (tags s)); [split; assumption|].
  assert (Hnew : forall k n, lookup k (tags s) = Some n -> normalize n <> normalize (fresh rt (used s))).
  { intros k n H E. apply (fresh_not_used rt (used s)). rewrite <- E. exact (Hused _ _ H). }
  split; cbn [tags used].
  - intros k n H. apply lookup_snoc in H as [H|[_ ->]]; [right; exact (Hused _ _ H) | left; reflexivity].
  - intros k1 k2 n1 n2 H1 H2 E.
    apply lookup_snoc in H1 as [H1|[-> ->]]; apply lookup_snoc in H2 as [H2|[-> ->]].
    + exact (Hinj _ _ _ _ H1 H2 E).
    + destruct (Hnew _ _ H1 E).
    + destruct (Hnew _ _ H2 (eq_sym E)).
    + reflexivity.
Qed.

Lemma fold_wf : forall rs s, wf s -> wf (fold_left step rs s).
Proof. induction rs as [|r rs IH]; intros s H; simpl; [exact H | apply IH, foc_wf, H]. Qed.

Lemma lookup_foc : forall s tag rt t,
    lookup t (tags (foc s tag rt)) =
    match lookup t (tags s) with
    | Some n => Some n
    | None => if String.eqb t tag then Some (fresh rt (used s)) else None
    end.
Proof.
  intros s tag rt t. unfold foc. destruct (lookup tag (tags s)) eqn:E.
  - destruct (lookup t (tags s)) eqn:Et; [reflexivity|].
    destruct (String.eqb_spec t tag) as [->|]; [congruence | reflexivity].
  - cbn [tags]. rewrite lookup_app. reflexivity.
Qed.

Lemma foc_bound : forall s tag rt t,
    lookup t (tags (foc s tag rt)) <> None <-> lookup t (tags s) <> None \/ t = tag.
Proof.
  intros s tag rt t. rewrite lookup_foc.
  destruct (lookup t (tags s)); [split; [left|]; discriminate|].
  destruct (String.eqb_spec t tag); split; auto; try discriminate. intros [H|H]; contradiction.
Qed.

Lemma fold_bound : forall rs s t,
    lookup t (tags (fold_left step rs s)) <> None <-> lookup t (tags s) <> None \/ In t (map fst rs).
Proof.
  induction rs as [|r rs IH]; intros s t; simpl; [tauto|].
  rewrite IH. unfold step. rewrite foc_bound. split; [intros [[H|H]|H] | intros [H|[H|H]]]; auto.
Qed.

Lemma final_wf : forall pre ks, wf (final pre ks).
Proof. intros. apply fold_wf. split; simpl; discriminate. Qed.

Definition bound (F : st) (t : string) : Prop := lookup (tagof t) (tags F) <> None.

Lemma tagof_inj : forall a b, tagof a = tagof b -> a = b.
Proof. intros a b H. unfold tagof in H. eapply str_app_inv_head; eauto. Qed.

(* names_injective_on_texts, in its general form: the names of two bound texts differ by more than case *)
Lemma name_of_inj : forall F t1 t2,
    wf F -> bound F t1 -> bound F t2 -> normalize (name_of F t1) = normalize (name_of F t2) -> t1 = t2.
Proof.
  intros F t1 t2 [_ Hinj] B1 B2 E. unfold name_of, bound in *.
  destruct (lookup (tagof t1) (tags F)) as [n1|] eqn:E1; [|congruence].
  destruct (lookup (tagof t2) (tags F)) as [n2|] eqn:E2; [|congruence].
  exact (tagof_inj _ _ (Hinj _ _ _ _ E1 E2 E)).
Qed.

(* what [texts_of] (f := text) and the [entries_of] of the PSyIR path have in common: f of the passed
   arguments with role r, in schedule order *)
Definition passed_with {B} (f : sarg -> B) (r : role) (ks : list kcall) : list B :=
  flat_map (fun k => flat_map (fun ra => if role_eqb (fst ra) r && passed ra then [f (snd ra)] else [])
                              (flat_args k)) ks.

Lemma in_passed_with {B} (f : sarg -> B) : forall r ks y,
    In y (passed_with f r ks) <->
    exists k ra, In k ks /\ In ra (flat_args k) /\ fst ra = r /\ passed ra = true /\ f (snd ra) = y.
Proof.
  intros r ks y. unfold passed_with. rewrite in_flat_map. split.
  - intros [k [Hk H]]. apply in_flat_map in H as [ra [Hra H]].
    destruct (role_eqb (fst ra) r) eqn:Er, (passed ra) eqn:Ep; simpl in H; try tauto.
    destruct H as [H|[]]. apply role_eqb_eq in Er. exists k, ra. repeat split; assumption.
  - intros [k [ra [Hk [Hra [Er [Ep Hy]]]]]]. exists k. split; [exact Hk|].
    apply in_flat_map. exists ra. split; [exact Hra|].
    cbv beta. rewrite (proj2 (role_eqb_eq _ _) Er), Ep. left. exact Hy.
Qed.

Lemma passed_req : forall k ra, In ra (flat_args k) -> passed ra = true ->
    In (tagof (text (snd ra)), root (snd ra)) (kcall_reqs k).
Proof.
  intros k ra Hin Hp.
  assert (H : forall p, p (fst ra) = true -> In (tagof (text (snd ra)), root (snd ra)) (reqs_where p k)).
  { intros p Hpr. apply in_flat_map. exists ra. split; [exact Hin|].
    unfold req_of. rewrite Hpr, Hp. left; reflexivity. }
  unfold kcall_reqs. right. rewrite !in_app_iff.
  destruct (fst ra); [left | right; left | right; left | right; right]; apply H; reflexivity.
Qed.

Lemma texts_of_req : forall r ks t, In t (texts_of r ks) -> exists rt, In (tagof t, rt) (reqs ks).
Proof.
  intros r ks t Hin. apply (in_passed_with text) in Hin as [k [ra [Hk [Hra [_ [Hp <-]]]]]].
  exists (root (snd ra)). apply in_flat_map. exists k. split; [exact Hk | apply passed_req; assumption].
Qed.

Lemma texts_bound : forall pre r ks t, In t (texts_of r ks) -> bound (final pre ks) t.
Proof.
  intros pre r ks t Hin. destruct (texts_of_req _ _ _ Hin) as [rt H].
  apply fold_bound. right. exact (in_map fst _ _ H).
Qed.

Lemma passed_text_in : forall ks k j ra,
    In k ks -> nth_error (flat_args k) j = Some ra -> passed ra = true ->
    In (text (snd ra)) (texts_of (fst ra) ks).
Proof.
  intros ks k j ra Hk Hj Hp. apply (in_passed_with text). exists k, ra.
  repeat split; [exact Hk | exact (nth_error_In _ _ Hj) | exact Hp].
Qed.

Lemma name_of_inj_texts : forall pre ks r1 r2 x y,
    In x (texts_of r1 ks) -> In y (texts_of r2 ks) ->
    name_of (final pre ks) x = name_of (final pre ks) y -> x = y.
Proof.
  intros pre ks r1 r2 x y Hx Hy E.
  apply (name_of_inj (final pre ks)); [apply final_wf | exact (texts_bound _ _ _ _ Hx) | exact (texts_bound _ _ _ _ Hy) |].
  rewrite E. reflexivity.
Qed.

Lemma uniq_acc_In : forall l seen x, In x (uniq_acc seen l) <-> In x l /\ ~ In x seen.
Proof.
  induction l as [|y l IH]; intros seen x; simpl; [tauto|].
  destruct (mem_str_spec y seen) as [Hy|Hy]; simpl; rewrite IH; simpl.
  - split; [tauto | intros [[->|H] Hx]; tauto].
  - destruct (string_dec y x) as [->|D]; tauto.
Qed.

Lemma uniq_In : forall l x, In x (uniq l) <-> In x l.
Proof. intros l x. unfold uniq. rewrite uniq_acc_In. simpl. tauto. Qed.

Lemma uniq_acc_NoDup : forall l seen, NoDup (uniq_acc seen l).
Proof.
  induction l as [|y l IH]; intros seen; simpl; [constructor|].
  destruct (mem_str y seen); [apply IH|].
  constructor; [|apply IH]. rewrite uniq_acc_In. simpl. tauto.
Qed.

Lemma uniq_NoDup : forall l, NoDup (uniq l).
Proof. intros; apply uniq_acc_NoDup. Qed.

Lemma mem_str_map_inj : forall (f : string -> string) x l,
    (forall y, In y l -> f x = f y -> x = y) -> mem_str (f x) (map f l) = mem_str x l.
Proof.
  intros f x l Hinj.
  destruct (mem_str_spec x l) as [H|H], (mem_str_spec (f x) (map f l)) as [H'|H']; try reflexivity.
  - destruct H'. apply in_map, H.
  - apply in_map_iff in H' as [y [E Hy]]. rewrite (Hinj y Hy (eq_sym E)) in H. contradiction.
Qed.

(* dedup by NAME of the names = names of the dedup by TEXT, when naming is injective on the texts *)
Lemma uniq_acc_map : forall (f : string -> string) all,
    (forall x y, In x all -> In y all -> f x = f y -> x = y) ->
    forall l seen, incl l all -> incl seen all ->
    uniq_acc (map f seen) (map f l) = map f (uniq_acc seen l).
Proof.
  intros f all Hinj; induction l as [|x l IH]; intros seen Hl Hs; simpl; [reflexivity|].
  apply incl_cons_inv in Hl as [Hx Hl].
  rewrite mem_str_map_inj by (intros y Hy; apply Hinj; auto).
  destruct (mem_str x seen); simpl; [|f_equal]; [apply IH | apply (IH (x :: seen))]; auto using incl_cons.
Qed.

Lemma uniq_map : forall (f : string -> string) l,
    (forall x y, In x l -> In y l -> f x = f y -> x = y) -> uniq (map f l) = map f (uniq l).
Proof. intros f l H. apply (uniq_acc_map f l H l []); [apply incl_refl | intros x []]. Qed.

(* the dummy list is, position by position, the list of names of the (repaired) actual list *)
Theorem dummies_are_names_of_fixed : forall pre ks,
    psy_dummies pre ks = map (name_of (final pre ks)) (alg_args_fixed ks).
Proof.
  intros pre ks. unfold psy_dummies, alg_args_fixed. rewrite !map_app.
  rewrite (uniq_map _ (texts_of RMain ks)) by apply name_of_inj_texts.
  rewrite (uniq_map _ (texts_of RQr ks)) by apply name_of_inj_texts.
  reflexivity.
Qed.

Lemma map_id_on : forall (f : string -> string) l,
    forallb (fun t => String.eqb (f t) t) l = true -> map f l = l.
Proof.
  intros f l; induction l as [|x l IH]; simpl; [reflexivity|].
  intro H. apply andb_true_iff in H as [H1 H2]. apply String.eqb_eq in H1. rewrite H1, IH; auto.
Qed.

Lemma safe_alg_fixed : forall pre ks, stencil_safe pre ks = true -> alg_args pre ks = alg_args_fixed ks.
Proof.
  intros pre ks H. unfold stencil_safe in H. rewrite forallb_app in H.
  apply andb_true_iff in H as [H1 H2]. unfold alg_args, alg_args_fixed.
  rewrite (map_id_on _ _ H1), (map_id_on _ _ H2). reflexivity.
Qed.

(* [bound_ok] block by block: a position in the first blocks, a position after blocks of equal length,
   and a list against the list of its names *)
Lemma bound_ok_app_l : forall a a' p p' u s, bound_ok a p u s -> bound_ok (a ++ a') (p ++ p') u s.
Proof.
  intros a a' p p' u s [i [H1 H2]]. exists i.
  rewrite !nth_error_app1 by (apply nth_error_Some; congruence). split; assumption.
Qed.

Lemma nth_error_app_r {A} : forall (a x : list A) q, nth_error (a ++ x) (List.length a + q) = nth_error x q.
Proof. induction a as [|y a IH]; intros x q; simpl; [reflexivity | apply IH]. Qed.

Lemma bound_ok_app_r : forall a a' p p' u s,
    List.length a = List.length p -> bound_ok a' p' u s -> bound_ok (a ++ a') (p ++ p') u s.
Proof.
  intros a a' p p' u s Hlen [i [H1 H2]]. exists (List.length a + i).
  split; [rewrite Hlen|]; rewrite nth_error_app_r; assumption.
Qed.

Lemma bound_ok_map : forall (f : string -> string) l s, In s l -> bound_ok l (map f l) (f s) s.
Proof.
  intros f l s H. apply In_nth_error in H as [i Hi]. exists i. split; [apply map_nth_error|]; exact Hi.
Qed.

Lemma in_fixed_iff : forall ks t, In t (alg_args_fixed ks) <-> exists r, In t (texts_of r ks).
Proof.
  intros ks t. unfold alg_args_fixed. rewrite !in_app_iff, !uniq_In.
  split; [intros [H|[H|[H|H]]]; eauto | intros [[] H]; tauto].
Qed.

(* repaired algorithm layer: every passed kernel argument is bound to the actual with its source text *)
Theorem kernel_arg_bound_fixed_ : forall pre ks k j ra,
    In k ks -> nth_error (flat_args k) j = Some ra -> passed ra = true ->
    nth_error (kernel_used (final pre ks) k) j = Some (used_of (final pre ks) ra) /\
    bound_ok (alg_args_fixed ks) (psy_dummies pre ks) (used_of (final pre ks) ra) (text (snd ra)).
Proof.
  intros pre ks k j ra Hk Hj Hp. split; [exact (map_nth_error _ _ _ Hj)|].
  rewrite dummies_are_names_of_fixed. unfold used_of. rewrite Hp.
  apply bound_ok_map, in_fixed_iff. exists (fst ra). exact (passed_text_in _ _ _ _ Hk Hj Hp).
Qed.

(* same meaning, different spelling => same text => same name *)
Theorem spelling_irrelevant_ : forall F a b, text a = text b -> name_of F (text a) = name_of F (text b).
Proof. intros F a b E; rewrite E; reflexivity. Qed.

Lemma bound_okb_spec : forall alg psy u src, bound_okb alg psy u src = true <-> bound_ok alg psy u src.
Proof.
  induction alg as [|a alg IH]; intros psy u src; simpl.
  - split; [destruct psy; discriminate | intros [p [_ H]]; destruct p; discriminate].
  - destruct psy as [|d psy].
    + split; [discriminate | intros [p [H _]]; destruct p; discriminate].
    + rewrite orb_true_iff, andb_true_iff, !String.eqb_eq, IH. split.
      * intros [[H1 H2]|[p [H1 H2]]]; [exists 0; subst; simpl; auto | exists (S p); simpl; auto].
      * intros [[|p] [H1 H2]]; simpl in *; [left; split; congruence | right; exists p; auto].
Qed.

Lemma lower_ascii_blank : forall c, Ascii.eqb c " " = false -> Ascii.eqb (lower_ascii c) " " = false.
Proof.
  intros c H. destruct (lower_ascii_cases c) as [E|L]; [rewrite E; exact H|].
  apply Ascii.eqb_neq. intro E. rewrite E in L. discriminate L.
Qed.

Lemma norm_idem : forall s, norm (norm s) = norm s.
Proof.
  induction s as [|c s IH]; simpl; [reflexivity|].
  destruct (Ascii.eqb c " ") eqn:E; [exact IH|].
  simpl. rewrite lower_ascii_idem, (lower_ascii_blank _ E), IH. reflexivity.
Qed.

Definition pre0 : list string :=
  ["invoke_0"; "stencil_1dx"; "stencil_1dy"; "stencil_cross"; "stencil_2d_cross"; "stencil_region";
   "omp_get_thread_num"; "omp_get_max_threads"].
Definition v (n : string) : sarg := SRef [(n, None)].
Definition ix (n i : string) : sarg := SRef [(n, Some i)].

(* testkern_stencil_type(f1, f2, exts(1), m1, m2): the extent is an array element *)
Definition wit_stencil : list kcall :=
  [ {| k_builtin := false;
       k_slots := [Plain (v "f1"); Sten (v "f2") (ix "exts" "1") None; Plain (v "m1"); Plain (v "m2")];
       k_qr := [] |} ].

(* the extent n is also an integer argument of another kernel of the invoke *)
Definition wit_dup : list kcall :=
  [ {| k_builtin := false;
       k_slots := [Plain (v "f1"); Plain (v "n"); Plain (v "f2"); Plain (v "m1"); Plain (v "m2")]; k_qr := [] |};
    {| k_builtin := false;
       k_slots := [Plain (v "f1"); Sten (v "f2") (v "n") None; Plain (v "m1"); Plain (v "m2")]; k_qr := [] |} ].

(* a well-behaved invoke with repeats, spellings, renamings, literals, a simple extent and quadrature *)
Definition ex_ok : list kcall :=
  [ {| k_builtin := false;
       k_slots := [Plain (SRef [("obj", None); ("f", None)]); Sten (v "F1") (v "ext") (Some (v "x_direction"));
                   Plain (v "obj_f"); Plain (ix "fa" " 2 ")];
       k_qr := [v "qr"] |};
    {| k_builtin := true;
       k_slots := [Plain (ix "FA" "2"); Plain (SLit "1.0_r_def"); Plain (v "fa_1"); Plain (v "f1 ")]; k_qr := [] |} ].
