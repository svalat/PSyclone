(* C24 -- the name search of SymbolTable.next_available_name (root, root_1, root_2, ...) and the
   pigeonhole argument that it always returns an unused name.
   The definitions lower_ascii / normalize / dec / cand / mem_str / fresh_loop are COPIED from
   coq/C16/Model.v (same development, other property) so that C24 does not depend on C16's generated
   tables.  Axiom-free. *)
From Coq Require Import List Arith Bool String Ascii NArith Lia DecimalString DecimalN.
Import ListNotations.
Open Scope string_scope.

Definition lower_ascii (c : ascii) : ascii :=
  let n := N_of_ascii c in
  if (N.leb 65 n && N.leb n 90)%bool then ascii_of_N (n + 32) else c.

Fixpoint normalize (s : string) : string :=
  match s with
  | EmptyString => EmptyString
  | String c r => String (lower_ascii c) (normalize r)
  end.

(* str(idx) *)
Definition dec (n : N) : string := NilEmpty.string_of_uint (N.to_uint n).

(* the candidates of next_available_name: root, root_1, root_2, ... *)
Definition cand (root : string) (i : N) : string :=
  match i with
  | N0 => root
  | _ => root ++ "_" ++ dec i
  end.

Fixpoint mem_str (x : string) (l : list string) : bool :=
  match l with
  | [] => false
  | y :: r => if String.eqb x y then true else mem_str x r
  end.

Fixpoint fresh_loop (fuel : nat) (root : string) (existing : list string) (i : N) : option string :=
  match fuel with
  | O => None
  | S f => let c := cand root i in
           if mem_str (normalize c) existing then fresh_loop f root existing (N.succ i)
           else Some c
  end.

Lemma str_app_inv_head : forall a b c, a ++ b = a ++ c -> b = c.
Proof. induction a as [|x a IH]; intros b c H; simpl in H; [exact H | inversion H; auto]. Qed.

Lemma str_app_self : forall a b, a = a ++ b -> b = "".
Proof. induction a as [|x a IH]; intros b H; simpl in H; [auto | inversion H; auto]. Qed.

Lemma str_app_assoc : forall a b c, (a ++ b) ++ c = a ++ (b ++ c).
Proof. induction a as [|x a IH]; intros b c; simpl; [reflexivity | rewrite IH; reflexivity]. Qed.

Lemma normalize_app : forall a b, normalize (a ++ b) = normalize a ++ normalize b.
Proof. induction a as [|c a IH]; intros b; simpl; [reflexivity | rewrite IH; reflexivity]. Qed.

Lemma normalize_length : forall a, String.length (normalize a) = String.length a.
Proof. induction a as [|c a IH]; simpl; [reflexivity | rewrite IH; reflexivity]. Qed.

(* only A-Z (65-90) move, and they land beyond 90 *)
Lemma lower_ascii_cases : forall c, lower_ascii c = c \/ (90 < N_of_ascii (lower_ascii c))%N.
Proof.
  intros c. unfold lower_ascii.
  destruct (N.leb 65 (N_of_ascii c) && N.leb (N_of_ascii c) 90) eqn:E; [right | left; reflexivity].
  apply andb_true_iff in E as [E1 E2]. apply N.leb_le in E1, E2. rewrite N_ascii_embedding; lia.
Qed.

Lemma lower_ascii_idem : forall c, lower_ascii (lower_ascii c) = lower_ascii c.
Proof.
  intros c. destruct (lower_ascii_cases c) as [E|L]; [rewrite E; exact E|].
  unfold lower_ascii at 1. apply N.leb_gt in L. rewrite L, andb_false_r. reflexivity.
Qed.

Lemma normalize_idem : forall a, normalize (normalize a) = normalize a.
Proof. induction a as [|c a IH]; simpl; [reflexivity | rewrite lower_ascii_idem, IH; reflexivity]. Qed.

(* decimal digits are not changed by lower-casing *)
Lemma normalize_uint : forall d, normalize (NilEmpty.string_of_uint d) = NilEmpty.string_of_uint d.
Proof. induction d; simpl; try rewrite IHd; reflexivity. Qed.

Lemma normalize_dec : forall n, normalize (dec n) = dec n.
Proof. intros n. apply normalize_uint. Qed.

Lemma dec_inj : forall n m, dec n = dec m -> n = m.
Proof.
  intros n m H. unfold dec in H.
  assert (E : Some (N.to_uint n) = Some (N.to_uint m)).
  { rewrite <- (NilEmpty.usu (N.to_uint n)), <- (NilEmpty.usu (N.to_uint m)), H. reflexivity. }
  inversion E as [E'].
  rewrite <- (Unsigned.of_to n), <- (Unsigned.of_to m), E'. reflexivity.
Qed.

Lemma normalize_cand : forall root i, normalize (cand root i) = cand (normalize root) i.
Proof.
  intros root [|p]; simpl; [reflexivity|].
  rewrite normalize_app. simpl. rewrite normalize_dec. reflexivity.
Qed.

Lemma cand_inj : forall root i j, cand root i = cand root j -> i = j.
Proof.
  intros root [|p] [|q] H; simpl in H.
  - reflexivity.
  - apply str_app_self in H. discriminate H.
  - symmetry in H. apply str_app_self in H. discriminate H.
  - apply str_app_inv_head in H. inversion H as [H']. apply dec_inj in H'. exact H'.
Qed.

Lemma ncand_inj : forall root i j,
    normalize (cand root i) = normalize (cand root j) -> i = j.
Proof. intros root i j H. rewrite !normalize_cand in H. exact (cand_inj _ _ _ H). Qed.

Lemma mem_str_spec : forall x l, reflect (In x l) (mem_str x l).
Proof.
  intros x l; induction l as [|y l IH]; simpl; [constructor; tauto|].
  destruct (String.eqb_spec x y) as [E|E]; [constructor; left; auto|].
  destruct IH; constructor; [right; assumption | intros [?|?]; [congruence | contradiction]].
Qed.

Lemma NoDup_map_on {A B} (f : A -> B) : forall l,
    (forall x y, In x l -> In y l -> f x = f y -> x = y) -> NoDup l -> NoDup (map f l).
Proof.
  intros l Hinj Hnd; induction Hnd as [|x l Hx Hl IH]; simpl; constructor.
  - intro H. apply in_map_iff in H as [y [Hy Hy']].
    apply Hinj in Hy; [subst; contradiction | right; exact Hy' | left; reflexivity].
  - apply IH. intros a b Ha Hb. apply Hinj; right; assumption.
Qed.

Lemma fresh_loop_none : forall fuel root ex i,
    fresh_loop fuel root ex i = None ->
    forall k, k < fuel -> In (normalize (cand root (i + N.of_nat k))) ex.
Proof.
  induction fuel as [|f IH]; intros root ex i H k Hk; simpl in H; [lia|].
  destruct (mem_str_spec (normalize (cand root i)) ex) as [Hin|]; [|discriminate].
  destruct k as [|k].
  - rewrite N.add_0_r. exact Hin.
  - replace (i + N.of_nat (S k))%N with (N.succ i + N.of_nat k)%N by lia. apply IH; [exact H | lia].
Qed.

(* pigeonhole: fuel = |existing| + 1 is never exhausted *)
Lemma fresh_loop_total : forall root ex i,
    exists c, fresh_loop (S (List.length ex)) root ex i = Some c.
Proof.
  intros root ex i.
  destruct (fresh_loop (S (List.length ex)) root ex i) as [c|] eqn:E; [eauto|exfalso].
  set (tried := map (fun k => normalize (cand root (i + N.of_nat k))) (seq 0 (S (List.length ex)))).
  assert (Hnd : NoDup tried).
  { apply NoDup_map_on; [|apply seq_NoDup]. intros x y _ _ Hxy. apply ncand_inj in Hxy. lia. }
  assert (Hincl : incl tried ex).
  { intros y Hy. apply in_map_iff in Hy as [k [<- Hk]]. apply in_seq in Hk.
    apply (fresh_loop_none _ _ _ _ E). lia. }
  pose proof (NoDup_incl_length Hnd Hincl) as Hlen.
  unfold tried in Hlen. rewrite map_length, seq_length in Hlen. lia.
Qed.

Lemma fresh_loop_some : forall fuel root ex i c,
    fresh_loop fuel root ex i = Some c ->
    exists j, (i <= j)%N /\ c = cand root j /\ ~ In (normalize c) ex /\
              forall j', (i <= j' < j)%N -> In (normalize (cand root j')) ex.
Proof.
  induction fuel as [|f IH]; intros root ex i c H; simpl in H; [discriminate|].
  destruct (mem_str_spec (normalize (cand root i)) ex) as [Hin|Hfree].
  - apply IH in H as [j [Hij [Hc [Hfree Hmin]]]].
    exists j. repeat split; [lia | exact Hc | exact Hfree |].
    intros j' Hj'. destruct (N.eq_dec j' i) as [->|Hne]; [exact Hin | apply Hmin; lia].
  - inversion H; subst c. exists i. repeat split; [lia | exact Hfree | lia].
Qed.

Definition fresh (root : string) (used : list string) : string :=
  match fresh_loop (S (List.length used)) root used 0%N with
  | Some c => c
  | None => root            (* unreachable: fresh_loop_total *)
  end.

Lemma fresh_spec : forall root used,
    exists j, fresh root used = cand root j /\ ~ In (normalize (cand root j)) used /\
              forall j', (j' < j)%N -> In (normalize (cand root j')) used.
Proof.
  intros root used. unfold fresh.
  destruct (fresh_loop_total root used 0%N) as [c Hc]. rewrite Hc.
  apply fresh_loop_some in Hc as [j [_ [-> [Hfree Hmin]]]].
  exists j. repeat split; [exact Hfree | intros j' Hj'; apply Hmin; lia].
Qed.

Lemma fresh_not_used : forall root used, ~ In (normalize (fresh root used)) used.
Proof. intros root used. destruct (fresh_spec root used) as [j [-> [Hfree _]]]. exact Hfree. Qed.

(* with a lower-case root the result is lower-case, hence itself not in [used] *)
Lemma fresh_normal : forall root used, normalize root = root -> normalize (fresh root used) = fresh root used.
Proof.
  intros root used Hr. destruct (fresh_spec root used) as [j [-> _]]. rewrite normalize_cand, Hr. reflexivity.
Qed.
