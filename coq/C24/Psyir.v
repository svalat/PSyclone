(* C24 -- the PSyIR-based algorithm generation (generator.LFRIC_TESTING): LFRicAlgInvoke2PSyCallTrans.get_arguments
   and AlgInvoke2PSyCallTrans._add_arg, next to the default path of Model.v.  Axiom-free.

   _add_arg(arg, list):  Literal (or -Literal)  -> not passed;
                         Reference              -> appended unless SymbolicMaths.equal(arg, existing) for one existing;
                         CodeBlock              -> ALWAYS appended (no comparison).
   SymbolicMaths compares symbols case-insensitively (base name, index expressions) but structure MEMBER names as
   written ([pkey]).  Four lists (arguments, stencil sizes, stencil directions, quadrature) are de-duplicated
   separately and concatenated, as in the default path.  Which arguments the fparser2 frontend leaves as a
   CodeBlock is an input ([cb]).
   Routine names: psyGen.Invoke.__init__ vs LFRicAlgorithmInvokeCall._def_routine_root_name. *)
From Coq Require Import List Bool String Ascii.
Import ListNotations.
From PV Require Import C24.Fresh C24.Model C24.Proofs.
Open Scope string_scope.

Fixpoint strip (s : string) : string :=
  match s with
  | EmptyString => EmptyString
  | String c r => if Ascii.eqb c " "%char then strip r else String c (strip r)
  end.

Definition member_key (c : comp) : string :=
  match c with (n, None) => strip n | (n, Some ix) => strip n ++ "(" ++ norm ix ++ ")" end.

(* the equality key of a Reference under SymbolicMaths.equal *)
Definition pkey (a : sarg) : string :=
  match a with
  | SLit t => norm t
  | SRef [] => ""
  | SRef (c :: cs) => join "%" (comp_text c :: map member_key cs)
  end.

Definition entry := (option string * string)%type.      (* (Some key | None = CodeBlock, text) *)

Fixpoint puniq_acc (seen : list string) (l : list entry) : list string :=
  match l with
  | [] => []
  | (None, t) :: r => t :: puniq_acc seen r
  | (Some k, t) :: r => if mem_str k seen then puniq_acc seen r else t :: puniq_acc (k :: seen) r
  end.
Definition puniq := puniq_acc [].

Definition entry_of (cb : sarg -> bool) (a : sarg) : entry :=
  (if cb a then None else Some (pkey a), text a).

Definition entries_of (cb : sarg -> bool) (r : role) (ks : list kcall) : list entry :=
  flat_map (fun k => flat_map (fun ra => if role_eqb (fst ra) r && passed ra then [entry_of cb (snd ra)] else [])
                              (flat_args k)) ks.

Definition psyir_alg_args (cb : sarg -> bool) (ks : list kcall) : list string :=
  puniq (entries_of cb RMain ks) ++ puniq (entries_of cb RExt ks)
  ++ puniq (entries_of cb RDir ks) ++ puniq (entries_of cb RQr ks).

(* sufficient condition: no passed argument is a CodeBlock and every structure member is spelled so that the
   PSyIR key is the text (lower-case member names): excludes the repeated-structure-argument class *)
Definition psyir_safe (cb : sarg -> bool) (ks : list kcall) : bool :=
  forallb (fun ra => negb (passed ra) || (negb (cb (snd ra)) && String.eqb (pkey (snd ra)) (text (snd ra))))
          (flat_map flat_args ks).

Definition agrees_psyir (c : list kcall * list string) : bool :=
  list_eqb (psyir_alg_args (fun _ => false) (fst c)) (snd c).

Lemma puniq_acc_texts : forall l seen,
    Forall (fun e : entry => fst e = Some (snd e)) l -> puniq_acc seen l = uniq_acc seen (map snd l).
Proof.
  induction l as [|[k t] l IH]; intros seen H; simpl; [reflexivity|].
  inversion H as [|? ? Hk Hl]; subst. simpl in Hk. subst k.
  destruct (mem_str t seen); [apply IH; exact Hl | f_equal; apply IH; exact Hl].
Qed.

Lemma map_flat_map {A B C} (g : B -> C) (f : A -> list B) : forall l,
    map g (flat_map f l) = flat_map (fun x => map g (f x)) l.
Proof. induction l as [|x l IH]; simpl; [reflexivity | rewrite map_app, IH; reflexivity]. Qed.

Lemma entries_texts : forall cb r ks, map snd (entries_of cb r ks) = texts_of r ks.
Proof.
  intros cb r ks. unfold entries_of, texts_of. rewrite map_flat_map. apply flat_map_ext. intro k.
  rewrite map_flat_map. apply flat_map_ext. intro ra.
  destruct (role_eqb (fst ra) r && passed ra); reflexivity.
Qed.

Lemma entries_safe : forall cb r ks, psyir_safe cb ks = true ->
    Forall (fun e : entry => fst e = Some (snd e)) (entries_of cb r ks).
Proof.
  intros cb r ks Hs. apply Forall_forall. intros e He.
  apply (in_passed_with (entry_of cb)) in He as [k [ra [Hk [Hra [_ [Ep <-]]]]]].
  unfold psyir_safe in Hs. rewrite forallb_forall in Hs.
  assert (Hin : In ra (flat_map flat_args ks)) by (apply in_flat_map; exists k; auto).
  specialize (Hs _ Hin). rewrite Ep in Hs. simpl in Hs. apply andb_true_iff in Hs as [H1 H2].
  apply negb_true_iff in H1. apply String.eqb_eq in H2. unfold entry_of. rewrite H1. simpl. rewrite H2. reflexivity.
Qed.

Lemma psyir_is_fixed : forall cb ks, psyir_safe cb ks = true -> psyir_alg_args cb ks = alg_args_fixed ks.
Proof.
  intros cb ks H. unfold psyir_alg_args, alg_args_fixed, puniq, uniq.
  rewrite !puniq_acc_texts by (apply entries_safe; exact H). rewrite !entries_texts. reflexivity.
Qed.

(* the i-th PSy dummy is the name of the i-th actual of the PSyIR-generated call *)
Theorem psyir_positions_aligned_partial_ : forall cb pre ks,
    psyir_safe cb ks = true ->
    psy_dummies pre ks = map (name_of (final pre ks)) (psyir_alg_args cb ks).
Proof. intros cb pre ks H. rewrite (psyir_is_fixed _ _ H). apply dummies_are_names_of_fixed. Qed.

Inductive rname := ByLabel (l : string) | ByIdx (i : nat) | ByIdxKern (i : nat) (k : string).

(* an invoke as both namers see it: optional label, index, (kernel name, is built-in) list *)
Definition psy_rname (label : option string) (i : nat) (ks : list (string * bool)) : rname :=
  match label with
  | Some l => ByLabel (normalize l)
  | None => match ks with [(k, false)] => ByIdxKern i k | _ => ByIdx i end
  end.

Definition psyir_rname (label : option string) (i : nat) (ks : list (string * bool)) : rname :=
  match ks with
  | [(_, true)] => ByIdx i                       (* LFRic override: tested before the label *)
  | _ => match label with
         | Some l => ByLabel (normalize l)
         | None => match ks with [(k, _)] => ByIdxKern i k | _ => ByIdx i end
         end
  end.

Definition named_single_builtin (label : option string) (ks : list (string * bool)) : bool :=
  match label, ks with Some _, [(_, true)] => true | _, _ => false end.

Theorem routine_names_agree_partial_ : forall label i ks,
    named_single_builtin label ks = false -> psyir_rname label i ks = psy_rname label i ks.
Proof.
  intros label i ks H. unfold psyir_rname, psy_rname.
  destruct ks as [|[k b] [|k2 ks]]; destruct label; try reflexivity; destruct b; try reflexivity; discriminate H.
Qed.

Lemma routine_names_refuted : exists label i ks, psyir_rname label i ks <> psy_rname label i ks.
Proof. exists (Some "Update"), 0, [("setval_c", true)]. vm_compute. discriminate. Qed.

Definition lit1 := SLit "1.0_r_def".
Definition bi (args : list sarg) : kcall := {| k_builtin := true; k_slots := map Plain args; k_qr := [] |}.

(* invoke(setval_c(obj%v(1), 1.0_r_def), setval_X(f1, OBJ % V( 1 ))) *)
Definition wit_struct : list kcall :=
  [ bi [SRef [("obj", None); ("v", Some "1")]; lit1];
    bi [v "f1"; SRef [("OBJ ", None); (" V", Some " 1 ")]] ].

Lemma refuted_struct_dup :
  psyir_alg_args (fun _ => false) wit_struct = ["obj%v(1)"; "f1"; "obj%v(1)"] /\
  psy_dummies ("invoke_0" :: nil) wit_struct = ["obj_v"; "f1"] /\
  alg_args_fixed wit_struct = ["obj%v(1)"; "f1"].
Proof. vm_compute. repeat split. Qed.

Lemma refuted_psyir_aligned :
  exists cb pre ks, psy_dummies pre ks <> map (name_of (final pre ks)) (psyir_alg_args cb ks).
Proof. exists (fun _ => false), ("invoke_0" :: nil), wit_struct. vm_compute. discriminate. Qed.

(* identical spelling, but the frontend left the argument as a CodeBlock: appended every time *)
Lemma refuted_codeblock_dup :
  psyir_alg_args (fun _ => true) [bi [SRef [("obj", None); ("f", None)]; lit1]; bi [v "f1"; SRef [("obj", None); ("f", None)]]]
  = ["obj%f"; "f1"; "obj%f"].
Proof. vm_compute. reflexivity. Qed.

Lemma psyir_nonvacuous : psyir_safe (fun _ => false) ex_ok = true /\
  psyir_alg_args (fun _ => false) ex_ok = ["obj%f"; "f1"; "obj_f"; "fa(2)"; "fa_1"; "ext"; "qr"].
Proof. vm_compute. split; reflexivity. Qed.
