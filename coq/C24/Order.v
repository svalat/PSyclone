(* C24 -- the two traversals that must enumerate the invokes in the same order.

   parse/algorithm.py Parser.invoke_info :  for statement in walk(tree, (Type_Declaration_Stmt,
       Data_Component_Def_Stmt, Use_Stmt, Call_Stmt)): ... if Call_Stmt and name.lower() == "invoke":
       invoke_calls.append(create_invoke_call(statement))          -> PSy invoke_list (same order, psyGen.Invokes)
   alg_gen.py Alg.gen :  idx = 0; for statement in walk(tree, Call_Stmt): if name.lower() == "invoke":
       rewrite statement with psy.invokes.invoke_list[idx]; idx += 1

   fparser2's walk is a pre-order traversal that returns the nodes of the requested classes (and still
   descends below them).  A statement is identified by [nid] (Python object identity).  Axiom-free. *)
From Coq Require Import List Bool String Arith Lia.
Import ListNotations.
From PV Require Import C24.Fresh.
Open Scope string_scope.

Inductive kind := KCall (name : string) | KDecl | KUse | KOther.
Inductive node := N (id : nat) (k : kind) (children : list node).

Definition nid (n : node) : nat := match n with N i _ _ => i end.
Definition nkind (n : node) : kind := match n with N _ k _ => k end.

Fixpoint walk (p : kind -> bool) (n : node) : list node :=
  match n with
  | N i k cs => (if p k then [n] else []) ++ flat_map (walk p) cs
  end.

Definition is_call (k : kind) : bool := match k with KCall _ => true | _ => false end.
Definition parse_types (k : kind) : bool := match k with KOther => false | _ => true end.
Definition is_invoke (n : node) : bool :=
  match nkind n with KCall name => String.eqb (normalize name) "invoke" | _ => false end.

(* the InvokeCall objects (hence psy.invokes.invoke_list), each identified by the statement it came from *)
Definition parse_invokes (t : node) : list nat := map nid (filter is_invoke (walk parse_types t)).

(* Alg.gen: which Invoke (by originating statement) each visited invoke statement is rewritten with *)
Fixpoint gen_pairs (visited : list node) (idx : nat) (invoke_list : list nat) : list (nat * option nat) :=
  match visited with
  | [] => []
  | n :: r => if is_invoke n then (nid n, nth_error invoke_list idx) :: gen_pairs r (S idx) invoke_list
              else gen_pairs r idx invoke_list
  end.

Definition alg_gen (t : node) : list (nat * option nat) := gen_pairs (walk is_call t) 0 (parse_invokes t).

Close Scope string_scope.
Open Scope list_scope.
Lemma filter_flat_map {A B} (q : B -> bool) (f : A -> list B) : forall l,
    filter q (flat_map f l) = flat_map (fun x => filter q (f x)) l.
Proof. induction l as [|x l IH]; simpl; [reflexivity | rewrite filter_app, IH; reflexivity]. Qed.

Lemma flat_map_ext_in {A B} (f g : A -> list B) : forall l,
    (forall x, In x l -> f x = g x) -> flat_map f l = flat_map g l.
Proof.
  induction l as [|x l IH]; intros H; simpl; [reflexivity|].
  rewrite H by (left; reflexivity). rewrite IH; [reflexivity | intros y Hy; apply H; right; exact Hy].
Qed.

Fixpoint node_ind' (P : node -> Prop)
         (H : forall i k cs, Forall P cs -> P (N i k cs)) (n : node) : P n :=
  match n with
  | N i k cs => H i k cs ((fix go (l : list node) : Forall P l :=
                             match l with [] => Forall_nil P | x :: r => Forall_cons x (node_ind' P H x) (go r) end) cs)
  end.

(* a filtered walk is the filter of the full walk, for any predicate on kinds implied by the class test *)
Lemma filter_walk : forall (p : kind -> bool) (q : node -> bool),
    (forall n, q n = true -> p (nkind n) = true) ->
    forall t, filter q (walk p t) = filter q (walk (fun _ => true) t).
Proof.
  intros p q Hq. apply (node_ind' (fun t => filter q (walk p t) = filter q (walk (fun _ => true) t))).
  intros i k cs IH. cbn [walk]. rewrite !filter_app, !filter_flat_map. f_equal.
  - destruct (p k) eqn:E; [reflexivity|]. simpl.
    destruct (q (N i k cs)) eqn:E'; [|reflexivity]. apply Hq in E'. simpl in E'. congruence.
  - apply flat_map_ext_in. rewrite Forall_forall in IH. exact IH.
Qed.

Lemma invoke_is_call : forall n, is_invoke n = true -> is_call (nkind n) = true.
Proof. intros n. unfold is_invoke. destruct (nkind n); simpl; congruence. Qed.
Lemma invoke_is_parsed : forall n, is_invoke n = true -> parse_types (nkind n) = true.
Proof. intros n. unfold is_invoke. destruct (nkind n); simpl; congruence. Qed.

(* both traversals meet the same invoke statements in the same order *)
Theorem same_invoke_sequence : forall t,
    filter is_invoke (walk parse_types t) = filter is_invoke (walk is_call t).
Proof.
  intros t. rewrite (filter_walk parse_types is_invoke invoke_is_parsed).
  rewrite (filter_walk is_call is_invoke invoke_is_call). reflexivity.
Qed.

(* Alg.gen run over the visited list L with the list parsed from L itself, having already consumed [done]:
   every statement gets the Invoke built from it *)
Lemma gen_pairs_aligned : forall L done,
    Forall (fun pr => snd pr = Some (fst pr))
           (gen_pairs L (List.length done) (done ++ map nid (filter is_invoke L))%list).
Proof.
  induction L as [|n L IH]; intros done; simpl; [constructor|].
  destruct (is_invoke n) eqn:E.
  - constructor.
    + simpl. rewrite nth_error_app2 by lia. rewrite Nat.sub_diag. reflexivity.
    + specialize (IH (done ++ [nid n])). rewrite app_length in IH. simpl in IH.
      rewrite Nat.add_1_r, <- app_assoc in IH. exact IH.
  - apply IH.
Qed.

(* none is skipped: one pair per invoke statement, in order *)
Lemma gen_pairs_fst : forall L idx il, map fst (gen_pairs L idx il) = map nid (filter is_invoke L).
Proof.
  induction L as [|n L IH]; intros idx il; simpl; [reflexivity|].
  destruct (is_invoke n); simpl; [f_equal|]; apply IH.
Qed.

(* a module with two subroutines: invoke inside an IF construct, a non-invoke call, "INVOKE" upper-case,
   an invoke in a one-line IF, declarations and USE statements in between *)
Open Scope string_scope.
Definition ex_tree : node :=
  N 0 KOther [ N 1 KUse [];
               N 2 KOther [ N 3 KDecl []; N 4 (KCall "other") [];
                            N 5 KOther [ N 6 (KCall "invoke") [] ];
                            N 7 (KCall "INVOKE") [] ];
               N 8 KOther [ N 9 KDecl []; N 10 KOther [ N 11 (KCall "Invoke") [] ]; N 12 (KCall "invoke_helper") [] ] ].
