(* C25 - facts about DO-loop traces: a nest visits exactly its rectangle, once per point, in
   row-major order; per-point call sequences under loop fusion. *)
From Coq Require Import List ZArith Bool String Lia Sorting.Sorted.
Import ListNotations.
From PV Require Import C25.Model.
Local Open Scope Z_scope.
Local Open Scope list_scope.

Lemma do_iter_ext : forall (A : Type) n v (f g : Z -> list A),
  (forall u, f u = g u) -> do_iter n v f = do_iter n v g.
Proof.
  intros A n; induction n as [|n IH]; intros v f g H; cbn [do_iter]; [reflexivity|].
  rewrite (H v), (IH (v + 1) f g H); reflexivity.
Qed.

Lemma do_loop_ext : forall (A : Type) lo hi (f g : Z -> list A),
  (forall u, f u = g u) -> do_loop lo hi f = do_loop lo hi g.
Proof. intros; unfold do_loop; apply do_iter_ext; assumption. Qed.

Lemma in_do_iter : forall (A : Type) n v (body : Z -> list A) e,
  In e (do_iter n v body) <-> exists u, v <= u < v + Z.of_nat n /\ In e (body u).
Proof.
  intros A n; induction n as [|n IH]; intros v body e; cbn [do_iter].
  - split; [intros []|intros [u [Hu _]]; lia].
  - rewrite in_app_iff, IH. split.
    + intros [H|[u [Hu H]]]; [exists v|exists u]; split; try assumption; lia.
    + intros [u [Hu H]]. destruct (Z.eq_dec u v) as [->|Hne]; [left; assumption|].
      right; exists u; split; [lia|assumption].
Qed.

Lemma in_do_loop : forall (A : Type) lo hi (body : Z -> list A) e,
  In e (do_loop lo hi body) <-> exists u, lo <= u <= hi /\ In e (body u).
Proof.
  intros A lo hi body e; unfold do_loop; rewrite in_do_iter.
  split; intros [u [Hu H]]; exists u; (split; [lia|assumption]).
Qed.

Lemma sorted_app : forall (A : Type) (R : A -> A -> Prop) (l1 l2 : list A),
  StronglySorted R l1 -> StronglySorted R l2 ->
  (forall x y, In x l1 -> In y l2 -> R x y) -> StronglySorted R (l1 ++ l2).
Proof.
  intros A R l1; induction l1 as [|a l1 IH]; intros l2 H1 H2 Hc; cbn; [assumption|].
  inversion H1 as [|a' l' Hs Hf]; subst. constructor.
  - apply IH; try assumption. intros x y Hx Hy; apply Hc; [right|]; assumption.
  - rewrite Forall_forall in *. intros x Hx. apply in_app_iff in Hx. destruct Hx as [Hx|Hx].
    + apply Hf; assumption.
    + apply Hc; [left; reflexivity|assumption].
Qed.

Lemma sorted_do_iter : forall (A : Type) (R : A -> A -> Prop) n v (body : Z -> list A),
  (forall u, StronglySorted R (body u)) ->
  (forall u u' a b, u < u' -> In a (body u) -> In b (body u') -> R a b) ->
  StronglySorted R (do_iter n v body).
Proof.
  intros A R n; induction n as [|n IH]; intros v body Hs Hc; cbn [do_iter]; [constructor|].
  apply sorted_app; [apply Hs|apply IH; assumption|].
  intros x y Hx Hy. apply in_do_iter in Hy. destruct Hy as [u [Hu Hy]].
  apply (Hc v u); [lia|assumption|assumption].
Qed.

Lemma in_nest : forall k r k' i j,
  In (k', i, j) (nest k r) <-> k' = k /\ inside r i j.
Proof.
  intros k r k' i j; unfold nest, inside. rewrite in_do_loop. split.
  - intros [u [Hu H]]. apply in_do_loop in H. destruct H as [w [Hw H]].
    cbn in H. destruct H as [H|[]]. inversion H; subst. repeat split; lia.
  - intros [-> [Hj Hi]]. exists j; split; [lia|]. apply in_do_loop. exists i; split; [lia|].
    left; reflexivity.
Qed.

Lemma sorted_nest : forall k r, StronglySorted rm_lt (nest k r).
Proof.
  intros k r; unfold nest, do_loop. apply sorted_do_iter.
  - intros u. apply sorted_do_iter.
    + intros w; constructor; [constructor|constructor].
    + intros w w' a b Hlt [Ha|[]] [Hb|[]]; subst; unfold rm_lt, ev_i, ev_j; cbn. right; split; [reflexivity|assumption].
  - intros u u' a b Hlt Ha Hb. apply in_do_iter in Ha. apply in_do_iter in Hb.
    destruct Ha as [w [_ [Ha|[]]]]. destruct Hb as [w' [_ [Hb|[]]]]. subst; unfold rm_lt, ev_j; cbn. left; assumption.
Qed.

Lemma sorted_nodup : forall (A : Type) (R : A -> A -> Prop) l,
  (forall x, ~ R x x) -> StronglySorted R l -> NoDup l.
Proof.
  intros A R l Hirr H; induction H as [|a l _ IH Hf]; constructor; [|exact IH].
  intros Hin. rewrite Forall_forall in Hf. exact (Hirr a (Hf a Hin)).
Qed.

Lemma nodup_nest : forall k r, NoDup (nest k r).
Proof. intros k r. apply (sorted_nodup _ rm_lt); [unfold rm_lt; lia|apply sorted_nest]. Qed.

Lemma at_pt_app : forall i j a b, at_pt i j (a ++ b) = at_pt i j a ++ at_pt i j b.
Proof. intros; unfold at_pt; rewrite filter_app, map_app; reflexivity. Qed.

(* same kernels in the same order at every grid point *)
Definition ppeq (t1 t2 : list ev) : Prop := forall i j, at_pt i j t1 = at_pt i j t2.

Lemma ppeq_refl : forall t, ppeq t t.
Proof. intros t i j; reflexivity. Qed.
Lemma ppeq_trans : forall a b c, ppeq a b -> ppeq b c -> ppeq a c.
Proof. intros a b c H1 H2 i j; rewrite H1; apply H2. Qed.
Lemma ppeq_app : forall a a' b b', ppeq a a' -> ppeq b b' -> ppeq (a ++ b) (a' ++ b').
Proof. intros a a' b b' H1 H2 i j; rewrite !at_pt_app, H1, H2; reflexivity. Qed.

Lemma ppeq_do_loop : forall lo hi F F', (forall u, ppeq (F u) (F' u)) -> ppeq (do_loop lo hi F) (do_loop lo hi F').
Proof.
  intros lo hi F F' H. unfold do_loop. generalize (Z.to_nat (hi - lo + 1)) as n. intros n; revert lo.
  induction n as [|n IH]; intros v; cbn [do_iter]; [apply ppeq_refl|apply ppeq_app; [apply H|apply IH]].
Qed.

(* DO v {F v; G v} against DO v {F v}; DO v {G v}.  When every element records in c the iteration
   that produced it, the elements selected by f all come from iteration p, so both sides list them in
   the same order. *)
Lemma filter_do_iter_split : forall (A : Type) (f : A -> bool) (c : A -> Z) p (F G : Z -> list A),
  (forall e, f e = true -> c e = p) ->
  (forall u e, In e (F u) -> c e = u) -> (forall u e, In e (G u) -> c e = u) ->
  forall n v, filter f (do_iter n v (fun u => F u ++ G u)) =
              filter f (do_iter n v F) ++ filter f (do_iter n v G).
Proof.
  intros A f c p F G Hf HF HG.
  assert (N : forall l, (forall e, In e l -> c e <> p) -> filter f l = []).
  { induction l as [|a l IH]; intros H; cbn; [reflexivity|].
    destruct (f a) eqn:E; [destruct (H a (or_introl eq_refl) (Hf a E))|].
    apply IH; intros e He; apply H; right; exact He. }
  intros n; induction n as [|n IH]; intros v; cbn [do_iter]; [reflexivity|].
  rewrite !filter_app, IH. destruct (Z.eq_dec v p) as [->|Hv].
  - (* the later iterations of F select nothing *)
    rewrite (N (do_iter n (p + 1) F)).
    + cbn [app]. rewrite app_nil_r, app_assoc; reflexivity.
    + intros e He. apply in_do_iter in He. destruct He as [u [Hu He]]. rewrite (HF u e He); lia.
  - rewrite (N (F v)), (N (G v)); [reflexivity| |]; intros e He; [rewrite (HG v e He)|rewrite (HF v e He)]; exact Hv.
Qed.

(* the loop variable may be either coordinate of the point: anything the point determines *)
Theorem split_loop_per_point : forall (c : ev -> Z) lo hi (F G : Z -> list ev),
  (forall e e', ev_i e = ev_i e' -> ev_j e = ev_j e' -> c e = c e') ->
  (forall u e, In e (F u) -> c e = u) -> (forall u e, In e (G u) -> c e = u) ->
  ppeq (do_loop lo hi (fun u => F u ++ G u)) (do_loop lo hi F ++ do_loop lo hi G).
Proof.
  intros c lo hi F G Hpt HF HG i j. unfold at_pt, do_loop. rewrite filter_app. f_equal.
  apply (filter_do_iter_split _ _ c (c (0%nat, i, j))); try assumption.
  intros e He. apply andb_true_iff in He. destruct He as [Hi Hj]. apply Z.eqb_eq in Hi, Hj.
  apply Hpt; assumption.
Qed.
