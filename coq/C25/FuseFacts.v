(* C25 - transformations on the schedule: fusion keeps the per-point call sequences when the fused
   loops have equal bounds; wrappers (OpenMP/OpenACC/extraction) keep the trace; a whole
   transformation history keeps the per-point sequences when no GO_OFFSET_ANY kernel and no ignored
   configuration line is involved. *)
From Coq Require Import List ZArith Bool String.
Import ListNotations.
From PV Require Import C25.Model C25.BoundsFacts C25.TraceFacts C25.Gen C25.TableFacts C25.GenFacts.
Local Open Scope Z_scope.
Local Open Scope string_scope.
Local Open Scope list_scope.

Lemma fuse_at_inv : forall (A : Type) (ok : A -> A -> bool) (f : A -> A -> A) n l l',
  fuse_at ok f n l = Some l' ->
  exists pre x y post, l = pre ++ x :: y :: post /\ l' = pre ++ f x y :: post /\ ok x y = true /\
                       nth_error l n = Some x /\ nth_error l (S n) = Some y.
Proof.
  intros A ok f n; induction n as [|n IH]; intros l l' H.
  - destruct l as [|x [|y r]]; cbn in H; try discriminate.
    destruct (ok x y) eqn:E; [|discriminate]. injection H as <-. exists [], x, y, r; auto.
  - destruct l as [|x r]; cbn in H; [discriminate|].
    destruct (fuse_at ok f n r) as [r'|] eqn:Er; [|discriminate]. injection H as <-.
    destruct (IH r r' Er) as (pre & a & b & post & -> & -> & Hok & Ha & Hb).
    exists (x :: pre), a, b, post; auto.
Qed.

Lemma update_at_inv : forall (A : Type) (g : A -> option A) n l l',
  update_at g n l = Some l' ->
  exists pre x y post, l = pre ++ x :: post /\ l' = pre ++ y :: post /\ g x = Some y /\ nth_error l n = Some x.
Proof.
  intros A g n; induction n as [|n IH]; intros l l' H; destruct l as [|x r]; cbn in H; try discriminate.
  - destruct (g x) as [y|] eqn:Eg; [|discriminate]. injection H as <-. exists [], x, y, r; auto.
  - destruct (update_at g n r) as [r'|] eqn:Er; [|discriminate]. injection H as <-.
    destruct (IH r r' Er) as (pre & a & b & post & -> & -> & Hg & Ha).
    exists (x :: pre), a, b, post; auto.
Qed.

Lemma fuse_at_ppeq : forall (A : Type) (ok : A -> A -> bool) (f : A -> A -> A) (E : A -> list ev) n l l',
  fuse_at ok f n l = Some l' ->
  (forall x y, nth_error l n = Some x -> nth_error l (S n) = Some y -> ok x y = true ->
               ppeq (E (f x y)) (E x ++ E y)) ->
  ppeq (flat_map E l') (flat_map E l).
Proof.
  intros A ok f E n l l' H HP.
  destruct (fuse_at_inv _ _ _ _ _ _ H) as (pre & x & y & post & -> & -> & Hok & Hx & Hy).
  rewrite !flat_map_app. cbn [flat_map]. apply ppeq_app; [apply ppeq_refl|].
  rewrite app_assoc. apply ppeq_app; [apply HP; assumption|apply ppeq_refl].
Qed.

Lemma update_at_ppeq : forall (A : Type) (g : A -> option A) (E : A -> list ev) n l l',
  update_at g n l = Some l' ->
  (forall x y, nth_error l n = Some x -> g x = Some y -> ppeq (E y) (E x)) ->
  ppeq (flat_map E l') (flat_map E l).
Proof.
  intros A g E n l l' H HP.
  destruct (update_at_inv _ _ _ _ _ H) as (pre & x & y & post & -> & -> & Hg & Hx).
  rewrite !flat_map_app. cbn [flat_map].
  apply ppeq_app; [apply ppeq_refl|apply ppeq_app; [apply HP; assumption|apply ppeq_refl]].
Qed.

Lemma update_at_eq : forall (A : Type) (g : A -> option A) (E : A -> list ev) n l l',
  update_at g n l = Some l' -> (forall x y, g x = Some y -> E y = E x) -> flat_map E l' = flat_map E l.
Proof.
  intros A g E n l l' H HE.
  destruct (update_at_inv _ _ _ _ _ H) as (pre & x & y & post & -> & -> & Hg & _).
  rewrite !flat_map_app. cbn [flat_map]. rewrite (HE x y Hg). reflexivity.
Qed.

Lemma fuse_at_Forall : forall (A : Type) (ok : A -> A -> bool) (f : A -> A -> A) (Q : A -> Prop),
  (forall x y, Q x -> Q y -> ok x y = true -> Q (f x y)) ->
  forall n l l', fuse_at ok f n l = Some l' -> Forall Q l -> Forall Q l'.
Proof.
  intros A ok f Q HQ n l l' H HF.
  destruct (fuse_at_inv _ _ _ _ _ _ H) as (pre & x & y & post & -> & -> & Hok & _).
  rewrite Forall_app, Forall_cons_iff in HF |- *. rewrite Forall_cons_iff in HF.
  destruct HF as (Hp & Qx & Qy & Hq). auto.
Qed.

Lemma update_at_Forall : forall (A : Type) (g : A -> option A) (Q : A -> Prop),
  (forall x y, Q x -> g x = Some y -> Q y) ->
  forall n l l', update_at g n l = Some l' -> Forall Q l -> Forall Q l'.
Proof.
  intros A g Q HQ n l l' H HF.
  destruct (update_at_inv _ _ _ _ _ H) as (pre & x & y & post & -> & -> & Hg & _).
  rewrite Forall_app, Forall_cons_iff in HF |- *. destruct HF as (Hp & Qx & Hq). eauto.
Qed.

Lemma nth_error_Forall : forall (A : Type) (Q : A -> Prop) l n x, Forall Q l -> nth_error l n = Some x -> Q x.
Proof. intros A Q l n x HF H. rewrite Forall_forall in HF. apply HF. apply (nth_error_In _ _ H). Qed.

Section Sched.
Variable lib : libm.
Variable en : env.

Definition same_bounds (lo hi lo' hi' : gexpr) : Prop :=
  eval_g lib en lo = eval_g lib en lo' /\ eval_g lib en hi = eval_g lib en hi'.
Definition same_bounds_o (a b : outer) := same_bounds (out_lo a) (out_hi a) (out_lo b) (out_hi b).
Definition same_bounds_i (a b : inner) := same_bounds (in_lo a) (in_hi a) (in_lo b) (in_hi b).

Lemma inner_ev_j : forall j l e, In e (exec_inner lib en j l) -> ev_j e = j.
Proof.
  intros j l e H. unfold exec_inner in H. apply in_do_loop in H. destruct H as [u [_ H]].
  apply in_map_iff in H. destruct H as [k [<- _]]. reflexivity.
Qed.

Lemma body_ev_j : forall j body e, In e (flat_map (exec_inner lib en j) body) -> ev_j e = j.
Proof.
  intros j body e H. apply in_flat_map in H. destruct H as [l [_ H]]. apply (inner_ev_j j l e H).
Qed.

Lemma fuse_o_ppeq : forall a b, same_bounds_o a b ->
  ppeq (exec_outer lib en (fuse_o a b)) (exec_outer lib en a ++ exec_outer lib en b).
Proof.
  intros a b [H1 H2]. unfold exec_outer; cbn [fuse_o out_lo out_hi out_body]. rewrite <- H1, <- H2.
  rewrite (do_loop_ext _ _ _ _ (fun u => flat_map (exec_inner lib en u) (out_body a) ++ flat_map (exec_inner lib en u) (out_body b)))
    by (intros u; apply flat_map_app).
  apply (split_loop_per_point ev_j); [auto| |]; intros u e; apply body_ev_j.
Qed.

Lemma fuse_i_ppeq : forall j a b, same_bounds_i a b ->
  ppeq (exec_inner lib en j (fuse_i a b)) (exec_inner lib en j a ++ exec_inner lib en j b).
Proof.
  intros j a b [H1 H2]. unfold exec_inner; cbn [fuse_i in_lo in_hi in_ks]. rewrite <- H1, <- H2.
  rewrite (do_loop_ext _ _ _ _ (fun u => map (fun k => (k, u, j)) (in_ks a) ++ map (fun k => (k, u, j)) (in_ks b)))
    by (intros u; apply map_app).
  apply (split_loop_per_point ev_i); [auto| |]; intros u e H; apply in_map_iff in H; destruct H as [k [<- _]]; reflexivity.
Qed.

Theorem fuse_outer_ppeq : forall s n s', fuse_at ok_o fuse_o n s = Some s' ->
  (forall a b, nth_error s n = Some a -> nth_error s (S n) = Some b -> ok_o a b = true -> same_bounds_o a b) ->
  ppeq (exec lib en s') (exec lib en s).
Proof.
  intros s n s' H HP. apply (fuse_at_ppeq _ ok_o fuse_o (exec_outer lib en) n s s' H).
  intros a b Ha Hb Hf. apply fuse_o_ppeq, HP; assumption.
Qed.

Theorem fuse_inner_ppeq : forall s n m s',
  update_at (fun o => option_map (set_body o) (fuse_at ok_i fuse_i m (out_body o))) n s = Some s' ->
  (forall o a b, nth_error s n = Some o -> nth_error (out_body o) m = Some a ->
                 nth_error (out_body o) (S m) = Some b -> ok_i a b = true -> same_bounds_i a b) ->
  ppeq (exec lib en s') (exec lib en s).
Proof.
  intros s n m s' H HP. apply (update_at_ppeq _ _ (exec_outer lib en) n s s' H).
  intros o o' Ho Hg. destruct (fuse_at ok_i fuse_i m (out_body o)) as [body'|] eqn:Eb; [|discriminate].
  injection Hg as <-. unfold exec_outer; cbn [set_body out_lo out_hi out_body]. apply ppeq_do_loop. intros j.
  apply (fuse_at_ppeq _ ok_i fuse_i (exec_inner lib en j) m _ _ Eb).
  intros a b Ha Hb Hf. apply fuse_i_ppeq, (HP o); assumption.
Qed.

(* directives and extraction regions execute nothing themselves *)
Lemma wrap_outer_trace : forall tb first s n w s',
  apply_x tb first s (XWrapOuter n w) = Some s' -> exec lib en s' = exec lib en s.
Proof.
  intros tb first s n w s' H. apply (update_at_eq _ _ (exec_outer lib en) n s s' H).
  intros o o' Hg. injection Hg as <-. reflexivity.
Qed.

Lemma wrap_inner_trace : forall tb first s n m w s',
  apply_x tb first s (XWrapInner n m w) = Some s' -> exec lib en s' = exec lib en s.
Proof.
  intros tb first s n m w s' H. apply (update_at_eq _ _ (exec_outer lib en) n s s' H). intros o o' Hg.
  destruct (update_at _ m (out_body o)) as [body'|] eqn:Eb; [|discriminate]. injection Hg as <-.
  unfold exec_outer; cbn [set_body out_lo out_hi out_body]. apply do_loop_ext. intros j.
  apply (update_at_eq _ _ (exec_inner lib en j) m _ _ Eb). intros l l' Hl. injection Hl as <-. reflexivity.
Qed.

End Sched.

Section History.
Variable lib : libm.
Hypothesis HC : lib_contract lib.
Variable cfg tb : table.
Hypothesis HT : table_is cfg tb.
Variable first : nat.
Variable en : env.

(* Invariant: every loop is for the grid's own offset, its attributes are consistent, and its bounds
   evaluate to the configured region of its attributes. *)
Let own (a : lattr) : Prop := a_off a = e_goff en.
Let own_safe : forall a, own a -> const_safe en a := fun a H => or_introl H.
Definition sched_ok (s : sched) : Prop := Forall (outer_ok lib cfg en own) s.

(* two loops the fusion validation accepts have the same configured region, hence the same bounds *)
Lemma fusable_same_bounds : forall a b d lo hi lo' hi',
  loop_ok lib cfg en own a d lo hi -> loop_ok lib cfg en own b d lo' hi' -> attrs_fusable a b = true ->
  same_bounds lib en lo hi lo' hi'.
Proof.
  intros a b d lo hi lo' hi' (_ & Ha & r & Hr & V1 & V2) (_ & Hb & r' & Hr' & V1' & V2') Hf.
  unfold attrs_fusable in Hf. apply andb_true_iff in Hf. destruct Hf as [Hs Ht].
  apply String.eqb_eq in Hs. apply String.eqb_eq in Ht.
  rewrite spec_region_kof in Hr, Hr'. unfold akey in Hr, Hr'. unfold own in Ha, Hb.
  rewrite Ha, Hs, Ht in Hr. rewrite Hb, Hr in Hr'. injection Hr' as <-.
  split; congruence.
Qed.

Lemma step_ok : forall s x s', sched_ok s -> apply_x tb first s x = Some s' ->
  sched_ok s' /\ ppeq (exec lib en s') (exec lib en s).
Proof.
  intros s x s' Hok H. destruct x as [|n|n m|n w|n m w]; cbn [apply_x] in H.
  - (* constant loop bounds: every loop keeps its evaluated bounds *)
    assert (K : forall o o', outer_ok lib cfg en own o -> const_outer tb first o = Some o' ->
                outer_ok lib cfg en own o' /\ forall _ : unit, exec_outer lib en o' = exec_outer lib en o).
    { intros o o' Ho Hc. destruct (const_outer_ok lib cfg tb HT first en own own_safe o o' Ho Hc); auto. }
    destruct (map_opt_keeps _ _ _ _ (fun _ => exec_outer lib en) K s s' H Hok) as [Hok' He].
    split; [exact Hok'|]. unfold exec. rewrite (He tt). apply ppeq_refl.
  - split.
    + apply (fuse_at_Forall _ ok_o fuse_o (outer_ok lib cfg en own)) with (2 := H) (3 := Hok).
      intros a b [Ha Hab] [_ Hbb] _. split; [exact Ha|]. cbn [fuse_o out_body]. apply Forall_app; split; assumption.
    + apply (fuse_outer_ppeq lib en s n s' H). intros a b Ha Hb Hf.
      destruct (nth_error_Forall _ _ _ _ _ Hok Ha) as [La _]. destruct (nth_error_Forall _ _ _ _ _ Hok Hb) as [Lb _].
      apply andb_true_iff in Hf. exact (fusable_same_bounds _ _ _ _ _ _ _ La Lb (proj2 Hf)).
  - split.
    + apply (update_at_Forall _ _ (outer_ok lib cfg en own)) with (2 := H) (3 := Hok). intros o o' [Ho Hb] Hg.
      destruct (fuse_at ok_i fuse_i m (out_body o)) as [body'|] eqn:Eb; [|discriminate]. injection Hg as <-.
      split; [exact Ho|]. cbn [set_body out_body].
      apply (fuse_at_Forall _ ok_i fuse_i (inner_ok lib cfg en own)) with (2 := Eb) (3 := Hb). intros a b Ha _ _. exact Ha.
    + apply (fuse_inner_ppeq lib en s n m s' H). intros o a b Ho Ha Hb Hf.
      destruct (nth_error_Forall _ _ _ _ _ Hok Ho) as [_ Hbody].
      pose proof (nth_error_Forall _ _ _ _ _ Hbody Ha) as La. pose proof (nth_error_Forall _ _ _ _ _ Hbody Hb) as Lb.
      apply andb_true_iff in Hf. exact (fusable_same_bounds _ _ _ _ _ _ _ La Lb (proj2 Hf)).
  - split.
    + apply (update_at_Forall _ _ (outer_ok lib cfg en own)) with (2 := H) (3 := Hok). intros o o' Ho Hg. injection Hg as <-. exact Ho.
    + rewrite (wrap_outer_trace lib en tb first s n w s' H). apply ppeq_refl.
  - split.
    + apply (update_at_Forall _ _ (outer_ok lib cfg en own)) with (2 := H) (3 := Hok). intros o o' [Ho Hb] Hg.
      destruct (update_at _ m (out_body o)) as [body'|] eqn:Eb; [|discriminate]. injection Hg as <-.
      split; [exact Ho|]. cbn [set_body out_body].
      apply (update_at_Forall _ _ (inner_ok lib cfg en own)) with (2 := Eb) (3 := Hb). intros l l' Hl Hgl. injection Hgl as <-. exact Hl.
    + rewrite (wrap_inner_trace lib en tb first s n m w s' H). apply ppeq_refl.
Qed.

Lemma hist_ok : forall h s s', sched_ok s -> apply_hist tb first s h = Some s' ->
  sched_ok s' /\ ppeq (exec lib en s') (exec lib en s).
Proof.
  induction h as [|x r IH]; intros s s' Hok H; cbn in H.
  - injection H as <-; split; [assumption|apply ppeq_refl].
  - destruct (apply_x tb first s x) as [s1|] eqn:E; [|discriminate].
    destruct (step_ok s x s1 Hok E) as [Hok1 P1]. destruct (IH s1 s' Hok1 H) as [Hok' P2].
    split; [assumption|]. apply (ppeq_trans _ _ _ P2 P1).
Qed.

Lemma gen_sched_ok : forall ks s,
  Forall (fun k => attr_ok cfg en (attr_of k) /\ k_off k = e_goff en) ks ->
  gen_sched tb first ks = Some s -> sched_ok s.
Proof.
  intros ks s HF H. unfold gen_sched in H. apply map_opt_Forall2 in H. induction H as [|k o r r' Hk Hr IH].
  - constructor.
  - inversion HF as [|? ? [Hx Hy] HF']; subst.
    constructor; [apply (gen_outer_ok lib HC cfg tb HT first en own k o Hx Hy Hk)|apply IH; assumption].
Qed.

(* Any accepted sequence of GOConstLoopBoundsTrans, GOcean loop fusions and OpenMP/OpenACC/extraction
   wrappers keeps, at every grid point, the kernels called and their order - for kernels written for
   the grid's own index offset whose configuration lines are not ignored. *)
Theorem history_preserves_per_point_ : forall ks h s s',
  Forall (fun k => attr_ok cfg en (attr_of k) /\ k_off k = e_goff en) ks ->
  gen_sched tb first ks = Some s -> apply_hist tb first s h = Some s' ->
  ppeq (exec lib en s') (exec lib en s).
Proof.
  intros ks h s s' HF Hg Hh. apply (hist_ok h s s' (gen_sched_ok ks s HF Hg) Hh).
Qed.

End History.

(* non-vacuity of the history theorem: three NE kernels, constant bounds, two fusions, two wrappers *)
Example history_nonvacuous :
  let ks := [mkK 1 "go_offset_ne" "go_cu" "go_internal_pts" 0; mkK 2 "go_offset_ne" "go_cu" "go_internal_pts" 1;
             mkK 3 "go_offset_ne" "go_every" "go_all_pts" 2] in
  let en := mkEnv "go_offset_ne" 4 3 (fun f => match f with 2%nat => "go_ct" | _ => "go_cu" end) in
  let h := [XFuseOuter 0; XConst; XFuseInner 0 0; XWrapOuter 0 1; XWrapInner 1 0 2] in
  Forall (fun k => attr_ok [] en (attr_of k) /\ k_off k = e_goff en) ks /\
  exists s s', gen_sched builtin_table 0 ks = Some s /\ apply_hist builtin_table 0 s h = Some s' /\
               List.length s' = 2%nat /\ at_pt 2 2 (exec ref_lib en s') = [1%nat; 2%nat; 3%nat].
Proof.
  intros ks en h. split.
  - constructor; [|constructor; [|constructor; [|constructor]]];
      (split; [unfold attr_ok; cbn; repeat split; auto|reflexivity]).
  - eexists; eexists. split; [vm_compute; reflexivity|]. split; [vm_compute; reflexivity|].
    split; vm_compute; reflexivity.
Qed.
