(* C25 - the generated loop nest of a kernel visits the configured region (default code path and
   GOConstLoopBoundsTrans), under the library contract.  The invariant "a loop's bounds evaluate to
   the configured region of its attributes" (loop_ok) is set up by generation and kept by constant
   loop bounds; C25/FuseFacts.v carries it through whole transformation histories. *)
From Coq Require Import List ZArith Bool String.
Import ListNotations.
From PV Require Import C25.Model C25.BoundsFacts C25.TraceFacts C25.Gen C25.TableFacts.
Local Open Scope Z_scope.
Local Open Scope list_scope.
Local Open Scope string_scope.

(* The dl_esm_inf contract (unverifiable here: the library source is not in the repository):
   field-object bounds are the reference table's go_internal_pts / go_all_pts rows with start=2 and
   stop = the grid's internal stop index, and field arrays cover exactly the depth-1 halo. *)
Definition lib_contract (lib : libm) : Prop :=
  (forall g t r d s S, mem g real_offsets = true -> mem t point_types = true ->
     lib_bound lib g t r d s S = lib_bound ref_lib g t r d s S) /\
  (forall S, lib_size lib S = S + 1).

Lemma ref_lib_contract : lib_contract ref_lib.
Proof. split; intros; reflexivity. Qed.

(* tb answers lookups like "the configuration lines on top of the reference table" *)
Definition table_is (cfg tb : table) : Prop :=
  forall k, lookup tb k = match lookup_last cfg k with Some b => Some b | None => lookup ref_table k end.

Lemma table_is_add_all_ref : forall cfg, table_is cfg (add_all ref_table cfg).
Proof. intros cfg k; apply lookup_add_all. Qed.

Lemma table_is_add_all_builtin : forall cfg, table_is cfg (add_all builtin_table cfg).
Proof. intros cfg k. rewrite lookup_add_all, builtin_table_is_reference_. reflexivity. Qed.

Definition kof (a : lattr) : kern := mkK 0 (a_off a) (a_type a) (a_space a) (a_fld a).

Lemma spec_region_kof : forall cfg G a sx sy,
  spec_region cfg G (kof a) sx sy =
  match lookup_last cfg (akey a) with
  | Some b => Some (region_of b sx sy)
  | None =>
      if String.eqb (a_type a) "go_every" then Some (mkR 1 (sy + 1) 1 (sx + 1))
      else option_map (fun b => region_of b sx sy)
             (lookup ref_table (if String.eqb (a_off a) "go_offset_any" && builtin_space (a_space a) then G else a_off a,
                                a_type a, a_space a))
  end.
Proof. reflexivity. Qed.

Definition rsel (r : rect) (d : dim) (s : side) : Z :=
  match d, s with Y, Lo => jlo r | Y, Hi => jhi r | X, Lo => ilo r | X, Hi => ihi r end.

Lemma rsel_region_of : forall b sx sy d s,
  rsel (region_of b sx sy) d s = eval_b 2 (match d with X => sx | Y => sy end) (sel b d s).
Proof. intros b sx sy [] []; reflexivity. Qed.

(* the loop attributes fit the grid and the fields, and no configuration line is being ignored *)
Definition attr_ok (cfg : table) (en : env) (a : lattr) : Prop :=
  mem (e_goff en) real_offsets = true /\
  (a_off a = e_goff en \/ a_off a = "go_offset_any") /\
  (a_type a = "go_every" \/ (mem (a_type a) point_types = true /\ e_ftype en (a_fld a) = a_type a)) /\
  cfg_ignored cfg (kof a) = false.

(* GO_OFFSET_ANY with a built-in space is where constant loop bounds differ *)
Definition const_safe (en : env) (a : lattr) : Prop :=
  a_off a = e_goff en \/ a_type a = "go_every" \/ builtin_space (a_space a) = false.

Lemma point_type_not_every : forall t, mem t point_types = true -> String.eqb t "go_every" = false.
Proof.
  intros t H. destruct (String.eqb t "go_every") eqn:E; [|reflexivity].
  apply String.eqb_eq in E; subst. vm_compute in H. discriminate.
Qed.

(* the nest GOKernCallFactory.create builds: one inner loop holding the one kernel call *)
Lemma gen_outer_inv : forall tb first k o, gen_outer tb first k = Some o ->
  exists lo hi lo' hi',
    o = mkO (attr_of k) lo hi [mkI (attr_of k) lo' hi' [k_id k] []] [] /\
    default_bound tb first (attr_of k) Y Lo = Some lo /\ default_bound tb first (attr_of k) Y Hi = Some hi /\
    default_bound tb first (attr_of k) X Lo = Some lo' /\ default_bound tb first (attr_of k) X Hi = Some hi'.
Proof.
  intros tb first k o H. unfold gen_outer, mk_inner in H.
  destruct (default_bound tb first (attr_of k) Y Lo) as [lo|]; [|discriminate].
  destruct (default_bound tb first (attr_of k) Y Hi) as [hi|]; [|discriminate].
  destruct (default_bound tb first (attr_of k) X Lo) as [lo'|]; [|discriminate].
  destruct (default_bound tb first (attr_of k) X Hi) as [hi'|]; [|discriminate].
  injection H as <-. exists lo, hi, lo', hi'; auto 6.
Qed.

Lemma map_opt_Forall2 : forall (A B : Type) (f : A -> option B) l l',
  map_opt f l = Some l' -> Forall2 (fun x y => f x = Some y) l l'.
Proof.
  intros A B f l; induction l as [|x r IH]; intros l' H; cbn in H.
  - injection H as <-; constructor.
  - destruct (f x) as [y|] eqn:E; [|discriminate]. destruct (map_opt f r) as [ys|]; [|discriminate].
    injection H as <-. constructor; [assumption|apply IH; reflexivity].
Qed.

(* an elementwise rewrite that keeps an invariant Q of the elements and what each of them executes
   (E i x: the trace of x, for every value i of whatever the trace depends on) *)
Lemma map_opt_keeps : forall (A I : Type) (g : A -> option A) (Q : A -> Prop) (E : I -> A -> list ev),
  (forall x y, Q x -> g x = Some y -> Q y /\ forall i, E i y = E i x) ->
  forall l l', map_opt g l = Some l' -> Forall Q l ->
  Forall Q l' /\ forall i, flat_map (E i) l' = flat_map (E i) l.
Proof.
  intros A I g Q E Hg l l' H HF. apply map_opt_Forall2 in H. induction H as [|x y r r' Hx _ IH].
  - split; [constructor|reflexivity].
  - inversion HF as [|? ? Qx HF']; subst. destruct (IH HF') as [IH1 IH2]. destruct (Hg x y Qx Hx) as [Qy Ey].
    split; [constructor; assumption|]. intros i; cbn [flat_map]. rewrite Ey, IH2; reflexivity.
Qed.

Section Loops.
Variable lib : libm.
Hypothesis HC : lib_contract lib.
Variables cfg tb : table.
Hypothesis HT : table_is cfg tb.
Variable first : nat.
Variable en : env.

(* a table entry with start=2, stop=first%grid%subdomain%internal%stop *)
Lemma table_bound_eval : forall b d s,
  eval_g lib en (subst_b (sel b d s) (GGridStop first d)) = rsel (region_of b (e_sx en) (e_sy en)) d s.
Proof.
  intros b d s. rewrite (eval_subst_b lib en (sel b d s) (GGridStop first d) (stop_of en d) eq_refl), rsel_region_of.
  reflexivity.
Qed.

Lemma no_cfg_line : forall a, attr_ok cfg en a ->
  String.eqb (a_type a) "go_every" || builtin_space (a_space a) = true -> lookup_last cfg (akey a) = None.
Proof.
  intros a (_ & _ & _ & Hig) Hb. unfold cfg_ignored in Hig. change (akey (attr_of (kof a))) with (akey a) in Hig.
  destruct (lookup_last cfg (akey a)); [|reflexivity]. cbn [kof k_type k_space] in Hig. congruence.
Qed.

(* GOConstLoopBoundsTrans evaluates to the configured region, except for GO_OFFSET_ANY + built-in space *)
Lemma const_bound_eval : forall a d s g,
  attr_ok cfg en a -> const_safe en a -> const_bound tb first a d s = Some g ->
  exists r, spec_region cfg (e_goff en) (kof a) (e_sx en) (e_sy en) = Some r /\ eval_g lib en g = rsel r d s.
Proof.
  intros a d s g Hok Hsafe H. unfold const_bound in H. rewrite HT in H. rewrite spec_region_kof.
  destruct (lookup_last cfg (akey a)) as [b|].
  - injection H as <-. eexists; split; [reflexivity|apply table_bound_eval].
  - destruct (lookup ref_table (akey a)) as [b|] eqn:El; [|discriminate]. injection H as <-.
    exists (region_of b (e_sx en) (e_sy en)); split; [|apply table_bound_eval]. unfold akey in El.
    destruct (String.eqb (a_type a) "go_every") eqn:Eev.
    + apply String.eqb_eq in Eev. rewrite Eev, <- builtin_table_is_reference_ in El.
      rewrite (every_rows_full_ _ _ _ El). reflexivity.
    + replace (if String.eqb (a_off a) "go_offset_any" && builtin_space (a_space a) then e_goff en else a_off a)
        with (a_off a); [rewrite El; reflexivity|].
      destruct Hsafe as [Hs|[Hs|Hs]].
      * destruct (String.eqb (a_off a) "go_offset_any" && builtin_space (a_space a)); congruence.
      * apply String.eqb_eq in Hs; congruence.
      * rewrite Hs, andb_false_r; reflexivity.
Qed.

(* fld%internal%... and fld%whole%...: the library's row for the grid's own offset *)
Lemma field_bound_eval : forall a rk d s,
  attr_ok cfg en a -> String.eqb (a_type a) "go_every" = false -> a_space a = space_of_regk rk ->
  exists r, spec_region cfg (e_goff en) (kof a) (e_sx en) (e_sy en) = Some r /\
            eval_g lib en (GFld (a_fld a) rk d s) = rsel r d s.
Proof.
  intros a rk d s Hok Hev Hsp.
  assert (Hb : builtin_space (a_space a) = true) by (rewrite Hsp; destruct rk; reflexivity).
  pose proof (no_cfg_line a Hok) as Hn. rewrite Hb, orb_true_r in Hn. specialize (Hn eq_refl).
  destruct Hok as (Hg & Hoff & [Hty|[Hpt Hft]] & _); [apply String.eqb_eq in Hty; congruence|].
  destruct (ref_complete_ (e_goff en) (a_type a) rk Hg Hpt) as [b Hl].
  exists (region_of b (e_sx en) (e_sy en)); split.
  - rewrite spec_region_kof, Hn, Hev, Hb, andb_true_r.
    replace (if String.eqb (a_off a) "go_offset_any" then e_goff en else a_off a) with (e_goff en).
    + rewrite Hsp, Hl. reflexivity.
    + destruct Hoff as [-> | ->]; [destruct (String.eqb (e_goff en) "go_offset_any")|]; reflexivity.
  - cbn [eval_g]. destruct HC as [HB _]. rewrite Hft, (HB _ _ rk d s _ Hg Hpt).
    unfold ref_lib, lib_of_table; cbn [lib_bound]. rewrite Hl, rsel_region_of. reflexivity.
Qed.

(* GOLoop.lower_bound/upper_bound evaluate to the configured region *)
Lemma default_bound_eval : forall a d s g,
  attr_ok cfg en a -> default_bound tb first a d s = Some g ->
  exists r, spec_region cfg (e_goff en) (kof a) (e_sx en) (e_sy en) = Some r /\ eval_g lib en g = rsel r d s.
Proof.
  intros a d s g Hok H. unfold default_bound in H.
  destruct (String.eqb (a_type a) "go_every") eqn:Eev.
  - (* go_every: 1 .. SIZE *)
    exists (mkR 1 (e_sy en + 1) 1 (e_sx en + 1)); split.
    + rewrite spec_region_kof, (no_cfg_line a Hok) by (rewrite Eev; reflexivity). rewrite Eev. reflexivity.
    + destruct HC as [_ HS]. injection H as <-.
      destruct d, s; cbn [eval_g rsel jlo jhi ilo ihi stop_of]; rewrite ?HS; reflexivity.
  - destruct (String.eqb (a_space a) "go_internal_pts") eqn:Ein;
      [|destruct (String.eqb (a_space a) "go_all_pts") eqn:Eal].
    + injection H as <-. apply String.eqb_eq in Ein. apply (field_bound_eval a Internal); assumption.
    + injection H as <-. apply String.eqb_eq in Eal. apply (field_bound_eval a Whole); assumption.
    + (* a user-defined space: the table entry, as under constant loop bounds *)
      apply (const_bound_eval a d s g Hok); [|exact H].
      right; right. unfold builtin_space. rewrite Ein, Eal. reflexivity.
Qed.

(* What else is known of a loop's attributes: const_safe for a single generated nest, "written for
   the grid's own offset" when whole transformation histories are followed. *)
Variable side : lattr -> Prop.

(* the loop's bounds evaluate to the configured region of its attributes, in direction d *)
Definition loop_ok (a : lattr) (d : dim) (lo hi : gexpr) : Prop :=
  attr_ok cfg en a /\ side a /\
  exists r, spec_region cfg (e_goff en) (kof a) (e_sx en) (e_sy en) = Some r /\
            eval_g lib en lo = rsel r d Lo /\ eval_g lib en hi = rsel r d Hi.
Definition inner_ok (l : inner) : Prop := loop_ok (in_attr l) X (in_lo l) (in_hi l).
Definition outer_ok (o : outer) : Prop :=
  loop_ok (out_attr o) Y (out_lo o) (out_hi o) /\ Forall inner_ok (out_body o).

Lemma loop_ok_intro : forall (bf : bounds_fn) a d lo hi,
  (forall s g, bf a d s = Some g ->
     exists r, spec_region cfg (e_goff en) (kof a) (e_sx en) (e_sy en) = Some r /\ eval_g lib en g = rsel r d s) ->
  attr_ok cfg en a -> side a -> bf a d Lo = Some lo -> bf a d Hi = Some hi -> loop_ok a d lo hi.
Proof.
  intros bf a d lo hi Hbf Hok Hs E1 E2.
  destruct (Hbf _ _ E1) as [r [Hr V1]]. destruct (Hbf _ _ E2) as [r' [Hr' V2]].
  rewrite Hr in Hr'; injection Hr' as <-. split; [exact Hok|]. split; [exact Hs|]. exists r; auto.
Qed.

Lemma gen_outer_ok : forall k o, attr_ok cfg en (attr_of k) -> side (attr_of k) ->
  gen_outer tb first k = Some o -> outer_ok o.
Proof.
  intros k o Hok Hs H. destruct (gen_outer_inv _ _ _ _ H) as (lo & hi & lo' & hi' & -> & E1 & E2 & E3 & E4).
  assert (L : forall d lo hi, default_bound tb first (attr_of k) d Lo = Some lo ->
                              default_bound tb first (attr_of k) d Hi = Some hi -> loop_ok (attr_of k) d lo hi).
  { intros d; intros. apply (loop_ok_intro (default_bound tb first)); try assumption.
    intros s g; apply default_bound_eval; exact Hok. }
  split; [apply L; assumption|]. constructor; [apply L; assumption|constructor].
Qed.

Hypothesis side_safe : forall a, side a -> const_safe en a.

Lemma const_loop_ok : forall a d lo hi g1 g2,
  loop_ok a d lo hi -> const_bound tb first a d Lo = Some g1 -> const_bound tb first a d Hi = Some g2 ->
  loop_ok a d g1 g2 /\ eval_g lib en g1 = eval_g lib en lo /\ eval_g lib en g2 = eval_g lib en hi.
Proof.
  intros a d lo hi g1 g2 (Hok & Hs & r & Hr & V1 & V2) E1 E2.
  assert (L : loop_ok a d g1 g2).
  { apply (loop_ok_intro (const_bound tb first)); try assumption.
    intros s g; apply const_bound_eval; auto. }
  split; [exact L|]. destruct L as (_ & _ & r' & Hr' & W1 & W2).
  rewrite Hr in Hr'; injection Hr' as <-. split; congruence.
Qed.

Lemma const_inner_ok : forall l l', inner_ok l -> const_inner tb first l = Some l' ->
  inner_ok l' /\ forall j, exec_inner lib en j l' = exec_inner lib en j l.
Proof.
  intros l l' Hok H. unfold const_inner, mk_inner in H.
  destruct (const_bound tb first (in_attr l) X Lo) as [g1|] eqn:E1; [|discriminate].
  destruct (const_bound tb first (in_attr l) X Hi) as [g2|] eqn:E2; [|discriminate].
  injection H as <-. destruct (const_loop_ok _ _ _ _ _ _ Hok E1 E2) as [Hok' [S1 S2]].
  split; [exact Hok'|]. intros j. unfold exec_inner; cbn [in_lo in_hi in_ks]. rewrite S1, S2. reflexivity.
Qed.

Lemma const_outer_ok : forall o o', outer_ok o -> const_outer tb first o = Some o' ->
  outer_ok o' /\ exec_outer lib en o' = exec_outer lib en o.
Proof.
  intros o o' [Hok Hb] H. unfold const_outer in H.
  destruct (const_bound tb first (out_attr o) Y Lo) as [g1|] eqn:E1; [|discriminate].
  destruct (const_bound tb first (out_attr o) Y Hi) as [g2|] eqn:E2; [|discriminate].
  destruct (map_opt (const_inner tb first) (out_body o)) as [body'|] eqn:Eb; [|discriminate].
  injection H as <-. destruct (const_loop_ok _ _ _ _ _ _ Hok E1 E2) as [Hok' [S1 S2]].
  destruct (map_opt_keeps _ _ _ inner_ok (exec_inner lib en) const_inner_ok _ _ Eb Hb) as [Hb' He].
  split; [split; assumption|].
  unfold exec_outer; cbn [out_lo out_hi out_body]. rewrite S1, S2. apply do_loop_ext. exact He.
Qed.

End Loops.

Lemma exec_single : forall lib en a lo hi a' lo' hi' kid w w',
  exec_outer lib en (mkO a lo hi [mkI a' lo' hi' [kid] w] w') =
  nest kid (mkR (eval_g lib en lo) (eval_g lib en hi) (eval_g lib en lo') (eval_g lib en hi')).
Proof.
  intros. unfold exec_outer, nest; cbn [out_lo out_hi out_body jlo jhi ilo ihi].
  apply do_loop_ext. intros j. cbn [flat_map]. rewrite app_nil_r. unfold exec_inner; cbn [in_lo in_hi in_ks].
  apply do_loop_ext. intros i. reflexivity.
Qed.

(* Default code path: the nest generated for a kernel visits exactly its configured region. *)
Theorem generated_region_is_configured_ : forall lib, lib_contract lib -> forall cfg tb first en k o,
  table_is cfg tb -> attr_ok cfg en (attr_of k) ->
  gen_outer tb first k = Some o ->
  exists r, spec_region cfg (e_goff en) k (e_sx en) (e_sy en) = Some r /\
            exec_outer lib en o = nest (k_id k) r.
Proof.
  intros lib HC cfg tb first en k o HT Hok H.
  pose proof (gen_outer_ok lib HC cfg tb HT first en (fun _ => True) k o Hok I H) as Ho.
  destruct (gen_outer_inv _ _ _ _ H) as (lo & hi & lo' & hi' & -> & _).
  destruct Ho as [(_ & _ & r & Hr & V1 & V2) Hb].
  inversion Hb as [|? ? (_ & _ & r' & Hr' & V3 & V4) _]; subst. cbn [out_attr out_lo out_hi in_attr in_lo in_hi] in *.
  rewrite Hr in Hr'; injection Hr' as <-.
  exists r; split; [exact Hr|]. rewrite exec_single, V1, V2, V3, V4. destruct r; reflexivity.
Qed.

(* Constant loop bounds: same trace as before, for kernels written for the grid's own offset
   (or over go_every / a user-defined space). *)
Theorem const_bounds_same_region_ : forall lib, lib_contract lib -> forall cfg tb first en k o o',
  table_is cfg tb -> attr_ok cfg en (attr_of k) -> const_safe en (attr_of k) ->
  gen_outer tb first k = Some o -> const_outer tb first o = Some o' ->
  exec_outer lib en o' = exec_outer lib en o.
Proof.
  intros lib HC cfg tb first en k o o' HT Hok Hsafe Hgen Hc.
  apply (const_outer_ok lib cfg tb HT first en (const_safe en) (fun a H => H) o o'); [|exact Hc].
  apply (gen_outer_ok lib HC cfg tb HT first en (const_safe en) k); assumption.
Qed.

Definition wit_env (g : string) (sx sy : Z) (t : string) : env := mkEnv g sx sy (fun _ => t).

(* non-vacuity of the positive theorems: a NE-offset cu kernel over go_internal_pts on a 4 x 5 grid *)
Example generated_region_nonvacuous :
  let k := mkK 1 "go_offset_ne" "go_cu" "go_internal_pts" 0 in
  let en := wit_env "go_offset_ne" 4 5 "go_cu" in
  attr_ok [] en (attr_of k) /\ const_safe en (attr_of k) /\
  (exists o o', gen_outer builtin_table 0 k = Some o /\ const_outer builtin_table 0 o = Some o' /\
                exec_outer ref_lib en o = nest 1 (mkR 2 5 2 3) /\ exec_outer ref_lib en o' = nest 1 (mkR 2 5 2 3)).
Proof.
  intros k en. split; [unfold attr_ok; cbn; repeat split; auto|].
  split; [left; reflexivity|].
  eexists; eexists. split; [vm_compute; reflexivity|]. split; [vm_compute; reflexivity|].
  split; vm_compute; reflexivity.
Qed.
