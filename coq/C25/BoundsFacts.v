(* C25 - bound strings are linear in {stop} once {start}=2: a sound decision procedure for
   "e1 <= e2 on every grid (stop >= 2)", and facts about table lookup / add_bounds. *)
From Coq Require Import List ZArith Bool String Lia.
Import ListNotations.
From PV Require Import C25.Model.
Local Open Scope Z_scope.
Local Open Scope list_scope.

(* a*stop + c *)
Definition lin := (Z * Z)%type.

Fixpoint linearize (e : bexpr) : option lin :=
  match e with
  | BStart => Some (0, 2)
  | BStop => Some (1, 0)
  | BLit z => Some (0, z)
  | BAdd a b => match linearize a, linearize b with
                | Some (a1, c1), Some (a2, c2) => Some (a1 + a2, c1 + c2) | _, _ => None end
  | BSub a b => match linearize a, linearize b with
                | Some (a1, c1), Some (a2, c2) => Some (a1 - a2, c1 - c2) | _, _ => None end
  | BNeg a => match linearize a with Some (a1, c1) => Some (- a1, - c1) | None => None end
  | BMul a b => match linearize a, linearize b with
                | Some (a1, c1), Some (a2, c2) =>
                    if Z.eqb a1 0 then Some (c1 * a2, c1 * c2)
                    else if Z.eqb a2 0 then Some (a1 * c2, c1 * c2) else None
                | _, _ => None end
  | BDiv _ _ => None                       (* quotients are outside the linear fragment *)
  end.

Lemma linearize_sound : forall e a c, linearize e = Some (a, c) -> forall S, eval_b 2 S e = a * S + c.
Proof.
  induction e as [| |z|e1 IH1 e2 IH2|e1 IH1 e2 IH2|e1 IH1 e2 IH2|e1 IH1|e1 IH1 e2 IH2]; intros a c H S;
    cbn [linearize eval_b] in *.
  1-3: injection H as <- <-; lia.
  5: discriminate.
  all: destruct (linearize e1) as [[a1 c1]|]; [|discriminate]; rewrite (IH1 _ _ eq_refl S).
  1-3: destruct (linearize e2) as [[a2 c2]|]; [|discriminate]; rewrite (IH2 _ _ eq_refl S).
  1, 2, 4: injection H as <- <-; lia.
  (* a product is linear when one factor is constant *)
  destruct (Z.eqb_spec a1 0) as [->|_]; [injection H as <- <-; lia|].
  destruct (Z.eqb_spec a2 0) as [->|_]; [injection H as <- <-; lia|discriminate].
Qed.

Definition lin_nonneg (l : lin) : bool := (0 <=? fst l) && (0 <=? 2 * fst l + snd l).

Lemma lin_nonneg_sound : forall a c, lin_nonneg (a, c) = true -> forall S, 2 <= S -> 0 <= a * S + c.
Proof.
  intros a c H S HS. unfold lin_nonneg in H; cbn [fst snd] in H. apply andb_true_iff in H.
  destruct H as [H1 H2]. apply Z.leb_le in H1. apply Z.leb_le in H2. nia.
Qed.

(* e1 <= e2 whenever {start}=2 and {stop} >= 2 *)
Definition le_all (e1 e2 : bexpr) : bool :=
  match linearize e1, linearize e2 with
  | Some (a1, c1), Some (a2, c2) => lin_nonneg (a2 - a1, c2 - c1)
  | _, _ => false
  end.

Lemma le_all_sound : forall e1 e2, le_all e1 e2 = true ->
  forall S, 2 <= S -> eval_b 2 S e1 <= eval_b 2 S e2.
Proof.
  intros e1 e2 H S HS. unfold le_all in H.
  destruct (linearize e1) as [[a1 c1]|] eqn:E1; [|discriminate].
  destruct (linearize e2) as [[a2 c2]|] eqn:E2; [|discriminate].
  rewrite (linearize_sound e1 a1 c1 E1 S), (linearize_sound e2 a2 c2 E2 S).
  pose proof (lin_nonneg_sound _ _ H S HS). lia.
Qed.

(* e = a*stop + c exactly *)
Definition lin_is (e : bexpr) (a c : Z) : bool :=
  match linearize e with Some (a', c') => Z.eqb a' a && Z.eqb c' c | None => false end.
Lemma lin_is_sound : forall e a c, lin_is e a c = true -> forall S, eval_b 2 S e = a * S + c.
Proof.
  intros e a c H S. unfold lin_is in H. destruct (linearize e) as [[a' c']|] eqn:E; [|discriminate].
  apply andb_true_iff in H. destruct H as [H1 H2]. apply Z.eqb_eq in H1. apply Z.eqb_eq in H2. subst.
  apply linearize_sound; assumption.
Qed.

Lemma bexpr_eqb_eq : forall a b, bexpr_eqb a b = true -> a = b.
Proof.
  induction a as [| |z|a1 IH1 a2 IH2|a1 IH1 a2 IH2|a1 IH1 a2 IH2|a1 IH1|a1 IH1 a2 IH2]; intros b H; destruct b; cbn in H;
    try discriminate; try (apply andb_true_iff in H; destruct H); f_equal; auto.
  apply Z.eqb_eq; assumption.
Qed.

Lemma bounds4_eqb_eq : forall a b, bounds4_eqb a b = true -> a = b.
Proof.
  intros [a1 a2 a3 a4] [b1 b2 b3 b4] H. unfold bounds4_eqb in H; cbn in H.
  repeat (apply andb_true_iff in H; destruct H as [H ?]).
  f_equal; apply bexpr_eqb_eq; assumption.
Qed.

Lemma key_eqb_eq : forall a b, key_eqb a b = true <-> a = b.
Proof.
  intros [[a1 a2] a3] [[b1 b2] b3]; unfold key_eqb. rewrite !andb_true_iff, !String.eqb_eq.
  split; [intros [[-> ->] ->]; reflexivity|intros H; inversion H; auto].
Qed.

Lemma key_eqb_refl : forall a, key_eqb a a = true.
Proof. intros a; apply key_eqb_eq; reflexivity. Qed.

Lemma key_eqb_neq : forall a b, key_eqb a b = false <-> a <> b.
Proof.
  intros a b; split.
  - intros H E; apply key_eqb_eq in E; congruence.
  - intros H; destruct (key_eqb a b) eqn:E; [apply key_eqb_eq in E; contradiction|reflexivity].
Qed.

Lemma lookup_some_in : forall tb k b, lookup tb k = Some b -> In (k, b) tb.
Proof.
  induction tb as [|[k' b'] r IH]; intros k b H; cbn in H; [discriminate|].
  destruct (key_eqb k' k) eqn:E.
  - apply key_eqb_eq in E; inversion H; subst; left; reflexivity.
  - right; apply IH; assumption.
Qed.

(* pointwise comparison of two tables through lookup *)
Definition table_incl (a b : table) : bool :=
  forallb (fun e => match lookup b (fst e) with Some v => bounds4_eqb (snd e) v | None => false end) a.

Lemma table_incl_sound : forall a b, table_incl a b = true ->
  forall k v, lookup a k = Some v -> lookup b k = Some v.
Proof.
  intros a b H k v Hl. apply lookup_some_in in Hl.
  unfold table_incl in H. rewrite forallb_forall in H. specialize (H _ Hl). cbn [fst snd] in H.
  destruct (lookup b k) as [v'|]; [|discriminate]. apply bounds4_eqb_eq in H; subst; reflexivity.
Qed.

Definition table_equiv (a b : table) : bool := table_incl a b && table_incl b a.

Lemma table_equiv_sound : forall a b, table_equiv a b = true -> forall k, lookup a k = lookup b k.
Proof.
  intros a b H k. apply andb_true_iff in H. destruct H as [Hab Hba]. destruct (lookup a k) as [v|] eqn:Ea.
  - symmetry; apply (table_incl_sound a b Hab); assumption.
  - destruct (lookup b k) as [v|] eqn:Eb; [|reflexivity].
    rewrite (table_incl_sound b a Hba k v Eb) in Ea; discriminate.
Qed.

Lemma lookup_add_same : forall tb k b, lookup (add_bounds tb k b) k = Some b.
Proof.
  induction tb as [|[k' b'] r IH]; intros k b; cbn.
  - rewrite key_eqb_refl; reflexivity.
  - destruct (key_eqb k' k) eqn:E; cbn; [rewrite key_eqb_refl; reflexivity|rewrite E; apply IH].
Qed.

Lemma lookup_add_other : forall tb k b k', k' <> k -> lookup (add_bounds tb k b) k' = lookup tb k'.
Proof.
  induction tb as [|[k0 b0] r IH]; intros k b k' H; cbn.
  - assert (E : key_eqb k k' = false) by (apply key_eqb_neq; congruence). rewrite E; reflexivity.
  - destruct (key_eqb k0 k) eqn:E; cbn.
    + apply key_eqb_eq in E; subst k0.
      assert (E' : key_eqb k k' = false) by (apply key_eqb_neq; congruence). rewrite E'; reflexivity.
    + destruct (key_eqb k0 k'); [reflexivity|apply IH; assumption].
Qed.

Lemma lookup_add_all : forall es tb k,
  lookup (add_all tb es) k = match lookup_last es k with Some b => Some b | None => lookup tb k end.
Proof.
  unfold add_all. induction es as [|[k0 b0] r IH]; intros tb k; cbn [fold_left lookup_last fst snd]; [reflexivity|].
  rewrite IH. destruct (lookup_last r k) as [b'|]; [reflexivity|].
  destruct (key_eqb k0 k) eqn:E.
  - apply key_eqb_eq in E; subst k0; apply lookup_add_same.
  - apply lookup_add_other. apply key_eqb_neq in E; congruence.
Qed.

Lemma eval_subst_b : forall lib en e stop S, eval_g lib en stop = S ->
  eval_g lib en (subst_b e stop) = eval_b 2 S e.
Proof.
  intros lib en e stop S HS; induction e as [| |z|a IHa b IHb|a IHa b IHb|a IHa b IHb|a IHa|a IHa b IHb];
    cbn [subst_b eval_g eval_b]; try congruence; reflexivity.
Qed.
