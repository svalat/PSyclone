(* C25 - finite facts about the table dumped from the working tree (C25/Gen.v): boolean checks
   evaluated by vm_compute (one per row for the regions, one for equality with the reference, one for
   the configuration file); the arithmetic in the grid size is discharged once and for all by
   le_all_sound (lia/nia). *)
From Coq Require Import List ZArith Bool String Lia.
Import ListNotations.
From PV Require Import C25.Model C25.BoundsFacts C25.Gen.
Local Open Scope Z_scope.
Local Open Scope list_scope.
Local Open Scope string_scope.

Lemma builtin_equiv_ref : table_equiv builtin_table ref_table = true.
Proof. vm_compute; reflexivity. Qed.

Theorem builtin_table_is_reference_ : forall k, lookup builtin_table k = lookup ref_table k.
Proof. exact (table_equiv_sound _ _ builtin_equiv_ref). Qed.

(* region ba contains region bi on every grid *)
Definition contains_ok (ba bi : bounds4) : bool :=
  le_all (o_lo ba) (o_lo bi) && le_all (o_hi bi) (o_hi ba) &&
  le_all (i_lo ba) (i_lo bi) && le_all (i_hi bi) (i_hi ba).

Lemma contains_ok_sound : forall ba bi, contains_ok ba bi = true -> forall sx sy, 2 <= sx -> 2 <= sy ->
  rect_subset (region_of bi sx sy) (region_of ba sx sy).
Proof.
  intros ba bi H sx sy Hx Hy. unfold contains_ok in H.
  repeat (apply andb_true_iff in H; destruct H as [H ?]).
  unfold rect_subset; cbn [region_of jlo jhi ilo ihi].
  pose proof (le_all_sound _ _ H sy Hy). pose proof (le_all_sound _ _ H2 sy Hy).
  pose proof (le_all_sound _ _ H1 sx Hx). pose proof (le_all_sound _ _ H0 sx Hx). lia.
Qed.

(* the whole array, depth-1 halo included, and the points that are internal for every point type *)
Definition halo_b : bounds4 := mkB (BLit 1) (BAdd BStop (BLit 1)) (BLit 1) (BAdd BStop (BLit 1)).
Definition core_b : bounds4 := mkB (BLit 2) (BSub BStop (BLit 1)) (BLit 2) (BSub BStop (BLit 1)).

(* exactly the whole array, on grids of any size *)
Definition every_ok (b : bounds4) : bool :=
  lin_is (o_lo b) 0 1 && lin_is (o_hi b) 1 1 && lin_is (i_lo b) 0 1 && lin_is (i_hi b) 1 1.

Lemma every_ok_sound : forall b, every_ok b = true ->
  forall sx sy, region_of b sx sy = mkR 1 (sy + 1) 1 (sx + 1).
Proof.
  intros b H sx sy. unfold every_ok in H. repeat (apply andb_true_iff in H; destruct H as [H ?]).
  unfold region_of.
  rewrite (lin_is_sound _ _ _ H sy), (lin_is_sound _ _ _ H2 sy), (lin_is_sound _ _ _ H1 sx), (lin_is_sound _ _ _ H0 sx).
  f_equal; lia.
Qed.

(* A row stays within the halo and contains the core; a go_every row is the whole array; a go_all_pts
   row contains the go_internal_pts row of the same offset and point type. *)
Definition row_ok (tb : table) (e : key * bounds4) : bool :=
  let '(o, t, s, b) := e in
  contains_ok halo_b b && contains_ok b core_b &&
  (if String.eqb t "go_every" then every_ok b else true) &&
  (if String.eqb s "go_all_pts"
   then match lookup tb (o, t, "go_internal_pts") with Some bi => contains_ok b bi | None => true end
   else true).

Lemma row_ok_sound : forall tb o t s b, row_ok tb (o, t, s, b) = true ->
  contains_ok halo_b b = true /\ contains_ok b core_b = true /\
  (t = "go_every" -> every_ok b = true) /\
  (s = "go_all_pts" -> forall bi, lookup tb (o, t, "go_internal_pts") = Some bi -> contains_ok b bi = true).
Proof.
  intros tb o t s b A. cbn [row_ok] in A.
  apply andb_true_iff in A; destruct A as [A A4]. apply andb_true_iff in A; destruct A as [A A3].
  apply andb_true_iff in A; destruct A as [A1 A2].
  split; [exact A1|]. split; [exact A2|]. split.
  - intros ->. exact A3.
  - intros -> bi Hi. rewrite Hi in A4. exact A4.
Qed.

Lemma rows_ok_lookup : forall tb, forallb (row_ok tb) tb = true ->
  forall o t s b, lookup tb (o, t, s) = Some b -> row_ok tb (o, t, s, b) = true.
Proof.
  intros tb A o t s b H. apply lookup_some_in in H. rewrite forallb_forall in A. exact (A _ H).
Qed.

Lemma builtin_rows_ok : forallb (row_ok builtin_table) builtin_table = true.
Proof. vm_compute; reflexivity. Qed.

Definition builtin_row := rows_ok_lookup builtin_table builtin_rows_ok.

Theorem builtin_contains_core_ : forall k b, lookup builtin_table k = Some b ->
  forall sx sy, 2 <= sx -> 2 <= sy -> rect_subset (mkR 2 (sy - 1) 2 (sx - 1)) (region_of b sx sy).
Proof.
  intros [[o t] s] b H.
  exact (contains_ok_sound _ _ (proj1 (proj2 (row_ok_sound _ _ _ _ _ (builtin_row o t s b H))))).
Qed.

Theorem every_rows_full_ : forall o s b, lookup builtin_table (o, "go_every", s) = Some b ->
  forall sx sy, region_of b sx sy = mkR 1 (sy + 1) 1 (sx + 1).
Proof.
  intros o s b H. destruct (row_ok_sound _ _ _ _ _ (builtin_row o _ s b H)) as (_ & _ & A & _).
  exact (every_ok_sound b (A eq_refl)).
Qed.

Lemma ref_complete_b :
  forallb (fun g => forallb (fun t => match lookup ref_table (g, t, "go_internal_pts"), lookup ref_table (g, t, "go_all_pts")
                                      with Some _, Some _ => true | _, _ => false end) point_types) real_offsets = true.
Proof. vm_compute; reflexivity. Qed.

Lemma mem_in : forall s l, mem s l = true -> In s l.
Proof.
  intros s l H. unfold mem in H. apply existsb_exists in H. destruct H as [x [Hx E]].
  apply String.eqb_eq in E; subst; assumption.
Qed.

Theorem ref_complete_ : forall g t r, mem g real_offsets = true -> mem t point_types = true ->
  exists b, lookup ref_table (g, t, space_of_regk r) = Some b.
Proof.
  intros g t r Hg Ht. apply mem_in in Hg. apply mem_in in Ht.
  pose proof ref_complete_b as A. rewrite forallb_forall in A. specialize (A _ Hg).
  rewrite forallb_forall in A. specialize (A _ Ht).
  destruct (lookup ref_table (g, t, "go_internal_pts")) as [b1|] eqn:E1; [|discriminate].
  destruct (lookup ref_table (g, t, "go_all_pts")) as [b2|] eqn:E2; [|discriminate].
  destruct r; cbn [space_of_regk]; [exists b1|exists b2]; assumption.
Qed.

(* GOceanConfig + GOLoop.add_bounds: the table after loading a config file is the model's *)
Lemma after_equiv_model : table_equiv table_after_config (add_all builtin_table user_cfg_entries) = true.
Proof. vm_compute; reflexivity. Qed.

