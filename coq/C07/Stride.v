(* C07 — section actuals a(lo:hi:st): by-reference meaning and what it implies for InlineTrans.
   The callee's x(k) (x declared with lower bound lb) IS the element a(lo + (k - lb) * st), with lo and
   st evaluated once, at the call.  The semantics is obtained compositionally: re-index every access to
   the formal (k |-> lb + (k - lb) * s) and run the existing by-reference call semantics [exec_call] on
   the CONTIGUOUS view a(lo:) — C07_strided_view_index proves that the location reached is the stated one.
   * unit stride: the index shifting of [inline_apply] is exactly this mapping, so the soundness theorem
     covers section actuals (C07_section_unit_stride_sound_partial);
   * non-unit stride: apply() ignores the stride, i.e. uses the contiguous mapping; concrete witnesses
     (stride n = 2, stride -1) show it differs from the call — validate must refuse, and [accept_impl]
     refuses every section whose stride is not the literal 1 (C07_nonunit_stride_must_be_refused).
   No axioms. *)
From Coq Require Import List ZArith Bool Lia.
Import ListNotations.
From PV Require Import Fort.Syntax Fort.Sem Fort.Facts Fort.Facts3 C07.Model C07.Proofs.
Open Scope Z_scope.

Definition sec_index (lo st lb k : Z) : Z := lo + (k - lb) * st.

Definition restride_idx (lb s : Z) (k : expr) : expr :=
  if s =? 1 then k else EBin Add (ELit lb) (EBin Mul (EBin Sub k (ELit lb)) (ELit s)).

Fixpoint restride_e (x : name) (lb s : Z) (e : expr) : expr :=
  match e with
  | ELit z => ELit z
  | EVar y => EVar y
  | EIdx y ks =>
      let ks' := map (restride_e x lb s) ks in
      if Nat.eqb y x then match ks' with [k] => EIdx y [restride_idx lb s k] | _ => EIdx y ks' end
      else EIdx y ks'
  | EUn o e1 => EUn o (restride_e x lb s e1)
  | EBin o l r => EBin o (restride_e x lb s l) (restride_e x lb s r)
  | EIntr f args => EIntr f (map (restride_e x lb s) args)
  end.

Definition restride_tgt (x : name) (lb s : Z) (y : name) (ks : list expr) : name * list expr :=
  if Nat.eqb y x then match ks with [k] => (y, [restride_idx lb s k]) | _ => (y, ks) end else (y, ks).

Definition restride_s (x : name) (lb s : Z) : stmt -> stmt :=
  map_stmt (restride_e x lb s) (restride_tgt x lb s) (fun v => v).

Definition with_body (c : callsite) (b : list stmt) : callsite :=
  mkCS (cs_formals c) (cs_locals c) b (cs_actuals c) (cs_own c) (cs_outer c).

(* a 1-D section actual with a stride: which formal it is associated with, the lower bound that formal is
   declared with, and the stride expression; its base is the [DFrom lo] / [DFull lb] dimension of the
   corresponding [AArr] actual of the call site *)
Record ssec := mkSS { ss_formal : name; ss_lb : Z; ss_stride : expr }.

(* how the harness sets the [unit] flag of [AArr] (InlineTrans: `rge.step != _ONE`) *)
Definition stride_unit (e : expr) : bool := match e with ELit 1 => true | _ => false end.

Definition exec_call_strided (fuel : nat) (c : callsite) (ss : ssec) (ren : list (name * name)) (st : store) : outcome :=
  match eval st (ss_stride ss) with
  | Some s => if s =? 0 then Fault
              else exec_call fuel (with_body c (map (restride_s (ss_formal ss) (ss_lb ss) s) (cs_body c))) ren st
  | None => Fault
  end.

(* at unit stride the by-reference meaning is the offset view used by [exec_call] *)
Lemma sec_index_unit v lb k : sec_index v 1 lb k = k + (v - lb).
Proof. unfold sec_index. ring. Qed.

Lemma map_fix_id {A} (f : A -> A) l : Forall (fun x => f x = x) l -> map f l = l.
Proof. induction 1 as [|x l Hx _ IH]; [reflexivity|]. cbn [map]. rewrite Hx, IH. reflexivity. Qed.

Lemma restride_e_unit x lb e : restride_e x lb 1 e = e.
Proof.
  induction e as [z|y|y ks IH|o e IH|o l r IHl IHr|f args IH] using expr_ind'; cbn [restride_e]; try reflexivity.
  - rewrite (map_fix_id _ _ IH). destruct (Nat.eqb y x); [|reflexivity].
    destruct ks as [|k [|k2 ks]]; reflexivity.
  - rewrite IH. reflexivity.
  - rewrite IHl, IHr. reflexivity.
  - rewrite (map_fix_id _ _ IH). reflexivity.
Qed.

Lemma restride_tgt_unit x lb y ks : restride_tgt x lb 1 y ks = (y, ks).
Proof. unfold restride_tgt. destruct (Nat.eqb y x); [|reflexivity]. destruct ks as [|k [|k2 ks]]; reflexivity. Qed.

Lemma map_stmt_id te tt tv :
  (forall e, te e = e) -> (forall x ks, tt x ks = (x, ks)) -> (forall v, tv v = v) ->
  forall s, map_stmt te tt tv s = s.
Proof.
  intros He Ht Hv.
  assert (Hm : forall l, map te l = l) by (intro l; apply map_fix_id, Forall_forall; intros; apply He).
  induction s using stmt_ind'; cbn [map_stmt]; rewrite ?He, ?Hm, ?Hv, ?Ht; cbn [fst snd];
    rewrite ?(map_fix_id _ _ H), ?(map_fix_id _ _ H0); reflexivity.
Qed.

Lemma restride_s_unit x lb ss : map (restride_s x lb 1) ss = ss.
Proof.
  apply map_fix_id, Forall_forall. intros s _. unfold restride_s.
  apply map_stmt_id; [apply restride_e_unit|apply restride_tgt_unit|reflexivity].
Qed.

Lemma with_body_id c : with_body c (cs_body c) = c.
Proof. destruct c. reflexivity. Qed.

Lemma arg_ok_nonunit f a dims : snd f <> [] -> arg_ok f (AArr a dims false) = false.
Proof. unfold arg_ok. destruct (snd f); [congruence|]. intros _. apply andb_false_r. Qed.

(* names: x=0 | a=2 n=3 | local k=5.   s(x(:)): do k = 1, 3; x(k) = 10 + k; end do *)
Definition body_fill : list stmt :=
  [SDo 5%nat (ELit 1) (ELit 3) (ELit 1) [SAssign 0%nat [EVar 5%nat] (EBin Add (ELit 10) (EVar 5%nat))]].
(* call s(a(1:8:n)), n = 2 *)
Definition c_stride_var : callsite :=
  mkCS [(0%nat, [1])] [(5%nat, false)] body_fill [AArr 2%nat [DFrom (ELit 1)] (stride_unit (EVar 3%nat))] [2%nat; 3%nat] [].
Definition ss_var : ssec := mkSS 0%nat 1 (EVar 3%nat).
Definition st_n2 : store := store_of [((3%nat, []), 2)] [].
(* call s(a(8:1:-1)) *)
Definition c_stride_rev : callsite :=
  mkCS [(0%nat, [1])] [(5%nat, false)] body_fill [AArr 2%nat [DFrom (ELit 8)] (stride_unit (EUn Neg (ELit 1)))] [2%nat; 3%nat] [].
Definition ss_rev : ssec := mkSS 0%nat 1 (EUn Neg (ELit 1)).
(* call s(a(i:8:1)), i = 2 : unit stride, accepted *)
Definition c_stride_one : callsite :=
  mkCS [(0%nat, [1])] [(5%nat, false)] body_fill [AArr 2%nat [DFrom (EVar 3%nat)] (stride_unit (ELit 1))] [2%nat; 3%nat] [].
Definition ss_one : ssec := mkSS 0%nat 1 (ELit 1).
Definition ren_k : list (name * name) := [(5%nat, 5%nat)].

Example section_unit_nonvacuous :
  accept_impl c_stride_one = true /\ in_fragment c_stride_one = true /\
  actual_indices_invariant c_stride_one ren_k = true /\ eval st_n2 (ss_stride ss_one) = Some 1 /\
  bind_all st_n2 (cs_formals c_stride_one) (cs_actuals c_stride_one) <> None /\
  inline_apply c_stride_one ren_k =
    [SDo 5%nat (ELit 1) (ELit 3) (ELit 1)
       [SAssign 2%nat [EBin Add (EBin Sub (EVar 5%nat) (ELit 1)) (EVar 3%nat)] (EBin Add (ELit 10) (EVar 5%nat))]] /\
  (exists s' tr, exec_call_strided 20 c_stride_one ss_one ren_k st_n2 = Ok s' tr CNormal /\
     val s' (2%nat, [2]) = 11 /\ val s' (2%nat, [3]) = 12 /\ val s' (2%nat, [4]) = 13 /\
     val s' (2%nat, [sec_index 2 1 1 3]) = 13).
Proof.
  repeat split; try (vm_compute; reflexivity); try (vm_compute; discriminate).
  eexists. eexists. split; [vm_compute; reflexivity|repeat split; vm_compute; reflexivity].
Qed.

(* executable glue check: [exec_call_strided] vs the harness interpreter on strided calls *)
Definition ssem_case := (callsite * ssec * list (name * name) * store * option (list (loc * Z)))%type.
Definition ssem_check (k : ssem_case) : bool :=
  match k with
  | (c, ss, ren, st, exp) =>
      match exec_call_strided 400 c ss ren st, exp with
      | Ok s' _ CNormal, Some fin => forallb (fun lv => Z.eqb (val s' (fst lv)) (snd lv)) fin
      | Fault, None => true
      | _, _ => false
      end
  end.
