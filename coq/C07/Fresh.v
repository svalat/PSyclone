(* C07 — inlined locals never capture or clobber caller variables (under the merge contract and as
   long as no local bears the name of an enclosing-scope variable): every name occurring in the
   inlined statements comes from an actual argument or is a fresh name given by the merge; so a
   variable visible to the caller that is not mentioned in the actual arguments is neither read nor
   written by the inlined code.  No axioms. *)
From Coq Require Import List ZArith Bool Lia.
Import ListNotations.
From PV Require Import Fort.Syntax Fort.Sem Fort.Facts Fort.Facts3 C07.Model C07.Proofs.
Open Scope Z_scope.

Definition actual_names (a : actual) : list name :=
  match a with
  | AVar y => [y]
  | AElem a ix => a :: flat_map enames ix
  | AExpr e => enames e
  | AArr a dims _ => a :: flat_map adim_names dims
  end.

Definition repl_names (r : repl) : list name :=
  match r with
  | RVar y => [y]
  | RElem a ix => a :: flat_map enames ix
  | RExpr e => enames e
  | RArr a dims _ => a :: flat_map adim_names dims
  | RSem a _ => [a]
  end.

(* Fortran: a formal associated with an expression is not definable *)
Definition expr_formals_readonly (c : callsite) : bool :=
  forallb (fun x => match lookup x (env_impl (cs_formals c) (cs_actuals c)) with Some (RExpr _) => false | _ => true end)
          (wnames (cs_body c)).

(* a whole extent contributes no name; otherwise [merge_dims] treats it like a section *)
Lemma merge_dims_full lba ds lbs ks : merge_dims (DFull lba :: ds) lbs ks = merge_dims (DFrom (ELit lba) :: ds) lbs ks.
Proof. reflexivity. Qed.

Lemma incl_flat_map_map {A B C} (P : A -> Prop) (f : B -> list C) (g : A -> B) l T :
  Forall (fun x => P x -> incl (f (g x)) T) l -> Forall P l -> incl (flat_map f (map g l)) T.
Proof.
  induction 1 as [|x l Hx _ IH]; intro H; [intros y []|]. inversion H; subst.
  cbn [map flat_map]. apply incl_app; auto.
Qed.

Lemma enames_shift k lbx start : incl (enames (shift k lbx start)) (enames k ++ enames start).
Proof.
  unfold shift. destruct (is_lit lbx start); cbn [enames].
  - apply incl_appl, incl_refl.
  - rewrite app_nil_r. apply incl_refl.
Qed.

Lemma merge_dims_names T dims : forall lbs ks,
  incl (flat_map adim_names dims) T -> incl (flat_map enames ks) T ->
  incl (flat_map enames (merge_dims dims lbs ks)) T.
Proof.
  induction dims as [|d ds IH]; intros lbs ks Hd Hk; [intros y []|].
  cbn [flat_map] in Hd. apply incl_app_inv in Hd as [Hd Hds].
  assert (Hfrom : forall lo, incl (enames lo) T -> incl (flat_map enames (merge_dims (DFrom lo :: ds) lbs ks)) T).
  { intros lo Hlo. cbn [merge_dims]. destruct lbs as [|lbx lbs]; [intros y []|].
    destruct ks as [|k ks]; [apply IH; assumption|].
    cbn [flat_map] in *. apply incl_app_inv in Hk as [Hk Hks]. apply incl_app; [|apply IH; assumption].
    eapply incl_tran; [apply enames_shift|apply incl_app; assumption]. }
  destruct d as [lba|lo|e].
  - rewrite merge_dims_full. apply Hfrom. intros y [].
  - apply Hfrom, Hd.
  - cbn [merge_dims flat_map]. apply incl_app; [exact Hd|apply IH; assumption].
Qed.

Section Names.
  Variable env : list (name * repl).
  Variable ren : list (name * name).
  Variable T : list name.                       (* the allowed names *)
  Hypothesis Henv : forall x r, lookup x env = Some r -> incl (repl_names r) T.
  Hypothesis Henv_impl : forall x a d, lookup x env <> Some (RSem a d).
  Hypothesis Hren : forall x, In x (map fst ren) -> In (rename ren x) T.

  Definition known (x : name) : Prop := lookup x env <> None \/ In x (map fst ren).

  Lemma rename_known x : known x -> lookup x env = None -> In (rename ren x) T.
  Proof. intros [H|H] E; [congruence|apply Hren, H]. Qed.

  Lemma subst_e_names e : Forall known (enames e) -> incl (enames (subst_e env ren e)) T.
  Proof.
    induction e as [z|x|x ks IH|o e IH|o l r IHl IHr|f args IH] using expr_ind'; cbn [enames subst_e]; intro Hk.
    - intros y [].
    - apply Forall_inv in Hk. destruct (lookup x env) as [r|] eqn:E.
      + pose proof (Henv x r E) as Hr. destruct r; cbn [enames repl_names] in *; try exact Hr.
        intros y [<-|[]]. apply Hr. left. reflexivity.
      + intros y [<-|[]]. apply rename_known; assumption.
    - inversion Hk as [|? ? Hx Hks]; subst. apply Forall_flat_map in Hks.
      pose proof (incl_flat_map_map _ _ _ ks T IH Hks) as Hks'.
      destruct (lookup x env) as [r|] eqn:E.
      + pose proof (Henv x r E) as Hr. destruct r as [y|a ix|e0|a dims lbs|a sd]; cbn [enames repl_names] in *.
        * apply incl_cons; [apply Hr; left; reflexivity|exact Hks'].
        * apply incl_cons; [apply Hr; left; reflexivity|exact Hks'].
        * exact Hr.
        * apply incl_cons_inv in Hr as [Ha Hd]. apply incl_cons; [exact Ha|apply merge_dims_names; assumption].
        * exfalso. eapply Henv_impl, E.
      + apply incl_cons; [apply rename_known; assumption|exact Hks'].
    - apply IH, Hk.
    - apply Forall_app in Hk as [Hl Hr]. apply incl_app; [apply IHl, Hl|apply IHr, Hr].
    - apply Forall_flat_map in Hk. exact (incl_flat_map_map _ _ _ args T IH Hk).
  Qed.

  Lemma subst_es_names es :
    Forall known (flat_map enames es) -> incl (flat_map enames (map (subst_e env ren) es)) T.
  Proof.
    intro Hk. apply Forall_flat_map in Hk. revert Hk. apply incl_flat_map_map.
    apply Forall_forall. intros e _. apply subst_e_names.
  Qed.

  (* a name that may be assigned: known, and not a formal associated with an expression *)
  Definition assignable (x : name) : Prop := known x /\ forall e, lookup x env <> Some (RExpr e).

  Lemma subst_tgt_names x ks :
    assignable x -> incl (flat_map enames ks) T ->
    In (fst (subst_tgt env ren x ks)) T /\ incl (flat_map enames (snd (subst_tgt env ren x ks))) T.
  Proof.
    intros [Hk Hne] Hks. unfold subst_tgt. destruct (lookup x env) as [r|] eqn:E.
    - pose proof (Henv x r E) as Hr. destruct r as [y|a ix|e0|a dims lbs|a sd]; cbn [fst snd repl_names] in *.
      + split; [apply Hr; left; reflexivity|exact Hks].
      + apply incl_cons_inv in Hr. exact Hr.
      + exfalso. eapply Hne. reflexivity.
      + apply incl_cons_inv in Hr as [Ha Hd]. split; [exact Ha|apply merge_dims_names; assumption].
      + exfalso. eapply Henv_impl, E.
    - cbn [fst snd]. split; [|exact Hks]. apply rename_known; assumption.
  Qed.

  Variable formals : list name.
  Hypothesis Hkeys : forall x, mem x formals = false -> lookup x env = None.

  Definition stmt_ok (s : stmt) : Prop :=
    okS formals s = true /\ Forall known (rnames_stmt s) /\ Forall assignable (wnames_stmt s).

  Lemma stmts_ok ss :
    forallb (okS formals) ss = true -> Forall known (rnames ss) -> Forall assignable (wnames ss) -> Forall stmt_ok ss.
  Proof.
    induction ss as [|s ss IH]; [constructor|]. cbn [forallb]. rewrite rnames_cons, wnames_cons.
    intros Hok Hr Hw. apply andb_true_iff in Hok as [? ?]. apply Forall_app in Hr as [? ?]. apply Forall_app in Hw as [? ?].
    constructor; [repeat split; assumption|apply IH; assumption].
  Qed.

  Local Notation tr := (subst_s false env ren).

  Lemma block_names ss :
    Forall (fun s => stmt_ok s -> incl (wnames_stmt (tr s)) T /\ incl (rnames_stmt (tr s)) T) ss ->
    Forall stmt_ok ss -> incl (wnames (map tr ss)) T /\ incl (rnames (map tr ss)) T.
  Proof.
    induction 1 as [|s ss Hs _ IH]; intro H; [split; intros y []|]. inversion H; subst.
    cbn [map]. rewrite wnames_cons, rnames_cons. destruct Hs, IH; auto. split; apply incl_app; assumption.
  Qed.

  Lemma subst_s_names s : stmt_ok s -> incl (wnames_stmt (tr s)) T /\ incl (rnames_stmt (tr s)) T.
  Proof.
    induction s as [x ks e|c th el IHth IHel|x lo hi stp body IHb| | | |es|r body IHb|d body IHb] using stmt_ind';
      intros (Hok & Hr & Hw); cbn [okS rnames_stmt wnames_stmt] in Hok, Hr, Hw;
      unfold subst_s in *; cbn [map_stmt wnames_stmt rnames_stmt].
    - apply Forall_app in Hr as [He Hks]. apply subst_es_names in Hks.
      destruct (subst_tgt_names x _ (Forall_inv Hw) Hks) as [H1 H2].
      split; [intros y [<-|[]]; exact H1|]. apply incl_app; [apply subst_e_names, He|exact H2].
    - apply andb_true_iff in Hok as [Hok Hel]. apply andb_true_iff in Hok as [_ Hth].
      apply Forall_app in Hr as [Hc Hr]. apply Forall_app in Hr as [Hr1 Hr2]. apply Forall_app in Hw as [Hw1 Hw2].
      destruct (block_names th IHth (stmts_ok th Hth Hr1 Hw1)) as [W1 R1].
      destruct (block_names el IHel (stmts_ok el Hel Hr2 Hw2)) as [W2 R2].
      split; [apply incl_app; assumption|]. apply incl_app; [apply subst_e_names, Hc|apply incl_app; assumption].
    - (* do: the variable is a local, and takes its new name *)
      repeat (apply andb_true_iff in Hok as [Hok ?]). apply negb_true_iff in Hok.
      apply Forall_app in Hr as [Hlo Hr]. apply Forall_app in Hr as [Hhi Hr]. apply Forall_app in Hr as [Hst Hr].
      inversion Hw as [|? ? [Hx _] Hwb]; subst.
      destruct (block_names body IHb (stmts_ok body H Hr Hwb)) as [W1 R1].
      split.
      + apply incl_cons; [|exact W1]. unfold subst_dovar. rewrite (Hkeys x Hok). apply rename_known; auto.
      + repeat apply incl_app; try apply subst_e_names; assumption.
    - split; intros y [].
    - split; intros y [].
    - split; intros y [].
    - split; [intros y []|]. apply subst_es_names, Hr.
    - apply block_names; [exact IHb|apply stmts_ok; assumption].
    - apply block_names; [exact IHb|apply stmts_ok; assumption].
  Qed.

  Lemma subst_ss_names ss :
    forallb (okS formals) ss = true -> Forall known (rnames ss) -> Forall assignable (wnames ss) ->
    incl (wnames (map tr ss)) T /\ incl (rnames (map tr ss)) T.
  Proof.
    intros Hok Hr Hw. apply block_names; [|apply stmts_ok; assumption].
    apply Forall_forall. intros s _. apply subst_s_names.
  Qed.
End Names.

Lemma env_impl_names fs acts x r :
  lookup x (env_impl fs acts) = Some r -> incl (repl_names r) (flat_map actual_names acts).
Proof.
  intro H. apply env_impl_lookup in H as (f & a & _ & Ha & _ & ->).
  intros y Hy. apply in_flat_map. exists a. split; [exact Ha|]. destruct a; exact Hy.
Qed.

Lemma env_impl_not_sem fs acts x a d : lookup x (env_impl fs acts) <> Some (RSem a d).
Proof. intro H. apply env_impl_lookup in H as (f & a0 & _ & _ & _ & H). destruct a0; discriminate. Qed.

Lemma env_impl_some fs acts x :
  length fs = length acts -> In x (map fst fs) -> lookup x (env_impl fs acts) <> None.
Proof.
  revert acts. induction fs as [|f fs IH]; intros acts Hl Hin; [destruct Hin|].
  destruct acts as [|a acts]; [discriminate|]. cbn [env_impl lookup fst]. cbn [map] in Hin.
  destruct (Nat.eqb x (fst f)) eqn:E; [discriminate|]. apply IH; [cbn in Hl; lia|].
  destruct Hin as [H|H]; [subst; rewrite Nat.eqb_refl in E; discriminate|exact H].
Qed.

Lemma args_ok_length fs acts : args_ok fs acts = true -> length fs = length acts.
Proof.
  revert acts. induction fs as [|f fs IH]; intros [|a acts] H; cbn in *; try discriminate; auto.
  apply andb_true_iff in H as [_ H]. f_equal. apply IH, H.
Qed.

Lemma ren_ok_aux_spec base outer : forall locals own avoid ren,
  ren_ok_aux outer own avoid locals ren = true ->
  incl base avoid -> (forall l, In l locals -> ~ In l own -> ~ In l base) ->
  map fst ren = locals /\ forall n, In n (map snd ren) -> ~ In n base.
Proof.
  induction locals as [|l ls IH]; intros own avoid ren H Hb Hl.
  - destruct ren; [|discriminate]. split; [reflexivity|intros n []].
  - destruct ren as [|[l' n] rs]; [discriminate|]. cbn [ren_ok_aux] in H.
    apply andb_true_iff in H as [H H3]. apply andb_true_iff in H as [H1 H2]. apply Nat.eqb_eq in H1. subst l'.
    destruct (IH (n :: own) (n :: avoid) rs H3) as [I1 I2].
    + intros y Hy. right. apply Hb, Hy.
    + intros l0 Hl0 Hn. apply Hl; [right; exact Hl0|]. intro Ho. apply Hn. right. exact Ho.
    + split; [cbn [map fst]; f_equal; exact I1|]. cbn [map snd]. intros m [<-|Hm]; [|apply I2, Hm].
      destruct (mem l own) eqn:E.
      * apply negb_true_iff in H2. intro Hm. apply Hb in Hm. apply mem_in in Hm. congruence.
      * apply orb_true_iff in H2 as [H2|H2].
        -- apply Nat.eqb_eq in H2. subst n. apply Hl; [left; reflexivity|]. intro Ho. apply mem_in in Ho. congruence.
        -- apply andb_true_iff in H2 as [_ H2]. apply negb_true_iff in H2. intro Hm. apply Hb in Hm.
           apply mem_in in Hm. congruence.
Qed.

Lemma rename_in ren x : In x (map fst ren) -> In (rename ren x) (map snd ren).
Proof.
  unfold rename. induction ren as [|[a b] ren IH]; intro H; [destruct H|]. cbn [lookup map snd fst] in *.
  destruct (Nat.eqb x a) eqn:E; [left; reflexivity|]. right. apply IH.
  destruct H as [H|H]; [subst; rewrite Nat.eqb_refl in E; discriminate|exact H].
Qed.

Lemma ren_ok_spec c ren :
  ren_ok c ren = true -> locals_disjoint_outer c = true ->
  map fst ren = map fst (cs_locals c) /\ forall n, In n (map snd ren) -> ~ In n (cs_own c ++ cs_outer c).
Proof.
  intros Hren Hdis. apply (ren_ok_aux_spec _ _ _ _ _ _ Hren).
  - intros z Hz. rewrite !in_app_iff in *. tauto.
  - intros l Hl Hno Hin. apply in_app_or in Hin as [Hin|Hin]; [exact (Hno Hin)|].
    unfold locals_disjoint_outer in Hdis. rewrite forallb_forall in Hdis.
    apply in_map_iff in Hl as [[l0 b] [E Hl]]. cbn in E. subst l0.
    specialize (Hdis _ Hl). cbn [fst] in Hdis. apply orb_true_iff in Hdis as [D|D].
    + apply negb_true_iff in D. apply mem_in in Hin. congruence.
    + apply mem_in in D. exact (Hno D).
Qed.

Lemma strip_return_incl body x (f : stmt -> list name) :
  In x (flat_map f (strip_return body)) -> In x (flat_map f body).
Proof.
  destruct (strip_return_prefix body) as [tl E]. intro H. rewrite E, flat_map_app. apply in_or_app. left. exact H.
Qed.

Theorem inline_locals_fresh c ren :
  accept_impl c = true -> in_fragment c = true -> ren_ok c ren = true ->
  locals_disjoint_outer c = true -> expr_formals_readonly c = true ->
  forall y, In y (cs_own c ++ cs_outer c) -> ~ In y (flat_map actual_names (cs_actuals c)) ->
  ~ In y (wnames (inline_apply c ren)) /\ ~ In y (rnames (inline_apply c ren)).
Proof.
  intros Hacc Hfrag Hren Hdis Hro y Hy Hna.
  destruct (trivial_body c) eqn:Et; [rewrite (inline_apply_trivial c ren Et); split; intros []|].
  rewrite (inline_apply_body c ren Et).
  destruct (accept_impl_body c Et Hacc) as (_ & Hcl & Hargs).
  destruct (ren_ok_spec c ren Hren Hdis) as [Rfst Rsnd].
  set (env := env_impl (cs_formals c) (cs_actuals c)).
  assert (Hknown : forall x, In x (rnames (cs_body c) ++ wnames (cs_body c)) -> known env ren x).
  { intros x Hx. unfold closed in Hcl. rewrite forallb_forall in Hcl. specialize (Hcl x Hx).
    apply mem_in, in_app_or in Hcl as [Hf|Hl]; [left|right].
    - apply env_impl_some; [apply args_ok_length, Hargs|exact Hf].
    - rewrite Rfst. exact Hl. }
  destruct (subst_ss_names env ren (flat_map actual_names (cs_actuals c) ++ map snd ren)) with
      (formals := map fst (cs_formals c)) (ss := strip_return (cs_body c)) as [HW HR].
  - intros x r E. apply incl_appl. eapply env_impl_names, E.
  - intros x a d. apply env_impl_not_sem.
  - intros x Hx. apply in_or_app. right. apply rename_in, Hx.
  - intros x Hx. apply env_impl_keys, Hx.
  - apply forallb_strip, Hfrag.
  - apply Forall_forall. intros x Hx. apply Hknown, in_or_app. left. apply (strip_return_incl _ _ rnames_stmt), Hx.
  - apply Forall_forall. intros x Hx. apply (strip_return_incl _ _ wnames_stmt) in Hx. split.
    + apply Hknown, in_or_app. right. exact Hx.
    + intros e E. unfold expr_formals_readonly in Hro. rewrite forallb_forall in Hro.
      specialize (Hro x Hx). fold env in Hro. rewrite E in Hro. discriminate.
  - assert (HyT : ~ In y (flat_map actual_names (cs_actuals c) ++ map snd ren)).
    { intro H. apply in_app_or in H as [H|H]; [exact (Hna H)|exact (Rsnd _ H Hy)]. }
    split; intro H; apply HyT; [apply HW|apply HR]; exact H.
Qed.
