(* C07 — the full property is false of the faithful model: concrete call sites that InlineTrans
   accepts and on which the inlined statements do not behave like the call.  All by vm_compute.
   Each witness is replayed on the real implementation by props/C07/check.py (WITNESSES). *)
From Coq Require Import List ZArith Bool Lia.
Import ListNotations.
From PV Require Import Fort.Syntax Fort.Sem Fort.Facts3 C07.Model C07.Proofs.
Open Scope Z_scope.

Definition differs_at (l : loc) (o1 o2 : outcome) : bool :=
  match o1, o2 with Ok s1 _ _, Ok s2 _ _ => negb (val s1 l =? val s2 l) | _, _ => false end.

Lemma differs_not_obs l o1 o2 : differs_at l o1 o2 = true -> ~ obs_eq o1 o2.
Proof.
  destruct o1 as [s1 t1 c1| |], o2 as [s2 t2 c2| |]; cbn [differs_at obs_eq]; try discriminate.
  intros H [E _]. subst s2. rewrite Z.eqb_refl in H. discriminate.
Qed.

Definition refutes (c : callsite) (ren : list (name * name)) (st : store) (fuel : nat) : Prop :=
  accept_impl c = true /\ ren_ok c ren = true /\ locals_disjoint_outer c = true /\
  bind_all st (cs_formals c) (cs_actuals c) <> None /\
  ~ obs_eq (exec fuel (inline_apply c ren) st) (exec_call fuel c ren st).

(* names: x=0 j=1 | a=2 i=3 t=4 *)
(* call s(a(i), i)   with   s(x, j): j = j + 1; x = 5        (i = 2) *)
Definition c_index : callsite :=
  mkCS [(0%nat, []); (1%nat, [])] []
       [SAssign 1%nat [] (EBin Add (EVar 1%nat) (ELit 1)); SAssign 0%nat [] (ELit 5)]
       [AElem 2%nat [EVar 3%nat]; AVar 3%nat] [2%nat; 3%nat; 4%nat] [].
Definition st_i2 : store := store_of [((3%nat, []), 2)] [].

Lemma refuted_index : refutes c_index [] st_i2 5 /\ in_fragment c_index = true /\
                      actual_indices_invariant c_index [] = false.
Proof.
  unfold refutes. repeat split; try (vm_compute; reflexivity); try (vm_compute; discriminate).
  apply (differs_not_obs (2%nat, [2])). vm_compute. reflexivity.
Qed.

(* call s(i + 1, i, t)   with   s(x, j, y): j = j + 1; y = x *)
Definition c_expr : callsite :=
  mkCS [(0%nat, []); (1%nat, []); (5%nat, [])] []
       [SAssign 1%nat [] (EBin Add (EVar 1%nat) (ELit 1)); SAssign 5%nat [] (EVar 0%nat)]
       [AExpr (EBin Add (EVar 3%nat) (ELit 1)); AVar 3%nat; AVar 4%nat] [2%nat; 3%nat; 4%nat] [].

Lemma refuted_expr : refutes c_expr [] st_i2 5 /\ in_fragment c_expr = true /\
                     actual_indices_invariant c_expr [] = false.
Proof.
  unfold refutes. repeat split; try (vm_compute; reflexivity); try (vm_compute; discriminate).
  apply (differs_not_obs (4%nat, [])). vm_compute. reflexivity.
Qed.

(* call s(a(i:), i)   with   s(x(:), j): j = j + 1; x(1) = 9 *)
Definition c_section : callsite :=
  mkCS [(0%nat, [1]); (1%nat, [])] []
       [SAssign 1%nat [] (EBin Add (EVar 1%nat) (ELit 1)); SAssign 0%nat [ELit 1] (ELit 9)]
       [AArr 2%nat [DFrom (EVar 3%nat)] true; AVar 3%nat] [2%nat; 3%nat; 4%nat] [].

Lemma refuted_section : refutes c_section [] st_i2 5 /\ in_fragment c_section = true /\
                        actual_indices_invariant c_section [] = false.
Proof.
  unfold refutes. repeat split; try (vm_compute; reflexivity); try (vm_compute; discriminate).
  apply (differs_not_obs (2%nat, [2])). vm_compute. reflexivity.
Qed.

(* call s(i, t)   with   s(j, x): do j = 1, 3; x = x + j; end do
   — the DO variable is not substituted: outside [in_fragment], inside what InlineTrans accepts *)
Definition c_loopvar : callsite :=
  mkCS [(1%nat, []); (0%nat, [])] []
       [SDo 1%nat (ELit 1) (ELit 3) (ELit 1) [SAssign 0%nat [] (EBin Add (EVar 0%nat) (EVar 1%nat))]]
       [AVar 3%nat; AVar 4%nat] [2%nat; 3%nat; 4%nat] [].

Lemma refuted_loopvar : refutes c_loopvar [] st_i2 9 /\ in_fragment c_loopvar = false /\
                        actual_indices_invariant c_loopvar [] = true.
Proof.
  unfold refutes. repeat split; try (vm_compute; reflexivity); try (vm_compute; discriminate).
  apply (differs_not_obs (3%nat, [])). vm_compute. reflexivity.
Qed.

(* module variable g=6 used by the caller; call s(t) with s(x): integer :: g;  g = 5; x = g.
   SymbolTable.merge keeps the local's name (it is not in the calling routine's OWN table): the
   renaming [(g, g)] satisfies the merge contract, and the inlined code assigns the module variable *)
Definition c_capture : callsite :=
  mkCS [(0%nat, [])] [(6%nat, false)]
       [SAssign 6%nat [] (ELit 5); SAssign 0%nat [] (EVar 6%nat)]
       [AVar 4%nat] [2%nat; 3%nat; 4%nat] [6%nat].

Lemma refuted_capture :
  accept_impl c_capture = true /\ in_fragment c_capture = true /\ ren_ok c_capture [(6%nat, 6%nat)] = true /\
  actual_indices_invariant c_capture [(6%nat, 6%nat)] = true /\ locals_disjoint_outer c_capture = false /\
  In 6%nat (cs_outer c_capture) /\ In 6%nat (wnames (inline_apply c_capture [(6%nat, 6%nat)])) /\
  (exists s' tr, exec 5 (inline_apply c_capture [(6%nat, 6%nat)]) st_i2 = Ok s' tr CNormal /\
                 val s' (6%nat, []) <> val st_i2 (6%nat, [])).
Proof.
  repeat split; try (vm_compute; reflexivity); try (vm_compute; tauto).
  eexists. eexists. split; [vm_compute; reflexivity|]. vm_compute. discriminate.
Qed.
