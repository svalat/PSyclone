(* C07 — soundness of the modelled InlineTrans under the sufficient condition
   [actual_indices_invariant]: textual substitution of the actual arguments agrees with binding every
   formal to the location selected at the call, as long as nothing that selects those locations is
   assigned by the inlined body.
   The argument: [inline_apply] and [exec_call] run two translations ([map_stmt]) of the same body.
   Two translations whose expressions evaluate alike and whose assignment targets denote the same
   location in every store satisfying an invariant run in lock step ([sim_exec]); the invariant is
   that everything selecting a location still has its call-time value ([Inv]); RETURN only occurs
   last, where it is a no-op for the call ([call_returns]).  No axioms. *)
From Coq Require Import List ZArith Bool Lia.
Import ListNotations.
From PV Require Import Fort.Syntax Fort.Sem Fort.Facts Fort.Facts3 C07.Model.
Open Scope Z_scope.

(* same final store and control state; traces (reads of index variables) may differ *)
Definition obs_eq (o1 o2 : outcome) : Prop :=
  match o1, o2 with
  | Ok s1 _ c1, Ok s2 _ c2 => s1 = s2 /\ c1 = c2
  | Fault, Fault => True
  | OutOfFuel, OutOfFuel => True
  | _, _ => False
  end.

Lemma obs_eq_refl o : obs_eq o o.
Proof. destruct o; cbn; auto. Qed.
Lemma obs_eq_trans o1 o2 o3 : obs_eq o1 o2 -> obs_eq o2 o3 -> obs_eq o1 o3.
Proof.
  destruct o1, o2, o3; cbn; try tauto; intros [-> ->] [-> ->]; auto.
Qed.
Lemma obs_eq_sym o1 o2 : obs_eq o1 o2 -> obs_eq o2 o1.
Proof. destruct o1, o2; cbn; try tauto; intros [-> ->]; auto. Qed.

Lemma lookup_none_keys {A} x (l : list (name * A)) : mem x (map fst l) = false -> lookup x l = None.
Proof.
  induction l as [|[y v] l IH]; [reflexivity|]. unfold mem. cbn [map fst existsb lookup].
  intro H. apply orb_false_iff in H as [H1 H2]. rewrite H1. apply IH. exact H2.
Qed.

Lemma mem_in x l : mem x l = true <-> In x l.
Proof.
  unfold mem. rewrite existsb_exists. split.
  - intros [y [H1 H2]]. apply Nat.eqb_eq in H2. subst. exact H1.
  - intro H. exists x. split; [exact H|apply Nat.eqb_refl].
Qed.

Lemma env_impl_lookup fs acts x r :
  lookup x (env_impl fs acts) = Some r -> exists f a, In f fs /\ In a acts /\ fst f = x /\ r = repl_impl f a.
Proof.
  revert acts. induction fs as [|f fs IH]; intros [|a acts] H; try discriminate. cbn [env_impl lookup fst] in H.
  destruct (Nat.eqb x (fst f)) eqn:E.
  - apply Nat.eqb_eq in E. inversion H. exists f, a. cbn. auto.
  - destruct (IH acts H) as (f' & a' & ? & ? & ? & ?). exists f', a'. cbn. auto.
Qed.

Lemma env_impl_keys fs acts x : mem x (map fst fs) = false -> lookup x (env_impl fs acts) = None.
Proof.
  intro H. destruct (lookup x (env_impl fs acts)) as [r|] eqn:E; [|reflexivity].
  apply env_impl_lookup in E as (f & a & Hf & _ & <- & _).
  apply (in_map fst), mem_in in Hf. congruence.
Qed.

Lemma inline_apply_trivial c ren : trivial_body c = true -> inline_apply c ren = [].
Proof. unfold trivial_body, inline_apply. destruct (cs_body c) as [|[] b]; try discriminate; reflexivity. Qed.

Lemma inline_apply_body c ren : trivial_body c = false ->
  inline_apply c ren = map (subst_s false (env_impl (cs_formals c) (cs_actuals c)) ren) (strip_return (cs_body c)).
Proof. unfold trivial_body, inline_apply. destruct (cs_body c) as [|[] b]; try discriminate; reflexivity. Qed.

Lemma accept_impl_body c : trivial_body c = false -> accept_impl c = true ->
  returns_ok (cs_body c) = true /\ closed c = true /\ args_ok (cs_formals c) (cs_actuals c) = true.
Proof.
  unfold trivial_body, accept_impl. destruct (cs_body c) as [|[] b]; try discriminate; intros _ H;
    repeat (apply andb_true_iff in H as [H ?]); auto.
Qed.

(* Lock-step simulation of two translations of the same statement list.
   If, in every store satisfying [P], corresponding expressions evaluate alike and corresponding
   assignment targets denote the same location, and [P] survives every write to a name the translated
   code can assign, then for every fuel the two translations end in the same store with the same
   control state (or both fault / both run out of fuel). *)

Definition osim (P : store -> Prop) (o1 o2 : outcome) : Prop :=
  match o1, o2 with
  | Ok s1 _ c1, Ok s2 _ c2 => s1 = s2 /\ c1 = c2 /\ P s1
  | Fault, Fault => True
  | OutOfFuel, OutOfFuel => True
  | _, _ => False
  end.

Lemma osim_obs P o1 o2 : osim P o1 o2 -> obs_eq o1 o2.
Proof. destruct o1, o2; cbn; try tauto; intros [-> [-> _]]; auto. Qed.

Lemma osim_prepend P t1 t2 o1 o2 : osim P o1 o2 -> osim P (prepend t1 o1) (prepend t2 o2).
Proof. destruct o1, o2; cbn [osim prepend]; auto. Qed.

Lemma osim_then P o1 o2 (K1 K2 : runner) :
  osim P o1 o2 -> (forall s, P s -> osim P (K1 s) (K2 s)) -> osim P (then_run o1 K1) (then_run o2 K2).
Proof.
  intros H HK. destruct o1 as [s1 t1 c1| |], o2 as [s2 t2 c2| |]; cbn [osim] in H; try contradiction; auto.
  destruct H as [-> [-> HP]]. unfold then_run. destruct c2; cbn [bind_run osim]; auto.
  apply osim_prepend, HK, HP.
Qed.

Lemma map_eval_ext st (f g : expr -> expr) ks :
  Forall (fun k => inq_free_e k = true -> eval st (f k) = eval st (g k)) ks ->
  forallb inq_free_e ks = true -> map (eval st) (map f ks) = map (eval st) (map g ks).
Proof.
  induction 1 as [|k ks Hk _ IH]; [reflexivity|]. cbn [forallb map]. intro H.
  apply andb_true_iff in H as [H1 H2]. rewrite (Hk H1), (IH H2). reflexivity.
Qed.

Section Sim.
  Variable P : store -> Prop.
  Variable W : list name.
  Hypothesis P_upd : forall st l v, P st -> In (fst l) W -> P (upd st l v).
  Variable formals : list name.
  Variables te1 te2 : expr -> expr.
  Variables tt1 tt2 : name -> list expr -> name * list expr.
  Variables tv1 tv2 : name -> name.
  Hypothesis He : forall e st, inq_free_e e = true -> P st -> eval st (te1 e) = eval st (te2 e).
  Hypothesis Ht : forall x ks1 ks2 st, P st -> map (eval st) ks1 = map (eval st) ks2 ->
      fst (tt1 x ks1) = fst (tt2 x ks2) /\
      map (eval st) (snd (tt1 x ks1)) = map (eval st) (snd (tt2 x ks2)).
  Hypothesis Hv : forall x, mem x formals = false -> tv1 x = tv2 x.

  Local Notation tr1 := (map_stmt te1 tt1 tv1).
  Local Notation tr2 := (map_stmt te2 tt2 tv2).

  Lemma map_eval_sim ks st :
    forallb inq_free_e ks = true -> P st -> map (eval st) (map te1 ks) = map (eval st) (map te2 ks).
  Proof.
    intros H HP. apply map_eval_ext; [|exact H]. apply Forall_forall. intros k _ Hk. apply He; assumption.
  Qed.

  Lemma do_loop_sim (run1 run2 : runner) x l t :
    In x W -> (forall s, P s -> osim P (run1 s) (run2 s)) ->
    forall n k s, P s -> osim P (do_loop run1 x l t n k s) (do_loop run2 x l t n k s).
  Proof.
    intros Hx Hr. induction n as [|n IH]; intros k s HP.
    - cbn [do_loop osim]. repeat split. apply P_upd; [exact HP|exact Hx].
    - cbn [do_loop].
      assert (HP1 : P (upd s (x, []) (l + k * t))) by (apply P_upd; [exact HP|exact Hx]).
      specialize (Hr _ HP1).
      destruct (run1 (upd s (x, []) (l + k * t))) as [s1 t1 c1| |],
               (run2 (upd s (x, []) (l + k * t))) as [s2 t2 c2| |]; cbn [osim] in Hr; try contradiction; auto.
      destruct Hr as [-> [-> HP2]].
      destruct c2; cbn [osim]; auto; apply osim_prepend, IH, HP2.
  Qed.

  Definition sim_at (f : nat) : Prop :=
    forall ss, forallb (okS formals) ss = true -> incl (wnames (map tr1 ss)) W ->
    forall st, P st -> osim P (exec f (map tr1 ss) st) (exec f (map tr2 ss) st).

  Lemma stmt_sim f s st :
    sim_at f -> okS formals s = true -> incl (wnames_stmt (tr1 s)) W -> P st ->
    osim P (exec_stmt (exec f) (tr1 s) st) (exec_stmt (exec f) (tr2 s) st).
  Proof.
    intros IH Hok Hw HP. destruct s as [x ks e|c th el|x lo hi stp body| | | |es|r body|d body].
    - cbn [okS] in Hok. apply andb_true_iff in Hok as [Hk Hee].
      cbn [map_stmt exec_stmt] in *.
      destruct (Ht x (map te1 ks) (map te2 ks) st HP (map_eval_sim ks st Hk HP)) as [Hf Hs].
      rewrite Hs, (He e st Hee HP), Hf.
      destruct (opt_all (map (eval st) (snd (tt2 x (map te2 ks))))) as [vs|]; [|exact I].
      destruct (eval st (te2 e)) as [v|]; [|exact I].
      cbn [osim]. repeat split. apply P_upd; [exact HP|].
      cbn [fst]. rewrite <- Hf. apply Hw. cbn [wnames_stmt]. left. reflexivity.
    - cbn [okS] in Hok. apply andb_true_iff in Hok as [Hok He2]. apply andb_true_iff in Hok as [Hc Hth].
      cbn [map_stmt exec_stmt wnames_stmt] in *. apply incl_app_inv in Hw as [Hw1 Hw2].
      rewrite (He c st Hc HP). destruct (eval st (te2 c)) as [v|]; [|exact I].
      apply osim_prepend. destruct (v =? 0); apply IH; assumption.
    - cbn [okS] in Hok. repeat (apply andb_true_iff in Hok as [Hok ?]).
      apply negb_true_iff in Hok.
      cbn [map_stmt exec_stmt wnames_stmt] in *.
      rewrite (He lo st), (He hi st), (He stp st) by assumption.
      rewrite (Hv x Hok) in *.
      destruct (eval st (te2 lo)) as [l|]; [|exact I].
      destruct (eval st (te2 hi)) as [h|]; [|exact I].
      destruct (eval st (te2 stp)) as [t|]; [|exact I].
      destruct (t =? 0); [exact I|]. apply osim_prepend.
      apply do_loop_sim; [apply Hw; left; reflexivity| |exact HP].
      intros s0 HP0. apply IH; [assumption| |exact HP0].
      intros y Hy. apply Hw. right. exact Hy.
    - cbn [map_stmt exec_stmt osim]. auto.
    - cbn [map_stmt exec_stmt osim]. auto.
    - cbn [map_stmt exec_stmt osim]. auto.
    - cbn [okS] in Hok. cbn [map_stmt exec_stmt].
      rewrite (map_eval_sim es st Hok HP).
      destruct (opt_all (map (eval st) (map te2 es))); cbn [osim]; auto.
    - cbn [okS] in Hok. cbn [map_stmt exec_stmt wnames_stmt] in *.
      specialize (IH body Hok Hw st HP).
      destruct (exec f (map (map_stmt te1 tt1 tv1) body) st) as [s1 t1 c1| |],
               (exec f (map (map_stmt te2 tt2 tv2) body) st) as [s2 t2 c2| |]; cbn [osim] in IH |- *; auto.
    - cbn [okS] in Hok. cbn [map_stmt exec_stmt wnames_stmt] in *.
      apply IH; assumption.
  Qed.

  Theorem sim_exec f : sim_at f.
  Proof.
    induction f as [|f IH]; intros ss Hok Hw st HP.
    - cbn [exec osim]. exact I.
    - destruct ss as [|s rest].
      + cbn [map]. rewrite !exec_nil. cbn [osim]. auto.
      + cbn [map]. rewrite !exec_cons.
        cbn [forallb] in Hok. apply andb_true_iff in Hok as [Hs Hr].
        cbn [map] in Hw. rewrite wnames_cons in Hw. apply incl_app_inv in Hw as [Hw1 Hw2].
        apply osim_then.
        * apply stmt_sim; assumption.
        * intros s0 HP0. apply IH; assumption.
  Qed.
End Sim.

Lemma eval_idx_congr st a k1 k2 :
  map (eval st) k1 = map (eval st) k2 -> eval st (EIdx a k1) = eval st (EIdx a k2).
Proof. intro H. cbn [eval]. rewrite H. reflexivity. Qed.

Lemma eval_intr_noninq s f a1 a2 vs : is_inquiry f = false -> eval_intr s f a1 vs = eval_intr s f a2 vs.
Proof. destruct f; cbn [is_inquiry]; intro H; try discriminate; reflexivity. Qed.

Lemma opt_all_some {A} (l : list (option A)) vs : opt_all l = Some vs -> l = map Some vs.
Proof.
  revert vs. induction l as [|[x|] l IH]; intros vs H; cbn [opt_all] in H; try discriminate.
  - inversion H. reflexivity.
  - destruct (opt_all l) as [xs|]; [|discriminate]. inversion H. cbn [map]. f_equal. apply IH. reflexivity.
Qed.

Lemma map_eval_lits st vs : map (eval st) (map ELit vs) = map Some vs.
Proof. induction vs as [|v vs IH]; [reflexivity|]. cbn [map eval]. f_equal. exact IH. Qed.

(* a whole extent `:` is the section that starts at the caller's declared lower bound *)
Lemma freeze_dims_full st lba ds lbs : freeze_dims st (DFull lba :: ds) lbs = freeze_dims st (DFrom (ELit lba) :: ds) lbs.
Proof. destruct lbs; reflexivity. Qed.

Section Core.
  Variable st0 : store.
  Variable V : list name.       (* protected names *)
  Variable W : list name.       (* names the inlined body may assign *)
  Hypothesis VW : forall x, In x V -> ~ In x W.
  Variable ren : list (name * name).

  Definition Inv (st : store) : Prop :=
    bnd st = bnd st0 /\ forall l, In (fst l) V -> val st l = val st0 l.

  Lemma Inv0 : Inv st0.
  Proof. split; auto. Qed.

  Lemma Inv_upd st l v : Inv st -> In (fst l) W -> Inv (upd st l v).
  Proof.
    intros [Hb Hv] Hl. split; [rewrite bnd_upd; exact Hb|].
    intros l' Hl'. rewrite val_upd_other; [apply Hv, Hl'|].
    intro E. subst l'. exact (VW _ Hl' Hl).
  Qed.

  Lemma eval_inv st e : Inv st -> incl (enames e) V -> eval st e = eval st0 e.
  Proof.
    intros [Hb Hv] Hi. apply eval_frame; [exact Hb|].
    intros l Hl. apply Hv, Hi. eapply ereads_names, Hl.
  Qed.

  Lemma evals_inv st es : Inv st -> incl (flat_map enames es) V -> map (eval st) es = map (eval st0) es.
  Proof.
    intros HI. induction es as [|e es IH]; intro Hi; [reflexivity|].
    cbn [flat_map] in Hi. apply incl_app_inv in Hi as [He Hes].
    cbn [map]. rewrite (eval_inv st e HI He), (IH Hes). reflexivity.
  Qed.

  (* the subscripts of an element actual keep denoting the element selected at the call *)
  Lemma elem_inv st ix vs :
    Inv st -> opt_all (map (eval st0) ix) = Some vs -> incl (flat_map enames ix) V ->
    map (eval st) ix = map (eval st) (map ELit vs).
  Proof.
    intros HI Hv Hi. rewrite (evals_inv st ix HI Hi), map_eval_lits. apply opt_all_some, Hv.
  Qed.

  (* replacement built by InlineTrans  vs.  location view fixed at the call *)
  Inductive rrel : repl -> repl -> Prop :=
  | rr_var y : rrel (RVar y) (RVar y)
  | rr_elem a ix vs : opt_all (map (eval st0) ix) = Some vs -> incl (flat_map enames ix) V ->
                      rrel (RElem a ix) (RElem a (map ELit vs))
  | rr_expr e v : eval st0 e = Some v -> incl (enames e) V -> rrel (RExpr e) (RExpr (ELit v))
  | rr_arr a dims lbs sd : freeze_dims st0 dims lbs = Some sd -> incl (flat_map adim_names dims) V ->
                           rrel (RArr a dims lbs) (RSem a sd).

  Definition erel (e1 e2 : list (name * repl)) : Prop :=
    forall x, match lookup x e1, lookup x e2 with
              | Some r1, Some r2 => rrel r1 r2
              | None, None => True
              | _, _ => False
              end.

  Lemma rrel_bind f a r :
    bind_actual st0 f a = Some r -> incl (actual_index_names a) V -> rrel (repl_impl f a) r.
  Proof.
    destruct a as [y|a0 ix|e0|a0 dims u]; cbn [bind_actual repl_impl actual_index_names]; intros Er Hi.
    - inversion Er. constructor.
    - destruct (opt_all (map (eval st0) ix)) as [vs|] eqn:Ev; [|discriminate]. inversion Er. constructor; assumption.
    - destruct (eval st0 e0) as [v|] eqn:Ev; [|discriminate]. inversion Er. constructor; assumption.
    - destruct (freeze_dims st0 dims (snd f)) as [sd|] eqn:Ev; [|discriminate]. inversion Er. constructor; assumption.
  Qed.

  Lemma erel_bind fs acts es :
    bind_all st0 fs acts = Some es -> incl (flat_map actual_index_names acts) V ->
    erel (env_impl fs acts) es.
  Proof.
    revert acts es. induction fs as [|f fs IH]; intros [|a acts] es H Hi; cbn [bind_all] in H;
      try (inversion H; intro x; exact I).
    destruct (bind_actual st0 f a) as [r|] eqn:Er; [|discriminate].
    destruct (bind_all st0 fs acts) as [e|] eqn:Ee; [|discriminate]. inversion H; subst es.
    cbn [flat_map] in Hi. apply incl_app_inv in Hi as [Ha Hr].
    intro x. cbn [env_impl lookup fst]. destruct (Nat.eqb x (fst f)).
    - apply rrel_bind; assumption.
    - apply IH; [exact Ee|exact Hr].
  Qed.

  (* index arithmetic: (k - lbx) + start  =  k + (start - lbx) *)
  Lemma eval_shift st k k' lbx start v :
    eval st start = Some v -> eval st k = eval st k' ->
    eval st (shift k lbx start) = eval st (EBin Add k' (ELit (v - lbx))).
  Proof.
    intros Hs Hk. unfold shift. destruct (is_lit lbx start) eqn:E.
    - destruct start; cbn [is_lit] in E; try discriminate. apply Z.eqb_eq in E. subst z.
      cbn [eval] in Hs. inversion Hs; subst v. cbn [eval]. rewrite Hk.
      destruct (eval st k') as [a|]; [|reflexivity]. cbn [eval_bin]. f_equal. lia.
    - cbn [eval]. rewrite Hs, Hk. destruct (eval st k') as [a|]; [|reflexivity].
      cbn [eval_bin]. f_equal. lia.
  Qed.

  Lemma merge_rel st dims : forall lbs sd k1 k2,
    Inv st -> freeze_dims st0 dims lbs = Some sd -> incl (flat_map adim_names dims) V ->
    map (eval st) k1 = map (eval st) k2 ->
    map (eval st) (merge_dims dims lbs k1) = map (eval st) (merge_sem sd k2).
  Proof.
    induction dims as [|d ds IH]; intros lbs sd k1 k2 HI Hf Hi Hk.
    - cbn in Hf. inversion Hf. reflexivity.
    - cbn [flat_map] in Hi. apply incl_app_inv in Hi as [Hd Hr].
      assert (Hfrom : forall lo, incl (enames lo) V -> freeze_dims st0 (DFrom lo :: ds) lbs = Some sd ->
                map (eval st) (merge_dims (DFrom lo :: ds) lbs k1) = map (eval st) (merge_sem sd k2)).
      { intros lo Hlo Hf'. cbn [freeze_dims] in Hf'. destruct lbs as [|lbx lbs]; [discriminate|].
        destruct (eval st0 lo) as [v|] eqn:Ev; [|discriminate].
        destruct (freeze_dims st0 ds lbs) as [r|] eqn:Er; [|discriminate]. inversion Hf'; subst sd.
        cbn [merge_dims merge_sem]. destruct k1 as [|k k1], k2 as [|k' k2]; try discriminate.
        - apply (IH lbs r [] []); auto.
        - cbn [map] in Hk. inversion Hk as [[Hk1 Hk2]]. cbn [map]. f_equal.
          + apply eval_shift; [|exact Hk1]. rewrite (eval_inv st lo HI Hlo). exact Ev.
          + apply IH; auto. }
      destruct d as [lba|lo|e].
      + rewrite freeze_dims_full in Hf. apply (Hfrom (ELit lba)); [intros z []|exact Hf].
      + apply Hfrom; assumption.
      + cbn [freeze_dims] in Hf. destruct (eval st0 e) as [v|] eqn:Ev; [|discriminate].
        destruct (freeze_dims st0 ds lbs) as [r|] eqn:Er; [|discriminate]. inversion Hf; subst sd.
        cbn [merge_dims merge_sem map]. f_equal.
        * rewrite (eval_inv st e HI Hd). exact Ev.
        * apply IH; auto.
  Qed.

  Variables ei es : list (name * repl).
  Hypothesis Hrel : erel ei es.

  Lemma subst_e_rel e st :
    inq_free_e e = true -> Inv st -> eval st (subst_e ei ren e) = eval st (subst_e es ren e).
  Proof.
    intros Hq HI. induction e as [z|x|x ks IH|o e IH|o l r IHl IHr|f args IH] using expr_ind'.
    - reflexivity.
    - cbn [subst_e]. specialize (Hrel x).
      destruct (lookup x ei) as [r1|], (lookup x es) as [r2|]; try contradiction; [|reflexivity].
      destruct Hrel as [y|a ix vs Hv Hi|e0 v Hv Hi|a dims lbs sd Hf Hi]; try reflexivity.
      + apply eval_idx_congr, elem_inv; assumption.
      + cbn [eval]. rewrite (eval_inv st e0 HI Hi). exact Hv.
    - cbn [inq_free_e] in Hq. pose proof (map_eval_ext st _ _ ks IH Hq) as Hk.
      cbn [subst_e]. specialize (Hrel x).
      destruct (lookup x ei) as [r1|], (lookup x es) as [r2|]; try contradiction.
      + destruct Hrel as [y|a ix vs Hv Hi|e0 v Hv Hi|a dims lbs sd Hf Hi]; try (apply eval_idx_congr, Hk).
        * cbn [eval]. rewrite (eval_inv st e0 HI Hi). exact Hv.
        * apply eval_idx_congr. apply merge_rel; assumption.
      + apply eval_idx_congr, Hk.
    - cbn [inq_free_e] in Hq. cbn [subst_e eval]. rewrite IH by exact Hq. reflexivity.
    - cbn [inq_free_e] in Hq. apply andb_true_iff in Hq as [Hq1 Hq2].
      cbn [subst_e eval]. rewrite IHl, IHr by assumption. reflexivity.
    - cbn [inq_free_e] in Hq. apply andb_true_iff in Hq as [Hq1 Hq2]. apply negb_true_iff in Hq1.
      cbn [subst_e eval]. rewrite Hq1, (map_eval_ext st _ _ args IH Hq2).
      destruct (opt_all (map (eval st) (map (subst_e es ren) args))) as [vs|]; [|reflexivity].
      apply eval_intr_noninq, Hq1.
  Qed.

  Lemma subst_tgt_rel x k1 k2 st :
    Inv st -> map (eval st) k1 = map (eval st) k2 ->
    fst (subst_tgt ei ren x k1) = fst (subst_tgt es ren x k2) /\
    map (eval st) (snd (subst_tgt ei ren x k1)) = map (eval st) (snd (subst_tgt es ren x k2)).
  Proof.
    intros HI Hk. unfold subst_tgt. specialize (Hrel x).
    destruct (lookup x ei) as [r1|], (lookup x es) as [r2|]; try contradiction; [|cbn; auto].
    destruct Hrel as [y|a ix vs Hv Hi|e0 v Hv Hi|a dims lbs sd Hf Hi]; cbn [fst snd]; auto.
    - split; [reflexivity|]. apply elem_inv; assumption.
    - split; [reflexivity|]. apply merge_rel; assumption.
  Qed.

  Variable formals : list name.
  Hypothesis Hkeys : forall x, mem x formals = false -> lookup x ei = None.

  Lemma subst_dovar_rel x : mem x formals = false -> subst_dovar ei ren false x = subst_dovar es ren true x.
  Proof.
    intro H. unfold subst_dovar. specialize (Hrel x). rewrite (Hkeys x H) in *.
    destruct (lookup x es); [contradiction|reflexivity].
  Qed.

  Theorem subst_sim f ss :
    forallb (okS formals) ss = true -> incl (wnames (map (subst_s false ei ren) ss)) W ->
    osim Inv (exec f (map (subst_s false ei ren) ss) st0) (exec f (map (subst_s true es ren) ss) st0).
  Proof.
    intros Hok Hw. unfold subst_s.
    apply (sim_exec Inv W Inv_upd formals (subst_e ei ren) (subst_e es ren) (subst_tgt ei ren) (subst_tgt es ren)
             (subst_dovar ei ren false) (subst_dovar es ren true)); auto.
    - intros e st Hq HI. apply subst_e_rel; assumption.
    - intros x k1 k2 st HI Hk. apply subst_tgt_rel; assumption.
    - intros x Hx. apply subst_dovar_rel, Hx.
    - apply Inv0.
  Qed.
End Core.

Lemma rev_cons_snoc {A} (l r : list A) x : rev l = x :: r -> l = rev r ++ [x].
Proof. intro E. rewrite <- (rev_involutive l), E. reflexivity. Qed.

Lemma strip_return_cases body :
  (last_is_return body = false /\ strip_return body = body) \/
  (last_is_return body = true /\ body = strip_return body ++ [SReturn]).
Proof.
  unfold last_is_return, strip_return. destruct (rev body) as [|s r] eqn:E; [auto|].
  destruct s; auto. right. split; [reflexivity|]. apply rev_cons_snoc, E.
Qed.

Lemma strip_return_prefix body : exists tl, body = strip_return body ++ tl.
Proof.
  destruct (strip_return_cases body) as [[_ E]|[_ E]]; [exists []; rewrite E; symmetry; apply app_nil_r|].
  exists [SReturn]. exact E.
Qed.

Lemma forallb_strip (p : stmt -> bool) body : forallb p body = true -> forallb p (strip_return body) = true.
Proof.
  destruct (strip_return_prefix body) as [tl E]. rewrite E at 1. rewrite forallb_app.
  intro H. apply andb_true_iff in H. tauto.
Qed.

Lemma ret2norm_prepend t o : ret2norm (prepend t o) = prepend t (ret2norm o).
Proof. destruct o as [s tr c| |]; try reflexivity. destruct c; reflexivity. Qed.

Lemma exec_snoc_return f : forall ss st,
  ret2norm (exec f (ss ++ [SReturn]) st) = ret2norm (exec f ss st).
Proof.
  induction f as [|f IH]; intros ss st; [reflexivity|].
  destruct ss as [|s ss]; cbn [app]; rewrite !exec_cons.
  - rewrite exec_nil. reflexivity.
  - destruct (exec_stmt (exec f) s st) as [s1 t1 c1| |]; try reflexivity.
    unfold then_run. destruct c1; cbn [bind_run]; try reflexivity.
    rewrite !ret2norm_prepend, IH. reflexivity.
Qed.

Lemma count_returns_cons s ss : count_returns (s :: ss) = (count_returns_s s + count_returns ss)%nat.
Proof. reflexivity. Qed.

Lemma count_returns_app a b : count_returns (a ++ b) = (count_returns a + count_returns b)%nat.
Proof.
  induction a as [|s a IH]; [reflexivity|]. cbn [app]. rewrite !count_returns_cons, IH. lia.
Qed.

(* an outcome that is not a RETURN *)
Definition noret (o : outcome) : Prop := ret2norm o = o.

Lemma noret_prepend t o : noret o -> noret (prepend t o).
Proof. unfold noret. rewrite ret2norm_prepend. congruence. Qed.

Lemma noret_then o (K : runner) : noret o -> (forall s, noret (K s)) -> noret (then_run o K).
Proof.
  intros Ho HK. destruct o as [s t c| |]; try reflexivity.
  unfold then_run. destruct c; cbn [bind_run]; try exact Ho. apply noret_prepend, HK.
Qed.

Lemma noret_do_loop (run : runner) x l t :
  (forall s, noret (run s)) -> forall n k s, noret (do_loop run x l t n k s).
Proof.
  intros Hr. induction n as [|n IH]; intros k s; [reflexivity|]. cbn [do_loop].
  specialize (Hr (upd s (x, []) (l + k * t))). destruct (run _) as [s2 t2 c2| |]; try reflexivity.
  destruct c2; try reflexivity; try (apply noret_prepend, IH). discriminate Hr.
Qed.

Lemma exec_noret f : forall ss st, count_returns ss = 0%nat -> noret (exec f ss st).
Proof.
  induction f as [|f IH]; intros ss st Hc; [reflexivity|].
  destruct ss as [|s ss]; [reflexivity|].
  rewrite count_returns_cons in Hc. apply Nat.eq_add_0 in Hc as [Hs Hr].
  rewrite exec_cons. apply noret_then; [|intro; apply IH, Hr].
  destruct s as [x ks e|c0 th el|x lo hi stp body| | | |es|r body|d body]; cbn [exec_stmt count_returns_s] in *.
  - destruct (opt_all _), (eval st e); reflexivity.
  - apply Nat.eq_add_0 in Hs as [Hth Hel]. destruct (eval st c0) as [v|]; [|reflexivity].
    apply noret_prepend. destruct (v =? 0); apply IH; assumption.
  - destruct (eval st lo), (eval st hi), (eval st stp) as [t|]; try reflexivity.
    destruct (t =? 0); [reflexivity|]. apply noret_prepend, noret_do_loop. intro. apply IH, Hs.
  - reflexivity.
  - reflexivity.
  - discriminate.
  - destruct (opt_all _); reflexivity.
  - specialize (IH body st Hs). destruct (exec f body st) as [s2 t2 c2| |]; try reflexivity.
    destruct c2; try reflexivity. discriminate IH.
  - apply IH, Hs.
Qed.

Lemma fold_map_count (h : stmt -> stmt) l :
  Forall (fun s => count_returns_s (h s) = count_returns_s s) l ->
  fold_right (fun x n => (count_returns_s x + n)%nat) 0%nat (map h l) =
  fold_right (fun x n => (count_returns_s x + n)%nat) 0%nat l.
Proof. induction 1 as [|s l Hs _ IH]; [reflexivity|]. cbn [map fold_right]. rewrite Hs, IH. reflexivity. Qed.

(* what validate's test on RETURN leaves: no RETURN at all, or exactly one, as last statement *)
Lemma strip_return_spec body :
  returns_ok body = true ->
  exists b, strip_return body = b /\ count_returns b = 0%nat /\ (body = b \/ body = b ++ [SReturn]).
Proof.
  unfold returns_ok. destruct (strip_return_cases body) as [[-> E]|[-> E]].
  - rewrite E. destruct (count_returns body) as [|[|n]] eqn:Ec; try discriminate. intros _. exists body. auto.
  - intro H. exists (strip_return body). split; [reflexivity|]. split; [|right; exact E].
    rewrite E, count_returns_app in H. change (count_returns [SReturn]) with 1%nat in H. rewrite Nat.add_1_r in H.
    destruct (count_returns (strip_return body)); [reflexivity|discriminate].
Qed.

Section Return.
  Variable te : expr -> expr.
  Variable tt : name -> list expr -> name * list expr.
  Variable tv : name -> name.
  Local Notation tr := (map_stmt te tt tv).

  Lemma count_returns_map_stmt s : count_returns_s (tr s) = count_returns_s s.
  Proof.
    induction s using stmt_ind'; cbn [map_stmt count_returns_s]; try reflexivity;
      rewrite ?fold_map_count by assumption; reflexivity.
  Qed.

  Lemma count_returns_map ss : count_returns (map tr ss) = count_returns ss.
  Proof. apply fold_map_count, Forall_forall. intros s _. apply count_returns_map_stmt. Qed.

  (* the call runs the body as it stands, the inlined code runs it without its last RETURN *)
  Lemma call_returns f body st :
    returns_ok body = true -> ret2norm (exec f (map tr body) st) = exec f (map tr (strip_return body)) st.
  Proof.
    intro H. destruct (strip_return_spec body H) as [b [Hs [Hc [->| ->]]]]; rewrite Hs.
    - apply exec_noret. rewrite count_returns_map. exact Hc.
    - rewrite map_app. cbn [map map_stmt]. rewrite exec_snoc_return.
      apply exec_noret. rewrite count_returns_map. exact Hc.
  Qed.

  (* an empty routine, or one that starts with RETURN, does nothing *)
  Lemma call_trivial f c st : trivial_body c = true -> ret2norm (exec f (map tr (cs_body c)) st) = exec f [] st.
  Proof.
    unfold trivial_body. destruct (cs_body c) as [|[] b]; try discriminate; intros _; destruct f; reflexivity.
  Qed.
End Return.

(* of the tests of validate only the one on RETURN is needed: EXIT, CYCLE and PRINT run in lock step too *)
Theorem inline_sound_returns c ren :
  (trivial_body c = false -> returns_ok (cs_body c) = true) ->
  in_fragment c = true -> actual_indices_invariant c ren = true ->
  forall fuel st, bind_all st (cs_formals c) (cs_actuals c) <> None ->
  obs_eq (exec fuel (inline_apply c ren) st) (exec_call fuel c ren st).
Proof.
  intros Hret Hfrag Hinv fuel st Hb. unfold exec_call, subst_s.
  destruct (bind_all st (cs_formals c) (cs_actuals c)) as [es|] eqn:Eb; [clear Hb|congruence].
  destruct (trivial_body c) eqn:Et.
  - rewrite (inline_apply_trivial c ren Et), (call_trivial _ _ _ fuel c st Et). apply obs_eq_refl.
  - rewrite (call_returns _ _ _ fuel _ st (Hret eq_refl)).
    assert (VW : forall x, In x (protected c) -> ~ In x (wnames (inline_apply c ren))).
    { intros x Hx Hw. unfold actual_indices_invariant in Hinv. rewrite forallb_forall in Hinv.
      specialize (Hinv x Hx). apply negb_true_iff in Hinv. apply mem_in in Hw. congruence. }
    rewrite (inline_apply_body c ren Et) in *.
    apply (osim_obs (Inv st (protected c))).
    apply (subst_sim st (protected c) _ VW) with (formals := map fst (cs_formals c)).
    + apply erel_bind; [exact Eb|apply incl_refl].
    + intros x. apply env_impl_keys.
    + apply forallb_strip, Hfrag.
    + apply incl_refl.
Qed.
