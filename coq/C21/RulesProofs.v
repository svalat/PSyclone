(* C21 — walk_matches_rules: for ALL metadata satisfying [rules_safe] the argument list built by
   ArgOrdering.generate + KernCallArgList equals (kinds aside) the list prescribed by the numbered rules
   of the user guide.

   Every category of kernel has the same layout on both sides: fixed leading arguments, the meta_args
   loop, the loop over the function spaces, trailing arguments.  [call_list_cols] writes the code's list
   in that layout once; [args_part] settles the meta_args loop for every category (the only segment in
   which kinds are erased); each category then adds its own function-space block. *)
From Coq Require Import List Bool Arith.
Import ListNotations.
From PV Require Import C21.Model C21.Safe C21.Proofs C21.Rules.

Lemma flat_map_flat_map : forall {A B C} (g : B -> list C) (f : A -> list B) (l : list A),
  flat_map g (flat_map f l) = flat_map (fun x => flat_map g (f x)) l.
Proof.
  intros A B C g f l; induction l as [|x r IH]; simpl; [reflexivity|].
  rewrite flat_map_app, IH; reflexivity.
Qed.
Lemma flat_map_ext_in : forall {A B} (f g : A -> list B) (l : list A),
  (forall x, In x l -> f x = g x) -> flat_map f l = flat_map g l.
Proof.
  intros A B f g l; induction l as [|x r IH]; simpl; intros H; [reflexivity|].
  rewrite (H x (or_introl eq_refl)), IH; [reflexivity|]. intros y Hy; apply H; right; exact Hy.
Qed.
Lemma flat_map_nil_all : forall {A B} (f : A -> list B) (l : list A),
  (forall x, f x = []) -> flat_map f l = [].
Proof. intros A B f l H; induction l as [|x r IH]; simpl; [reflexivity|]. rewrite H, IH; reflexivity. Qed.

Lemma flat_map_if : forall {A B} (f : A -> list B) (b : bool) (l l' : list A),
  flat_map f (if b then l else l') = if b then flat_map f l else flat_map f l'.
Proof. intros A B f [|] l l'; reflexivity. Qed.

Lemma existsb_orb : forall {A} (p q : A -> bool) l,
  existsb (fun a => p a || q a) l = existsb p l || existsb q l.
Proof.
  intros A p q l; induction l as [|x r IH]; simpl; [reflexivity|].
  rewrite IH. destruct (p x), (q x), (existsb p r); reflexivity.
Qed.
Lemma existsb_filter : forall {A} (p : A -> bool) l,
  existsb p l = match filter p l with [] => false | _ :: _ => true end.
Proof. intros A p l; induction l as [|x r IH]; simpl; [reflexivity|]. destruct (p x); [reflexivity|exact IH]. Qed.
Lemma forallb_existsb_false : forall {A} (p q : A -> bool) l,
  (forall a, p a = true -> q a = false) -> forallb p l = true -> existsb q l = false.
Proof.
  intros A p q l Hpq; induction l as [|x r IH]; simpl; intros H; [reflexivity|].
  apply andb_prop in H; destruct H as [Hx Hr]. rewrite (Hpq x Hx), (IH Hr); reflexivity.
Qed.

Lemma fs_eqb_eq : forall a b, fs_eqb a b = true -> a = b.
Proof.
  intros a b H; destruct a, b; simpl in H; try discriminate; try reflexivity;
    apply Nat.eqb_eq in H; subst; reflexivity.
Qed.
Lemma fs_eqb_refl : forall a, fs_eqb a a = true.
Proof. intros a; destruct a; simpl; try reflexivity; apply Nat.eqb_refl. Qed.

Lemma dedup_incl : forall {A} (eqb : A -> A -> bool) l seen x, In x (dedup eqb seen l) -> In x l.
Proof.
  intros A eqb l; induction l as [|y r IH]; intros seen x H; [exact H|].
  cbn [dedup] in H. destruct (existsb (eqb y) seen).
  - right; exact (IH _ _ H).
  - destruct H as [H|H]; [left; exact H|right; exact (IH _ _ H)].
Qed.

Lemma is_none_hd : forall {A} (l : list A), is_none (hd_error l) = true -> l = [].
Proof. intros A l H; destruct l; [reflexivity|discriminate]. Qed.

Lemma erase_app : forall a b, erase_list (a ++ b) = erase_list a ++ erase_list b.
Proof. intros a b. apply map_app. Qed.

(* a kernel without meta_funcs and meta_mesh has no trailing arguments *)
Lemma plain_inv : forall m, plain m = true -> m_funcs m = [] /\ m_mesh m = [].
Proof.
  intros m H. unfold plain in H. apply andb_prop in H.
  split; apply is_none_hd; tauto.
Qed.

Lemma arg_general : forall v arr i a, no_xory1d a = true ->
  erase_list (flat_map (call_args v) (arg_events arr i a)) = erase_list (doc_arg_general i a).
Proof.
  intros v arr i a H. destruct a as [t k acc|t k acc f vec st ms|k acc t f|acc t f].
  - reflexivity.
  - cbn [arg_events doc_arg_general doc_field].
    unfold no_xory1d in H; cbn [arg_stencil] in H.
    rewrite flat_map_app, !erase_app. f_equal.
    + destruct (Nat.ltb 1 vec); cbn [flat_map call_args app]; [|reflexivity].
      rewrite app_nil_r. apply vec_slots_erase; reflexivity.
    + destruct st as [s|]; [|reflexivity]. destruct s; try discriminate; reflexivity.
  - reflexivity.
  - cbn [arg_events doc_arg_general doc_cma flat_map call_args]. destruct (fs_eqb t f); reflexivity.
Qed.

(* [h] is a category's rule for one argument: the general rule 3 on the kinds of argument the
   category admits *)
Lemma args_part : forall v arr (h : nat -> marg -> list slot) l i,
  forallb no_xory1d l = true -> (forall i a, In a l -> h i a = doc_arg_general i a) ->
  erase_list (flat_map (call_args v) (args_events arr i l)) = erase_list (doc_args h i l).
Proof.
  intros v arr h l; induction l as [|a r IH]; intros i Hx Hh; [reflexivity|].
  cbn [forallb] in Hx. apply andb_prop in Hx. destruct Hx as [Hxa Hxr].
  cbn [args_events doc_args]. rewrite flat_map_app, !erase_app.
  rewrite (Hh i a (or_introl eq_refl)), (arg_general v arr i a Hxa), (IH (S i) Hxr); [reflexivity|].
  intros j b Hb; apply Hh; right; exact Hb.
Qed.

(* the same, when the category admits the arguments satisfying [p] *)
Lemma args_part_on : forall (p : marg -> bool) v arr (h : nat -> marg -> list slot) l i,
  forallb no_xory1d l = true -> forallb p l = true ->
  (forall i a, p a = true -> h i a = doc_arg_general i a) ->
  erase_list (flat_map (call_args v) (args_events arr i l)) = erase_list (doc_args h i l).
Proof.
  intros p v arr h l i Hx Hp Hh. apply args_part; [exact Hx|].
  intros j a Ha. apply Hh. exact (proj1 (forallb_forall _ _) Hp a Ha).
Qed.

Lemma has_cma_operation : forall m,
  has_cma m = match cma_operation m with Some _ => true | None => false end.
Proof.
  intros m. unfold has_cma, cma_operation. rewrite existsb_filter.
  destruct (filter is_cma (m_args m)); [reflexivity|].
  destruct (Nat.eqb _ 0); [reflexivity|]. destruct (Nat.eqb _ 1); reflexivity.
Qed.
Lemma has_operator_split : forall m, has_operator m = existsb is_lma (m_args m) || has_cma m.
Proof. intros m. apply existsb_orb. Qed.
Lemma no_cma_on_space : forall m f, has_cma m = false -> cma_on_space m f = false.
Proof.
  intros m f. unfold has_cma, cma_on_space. induction (m_args m) as [|a r IH]; simpl; intros H; [reflexivity|].
  destruct a; simpl in *; try exact (IH H). discriminate.
Qed.
Lemma fields_no_cma : forall m, forallb is_field (m_args m) = true -> has_cma m = false.
Proof. intros m. unfold has_cma. apply forallb_existsb_false. intros [| | |] H; (discriminate || reflexivity). Qed.
Lemma fields_no_lma : forall l, forallb is_field l = true -> existsb is_lma l = false.
Proof. intros l. apply forallb_existsb_false. intros [| | |] H; (discriminate || reflexivity). Qed.
Lemma no_fields_fos : forall m f, forallb (fun a => is_cma a || is_scalar a) (m_args m) = true ->
  field_on_space m f = false.
Proof. intros m f. unfold field_on_space. apply forallb_existsb_false. intros [| | |] H; (discriminate || reflexivity). Qed.
Lemma fields_fos : forall m f, forallb is_field (m_args m) = true -> In f (unique_fss m) ->
  field_on_space m f = true.
Proof.
  intros m f Hf Hin. unfold unique_fss, uniq_fs in Hin. apply dedup_incl in Hin.
  apply in_flat_map in Hin. destruct Hin as [a [Ha Hfa]].
  pose proof (proj1 (forallb_forall _ _) Hf a Ha) as Hfield.
  unfold field_on_space. apply existsb_exists. exists a. split; [exact Ha|].
  destruct a; try discriminate. simpl in Hfa. destruct Hfa as [Hfa|[]]. subst. apply fs_eqb_refl.
Qed.

Definition basis_events (m : metadata) (f : fspace) : list event :=
  match func_of (m_funcs m) f with
  | None => []
  | Some (b, d) =>
      (if b then [EBasis f (eval_shapes m) (eval_targets m)] else []) ++
      (if d then [EDiffBasis f (eval_shapes m) (eval_targets m)] else [])
  end.

Lemma basis_part : forall v m f,
  forallb ops_in_code_order (m_funcs m) = true ->
  v_basis_in_shape_order v || quad_then_eval [] (eval_shapes m) = true ->
  flat_map (call_args v) (basis_events m f) = doc_basis m f.
Proof.
  intros v m f Hops Hq. unfold basis_events, doc_basis.
  (* under [Hq] the call passes the basis functions in gh_shape order, as the stub does *)
  pose proof (fun e (H : ev_ok v true e = true) => event_agree_ v e H) as Hcall.
  generalize (eval_shapes m) (eval_targets m) Hq. intros sh tg Hq'. clear Hq.
  induction (m_funcs m) as [|[g ops] r IH]; [reflexivity|].
  cbn [forallb] in Hops. apply andb_prop in Hops; destruct Hops as [Ho Hr].
  cbn [func_of ops_of]. destruct (fs_eqb g f); [|exact (IH Hr)].
  unfold ops_in_code_order in Ho; cbn [snd] in Ho.
  destruct ops as [|o1 [|o2 [|o3 ops']]]; try destruct o1; try destruct o2; try discriminate;
    cbn [existsb is_basis negb orb app flat_map];
    rewrite ?(Hcall (EBasis f sh tg) Hq'), ?(Hcall (EDiffBasis f sh tg) Hq'), ?app_nil_r; reflexivity.
Qed.

Lemma dedup_nodup : forall l seen, (forall x, In x seen -> existsb (shape_eqb x) l = false) ->
  nodupb shape_eqb l = true -> dedup shape_eqb seen l = l.
Proof.
  induction l as [|x r IH]; intros seen Hs Hn; [reflexivity|].
  cbn [nodupb] in Hn. apply andb_prop in Hn; destruct Hn as [Hx Hr]. apply negb_true_iff in Hx.
  cbn [dedup].
  assert (Hns : existsb (shape_eqb x) seen = false).
  { destruct (existsb (shape_eqb x) seen) eqn:E; [|reflexivity].
    apply existsb_exists in E; destruct E as [y [Hy Hxy]].
    specialize (Hs y Hy). cbn [existsb] in Hs. apply orb_false_elim in Hs; destruct Hs as [Hs _].
    destruct x, y; simpl in *; congruence. }
  rewrite Hns. f_equal. apply IH; [|exact Hr].
  intros y [Hy|Hy].
  - subst y. exact Hx.
  - specialize (Hs y Hy). cbn [existsb] in Hs. apply orb_false_elim in Hs; tauto.
Qed.

Lemma qr_part : forall v m, nodupb shape_eqb (filter is_quad (eval_shapes m)) = true ->
  flat_map (call_args v)
    (if basis_required m then match qr_rules m with [] => [] | q => [EQuadRule q] end else []) =
  flat_map doc_qr (filter is_quad (eval_shapes m)).
Proof.
  intros v m Hnd. unfold qr_rules, eval_shapes in *.
  destruct (basis_required m); [|reflexivity].
  unfold uniq_shape. rewrite (dedup_nodup _ [] (fun x (H : In x []) => match H with end) Hnd).
  assert (Hq : forall s, doc_qr s = qr_slots s) by (intros s; destruct s; reflexivity).
  rewrite (flat_map_ext _ _ Hq).
  destruct (filter is_quad (m_shapes m)) as [|q r] eqn:E; [reflexivity|].
  cbn [flat_map call_args app]. rewrite app_nil_r. reflexivity.
Qed.

Lemma mesh_part : forall m, m_refelem m = [] -> mesh_slots (m_mesh m) false = doc_mesh m.
Proof. intros m H. unfold doc_mesh, mesh_slots. rewrite H. reflexivity. Qed.

Lemma field_arg : forall i a, is_field a = true -> doc_field i a = doc_arg_general i a.
Proof. intros i a H; destruct a; try discriminate; reflexivity. Qed.
Lemma mm_arg : forall i a, is_cma a || is_scalar a = true -> doc_arg_mm i a = doc_arg_general i a.
Proof. intros i a H; destruct a; try discriminate; reflexivity. Qed.
Lemma asm_arg : forall i a, is_lma a = false -> doc_arg_asm i a = doc_arg_general i a.
Proof. intros i a H; destruct a; try discriminate; reflexivity. Qed.
Lemma apply_arg : forall i a, is_field a || is_cma a = true -> doc_arg_apply i a = doc_arg_general i a.
Proof. intros i a H; destruct a; try discriminate; reflexivity. Qed.

Lemma cma_spaces_on : forall m t, cma_spaces m = [t] -> cma_on_space m t = true.
Proof.
  intros m t H. unfold cma_spaces in H.
  destruct (filter is_cma (m_args m)) as [|a r] eqn:E; [discriminate|].
  assert (Hin : In a (m_args m)).
  { apply (proj1 (filter_In is_cma a (m_args m))). rewrite E. left; reflexivity. }
  destruct a as [| | |acc t' f']; try discriminate.
  unfold cma_on_space. apply existsb_exists. exists (MCma acc t' f'). split; [exact Hin|].
  destruct (fs_eqb t' f'); inversion H; subst; rewrite fs_eqb_refl; reflexivity.
Qed.

Section Cols.
  (* what [rules_safe] asks of every kernel *)
  Variables (v : variant) (m : metadata).
  Hypotheses (Ho : m_opon m = CellColumn) (Hn : m_name m = KOther) (Hr : m_refelem m = []).

  (* the code's list, segment by segment *)
  Lemma call_list_cols :
    call_list v m =
    (if has_operator m then [(RCell, int_in 0)] else []) ++
    (if cma_is m Apply || cma_is m MatrixMatrix then [] else [(RNlayers, int_in 0)]) ++
    (if has_cma m then [(RNcell2d, int_in 0)] else []) ++
    (if is_intergrid m then call_args v ECellMap else []) ++
    flat_map (call_args v) (args_events (sizes_declared_as_arrays m) 0 (m_args m)) ++
    flat_map (fun f => flat_map (call_args v) (fs_events m f)) (unique_fss m) ++
    mesh_slots (m_mesh m) false ++
    flat_map (call_args v)
      (if basis_required m then match qr_rules m with [] => [] | q => [EQuadRule q] end else []).
  Proof.
    unfold call_list, walk. rewrite Ho, Hn, Hr, !flat_map_app, flat_map_flat_map, !flat_map_if.
    cbn [flat_map app]. rewrite !app_nil_r. reflexivity.
  Qed.

  Section General.
    Hypotheses (Hig : is_intergrid m = false) (Hc : cma_operation m = None)
               (Hops : forallb ops_in_code_order (m_funcs m) = true)
               (Hq : v_basis_in_shape_order v || quad_then_eval [] (eval_shapes m) = true).

    Lemma fs_general : forall f, flat_map (call_args v) (fs_events m f) = doc_fs_general m f.
    Proof.
      intros f. pose proof (has_cma_operation m) as Hcma. rewrite Hc in Hcma.
      unfold fs_events, doc_fs_general, cma_is.
      rewrite Hig, Hc, Ho, Hn, (no_cma_on_space m f Hcma).
      fold (basis_events m f). cbn [negb andb]. rewrite !flat_map_app, (basis_part v m f Hops Hq).
      destruct (field_on_space m f); cbn [flat_map call_args app in_cols]; rewrite ?app_nil_r; reflexivity.
    Qed.

    Lemma rules_general :
      forallb no_xory1d (m_args m) = true ->
      nodupb shape_eqb (filter is_quad (eval_shapes m)) = true ->
      erase_list (doc_general m false) = erase_list (call_list v m).
    Proof.
      intros Hx Hnd. rewrite call_list_cols, has_operator_split, has_cma_operation.
      unfold doc_general, cma_is. rewrite Hig, Hc, Hr, orb_false_r.
      rewrite (qr_part v m Hnd), (flat_map_ext _ _ fs_general), (mesh_part m Hr).
      cbn [orb doc_refelem existsb map]. rewrite !erase_app.
      rewrite (args_part v _ doc_arg_general _ 0 Hx (fun _ _ _ => eq_refl)). reflexivity.
    Qed.
  End General.

  (* the other categories: the guide is silent about meta_funcs and meta_mesh, [rules_safe] asks for
     neither, and the list ends with the function-space blocks *)
  Section Plain.
    Hypothesis Hp : plain m = true.
    Let Hf : m_funcs m = [] := proj1 (plain_inv m Hp).
    Let Hm : m_mesh m = [] := proj2 (plain_inv m Hp).

    Section Intergrid.
      Hypotheses (Hig : is_intergrid m = true) (Hfl : forallb is_field (m_args m) = true).

      Lemma fs_intergrid : forall f, In f (unique_fss m) ->
        flat_map (call_args v) (fs_events m f) = doc_fs_intergrid m f.
      Proof.
        intros f Hin. unfold fs_events, doc_fs_intergrid.
        rewrite Hig, Hf, Ho, Hn, (fields_fos m f Hfl Hin), (no_cma_on_space m f (fields_no_cma m Hfl)).
        cbn [negb andb func_of app]. rewrite andb_false_r. cbn [app flat_map].
        destruct (mesh_of_space (m_args m) f) as [[|]|]; reflexivity.
      Qed.

      Lemma rules_intergrid : forallb no_xory1d (m_args m) = true ->
        erase_list (doc_intergrid m) = erase_list (call_list v m).
      Proof.
        intros Hx. pose proof (fields_no_cma m Hfl) as Hnc.
        assert (Hc : cma_operation m = None).
        { rewrite has_cma_operation in Hnc. destruct (cma_operation m); [discriminate|reflexivity]. }
        rewrite call_list_cols, has_operator_split.
        unfold doc_intergrid, cma_is, basis_required. rewrite Hig, Hc, Hm, Hf, Hnc, (fields_no_lma _ Hfl).
        rewrite (flat_map_ext_in _ _ _ fs_intergrid).
        cbn [orb existsb flat_map mesh_slots]. rewrite !app_nil_r, !erase_app.
        rewrite (args_part_on is_field v _ doc_field _ 0 Hx Hfl field_arg). reflexivity.
      Qed.
    End Intergrid.

    Section Cma.
      Hypothesis Hig : is_intergrid m = false.

      Section MatrixMatrix.
        Hypotheses (Hc : cma_operation m = Some MatrixMatrix)
                   (Hcs : forallb (fun a => is_cma a || is_scalar a) (m_args m) = true).

        Lemma fs_mm : forall f, flat_map (call_args v) (fs_events m f) = [].
        Proof.
          intros f. unfold fs_events, cma_is. rewrite Hig, Hc, Hf, Hn, (no_fields_fos m f Hcs).
          cbn [negb andb func_of app]. destruct (cma_on_space m f); reflexivity.
        Qed.

        Lemma rules_mm : forallb no_xory1d (m_args m) = true ->
          erase_list (doc_mm m) = erase_list (call_list v m).
        Proof.
          intros Hx. rewrite call_list_cols, has_operator_split, has_cma_operation.
          unfold doc_mm, cma_is, basis_required. rewrite Hig, Hc, Hm, Hf, orb_true_r.
          rewrite (flat_map_nil_all _ _ fs_mm).
          cbn [orb existsb flat_map mesh_slots]. rewrite !app_nil_r, !erase_app.
          rewrite (args_part_on _ v _ doc_arg_mm _ 0 Hx Hcs mm_arg). reflexivity.
        Qed.
      End MatrixMatrix.

      Section Assembly.
        Hypothesis Hc : cma_operation m = Some Assembly.

        Lemma fs_asm : forall f, flat_map (call_args v) (fs_events m f) = doc_fs_asm m f.
        Proof.
          intros f. unfold fs_events, doc_fs_asm, cma_is. rewrite Hig, Hc, Hf, Ho, Hn.
          cbn [negb andb func_of app].
          destruct (field_on_space m f), (cma_on_space m f); reflexivity.
        Qed.

        Lemma rules_assembly : lma_first_only m = true -> forallb no_xory1d (m_args m) = true ->
          erase_list (doc_assembly m) = erase_list (call_list v m).
        Proof.
          intros Hl Hx. rewrite call_list_cols, has_operator_split, has_cma_operation.
          unfold doc_assembly, cma_is, basis_required. rewrite Hig, Hc, Hm, Hf, orb_true_r.
          rewrite (flat_map_ext _ _ fs_asm).
          (* the single LMA operator comes first: its ncell_3d is the guide's rule 4, the rest follows
             rule 5 *)
          unfold lma_first_only in Hl. destruct (m_args m) as [|[| |k acc t f|] r]; try discriminate.
          cbn [is_lma andb] in Hl. apply negb_true_iff in Hl.
          cbn [forallb] in Hx. apply andb_prop in Hx; destruct Hx as [_ Hxr].
          cbn [first_lma is_lma doc_args doc_arg_asm args_events arg_events].
          cbn [orb existsb flat_map mesh_slots]. rewrite flat_map_app, !app_nil_r, !erase_app.
          rewrite (args_part_on (fun a => negb (is_lma a)) v _ doc_arg_asm r 1 Hxr).
          - reflexivity.
          - apply forallb_forall. intros a Ha. apply negb_true_iff.
            destruct (is_lma a) eqn:E; [|reflexivity].
            rewrite <- Hl. symmetry. apply existsb_exists. exists a. tauto.
          - intros i a Ha. apply asm_arg, negb_true_iff, Ha.
        Qed.
      End Assembly.

      Section Application.
        Variable t : fspace.
        Hypotheses (Hc : cma_operation m = Some Apply)
                   (Hfc : forallb (fun a => is_field a || is_cma a) (m_args m) = true)
                   (Hcs : cma_spaces m = [t]) (Hu : unique_fss m = [t]) (Hfos : field_on_space m t = true).

        Lemma rules_apply : forallb no_xory1d (m_args m) = true ->
          erase_list (doc_apply m) = erase_list (call_list v m).
        Proof.
          intros Hx. rewrite call_list_cols, has_operator_split, has_cma_operation.
          unfold doc_apply, cma_is, basis_required. rewrite Hig, Hc, Hm, Hf, Hcs, Hu, orb_true_r.
          cbn [flat_map]. unfold fs_events, cma_is.
          rewrite Hig, Hc, Hf, Ho, Hn, Hfos, (cma_spaces_on m t Hcs).
          cbn [negb andb orb func_of existsb flat_map mesh_slots map]. rewrite !app_nil_r, !erase_app.
          rewrite (args_part_on _ v _ doc_arg_apply _ 0 Hx Hfc apply_arg). reflexivity.
        Qed.
      End Application.
    End Cma.
  End Plain.
End Cols.

Theorem walk_matches_rules_ : forall v m, rules_safe v m = true ->
  erase_list (doc_list m) = erase_list (call_list v m).
Proof.
  intros v m H. unfold rules_safe in H. rewrite !andb_true_iff in H.
  destruct H as [[[[[[[Ho Hn] Hx] Hr] Hops] Hq] Hnd] Hcat].
  apply is_cell_column_eq in Ho. apply is_none_hd in Hr.
  assert (Hn' : m_name m = KOther) by (destruct (m_name m); [reflexivity|discriminate|discriminate]).
  unfold doc_list. destruct (is_intergrid m) eqn:Hig.
  - apply andb_prop in Hcat; destruct Hcat as [Hp Hfl]. apply rules_intergrid; assumption.
  - destruct (cma_operation m) as [[| |]|] eqn:Hc.
    + apply andb_prop in Hcat; destruct Hcat as [Hp Hl]. apply rules_assembly; assumption.
    + rewrite !andb_true_iff in Hcat. destruct Hcat as [[Hp Hfc] Hs].
      destruct (cma_spaces m) as [|t [|t2 r2]] eqn:Hcs; try discriminate.
      destruct (unique_fss m) as [|u [|u2 r3]] eqn:Hu; try discriminate.
      apply andb_prop in Hs; destruct Hs as [Htu Hfos]. apply fs_eqb_eq in Htu. subst u.
      apply (rules_apply v m Ho Hn' Hr Hp Hig t); assumption.
    + apply andb_prop in Hcat; destruct Hcat as [Hp Hcs]. apply rules_mm; assumption.
    + rewrite Ho. cbn [is_domain]. apply rules_general; assumption.
Qed.

