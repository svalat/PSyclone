(* C21 — per-hook agreement of KernCallArgList and KernStubArgList ([event_agree_]) and the fact that
   every hook invocation of the walk of [safe] metadata meets its condition ([walk_ok]); the whole
   argument lists then agree by flat_map congruence (Properties/C21.v).  Also the metadata that refute
   the unrestricted statement and the examples showing that [safe] is not empty. *)
From Coq Require Import List Bool Arith.
Import ListNotations.
From PV Require Import C21.Model C21.Safe.

Lemma kind_eqb_eq : forall a b, kind_eqb a b = true -> a = b.
Proof. intros a b H; destruct a, b; simpl in H; congruence. Qed.

Lemma forallb_flat_map : forall {A B} (p : B -> bool) (f : A -> list B) (l : list A),
  forallb p (flat_map f l) = forallb (fun x => forallb p (f x)) l.
Proof.
  intros A B p f l; induction l as [|x r IH]; simpl; [reflexivity|].
  rewrite forallb_app, IH; reflexivity.
Qed.

Lemma flat_map_ext_forallb : forall {A B} (p : A -> bool) (f g : A -> list B) (l : list A),
  (forall x, p x = true -> f x = g x) -> forallb p l = true -> flat_map f l = flat_map g l.
Proof.
  intros A B p f g l Hfg; induction l as [|x r IH]; simpl; intros H; [reflexivity|].
  apply andb_prop in H; destruct H as [Hx Hr].
  rewrite (Hfg x Hx), (IH Hr); reflexivity.
Qed.

Lemma flat_map_map_ext_forallb : forall {A B C} (p : A -> bool) (h : B -> C) (f g : A -> list B) (l : list A),
  (forall x, p x = true -> map h (f x) = map h (g x)) -> forallb p l = true ->
  map h (flat_map f l) = map h (flat_map g l).
Proof.
  intros A B C p h f g l Hfg; induction l as [|x r IH]; simpl; intros H; [reflexivity|].
  apply andb_prop in H; destruct H as [Hx Hr].
  rewrite !map_app, (Hfg x Hx), (IH Hr); reflexivity.
Qed.

Section BasisOrder.
  Variables (Q : shape -> slot) (E : fspace -> slot) (targets : list fspace).
  Lemma basis_order_gen : forall l seen, quad_then_eval seen l = true ->
    map Q (dedup shape_eqb seen (filter is_quad l)) ++
    (if existsb (shape_eqb Evaluator) l then map E targets else []) =
    flat_map (fun s => if is_quad s then [Q s] else map E targets) l.
  Proof.
    induction l as [|s r IH]; intros seen H; [reflexivity|].
    cbn [quad_then_eval] in H. cbn [filter flat_map existsb].
    destruct (is_quad s) eqn:Hq.
    - apply andb_prop in H; destruct H as [Hn Hr].
      apply negb_true_iff in Hn. cbn [dedup]. rewrite Hn. cbn [map app].
      assert (He : shape_eqb Evaluator s = false) by (destruct s; simpl in *; congruence).
      rewrite He. cbn [orb]. rewrite (IH _ Hr). reflexivity.
    - destruct r as [|s' r']; [|discriminate].
      assert (He : shape_eqb Evaluator s = true) by (destruct s; simpl in *; congruence).
      rewrite He. cbn. rewrite app_nil_r. reflexivity.
  Qed.
  Lemma basis_order : forall l, quad_then_eval [] l = true ->
    basis_quadrature_first Q E l targets = basis_in_shape_order Q E l targets.
  Proof. intros l H. unfold basis_quadrature_first, basis_in_shape_order, uniq_shape. apply basis_order_gen, H. Qed.
End BasisOrder.

Lemma dedup_quads : forall l seen, quad_then_eval seen l = true ->
  dedup shape_eqb seen (filter is_quad l) = filter is_quad l.
Proof.
  induction l as [|s r IH]; intros seen H; [reflexivity|].
  cbn [quad_then_eval] in H. cbn [filter]. destruct (is_quad s) eqn:Hq.
  - apply andb_prop in H; destruct H as [Hn Hr]. apply negb_true_iff in Hn.
    cbn [dedup]. rewrite Hn, (IH _ Hr). reflexivity.
  - destruct r; [reflexivity|discriminate].
Qed.

Lemma event_agree_ : forall v e, ev_ok v true e = true -> call_args v e = stub_args v e.
Proof.
  intros v e H; destruct e; cbn [ev_ok kind_ok negb orb] in H; cbn [call_args stub_args];
    try reflexivity; try discriminate.
  (* left, in the order of [event]: mesh_height; field and field_vector (kind); the two stencil sizes;
     operator and scalar (kind); fs_common and fs_compulsory_field; basis and diff_basis *)
  - destruct o; simpl in *; congruence.
  - apply kind_eqb_eq in H; subst; reflexivity.
  - apply kind_eqb_eq in H; subst; reflexivity.
  - destruct (v_sizes_per_arg v); [reflexivity|]. cbn in H. apply negb_true_iff in H; subst; reflexivity.
  - destruct (v_sizes_per_arg v); [reflexivity|]. cbn in H. subst; reflexivity.
  - apply kind_eqb_eq in H; subst; reflexivity.
  - apply kind_eqb_eq in H; subst; reflexivity.
  - destruct o; simpl in *; congruence.
  - destruct o; simpl in *; congruence.
  - destruct (v_basis_in_shape_order v); [reflexivity|]. apply basis_order; exact H.
  - destruct (v_basis_in_shape_order v); [reflexivity|]. apply basis_order; exact H.
Qed.

Lemma vec_slots_erase : forall n i c a b,
  a_ty a = a_ty b -> a_rank a = a_rank b -> a_intent a = a_intent b ->
  map erase_kind (vec_slots i a c n) = map erase_kind (vec_slots i b c n).
Proof.
  induction n as [|n IH]; intros i c a b H1 H2 H3; [reflexivity|].
  cbn [vec_slots map]. rewrite (IH i (S c) a b H1 H2 H3).
  unfold erase_kind; cbn [fst snd]; rewrite H1, H2, H3; reflexivity.
Qed.

Lemma event_agree_modkind_ : forall v e, ev_ok v false e = true ->
  map erase_kind (call_args v e) = map erase_kind (stub_args v e).
Proof.
  intros v e H; destruct e; cbn [ev_ok kind_ok negb orb] in H; cbn [call_args stub_args];
    try reflexivity; try discriminate.
  (* the same hooks as in [event_agree_]; of those whose kind matters only field_vector is left *)
  - destruct o; simpl in *; congruence.
  - apply vec_slots_erase; reflexivity.
  - destruct (v_sizes_per_arg v); [reflexivity|]. cbn in H. apply negb_true_iff in H; subst; reflexivity.
  - destruct (v_sizes_per_arg v); [reflexivity|]. cbn in H. subst; reflexivity.
  - destruct o; simpl in *; congruence.
  - destruct o; simpl in *; congruence.
  - destruct (v_basis_in_shape_order v); [reflexivity|]. f_equal. apply basis_order; exact H.
  - destruct (v_basis_in_shape_order v); [reflexivity|]. f_equal. apply basis_order; exact H.
Qed.

Lemma is_cell_column_eq : forall o, is_cell_column o = true -> o = CellColumn.
Proof. intros [| |] H; [reflexivity|discriminate|discriminate]. Qed.

Lemma safe_iff : forall v strict m, safe v strict m = true <->
  m_opon m = CellColumn /\ is_intergrid m = false /\
  forallb (arg_default strict) (m_args m) = true /\
  v_sizes_per_arg v || forallb (stencil_consistent (sizes_declared_as_arrays m)) (m_args m) = true /\
  v_basis_in_shape_order v || quad_then_eval [] (eval_shapes m) = true.
Proof.
  intros v strict m. unfold safe. rewrite !andb_true_iff, negb_true_iff. split.
  - intros [[[[Ho Hig] Hd] Hs] Hq]. auto using is_cell_column_eq.
  - intros (Ho & Hig & Hd & Hs & Hq). rewrite Ho. auto.
Qed.

Lemma stub_supported_inv : forall m, stub_supported m = true ->
  m_opon m = CellColumn /\ is_intergrid m = false.
Proof.
  intros m H. unfold stub_supported in H. rewrite !andb_true_iff, negb_true_iff in H.
  destruct H as [[Ho Hig] _]. split; [apply is_cell_column_eq|]; assumption.
Qed.

Lemma arg_events_ok : forall v strict arr i a,
  arg_default strict a = true -> v_sizes_per_arg v || stencil_consistent arr a = true ->
  forallb (ev_ok v strict) (arg_events arr i a) = true.
Proof.
  intros v strict arr i [t k acc|t k acc f vec st ms|k acc t f|acc t f] Hd Hs;
    cbn [arg_events arg_default] in *.
  - cbn. rewrite Hd. reflexivity.
  - rewrite forallb_app. apply andb_true_intro; split.
    + destruct (Nat.ltb 1 vec); cbn; rewrite Hd; reflexivity.
    + destruct st as [s|]; [|reflexivity].
      (* the stub declares the size of this stencil the way the call passes it *)
      unfold stencil_consistent in Hs; cbn [arg_stencil] in Hs.
      destruct (v_sizes_per_arg v) eqn:Hv.
      * destruct s; cbn; rewrite ?Hv; reflexivity.
      * apply eqb_prop in Hs. subst arr. destruct s; cbn; rewrite ?Hv; reflexivity.
  - cbn. rewrite Hd. reflexivity.
  - reflexivity.
Qed.

Lemma args_events_ok : forall (p : event -> bool) arr l i,
  (forall i a, In a l -> forallb p (arg_events arr i a) = true) ->
  forallb p (args_events arr i l) = true.
Proof.
  intros p arr l; induction l as [|a r IH]; intros i H; [reflexivity|].
  cbn [args_events]. rewrite forallb_app, (H i a (or_introl eq_refl)), IH; [reflexivity|].
  intros j b Hb; apply H; right; exact Hb.
Qed.

Lemma fs_events_ok : forall v strict m f, safe v strict m = true ->
  forallb (ev_ok v strict) (fs_events m f) = true.
Proof.
  intros v strict m f H. apply safe_iff in H. destruct H as (Ho & Hig & _ & _ & Hq).
  unfold fs_events. rewrite Hig, Ho, !forallb_app.
  repeat (apply andb_true_intro; split).
  - destruct (negb (cma_is m MatrixMatrix) && negb false); reflexivity.
  - destruct (field_on_space m f); reflexivity.
  - destruct (cma_on_space m f); [|reflexivity].
    destruct (cma_is m Assembly); [reflexivity|]. destruct (cma_is m Apply); reflexivity.
  - destruct (func_of (m_funcs m) f) as [[[|] [|]]|]; cbn; rewrite ?Hq; reflexivity.
  - destruct (m_name m); try reflexivity. destruct f as [| | | | | | | | | | | | |[|[|n]]|]; reflexivity.
Qed.

Lemma bcs_events_ok : forall v strict l, forallb (ev_ok v strict) (map EOperatorBcsKernel l) = true.
Proof. intros v strict l; induction l as [|x r IH]; [reflexivity|exact IH]. Qed.

Lemma walk_ok : forall v strict m, safe v strict m = true -> forallb (ev_ok v strict) (walk m) = true.
Proof.
  intros v strict m H. pose proof (fun f => fs_events_ok v strict m f H) as Hfs.
  apply safe_iff in H. destruct H as (Ho & Hig & Hd & Hs & _).
  unfold walk. rewrite Hig, Ho, !forallb_app. cbn [forallb ev_ok andb].
  repeat (apply andb_true_intro; split).
  - destruct (has_operator m); reflexivity.
  - destruct (cma_is m Apply || cma_is m MatrixMatrix); reflexivity.
  - destruct (has_cma m); reflexivity.
  - apply args_events_ok. intros i a Ha. apply arg_events_ok.
    + exact (proj1 (forallb_forall _ _) Hd a Ha).
    + destruct (v_sizes_per_arg v); [reflexivity|]. exact (proj1 (forallb_forall _ _) Hs a Ha).
  - rewrite forallb_flat_map. apply forallb_forall. intros f _. apply Hfs.
  - destruct (m_name m); try reflexivity. apply bcs_events_ok.
  - destruct (basis_required m); [|reflexivity]. destruct (qr_rules m); reflexivity.
Qed.

Definition all_default (m : metadata) : bool := forallb (arg_default true) (m_args m).

(* gh_shape = (/ gh_evaluator, gh_quadrature_face /) : testkern_qr_eval_mod with the two shapes swapped *)
Definition witness_shapes : metadata :=
  mkM [MField TReal KRdef AInc W1 1 None None; MField TReal KRdef ARead W2 1 None None;
       MField TReal KRdef ARead W2 1 None None; MField TReal KRdef ARead W3 1 None None]
      [(W1, [Basis]); (W2, [DiffBasis]); (W3, [Basis; DiffBasis])]
      [Evaluator; QFace] [] [] [] CellColumn KOther.

Definition rank_differs (v : variant) (m : metadata) : Prop :=
  length (call_list v m) = length (stub_list v m) /\
  exists n a b, nth_error (map snd (call_list v m)) n = Some a /\
                nth_error (map snd (stub_list v m)) n = Some b /\ a_rank a <> a_rank b.

(* a y1d stencil followed by a cross2d stencil: the stub declares both stencil sizes as scalars *)
Definition witness_stencil : metadata :=
  mkM [MField TReal KRdef AReadWrite W3 1 None None;
       MField TReal KRdef ARead W2 1 (Some SY1d) None;
       MField TReal KRdef ARead W2broken 1 (Some SCross2d) None]
      [] [] [] [] [] CellColumn KOther.

(* operator + vector field + xyoz/edge quadrature & evaluator, cross stencil, reference element, mesh *)
Definition example_safe : metadata :=
  mkM [MOp KRdef AWrite W0 W1; MField TReal KRdef ARead W0 3 None None;
       MField TReal KRdef ARead W2 1 (Some SCross) None; MScalar TInt KIdef ARead;
       MField TReal KRdef AReadWrite W3 1 None None]
      [(W0, [Basis]); (W2, [DiffBasis; Basis])]
      [QXyoz; QEdge; Evaluator] [W0; W1] [OutV; NormF] [AdjacentFace] CellColumn KOther.

Definition example_cma : metadata :=
  mkM [MOp KRdef ARead W2 W3; MCma AWrite W2 W3; MScalar TReal KRdef ARead]
      [] [] [] [] [] CellColumn KOther.
Definition example_mixed : metadata :=
  mkM [MField TReal KRsolver AInc W1 1 None None; MOp KRtran ARead W1 W2; MScalar TReal KRbl ARead]
      [] [] [] [] [] CellColumn KOther.
