(* C21 — where the numbered rules of the user guide, read literally, and the code disagree:
   concrete valid metadata on which doc_list differs from what caller AND stub do (any variant). *)
From Coq Require Import List Bool Arith.
Import ListNotations.
From PV Require Import C21.Model C21.Safe C21.Rules.

Definition doc_differs (m : metadata) : Prop :=
  md_valid m = true /\ stub_supported m = true /\
  forall v, erase_list (doc_list m) <> erase_list (call_list v m) /\
            erase_list (doc_list m) <> erase_list (stub_list v m).
Ltac differs :=
  unfold doc_differs; split; [vm_compute; reflexivity|]; split; [vm_compute; reflexivity|];
  intros [b1 b2]; destruct b1, b2; split; vm_compute; discriminate.

(* General 3.2.4: the XORY1D direction is listed after the stencil dofmap; the code (and the shipped
   kernel testkern_stencil_xory1d_mod) pass size, direction, dofmap *)
Definition w_xory1d : metadata :=
  mkM [MField TReal KRdef AInc W1 1 None None; MField TReal KRdef ARead W2 1 (Some SXory1d) None]
      [] [] [] [] [] CellColumn KOther.

(* CMA application 4-6: the indirection maps are listed after all function-space blocks; the code
   (and the shipped kernel columnwise_op_app_kernel_mod) interleave them per space *)
Definition w_apply : metadata :=
  mkM [MField TReal KRdef AInc W1 1 None None; MField TReal KRdef ARead W2 1 None None; MCma ARead W1 W2]
      [] [] [] [] [] CellColumn KOther.

(* CMA assembly 4-5.1: one ncell_3d before the meta_args loop; the code passes <op>_ncell_3d in front
   of every LMA operator, wherever it stands *)
Definition w_assembly : metadata :=
  mkM [MCma AWrite W2 W3; MOp KRdef ARead W2 W3] [] [] [] [] [] CellColumn KOther.

(* General 4.3: "for each operation ... in the order specified in the metadata"; the code always
   passes basis before diff_basis *)
Definition w_basis_order : metadata :=
  mkM [MField TReal KRdef AInc W1 1 None None] [(W1, [DiffBasis; Basis])] [QXyoz] [] [] [] CellColumn KOther.

(* General 5.1-5.3: the face normals are said to be INTEGER arrays of kind i_def; caller and stub
   declare them real(r_def) *)
Definition w_refelem : metadata :=
  mkM [MField TReal KRdef AInc W1 1 None None] [] [] [] [NormH] [] CellColumn KOther.

(* "Rules for Domain Kernels": identical to general-purpose kernels apart from ncell_2d_no_halos;
   the caller passes the WHOLE dofmap (rank 2), as the shipped testkern_domain_mod expects.
   (No stub exists for operates_on = domain.) *)
Definition w_domain : metadata :=
  mkM [MScalar TReal KRdef ARead; MField TReal KRdef AReadWrite W3 1 None None] [] [] [] [] [] Domain KOther.

(* non-vacuity of walk_matches_rules: rules_safe holds of non-trivial metadata of every category *)
Definition r_general : metadata :=
  mkM [MOp KRdef AWrite W0 W1; MField TReal KRsolver ARead W0 3 None None;
       MField TReal KRdef ARead W2 1 (Some SCross2d) None; MScalar TInt KIdef ARead]
      [(W0, [Basis]); (W2, [Basis; DiffBasis])] [QXyoz; QEdge; Evaluator] [W0; W1] [] [AdjacentFace]
      CellColumn KOther.
Definition r_intergrid : metadata :=
  mkM [MField TReal KRdef AReadWrite W3 1 None (Some Coarse); MField TReal KRdef ARead W1 3 None (Some Fine)]
      [] [] [] [] [] CellColumn KOther.
Definition r_assembly : metadata :=
  mkM [MOp KRdef ARead W2 W3; MCma AWrite W2 W3; MScalar TReal KRdef ARead; MField TReal KRdef ARead W3 1 None None]
      [] [] [] [] [] CellColumn KOther.
Definition r_apply : metadata :=
  mkM [MField TReal KRdef AInc W2 1 None None; MCma ARead W2 W2; MField TReal KRdef ARead W2 1 None None]
      [] [] [] [] [] CellColumn KOther.
Definition r_mm : metadata :=
  mkM [MCma ARead W2 W3; MScalar TReal KRdef ARead; MCma AWrite W2 W3] [] [] [] [] [] CellColumn KOther.
