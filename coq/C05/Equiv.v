(* C05 — observational simulation modulo a set X of excluded names, its congruence rules and the
   generic "rewrite a segment in context" theorem used by every transformation.

   sim X p p' : every terminating, non-faulting run of p from s1 is matched by a run of p' from any
   s2 that agrees with s1 off X: same control state, same visible events (prints and PSyData
   events), final stores agree off X.  X holds the DO variables of the transformed loops and the
   variables introduced by the transformation (the documented exclusions of the property).

   osim R o o' : the same matching between two single outcomes, with an arbitrary relation R between
   the stores.  For runners of fixed fuel it composes along bind_run / iter_run / do_loop, which is
   how the loop proofs of the individual transformations are put together.

   Also here, since Model.v holds definitions only: what the model's boolean tests (mem, nomentionb,
   expr_eqb ... stmts_eqb) imply. *)
From Coq Require Import List ZArith Bool Lia.
Import ListNotations.
From PV Require Import Fort.Syntax Fort.Sem Fort.Facts Fort.Facts3 C05.Model.
Open Scope Z_scope.

Definition xlocs (X : list name) : list loc := map (fun x => (x, @nil Z)) X.

Lemma in_xlocs l X : In l (xlocs X) -> In (fst l) X.
Proof. unfold xlocs. rewrite in_map_iff. intros [x [<- H]]. exact H. Qed.
Lemma in_xlocs_scalar x X : In x X -> In (x, @nil Z) (xlocs X).
Proof. intro H. unfold xlocs. apply in_map_iff. exists x. auto. Qed.
Lemma not_in_xlocs l X : (forall x, In x X -> l <> (x, [])) -> ~ In l (xlocs X).
Proof. unfold xlocs. rewrite in_map_iff. intros H [x [E Hx]]. exact (H x Hx (eq_sym E)). Qed.

Definition agree (X : list name) (s1 s2 : store) : Prop :=
  bnd s2 = bnd s1 /\ forall l, ~ In l (xlocs X) -> val s2 l = val s1 l.

Definition visible (e : event) : bool :=
  match e with Out _ | Enter _ | Leave _ => true | _ => false end.
Definition vis (tr : list event) : list event := filter visible tr.

Lemma vis_app t1 t2 : vis (t1 ++ t2) = vis t1 ++ vis t2.
Proof. apply filter_app. Qed.
Lemma vis_rds ls : vis (rds ls) = [].
Proof. unfold rds. induction ls as [|a ls IH]; [reflexivity|exact IH]. Qed.
Lemma vis_rds_app ls t : vis (rds ls ++ t) = vis t.
Proof. rewrite vis_app, vis_rds. reflexivity. Qed.
Lemma vis_wr l t : vis (Wr l :: t) = vis t.
Proof. reflexivity. Qed.

Lemma upd_same_steq s l v : val s l = v -> steq (upd s l v) s.
Proof.
  intro H. split; [|reflexivity]. intro l'. rewrite val_upd. destruct (loc_eq_dec l' l) as [->|]; congruence.
Qed.

Lemma agree_refl X s : agree X s s.
Proof. split; auto. Qed.
Lemma agree_sym X s1 s2 : agree X s1 s2 -> agree X s2 s1.
Proof. intros [B A]. split; [symmetry; exact B|]. intros l N. symmetry. apply A, N. Qed.
Lemma agree_trans X s1 s2 s3 : agree X s1 s2 -> agree X s2 s3 -> agree X s1 s3.
Proof. intros [A1 A2] [B1 B2]. split; [congruence|]. intros l N. rewrite B2, A2; auto. Qed.
Lemma agree_upd X s1 s2 l v : agree X s1 s2 -> agree X (upd s1 l v) (upd s2 l v).
Proof.
  intros [A1 A2]. split; [exact A1|]. intros l' N. rewrite !val_upd.
  destruct (loc_eq_dec l' l); auto.
Qed.
Lemma agree_upd_r X s1 s2 x v : agree X s1 s2 -> In x X -> agree X s1 (upd s2 (x, []) v).
Proof.
  intros [A1 A2] Hx. split; [exact A1|]. intros l' N. rewrite val_upd.
  destruct (loc_eq_dec l' (x, [])) as [->|]; [exfalso; apply N, in_xlocs_scalar, Hx|auto].
Qed.
Lemma agree_upd_l X s1 s2 x v : agree X s1 s2 -> In x X -> agree X (upd s1 (x, []) v) s2.
Proof. intros A Hx. apply agree_sym, agree_upd_r; [apply agree_sym, A|exact Hx]. Qed.
Lemma steq_agree X s1 s2 : steq s1 s2 -> agree X s1 s2.
Proof. intros [A B]. split; [symmetry; exact B|]. intros l _. symmetry. apply A. Qed.
Lemma agree_nil_steq s1 s2 : agree [] s1 s2 -> steq s1 s2.
Proof. intros [B A]. split; [|symmetry; exact B]. intro l. symmetry. apply A. intros []. Qed.
Lemma agree_weaken X Y s1 s2 : incl X Y -> agree X s1 s2 -> agree Y s1 s2.
Proof.
  intros I [B A]. split; [exact B|]. intros l N. apply A. intro H. exact (N (incl_map _ I l H)).
Qed.
Lemma agree_set x X s1 s2 v : agree (x :: X) s1 s2 -> agree X (upd s1 (x, []) v) (upd s2 (x, []) v).
Proof.
  intros [B A]. split; [exact B|]. intros l N. rewrite !val_upd.
  destruct (loc_eq_dec l (x, [])) as [|Nx]; [reflexivity|]. apply A. intros [Q|Q]; [exact (Nx (eq_sym Q))|exact (N Q)].
Qed.
Lemma agree1_val x s1 s2 : agree [x] s1 s2 -> forall l, l <> (x, []) -> val s2 l = val s1 l.
Proof. intros [_ A] l N. apply A, not_in_xlocs. intros y [<-|[]]. exact N. Qed.
Lemma agree_upd_steq x s1 s2 v : agree [x] s1 s2 -> steq (upd s1 (x, []) v) (upd s2 (x, []) v).
Proof. intro A. apply agree_nil_steq, agree_set, A. Qed.
Lemma agree_steq_r X s1 s2 s3 : agree X s1 s2 -> steq s2 s3 -> agree X s1 s3.
Proof. intros [A1 A2] [B1 B2]. split; [congruence|]. intros l N. rewrite <- B1. auto. Qed.

Definition nomention (X : list name) (ns : list name) : Prop := forall x, In x X -> ~ In x ns.

Lemma nomention_app X a b : nomention X (a ++ b) <-> nomention X a /\ nomention X b.
Proof.
  unfold nomention. split.
  - intro H. split; intros x Hx N; apply (H x Hx); apply in_or_app; auto.
  - intros [H1 H2] x Hx N. apply in_app_or in N as [N|N]; [eapply H1|eapply H2]; eauto.
Qed.
Lemma nomention_incl X a b : incl a b -> nomention X b -> nomention X a.
Proof. intros I H x Hx N. exact (H x Hx (I _ N)). Qed.

Lemma eval_agree X s1 s2 e :
  agree X s1 s2 -> nomention X (enames e) -> eval s2 e = eval s1 e /\ ereads s2 e = ereads s1 e.
Proof.
  intros [A1 A2] N. apply expr_frame; [exact A1|]. intros l Hl. apply A2. intro Hx.
  exact (N _ (in_xlocs _ _ Hx) (ereads_names _ _ _ Hl)).
Qed.

Lemma evals_agree X s1 s2 es :
  agree X s1 s2 -> nomention X (flat_map enames es) ->
  map (eval s2) es = map (eval s1) es /\ flat_map (ereads s2) es = flat_map (ereads s1) es.
Proof.
  intros [A1 A2] N. apply exprs_frame; [exact A1|]. intros l Hl. apply A2. intro Hx.
  exact (N _ (in_xlocs _ _ Hx) (ereads_names_list _ _ _ Hl)).
Qed.

Definition nomentionb (X ns : list name) : bool := forallb (fun x => negb (mem x ns)) X.

Lemma mem_In x l : mem x l = true <-> In x l.
Proof.
  unfold mem. rewrite existsb_exists. split.
  - intros [y [H E]]. apply Nat.eqb_eq in E. subst; exact H.
  - intro H. exists x. split; [exact H|apply Nat.eqb_refl].
Qed.
Lemma negb_mem_ok x l : negb (mem x l) = true -> ~ In x l.
Proof. intros H Hi. apply mem_In in Hi. rewrite Hi in H. discriminate. Qed.
Lemma negb_eqb_ok (a b : name) : negb (Nat.eqb a b) = true -> a <> b.
Proof. intro H. apply Nat.eqb_neq, negb_true_iff, H. Qed.
Lemma nomentionb_ok X ns : nomentionb X ns = true -> nomention X ns.
Proof.
  unfold nomentionb. rewrite forallb_forall. intros H x Hx. apply negb_mem_ok, H, Hx.
Qed.

Lemma expr_eqb_eq : forall a b, expr_eqb a b = true -> a = b.
Proof.
  induction a as [z|x|x ix IH|o e IH|o l r IHl IHr|f args IH] using expr_ind'; intros b H;
    destruct b as [z'|x'|x' ix'|o' e'|o' l' r'|f' args']; cbn [expr_eqb] in H; try discriminate.
  - apply Z.eqb_eq in H. congruence.
  - apply Nat.eqb_eq in H. congruence.
  - apply andb_true_iff in H as [H1 H2]. apply Nat.eqb_eq in H1. subst x'. f_equal.
    revert ix' H2. induction IH as [|e ix He _ IHix]; intros [|e' ix'] H2; try discriminate; [reflexivity|].
    apply andb_true_iff in H2 as [Ha Hb]. f_equal; [apply He, Ha|apply IHix, Hb].
  - apply andb_true_iff in H as [H1 H2]. destruct o, o'; try discriminate; f_equal; apply IH, H2.
  - apply andb_true_iff in H as [H H3]. apply andb_true_iff in H as [H1 H2].
    rewrite (IHl _ H2), (IHr _ H3). destruct o, o'; try discriminate; reflexivity.
  - apply andb_true_iff in H as [H1 H2].
    assert (args = args').
    { revert args' H2. induction IH as [|e ix He _ IHix]; intros [|e' ix'] H2; try discriminate; [reflexivity|].
      apply andb_true_iff in H2 as [Ha Hb]. f_equal; [apply He, Ha|apply IHix, Hb]. }
    subst. destruct f, f'; try discriminate; reflexivity.
Qed.

Lemma exprs_eqb_eq : forall a b, exprs_eqb a b = true -> a = b.
Proof.
  induction a as [|e a IH]; intros [|e' b] H; try discriminate; [reflexivity|].
  cbn [exprs_eqb] in H. apply andb_true_iff in H as [H1 H2]. f_equal; [apply expr_eqb_eq, H1|apply IH, H2].
Qed.

Lemma stmt_eqb_eq : forall a b, stmt_eqb a b = true -> a = b.
Proof.
  assert (L : forall l, Forall (fun a => forall b, stmt_eqb a b = true -> a = b) l ->
              forall l', (fix go (l1 l2 : list stmt) : bool :=
                            match l1, l2 with
                            | [], [] => true
                            | u :: l1', v :: l2' => stmt_eqb u v && go l1' l2'
                            | _, _ => false
                            end) l l' = true -> l = l').
  { induction 1 as [|a l Ha _ IH]; intros [|b l'] H; try discriminate; [reflexivity|].
    apply andb_true_iff in H as [H1 H2]. f_equal; [apply Ha, H1|apply IH, H2]. }
  induction a as [x ix e|c th el Ht He|x lo hi st body Hb| | | |es|r body Hb|d body Hb] using stmt_ind';
    intros b H; destruct b; cbn [stmt_eqb] in H; try discriminate; try reflexivity.
  - apply andb_true_iff in H as [H H3]. apply andb_true_iff in H as [H1 H2].
    apply Nat.eqb_eq in H1. apply exprs_eqb_eq in H2. apply expr_eqb_eq in H3. congruence.
  - apply andb_true_iff in H as [H H3]. apply andb_true_iff in H as [H1 H2].
    apply expr_eqb_eq in H1. rewrite (L _ Ht _ H2), (L _ He _ H3). congruence.
  - repeat (apply andb_true_iff in H as [H ?]). apply Nat.eqb_eq in H.
    repeat match goal with Hx : expr_eqb _ _ = true |- _ => apply expr_eqb_eq in Hx end.
    match goal with Hx : _ body _ = true |- _ => rewrite (L _ Hb _ Hx) end. congruence.
  - apply exprs_eqb_eq in H. congruence.
  - apply andb_true_iff in H as [H1 H2]. apply Nat.eqb_eq in H1. rewrite (L _ Hb _ H2). congruence.
  - apply andb_true_iff in H as [H1 H2]. apply Nat.eqb_eq in H1. rewrite (L _ Hb _ H2). congruence.
Qed.

Lemma stmts_eqb_eq : forall a b, stmts_eqb a b = true -> a = b.
Proof.
  induction a as [|s a IH]; intros [|s' b] H; try discriminate; [reflexivity|].
  cbn [stmts_eqb] in H. apply andb_true_iff in H as [H1 H2]. f_equal; [apply stmt_eqb_eq, H1|apply IH, H2].
Qed.

Definition osim (R : store -> store -> Prop) (o o' : outcome) : Prop :=
  forall s1 tr c, o = Ok s1 tr c -> exists s2 tr', o' = Ok s2 tr' c /\ R s1 s2 /\ vis tr' = vis tr.

Lemma osim_weaken (R R' : store -> store -> Prop) o o' :
  (forall s1 s2, R s1 s2 -> R' s1 s2) -> osim R o o' -> osim R' o o'.
Proof.
  intros HR H s1 tr c E. destruct (H _ _ _ E) as [s2 [tr' [E' [H1 V]]]].
  exists s2, tr'. split; [exact E'|]. split; [apply HR, H1|exact V].
Qed.

Lemma osim_prepend (R : store -> store -> Prop) t t' o o' : vis t' = vis t -> osim R o o' -> osim R (prepend t o) (prepend t' o').
Proof.
  intros V H s1 tr c E. apply prepend_ok_inv in E as [tr0 [E ->]].
  destruct (H _ _ _ E) as [s2 [tr' [-> [HR V']]]]. exists s2, (t' ++ tr').
  split; [reflexivity|]. split; [exact HR|]. rewrite !vis_app. congruence.
Qed.

Lemma osim_map_ctl (R : store -> store -> Prop) g o o' : osim R o o' -> osim R (map_ctl g o) (map_ctl g o').
Proof.
  intros H s1 tr c E. destruct o as [s0 t0 c0| |]; try discriminate. injection E as <- <- <-.
  destruct (H _ _ _ eq_refl) as [s2 [tr' [-> HR]]]. exists s2, tr'. split; [reflexivity|exact HR].
Qed.

Lemma osim_bind (R : store -> store -> Prop) g o o' (K K' : runner) :
  osim R o o' -> (forall s1 s2, R s1 s2 -> osim R (K s1) (K' s2)) ->
  osim R (bind_run g o K) (bind_run g o' K').
Proof.
  intros H HK s1 tr c E. destruct o as [s0 t0 c0| |]; try discriminate.
  destruct (H _ _ _ eq_refl) as [s2 [t2 [-> [HR V]]]].
  destruct c0; cbn [bind_run] in *;
    [exact (osim_prepend R _ _ _ _ V (HK _ _ HR) _ _ _ E)|injection E as <- <- <-; eauto..].
Qed.

Lemma osim_iter_run (R : store -> store -> Prop) (run run' : runner) x v s1 s2 :
  osim R (run (upd s1 (x, []) v)) (run' (upd s2 (x, []) v)) ->
  osim R (iter_run run x v s1) (iter_run run' x v s2).
Proof. intro H. rewrite !iter_run_eq. apply osim_prepend; [reflexivity|]. apply osim_map_ctl, H. Qed.

Lemma osim_do_loop (R : store -> store -> Prop) (run run' : runner) x l t :
  (forall s1 s2 v, R s1 s2 -> R (upd s1 (x, []) v) (upd s2 (x, []) v)) ->
  (forall v s1 s2, R s1 s2 -> osim R (run (upd s1 (x, []) v)) (run' (upd s2 (x, []) v))) ->
  forall n k s1 s2, R s1 s2 -> osim R (do_loop run x l t n k s1) (do_loop run' x l t n k s2).
Proof.
  intros Hupd Hit. induction n as [|n IH]; intros k s1 s2 HR.
  - intros s1' tr c E. injection E as <- <- <-. eexists. eexists. split; [reflexivity|].
    split; [apply Hupd, HR|reflexivity].
  - rewrite !do_loop_S. apply osim_bind; [apply osim_iter_run, Hit, HR|]. intros sa sb. apply IH.
Qed.

Lemma osim_iters (R : store -> store -> Prop) (run run' : runner) x vs :
  (forall v s1 s2, R s1 s2 -> osim R (run (upd s1 (x, []) v)) (run' (upd s2 (x, []) v))) ->
  forall s1 s2, R s1 s2 -> osim R (iters run x vs s1) (iters run' x vs s2).
Proof.
  intros Hit. induction vs as [|v vs IH]; intros s1 s2 HR.
  - intros s1' tr c E. injection E as <- <- <-. exists s2, []. auto.
  - rewrite !iters_cons. apply osim_bind; [apply osim_iter_run, Hit, HR|exact IH].
Qed.

Lemma exec_osim_refl X g g' p s1 s2 :
  (g <= g')%nat -> nomention X (rnames p) -> agree X s1 s2 ->
  osim (agree X) (exec g p s1) (exec g' p s2).
Proof.
  intros L N [A1 A2] s1' tr c E.
  destruct (exec_frame_names g p s1 s1' tr c s2 E A1) as [s2' [R1 [R2 [R3 [R4 R5]]]]].
  { intros l Hl. apply A2. intro Hx. exact (N _ (in_xlocs _ _ Hx) Hl). }
  exists s2', tr. split; [eapply exec_mono; [exact R1|discriminate|exact L]|]. split; [|reflexivity]. split.
  - rewrite R2, A1. symmetry. eapply exec_bnd; exact E.
  - intros l Nl. apply R4. apply A2, Nl.
Qed.

Lemma seq_runs_post (Q : store -> store -> list event -> ctl -> Prop) rs :
  (forall s, Q s s [] CNormal) ->
  (forall s s1 s2 t1 t2 c, Q s s1 t1 CNormal -> Q s1 s2 t2 c -> Q s s2 (t1 ++ t2) c) ->
  Forall (fun r : runner => forall s s' tr c, r s = Ok s' tr c -> Q s s' tr c) rs ->
  forall s s' tr c, seq_runs rs s = Ok s' tr c -> Q s s' tr c.
Proof.
  intros Q0 Qseq H. induction H as [|r rs Hr _ IH]; intros s s' tr c E.
  - inversion E; subst. apply Q0.
  - cbn [seq_runs] in E. apply then_run_ok_inv in E as [[s1 [t1 [t2 [E1 [E2 ->]]]]]|[_ E1]].
    + eapply Qseq; [apply Hr, E1|apply IH, E2].
    + apply Hr, E1.
Qed.

Lemma iters_post (Q : store -> store -> list event -> ctl -> Prop) run x vs :
  (forall s, Q s s [] CNormal) ->
  (forall s s1 s2 t1 t2 c, Q s s1 t1 CNormal -> Q s1 s2 t2 c -> Q s s2 (t1 ++ t2) c) ->
  (forall v s s' tr c, run (upd s (x, []) v) = Ok s' tr c -> Q s s' (Wr (x, []) :: tr) (cyc2norm c)) ->
  forall s s' tr c, iters run x vs s = Ok s' tr c -> Q s s' tr c.
Proof.
  intros Q0 Qseq H. apply seq_runs_post; [exact Q0|exact Qseq|].
  apply Forall_forall. intros r Hr. apply in_map_iff in Hr as [v [<- _]].
  intros s s' tr c E. apply iter_run_ok_inv in E as [tr0 [c0 [E [-> ->]]]]. exact (H v _ _ _ _ E).
Qed.

Lemma iters_unchanged g body x vs s s' tr c :
  iters (exec g body) x vs s = Ok s' tr c ->
  bnd s' = bnd s /\ forall l, l <> (x, []) -> ~ In (fst l) (wnames body) -> val s' l = val s l.
Proof.
  revert s s' tr c.
  apply (iters_post (fun s s' _ _ => bnd s' = bnd s /\
           forall l, l <> (x, []) -> ~ In (fst l) (wnames body) -> val s' l = val s l)).
  - auto.
  - intros s s1 s2 _ _ _ [B1 U1] [B2 U2]. split; [congruence|]. intros l N1 N2. rewrite U2, U1; auto.
  - intros v s s' tr c E. split; [apply (exec_bnd _ _ _ _ _ _ E)|].
    intros l N1 N2. rewrite (exec_unchanged_names _ _ _ _ _ _ l E N2). apply val_upd_other, N1.
Qed.

Definition sim (X : list name) (p p' : list stmt) : Prop :=
  forall f s1 s2 s1' tr c, agree X s1 s2 -> exec f p s1 = Ok s1' tr c ->
    exists f' s2' tr', exec f' p' s2 = Ok s2' tr' c /\ agree X s1' s2' /\ vis tr' = vis tr.

Lemma sim_trans X a b c : sim X a b -> sim X b c -> sim X a c.
Proof.
  intros H1 H2 f s1 s2 s1' tr ct A E.
  destruct (H1 _ _ _ _ _ _ (agree_refl X s1) E) as [f1 [sa [ta [E1 [A1 V1]]]]].
  destruct (H2 _ _ _ _ _ _ A E1) as [f2 [sb [tb [E2 [A2 V2]]]]].
  exists f2, sb, tb. split; [exact E2|]. split; [eapply agree_trans; eassumption|congruence].
Qed.

Lemma sim_refl X p : nomention X (rnames p) -> sim X p p.
Proof.
  intros N f s1 s2 s1' tr c A E.
  destruct (exec_osim_refl X f f p s1 s2 (le_n f) N A _ _ _ E) as [s2' [tr' H]]. exists f, s2', tr'. exact H.
Qed.

Lemma ok_not_oof s tr c : Ok s tr c <> OutOfFuel.
Proof. discriminate. Qed.

Lemma sim_app X a a' b b' : sim X a a' -> sim X b b' -> sim X (a ++ b) (a' ++ b').
Proof.
  intros Ha Hb f s1 s2 s1' tr c A E.
  apply exec_app_inv in E as [[sa [ta [tb [E1 [E2 ->]]]]]|[Nc E1]].
  - destruct (Ha _ _ _ _ _ _ A E1) as [f1 [s2a [t2a [F1 [A1 V1]]]]].
    destruct (Hb _ _ _ _ _ _ A1 E2) as [f2 [s2b [t2b [F2 [A2 V2]]]]].
    exists (f1 + f2)%nat, s2b, (t2a ++ t2b). split; [eapply exec_app_ok; eassumption|].
    split; [exact A2|]. rewrite !vis_app. congruence.
  - destruct (Ha _ _ _ _ _ _ A E1) as [f1 [s2a [t2a [F1 [A1 V1]]]]].
    exists f1, s2a, t2a. split; [apply exec_app_abrupt; assumption|]. auto.
Qed.

Lemma sim_frame X pre post a a' :
  nomention X (rnames pre) -> nomention X (rnames post) -> sim X a a' -> sim X (pre ++ a ++ post) (pre ++ a' ++ post).
Proof. intros N1 N2 H. apply sim_app; [apply sim_refl, N1|]. apply sim_app; [exact H|apply sim_refl, N2]. Qed.

Lemma exec_single_inv f st s s' tr c :
  exec f [st] s = Ok s' tr c -> exists f', f = S f' /\ exec_stmt (exec f') st s = Ok s' tr c.
Proof.
  destruct f as [|f']; [discriminate|]. intro E. exists f'. split; [reflexivity|].
  rewrite exec_cons in E. apply then_run_ok_inv in E as [[s1 [tr1 [tr2 [E1 [E2 ->]]]]]|[_ E1]]; [|exact E1].
  destruct f' as [|f'']; [discriminate|]. cbn [exec] in E2. inversion E2; subst.
  rewrite app_nil_r. exact E1.
Qed.

Lemma exec_stmt_fuel_mono f f' st s r :
  exec_stmt (exec f) st s = r -> r <> OutOfFuel -> (f <= f')%nat -> exec_stmt (exec f') st s = r.
Proof.
  intros E N L. subst r. apply exec_stmt_mono; [|exact N].
  intros ss s0 N0. apply exec_mono_eq; assumption.
Qed.

Lemma exec_single_intro f st s s' tr c :
  exec_stmt (exec f) st s = Ok s' tr c -> exec (S (S f)) [st] s = Ok s' tr c.
Proof.
  intro E. rewrite exec_single. apply (exec_stmt_fuel_mono f (S f) st s _ E); [discriminate|lia].
Qed.

Lemma sim_if X c th th' el el' :
  nomention X (enames c) -> sim X th th' -> sim X el el' -> sim X [SIf c th el] [SIf c th' el'].
Proof.
  intros N Ht He f s1 s2 s1' tr ct A E.
  apply exec_single_inv in E as [f0 [-> E]]. cbn [exec_stmt] in E.
  destruct (eval_agree X s1 s2 c A N) as [Ev Er].
  destruct (eval s1 c) as [v|] eqn:Ec; [|discriminate].
  apply prepend_ok_inv in E as [tr0 [E ->]].
  assert (Hb : sim X (if v =? 0 then el else th) (if v =? 0 then el' else th')) by (destruct (v =? 0); assumption).
  destruct (Hb _ _ _ _ _ _ A E) as [f1 [s2' [tr' [F1 [A1 V1]]]]].
  exists (S (S f1)), s2', (rds (ereads s2 c) ++ tr'). split.
  - apply exec_single_intro. cbn [exec_stmt]. rewrite Ev. rewrite F1. reflexivity.
  - split; [exact A1|]. rewrite !vis_rds_app. exact V1.
Qed.

Lemma sim_do_loop X body body' x l t :
  sim X body body' ->
  forall n k f s1 s2 s1' tr c, agree X s1 s2 ->
    do_loop (exec f body) x l t n k s1 = Ok s1' tr c ->
    exists f' s2' tr', do_loop (exec f' body') x l t n k s2 = Ok s2' tr' c /\ agree X s1' s2' /\ vis tr' = vis tr.
Proof.
  intros Hb. induction n as [|n IH]; intros k f s1 s2 s1' tr c A E.
  - cbn [do_loop] in E. inversion E; subst. exists O, (upd s2 (x, []) (l + k * t)), [Wr (x, [])].
    split; [reflexivity|]. split; [apply agree_upd, A|reflexivity].
  - cbn [do_loop] in E.
    destruct (exec f body (upd s1 (x, []) (l + k * t))) as [sa ta ca| |] eqn:Eb; try discriminate.
    destruct (Hb _ _ _ _ _ _ (agree_upd X _ _ (x, []) (l + k * t) A) Eb) as [f1 [sb [tb [F1 [A1 V1]]]]].
    assert (Hstop : s1' = sa -> tr = Wr (x, []) :: ta ->
              do_loop (exec f1 body') x l t (S n) k s2 = Ok sb (Wr (x, []) :: tb) c ->
              exists f' s2' tr', do_loop (exec f' body') x l t (S n) k s2 = Ok s2' tr' c /\ agree X s1' s2' /\ vis tr' = vis tr).
    { intros -> -> F. exists f1, sb, (Wr (x, []) :: tb). rewrite !vis_wr. auto. }
    assert (Hcont : ca = CNormal \/ ca = CCycle ->
              prepend (Wr (x, []) :: ta) (do_loop (exec f body) x l t n (k + 1) sa) = Ok s1' tr c ->
              exists f' s2' tr', do_loop (exec f' body') x l t (S n) k s2 = Ok s2' tr' c /\ agree X s1' s2' /\ vis tr' = vis tr).
    { intros Hca E'. apply prepend_ok_inv in E' as [tr0 [E' ->]].
      destruct (IH _ _ _ _ _ _ _ A1 E') as [f2 [sc [tc [F2 [A2 V2]]]]].
      exists (Nat.max f1 f2), sc, ((Wr (x, []) :: tb) ++ tc). split.
      - rewrite (do_loop_S_normal _ _ _ _ _ _ _ sb tb ca); [|eapply exec_mono; [exact F1|discriminate|lia]|exact Hca].
        rewrite (do_loop_mono_exec _ (Nat.max f1 f2) _ _ _ _ _ _ _ _ F2 (ok_not_oof _ _ _)) by lia. reflexivity.
      - split; [exact A2|]. rewrite !vis_app, !vis_wr. congruence. }
    destruct ca.
    + apply Hcont; auto.
    + injection E as <- <- <-. apply Hstop; [reflexivity..|]. apply do_loop_S_exit, F1.
    + apply Hcont; auto.
    + injection E as <- <- <-. apply Hstop; [reflexivity..|]. apply do_loop_S_return, F1.
Qed.

Lemma exec_do_lit f x l h t body s :
  t <> 0 ->
  exec (S (S f)) [SDo x (ELit l) (ELit h) (ELit t) body] s =
  do_loop (exec (S f) body) x l t (trip_count l h t) 0 s.
Proof.
  intro Nt. rewrite (exec_do f x (ELit l) (ELit h) (ELit t) body s l h t eq_refl eq_refl eq_refl Nt).
  destruct (do_loop _ _ _ _ _ _ _); reflexivity.
Qed.

Lemma exec_do_lit_inv f x l h t body s s' tr c :
  exec f [SDo x (ELit l) (ELit h) (ELit t) body] s = Ok s' tr c ->
  exists f', f = S (S f') /\ t <> 0 /\
             do_loop (exec (S f') body) x l t (trip_count l h t) 0 s = Ok s' tr c.
Proof.
  intro E. apply exec_do_inv in E as [f' [l' [h' [t' [tr0 [-> [E1 [E2 [E3 [Nt [E ->]]]]]]]]]]].
  cbn [eval] in E1, E2, E3. injection E1 as <-. injection E2 as <-. injection E3 as <-. eauto.
Qed.

Lemma sim_do X x lo hi st body body' :
  nomention X (enames lo ++ enames hi ++ enames st) -> sim X body body' ->
  sim X [SDo x lo hi st body] [SDo x lo hi st body'].
Proof.
  intros N Hb f s1 s2 s1' tr c A E.
  apply nomention_app in N as [N1 N]. apply nomention_app in N as [N2 N3].
  apply exec_do_inv in E as [f0 [l [h [t [tr0 [-> [E1 [E2 [E3 [Nt [E ->]]]]]]]]]]].
  destruct (eval_agree X s1 s2 lo A N1) as [V1 R1]. destruct (eval_agree X s1 s2 hi A N2) as [V2 R2].
  destruct (eval_agree X s1 s2 st A N3) as [V3 R3].
  destruct (sim_do_loop X body body' x l t Hb _ _ _ _ _ _ _ _ A E) as [f1 [s2' [tr' [F1 [A1 W1]]]]].
  exists (S (S f1)), s2', (rds (ereads s2 lo ++ ereads s2 hi ++ ereads s2 st) ++ tr'). split.
  - rewrite (exec_do f1 x lo hi st body' s2 l h t) by congruence.
    rewrite (do_loop_mono_exec _ (S f1) _ _ _ _ _ _ _ _ F1 (ok_not_oof _ _ _)) by lia. reflexivity.
  - split; [exact A1|]. rewrite !vis_rds_app. exact W1.
Qed.

Lemma sim_region X r body body' : sim X body body' -> sim X [SRegion r body] [SRegion r body'].
Proof.
  intros Hb f s1 s2 s1' tr c A E. apply exec_single_inv in E as [f0 [-> E]]. cbn [exec_stmt] in E.
  destruct (exec f0 body s1) as [sa ta ca| |] eqn:Eb; try discriminate. inversion E; subst.
  destruct (Hb _ _ _ _ _ _ A Eb) as [f1 [sb [tb [F1 [A1 V1]]]]].
  exists (S (S f1)), sb, (Enter r :: tb ++ match c with CNormal => [Leave r] | _ => [] end). split.
  - apply exec_single_intro. cbn [exec_stmt]. rewrite F1. reflexivity.
  - split; [exact A1|]. cbn [vis filter visible]. fold (vis (tb ++ match c with CNormal => [Leave r] | _ => [] end)).
    fold (vis (ta ++ match c with CNormal => [Leave r] | _ => [] end)). rewrite !vis_app. congruence.
Qed.

Lemma sim_dir X d body body' : sim X body body' -> sim X [SDir d body] [SDir d body'].
Proof.
  intros Hb f s1 s2 s1' tr c A E. apply exec_single_inv in E as [f0 [-> E]]. cbn [exec_stmt] in E.
  destruct (Hb _ _ _ _ _ _ A E) as [f1 [sb [tb [F1 [A1 V1]]]]].
  exists (S (S f1)), sb, tb. split; [|auto]. apply exec_single_intro. exact F1.
Qed.

Lemma nth_error_split_list {A} (l : list A) i a :
  nth_error l i = Some a -> l = firstn i l ++ a :: skipn (S i) l.
Proof.
  revert i. induction l as [|b l IH]; intros [|i] H; try discriminate.
  - inversion H; reflexivity.
  - cbn [firstn skipn app]. f_equal. apply IH, H.
Qed.

Lemma rnames_firstn_incl i p : incl (rnames (firstn i p)) (rnames p).
Proof.
  rewrite <- (firstn_skipn i p) at 2. rewrite rnames_app. apply incl_appl, incl_refl.
Qed.
Lemma rnames_skipn_incl i p : incl (rnames (skipn i p)) (rnames p).
Proof.
  rewrite <- (firstn_skipn i p) at 2. rewrite rnames_app. apply incl_appr, incl_refl.
Qed.

(* the statements below which [rw] descends, as one-hole contexts of a block *)
Inductive sctx : (list stmt -> stmt) -> Prop :=
| sctx_then c el : sctx (fun z => SIf c z el)
| sctx_else c th : sctx (fun z => SIf c th z)
| sctx_do x lo hi st : sctx (fun z => SDo x lo hi st z)
| sctx_region r : sctx (fun z => SRegion r z)
| sctx_dir d : sctx (fun z => SDir d z).

(* [sim] is a congruence for these contexts, inside a block whose other statements do not read X; b0 is the
   block whose names the context is judged by *)
Lemma sim_sctx X mk : sctx mk -> forall pre post b b' b0,
  (nomention X (rnames b0) -> sim X b b') -> nomention X (rnames (pre ++ mk b0 :: post)) ->
  sim X (pre ++ mk b :: post) (pre ++ mk b' :: post).
Proof.
  intros Hmk pre post b b' b0 Hs N.
  rewrite rnames_app, rnames_cons in N. apply nomention_app in N as [N1 N]. apply nomention_app in N as [M N2].
  apply (sim_frame X pre post [mk b] [mk b'] N1 N2).
  destruct Hmk as [c el|c th|x lo hi st|r|d]; cbn [rnames_stmt] in M.
  - apply nomention_app in M as [M1 M]. apply nomention_app in M as [M2 M3].
    apply sim_if; [exact M1|apply Hs, M2|apply sim_refl, M3].
  - apply nomention_app in M as [M1 M]. apply nomention_app in M as [M2 M3].
    apply sim_if; [exact M1|apply sim_refl, M2|apply Hs, M3].
  - rewrite !app_assoc in M. apply nomention_app in M as [M1 M2]. rewrite <- !app_assoc in M1.
    apply sim_do; [exact M1|apply Hs, M2].
  - apply sim_region, Hs, M.
  - apply sim_dir, Hs, M.
Qed.

(* Induction principle for two rewriters run along the same path: the programs differ in one
   segment, below a stack of contexts. *)
Lemma rw_ind2 n (F G : list stmt -> option (list stmt)) (P : list stmt -> list stmt -> list stmt -> Prop) :
  (forall pre seg post a b, F seg = Some a -> G seg = Some b ->
     P (pre ++ seg ++ post) (pre ++ a ++ post) (pre ++ b ++ post)) ->
  (forall pre post mk b b1 b2, sctx mk -> P b b1 b2 ->
     P (pre ++ mk b :: post) (pre ++ mk b1 :: post) (pre ++ mk b2 :: post)) ->
  forall path p p1 p2, rw n F path p = Some p1 -> rw n G path p = Some p2 -> P p p1 p2.
Proof.
  intros Hseg Hctx.
  assert (GG : forall m path, (length path <= m)%nat -> forall p p1 p2,
             rw n F path p = Some p1 -> rw n G path p = Some p2 -> P p p1 p2).
  2:{ intros path. apply (GG (length path)). lia. }
  induction m as [|m IHm]; intros path Hlen p p1 p2 E1 E2.
  { destruct path; [discriminate|cbn [length] in Hlen; lia]. }
  destruct path as [|i [|j rest']]; [discriminate| |].
  - cbn [rw] in E1, E2. destruct (Nat.ltb (length (skipn i p)) n); [discriminate|].
    destruct (F (firstn n (skipn i p))) as [a|] eqn:EF; [|discriminate].
    destruct (G (firstn n (skipn i p))) as [b|] eqn:EG; [|discriminate].
    injection E1 as <-. injection E2 as <-.
    rewrite <- (firstn_skipn i p) at 1. rewrite <- (firstn_skipn n (skipn i p)) at 1.
    apply Hseg; assumption.
  - cbn [rw] in E1, E2.
    destruct (nth_error p i) as [st|] eqn:En; [|discriminate].
    (* one level down: the sub-block b of st = mk b is rewritten along the shorter path q *)
    assert (Step : forall mk b q o1 o2, sctx mk -> st = mk b -> (length q <= m)%nat ->
               rw n F q b = o1 -> rw n G q b = o2 ->
               match o1 with Some b1 => Some (firstn i p ++ mk b1 :: skipn (S i) p) | None => None end = Some p1 ->
               match o2 with Some b2 => Some (firstn i p ++ mk b2 :: skipn (S i) p) | None => None end = Some p2 ->
               P p p1 p2).
    { intros mk b q [b1|] [b2|] Hmk -> Hq Q1 Q2 R1 R2; try discriminate.
      injection R1 as <-. injection R2 as <-.
      rewrite (nth_error_split_list _ _ _ En) at 1. apply Hctx; [exact Hmk|].
      exact (IHm q Hq _ _ _ Q1 Q2). }
    cbn [length] in Hlen.
    destruct st as [x ix e|c th el|x lo hi st body| | | |es|r body|d body]; try discriminate.
    + destruct j as [|[|j]]; try discriminate.
      * apply (Step (fun z => SIf c z el) th rest' _ _ (sctx_then c el) eq_refl ltac:(lia) eq_refl eq_refl E1 E2).
      * apply (Step (fun z => SIf c th z) el rest' _ _ (sctx_else c th) eq_refl ltac:(lia) eq_refl eq_refl E1 E2).
    + apply (Step (fun z => SDo x lo hi st z) body (j :: rest') _ _ (sctx_do x lo hi st) eq_refl ltac:(cbn [length]; lia) eq_refl eq_refl E1 E2).
    + apply (Step (fun z => SRegion r z) body (j :: rest') _ _ (sctx_region r) eq_refl ltac:(cbn [length]; lia) eq_refl eq_refl E1 E2).
    + apply (Step (fun z => SDir d z) body (j :: rest') _ _ (sctx_dir d) eq_refl ltac:(cbn [length]; lia) eq_refl eq_refl E1 E2).
Qed.

(* The context of the segment = the program with the segment deleted: it is computed by a second
   rewriter G that maps the segment to [] (and may refuse: G is where a transformation's [safe]
   condition on the segment is checked). *)
Theorem rw_sim X n (F G : list stmt -> option (list stmt)) :
  (forall seg seg' g, F seg = Some seg' -> G seg = Some g -> g = [] /\ sim X seg seg') ->
  forall path p p' p0, rw n F path p = Some p' -> rw n G path p = Some p0 ->
    nomention X (rnames p0) -> sim X p p'.
Proof.
  intros HF. apply (rw_ind2 n F G (fun p p' p0 => nomention X (rnames p0) -> sim X p p')).
  - intros pre seg post a b Fa Gb N. destruct (HF _ _ _ Fa Gb) as [-> Hs].
    rewrite rnames_app in N. apply nomention_app in N as [N1 N2]. apply sim_frame; assumption.
  - intros pre post mk b b1 b2 Hmk IH. exact (sim_sctx X mk Hmk pre post b b1 b2 IH).
Qed.

(* a transformation of one statement, under a guard that accepts the statements satisfying [safe] *)
Corollary rw1_sim X (safe : stmt -> bool) (F : stmt -> option (list stmt)) path p p' p0 :
  (forall s seg', safe s = true -> F s = Some seg' -> sim X [s] seg') ->
  rw1 F path p = Some p' ->
  rw 1 (fun seg => match seg with [s] => if safe s then Some [] else None | _ => None end) path p = Some p0 ->
  nomention X (rnames p0) -> sim X p p'.
Proof.
  intros H Ha E0. eapply rw_sim; [|exact Ha|exact E0].
  intros seg seg' g HF HG. destruct seg as [|s [|s2 seg]]; try discriminate.
  destruct (safe s) eqn:Es; [|discriminate]. injection HG as <-. split; [reflexivity|]. apply H; assumption.
Qed.

(* variant for transformations whose excluded names are all FRESH (not read anywhere in p) *)
Theorem rw_sim_fresh X n (F : list stmt -> option (list stmt)) :
  (forall seg seg', F seg = Some seg' -> nomention X (rnames seg) -> sim X seg seg') ->
  forall path p p', rw n F path p = Some p' -> nomention X (rnames p) -> sim X p p'.
Proof.
  intros HF path p p' E.
  refine (rw_ind2 n F F (fun p p' _ => nomention X (rnames p) -> sim X p p') _ _ path p p' p' E E).
  - intros pre seg post a _ Fa _ N.
    rewrite !rnames_app in N. apply nomention_app in N as [N1 N]. apply nomention_app in N as [N2 N3].
    apply sim_frame; [exact N1|exact N3|exact (HF _ _ Fa N2)].
  - intros pre post mk b b1 _ Hmk IH. exact (sim_sctx X mk Hmk pre post b b1 b IH).
Qed.
