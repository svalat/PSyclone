(* C05 — non-vacuity of the producer/consumer fusion theorem (Fuse.fuse_commute_local): the semantic premise
   pc_commute holds for  do i { a(i) = b(i) + 1 } ; do i { c(i) = a(i) * 2 }   (i = 0, a = 10, b = 11, c = 12):
   iteration v of the second loop and iteration v' <> v of the first touch distinct elements. *)
From Coq Require Import List ZArith Bool Lia.
Import ListNotations.
From PV Require Import Fort.Syntax Fort.Sem Fort.Facts Fort.Facts3 C05.Model C05.Equiv C05.Fuse C05.FusePCProofs C05.FusePC2.
Open Scope Z_scope.

Definition pc_b1 : list stmt := [SAssign 10%nat [EVar 0%nat] (EBin Add (EIdx 11%nat [EVar 0%nat]) (ELit 1))].
Definition pc_b2 : list stmt := [SAssign 12%nat [EVar 0%nat] (EBin Mul (EIdx 10%nat [EVar 0%nat]) (ELit 2))].

Notation X0 := (@pair name (list Z) 0%nat (@nil Z)).
Notation LA v := (@pair name (list Z) 10%nat (@cons Z v (@nil Z))).
Notation LB v := (@pair name (list Z) 11%nat (@cons Z v (@nil Z))).
Notation LC v := (@pair name (list Z) 12%nat (@cons Z v (@nil Z))).
Definition F1 (s : store) (v' : Z) : store := upd (upd s X0 v') (LA v') (val s (LB v') + 1).
Definition F2 (s : store) (v : Z) : store := upd (upd s X0 v) (LC v) (val s (LA v) * 2).

Ltac neq := let Q := fresh "Q" in intro Q; inversion Q; try congruence; try lia.

Lemma iter_assign g A e v s :
  exists tr, vis tr = [] /\
  iter_run (exec (S (S g)) [SAssign A [EVar 0%nat] e]) 0%nat v s =
  match eval (upd s X0 v) e with
  | Some w => Ok (upd (upd s X0 v) (A, [v]) w) tr CNormal
  | None => Fault
  end.
Proof.
  rewrite iter_run_eq, exec_cons. cbn [exec_stmt map eval opt_all]. rewrite val_upd_same. cbn [opt_all].
  destruct (eval _ e) as [w|].
  - eexists. split; [|unfold then_run; cbn [bind_run exec prepend map_ctl cyc2norm]; reflexivity].
    cbn [app]. rewrite app_nil_r. change (Wr X0 :: ?t) with ([Wr X0] ++ t). rewrite !vis_app, vis_rds. reflexivity.
  - exists []. split; reflexivity.
Qed.

Lemma run1 g s v' : exists tr, vis tr = [] /\ iter_run (exec (S (S g)) pc_b1) 0%nat v' s = Ok (F1 s v') tr CNormal.
Proof.
  destruct (iter_assign g 10%nat (EBin Add (EIdx 11%nat [EVar 0%nat]) (ELit 1)) v' s) as [tr [V E]].
  exists tr. split; [exact V|]. unfold pc_b1. rewrite E. cbn [eval map opt_all eval_bin]. rewrite val_upd_same.
  cbn [opt_all]. rewrite (val_upd_other s X0 v' (LB v')) by neq. reflexivity.
Qed.

Lemma run2 g s v : exists tr, vis tr = [] /\ iter_run (exec (S (S g)) pc_b2) 0%nat v s = Ok (F2 s v) tr CNormal.
Proof.
  destruct (iter_assign g 12%nat (EBin Mul (EIdx 10%nat [EVar 0%nat]) (ELit 2)) v s) as [tr [V E]].
  exists tr. split; [exact V|]. unfold pc_b2. rewrite E. cbn [eval map opt_all eval_bin]. rewrite val_upd_same.
  cbn [opt_all]. rewrite (val_upd_other s X0 v (LA v)) by neq. reflexivity.
Qed.

Lemma agree_F s s' v v' : v <> v' -> agree [0%nat] s s' -> agree [0%nat] (F2 (F1 s v') v) (F1 (F2 s' v) v').
Proof.
  intros N A. pose proof (agree1_val _ _ _ A) as As. split; [exact (proj1 A)|].
  intros l Nl. assert (Nx : l <> X0) by (intro Q; apply Nl; rewrite Q; left; reflexivity).
  unfold F1, F2.
  destruct (loc_eq_dec l (LC v)) as [->|N1].
  - rewrite (val_upd_other _ (LA v') _ (LC v)) by neq.
    rewrite (val_upd_other _ X0 v' (LC v)) by neq.
    rewrite !val_upd_same.
    rewrite (val_upd_other _ (LA v') _ (LA v)) by neq.
    rewrite (val_upd_other _ X0 v' (LA v)) by neq.
    rewrite As by neq. reflexivity.
  - destruct (loc_eq_dec l (LA v')) as [->|N2].
    + rewrite val_upd_same.
      rewrite (val_upd_other _ (LC v) _ (LB v')) by neq.
      rewrite (val_upd_other _ X0 v (LB v')) by neq.
      rewrite (val_upd_other _ (LC v) _ (LA v')) by neq.
      rewrite (val_upd_other _ X0 v (LA v')) by neq.
      rewrite val_upd_same. rewrite As by neq. reflexivity.
    + rewrite (val_upd_other _ (LA v') _ l) by exact N2. rewrite (val_upd_other _ X0 v' l) by exact Nx.
      rewrite (val_upd_other _ (LC v) _ l) by exact N1. rewrite (val_upd_other _ X0 v l) by exact Nx.
      rewrite (val_upd_other _ (LC v) _ l) by exact N1. rewrite (val_upd_other _ X0 v l) by exact Nx.
      rewrite (val_upd_other _ (LA v') _ l) by exact N2. rewrite (val_upd_other _ X0 v' l) by exact Nx.
      apply As, Nx.
Qed.

Lemma pc_example_commute : pc_commute 0%nat pc_b1 pc_b2.
Proof.
  intros g v v' N s s' s1 tr c Ag E. unfold seqr in *.
  destruct g as [|[|g]].
  - rewrite iter_run_eq in E. cbn [exec map_ctl prepend then_run bind_run] in E. discriminate.
  - rewrite iter_run_eq in E. unfold pc_b1 in E. rewrite exec_cons in E. cbn [exec_stmt exec] in E.
    destruct (opt_all _); [|discriminate]. destruct (eval _ _); [|discriminate].
    cbn [then_run bind_run prepend map_ctl] in E. discriminate.
  - destruct (run1 g s v') as [t1 [V1 R1]]. destruct (run2 g (F1 s v') v) as [t2 [V2 R2]].
    rewrite R1 in E. unfold then_run in E. cbn [bind_run] in E. rewrite R2 in E. cbn [prepend] in E.
    inversion E; subst s1 tr c. clear E.
    destruct (run2 g s' v) as [t3 [V3 R3]]. destruct (run1 g (F2 s' v) v') as [t4 [V4 R4]].
    rewrite R3. unfold then_run. cbn [bind_run]. rewrite R4. cbn [prepend].
    eexists. eexists. split; [reflexivity|]. split.
    + apply agree_F; assumption.
    + rewrite !vis_app, V1, V2, V3, V4. reflexivity.
Qed.

Example fuse_pc_nonvacuous :
  plain pc_b1 = true /\ plain pc_b2 = true /\ ~ In 0%nat (wnames pc_b1) /\ pc_commute 0%nat pc_b1 pc_b2.
Proof.
  split; [reflexivity|]. split; [reflexivity|]. split; [|exact pc_example_commute].
  cbn [pc_b1 wnames flat_map wnames_stmt app In]. intros [Q|[]]. discriminate.
Qed.
