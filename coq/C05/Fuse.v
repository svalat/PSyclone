(* C05 — LoopFuseTrans.  Two adjacent loops over the same variable with the same bounds and "plain" bodies
   (assignments, IFs, inner loops; no EXIT/CYCLE/RETURN, no output) may be fused when iteration v of the second
   commutes, up to the DO variable, with every iteration v' <> v of the first (fuse_commute_local; the premise
   pc_commute is semantic).  Bodies that are independent at the level of names - neither writes a name the other
   reads or writes - commute (indep_commute): this gives soundness under a syntactic sufficient condition
   (fuse_sound_partial).  The refutations are in Refuted.v. *)
From Coq Require Import List ZArith Bool.
Import ListNotations.
From PV Require Import Fort.Syntax Fort.Sem Fort.Facts Fort.Facts3 C05.Model C05.Equiv C05.FusePCProofs C05.FusePC2.
Open Scope Z_scope.

Fixpoint plain_stmt (s : stmt) : bool :=
  match s with
  | SAssign _ _ _ => true
  | SIf _ th el => forallb plain_stmt th && forallb plain_stmt el
  | SDo _ _ _ _ b => forallb plain_stmt b
  | SDir _ b => forallb plain_stmt b
  | _ => false
  end.
Definition plain (ss : list stmt) : bool := forallb plain_stmt ss.

Lemma plain_do x lo hi st b : plain [SDo x lo hi st b] = plain b.
Proof. unfold plain. cbn [forallb plain_stmt]. apply andb_true_r. Qed.

Lemma plain_do_loop (run : runner) x l t :
  (forall s s' tr c, run s = Ok s' tr c -> c = CNormal /\ vis tr = []) ->
  forall n k s s' tr c, do_loop run x l t n k s = Ok s' tr c -> c = CNormal /\ vis tr = [].
Proof.
  intros Hr. induction n as [|n IH]; intros k s s' tr c E.
  - cbn [do_loop] in E. inversion E; subst. split; reflexivity.
  - cbn [do_loop] in E. destruct (run (upd s (x, []) (l + k * t))) as [s2 tr2 c2| |] eqn:Er; try discriminate.
    destruct (Hr _ _ _ _ Er) as [-> V2]. apply prepend_ok_inv in E as [tr0 [E ->]].
    destruct (IH _ _ _ _ _ E) as [-> V0]. split; [reflexivity|].
    change (Wr (x, []) :: tr2) with ([Wr (x, [])] ++ tr2). rewrite !vis_app, V2, V0. reflexivity.
Qed.

Lemma plain_exec f : forall ss s s' tr c,
  plain ss = true -> exec f ss s = Ok s' tr c -> c = CNormal /\ vis tr = [].
Proof.
  induction f as [|f IH]; intros ss s s' tr c H E; [discriminate|].
  destruct ss as [|st rest]; [cbn [exec] in E; inversion E; auto|].
  unfold plain in H. cbn [forallb] in H. apply andb_true_iff in H as [H1 H2].
  assert (Hst : forall s0 s0' tr0 c0, exec_stmt (exec f) st s0 = Ok s0' tr0 c0 -> c0 = CNormal /\ vis tr0 = []).
  { intros s0 s0' tr0 c0 E0.
    destruct st as [x ix e|cnd th el|x lo hi st body| | | |es|r body|d body]; cbn [exec_stmt plain_stmt] in *;
      try discriminate.
    - destruct (opt_all _); [|discriminate]. destruct (eval s0 e); [|discriminate]. inversion E0; subst.
      split; [reflexivity|]. rewrite vis_rds_app. reflexivity.
    - destruct (eval s0 cnd) as [v|]; [|discriminate]. apply prepend_ok_inv in E0 as [tr1 [E0 ->]].
      apply andb_true_iff in H1 as [Ha Hb].
      destruct (IH (if v =? 0 then el else th) _ _ _ _ ltac:(destruct (v =? 0); assumption) E0) as [-> V].
      split; [reflexivity|]. rewrite vis_rds_app. exact V.
    - destruct (eval s0 lo); [|discriminate]. destruct (eval s0 hi); [|discriminate].
      destruct (eval s0 st) as [t|]; [|discriminate]. destruct (t =? 0); [discriminate|].
      apply prepend_ok_inv in E0 as [tr1 [E0 ->]].
      destruct (plain_do_loop (exec f body) x z t (fun a b c d => IH body a b c d H1) _ _ _ _ _ _ E0) as [-> V].
      split; [reflexivity|]. rewrite vis_rds_app. exact V.
    - eapply IH; [exact H1|exact E0]. }
  rewrite exec_cons in E.
  apply then_run_ok_inv in E as [[s1 [tr1 [tr2 [E1 [E2 ->]]]]]|[Nc E1]].
  - destruct (Hst _ _ _ _ E1) as [_ V1]. destruct (IH _ _ _ _ _ H2 E2) as [-> V2].
    split; [reflexivity|]. rewrite vis_app, V1, V2. reflexivity.
  - destruct (Hst _ _ _ _ E1) as [-> _]. contradiction.
Qed.

Lemma plain_iters g body x : plain body = true ->
  forall vs s s' tr c, iters (exec g body) x vs s = Ok s' tr c -> c = CNormal /\ vis tr = [].
Proof.
  intros Hp vs. apply (iters_post (fun _ _ tr c => c = CNormal /\ vis tr = [])).
  - auto.
  - intros _ _ _ t1 t2 c [_ V1] [-> V2]. rewrite vis_app, V1, V2. auto.
  - intros v s s' tr c E. destruct (plain_exec _ _ _ _ _ _ Hp E) as [-> V]. auto.
Qed.

(* two iterations run one after the other, the first with a plain body *)
Lemma seqr_iter_inv x g b1 (R2 : runner) v1 v2 s s' tr c :
  plain b1 = true -> seqr (iter_run (exec g b1) x v1) (iter_run R2 x v2) s = Ok s' tr c ->
  exists sa ta tb cb, exec g b1 (upd s (x, []) v1) = Ok sa ta CNormal /\ R2 (upd sa (x, []) v2) = Ok s' tb cb /\
                      tr = (Wr (x, []) :: ta) ++ Wr (x, []) :: tb /\ c = cyc2norm cb.
Proof.
  intros Hp E. unfold seqr in E.
  apply then_run_ok_inv in E as [[sa [ta [tb [Ea [Eb ->]]]]]|[Nc Ea]];
    apply iter_run_ok_inv in Ea as [ta0 [ca [Ea [-> Hc]]]]; destruct (plain_exec _ _ _ _ _ _ Hp Ea) as [-> _].
  - apply iter_run_ok_inv in Eb as [tb0 [cb [Eb [-> ->]]]]. exists sa, ta0, tb0, cb. auto.
  - contradiction.
Qed.

Lemma fused_iter x b1 b2 g v :
  plain b1 = true -> ~ In x (wnames b1) ->
  rsim x (seqr (iter_run (exec g b1) x v) (iter_run (exec g b2) x v)) (iter_run (exec (g + g) (b1 ++ b2)) x v).
Proof.
  intros Hp Hw s s' s1 tr c A E.
  apply seqr_iter_inv in E as [sa [ta0 [tb0 [cb [Ea [Eb [-> ->]]]]]]]; [|exact Hp].
  destruct (exec_steq _ _ _ _ _ _ _ (agree_upd_steq x s s' v A) Ea) as [sa' [Fa Sa]].
  (* b1 leaves x alone, so setting it again changes nothing *)
  assert (St2 : steq (upd sa (x, []) v) sa').
  { eapply steq_trans; [|exact Sa]. apply upd_same_steq.
    rewrite (exec_unchanged_names _ _ _ _ _ _ (x, []) Ea Hw). apply val_upd_same. }
  destruct (exec_steq _ _ _ _ _ _ _ St2 Eb) as [sb' [Fb Sb]].
  rewrite (iter_run_ok _ _ _ _ _ _ _ (exec_app_ok g g b1 b2 _ _ _ _ _ _ Fa Fb)).
  eexists. eexists. split; [reflexivity|]. split; [apply steq_agree, Sb|].
  rewrite !vis_wr, !vis_app, vis_wr. reflexivity.
Qed.

Lemma fuse_iters x b1 b2 g vs :
  plain b1 = true -> ~ In x (wnames b1) -> NoDup vs -> pc_commute x b1 b2 ->
  rsim x (seqr (iters (exec g b1) x vs) (iters (exec g b2) x vs)) (iters (exec (g + g) (b1 ++ b2)) x vs).
Proof.
  intros Hp Hw ND HC. unfold iters.
  eapply rsim_trans.
  - apply (interleave x (iter_run (exec g b1) x) (iter_run (exec g b2) x)); try assumption; try (intro v; apply iter_refl).
    intros v v' _ _ N. apply HC, N.
  - apply (rsim_seq_runs_map x (fun v => seqr (iter_run (exec g b1) x v) (iter_run (exec g b2) x v))
                               (iter_run (exec (g + g) (b1 ++ b2)) x)).
    intro v. apply fused_iter; assumption.
Qed.

Theorem fuse_commute_local x lo hi st b1 b2 :
  plain b1 = true -> plain b2 = true ->
  ~ In x (enames lo ++ enames hi ++ enames st) -> ~ In x (wnames b1) ->
  (forall nm, In nm (enames lo ++ enames hi ++ enames st) -> ~ In nm (wnames b1)) ->
  pc_commute x b1 b2 ->
  sim [x] [SDo x lo hi st b1; SDo x lo hi st b2] [SDo x lo hi st (b1 ++ b2)].
Proof.
  intros Hp1 Hp2 Hxh Hx1 Hh1 HC f s1 s2 s1' tr c A E.
  assert (Nh : nomention [x] (enames lo ++ enames hi ++ enames st)) by (intros y [<-|[]]; exact Hxh).
  apply nomention_app in Nh as [Nlo Nh]. apply nomention_app in Nh as [Nhi Nst].
  apply exec_cons_inv in E as [[sA [trA [trB [EL1 [EL2 ->]]]]]|[Nc EL1]].
  2:{ exfalso. apply Nc. apply (plain_exec _ _ _ _ _ _ (eq_trans (plain_do _ _ _ _ _) Hp1) EL1). }
  (* the bounds have the same values when the second loop starts *)
  assert (Hev : forall e, incl (enames e) (enames lo ++ enames hi ++ enames st) -> eval sA e = eval s1 e).
  { intros e He. apply eval_frame; [eapply exec_bnd; exact EL1|]. intros l0 Hl. apply ereads_names in Hl.
    apply (exec_unchanged_names _ _ _ _ _ _ l0 EL1). cbn [wnames flat_map wnames_stmt]. rewrite app_nil_r.
    intros [Q|Hw]; [apply Hxh, He; rewrite Q; exact Hl|exact (Hh1 _ (He _ Hl) Hw)]. }
  apply exec_do_inv in EL1 as [f1 [l [h [t [tr1 [-> [E1 [E2 [E3 [Nt [EL1 ->]]]]]]]]]]].
  apply exec_do_inv in EL2 as [f2 [l' [h' [t' [tr2 [Ef [E1' [E2' [E3' [_ [EL2 ->]]]]]]]]]]].
  injection Ef as <-.
  rewrite Hev, E1 in E1' by (apply incl_appl, incl_refl). injection E1' as <-.
  rewrite Hev, E2 in E2' by (apply incl_appr, incl_appl, incl_refl). injection E2' as <-.
  rewrite Hev, E3 in E3' by (apply incl_appr, incl_appr, incl_refl). injection E3' as <-.
  rewrite do_loop_iters in EL1, EL2.
  set (V := ivals l t 0 (trip_count l h t)) in *.
  set (fin := l + (0 + Z.of_nat (trip_count l h t)) * t) in *.
  destruct (iters (exec (S f1) b1) x V s1) as [sA' tA cA| |] eqn:EI1; [|cbn [bind_run] in EL1; discriminate..].
  destruct (plain_iters _ _ x Hp1 _ _ _ _ _ EI1) as [-> VA].
  cbn [bind_run set_run prepend] in EL1. inversion EL1; subst sA tr1. clear EL1.
  destruct (iters (exec (S f1) b2) x V (upd sA' (x, []) fin)) as [sB' tB cB| |] eqn:EI2; [|cbn [bind_run] in EL2; discriminate..].
  destruct (plain_iters _ _ x Hp2 _ _ _ _ _ EI2) as [-> VB].
  cbn [bind_run set_run prepend] in EL2. inversion EL2; subst s1' tr2 c. clear EL2.
  (* loop 2 does not depend on the value loop 1 leaves in x *)
  destruct (iters_refl x (S f1) b2 V _ sA' _ _ _ (agree_upd_l [x] sA' sA' x fin (agree_refl _ _) (or_introl eq_refl)) EI2)
    as [sB'' [tB'' [EI2' [AB VB']]]].
  assert (Eseq : seqr (iters (exec (S f1) b1) x V) (iters (exec (S f1) b2) x V) s1 = Ok sB'' (tA ++ tB'') CNormal).
  { unfold seqr. rewrite EI1. unfold then_run. cbn [bind_run]. rewrite EI2'. reflexivity. }
  destruct (fuse_iters x b1 b2 (S f1) V Hp1 Hx1 (ivals_NoDup _ _ _ _ Nt) HC _ _ _ _ _ A Eseq) as [sC [tC [FI [AC VC]]]].
  destruct (eval_agree [x] s1 s2 lo A Nlo) as [V1 _]. destruct (eval_agree [x] s1 s2 hi A Nhi) as [V2 _].
  destruct (eval_agree [x] s1 s2 st A Nst) as [V3 _].
  pose proof (exec_do (f1 + S f1) x lo hi st (b1 ++ b2) s2 l h t ltac:(congruence) ltac:(congruence) ltac:(congruence) Nt) as Ed.
  change (S (f1 + S f1)) with (S f1 + S f1)%nat in Ed. rewrite do_loop_iters in Ed. fold V in Ed. rewrite FI in Ed.
  cbn [bind_run set_run prepend] in Ed.
  eexists. eexists. eexists. split; [exact Ed|]. split.
  - apply agree_upd. eapply agree_trans; eassumption.
  - rewrite !vis_app, !vis_rds, VC, vis_app, VA, VB', VB. reflexivity.
Qed.

Lemma indep_commute x b1 b2 :
  plain b1 = true -> plain b2 = true ->
  (forall nm, In nm (wnames b1) -> ~ In nm (rnames b2)) ->
  (forall nm, In nm (wnames b1) -> ~ In nm (wnames b2)) ->
  (forall nm, In nm (wnames b2) -> ~ In nm (rnames b1)) ->
  pc_commute x b1 b2.
Proof.
  intros Hp1 Hp2 H12r H12w H21r g v v' _ s s' s1 tr c [B A] E.
  apply seqr_iter_inv in E as [sa [ta0 [tb0 [cb [Ea [Eb [-> ->]]]]]]]; [|exact Hp1].
  destruct (plain_exec _ _ _ _ _ _ Hp1 Ea) as [_ Va]. destruct (plain_exec _ _ _ _ _ _ Hp2 Eb) as [-> Vb].
  unfold seqr.
  pose proof (agree1_val x s s' (conj B A)) as As.
  (* b2 first: it reads nothing b1 wrote *)
  destruct (exec_frame_names g b2 _ _ _ _ (upd s' (x, []) v) Eb) as [sb [Fb [Bb [_ [Pb Ub]]]]].
  { cbn [bnd upd]. rewrite B. symmetry. apply (exec_bnd _ _ _ _ _ _ Ea). }
  { intros l Hl. rewrite !val_upd. destruct (loc_eq_dec l (x, [])) as [|N]; [reflexivity|].
    rewrite (exec_unchanged_names _ _ _ _ _ _ l Ea) by (intro W; exact (H12r _ W Hl)).
    rewrite val_upd_other by exact N. apply As, N. }
  (* then b1: it reads nothing b2 wrote *)
  destruct (exec_frame_names g b1 _ _ _ _ (upd sb (x, []) v') Ea) as [sc [Fc [Bc [_ [Pc Uc]]]]].
  { cbn [bnd upd]. rewrite Bb. exact B. }
  { intros l Hl. rewrite !val_upd. destruct (loc_eq_dec l (x, [])) as [|N]; [reflexivity|].
    rewrite Ub by (intro W; exact (H21r _ W Hl)). rewrite val_upd_other by exact N. apply As, N. }
  rewrite (iter_run_ok _ _ _ _ _ _ _ Fb). unfold then_run. cbn [cyc2norm bind_run].
  rewrite (iter_run_ok _ _ _ _ _ _ _ Fc). cbn [cyc2norm prepend].
  eexists. eexists. split; [reflexivity|]. split.
  - split.
    + rewrite Bc. cbn [bnd upd]. rewrite Bb. cbn [bnd upd]. rewrite B.
      rewrite (exec_bnd _ _ _ _ _ _ Eb). cbn [bnd upd]. symmetry. apply (exec_bnd _ _ _ _ _ _ Ea).
    + intros l Nl. assert (N : l <> (x, [])) by (intro Q; apply Nl; rewrite Q; left; reflexivity).
      destruct (in_dec Nat.eq_dec (fst l) (wnames b1)) as [I1|I1].
      * (* written by b1, hence untouched by b2 *)
        rewrite (exec_unchanged_names _ _ _ _ _ _ l Eb (H12w _ I1)). rewrite val_upd_other by exact N.
        apply Pc. rewrite !val_upd_other by exact N. rewrite (Ub l (H12w _ I1)).
        rewrite val_upd_other by exact N. apply As, N.
      * rewrite Uc by exact I1. rewrite val_upd_other by exact N.
        apply Pb. rewrite !val_upd_other by exact N. rewrite (exec_unchanged_names _ _ _ _ _ _ l Ea I1).
        rewrite val_upd_other by exact N. apply As, N.
  - rewrite !vis_app, !vis_wr, Va, Vb. reflexivity.
Qed.

Definition disjointb (a b : list name) : bool := forallb (fun nm => negb (mem nm b)) a.

Lemma disjointb_ok a b : disjointb a b = true -> forall nm, In nm a -> ~ In nm b.
Proof.
  unfold disjointb. rewrite forallb_forall. intros H nm Ha Hb. specialize (H nm Ha).
  apply mem_In in Hb. rewrite Hb in H. discriminate.
Qed.

Definition fuse_safe_local (x : name) (seg : list stmt) : bool :=
  match seg with
  | [SDo x1 lo1 hi1 st1 b1; SDo x2 lo2 hi2 st2 b2] =>
      Nat.eqb x1 x && Nat.eqb x2 x && expr_eqb lo1 lo2 && expr_eqb hi1 hi2 && expr_eqb st1 st2 &&
      plain b1 && plain b2 &&
      negb (mem x (enames lo1 ++ enames hi1 ++ enames st1)) &&
      negb (mem x (wnames b1)) && negb (mem x (wnames b2)) &&
      disjointb (enames lo1 ++ enames hi1 ++ enames st1) (wnames b1) &&
      disjointb (wnames b1) (rnames b2) && disjointb (wnames b1) (wnames b2) &&
      disjointb (wnames b2) (rnames b1)
  | _ => false
  end.

Definition fuse_guard (x : name) (seg : list stmt) : option (list stmt) :=
  if fuse_safe_local x seg then Some [] else None.

(* whole-program condition: the two loops satisfy [fuse_safe_local] and nothing else in the program reads x *)
Definition fuse_safe (x : name) (path : list nat) (p : list stmt) : bool :=
  match rw 2 (fuse_guard x) path p with
  | Some p0 => nomentionb [x] (rnames p0)
  | None => false
  end.

Theorem fuse_sound_partial arrs x path p p' :
  fuse_safe x path p = true -> fuse_apply expr_eqb arrs false path p = Some p' -> sim [x] p p'.
Proof.
  unfold fuse_safe, fuse_apply. intros Hs Ha.
  destruct (rw 2 (fuse_guard x) path p) as [p0|] eqn:E0; [|discriminate].
  eapply rw_sim; [|exact Ha|exact E0|apply nomentionb_ok, Hs].
  intros seg seg' g0 HF HG. unfold fuse_guard in HG.
  destruct (fuse_safe_local x seg) eqn:Es; [|discriminate]. injection HG as <-. split; [reflexivity|].
  destruct seg as [|s1 [|s2 [|s3 seg]]]; try discriminate.
  destruct s1 as [ | |x1 lo1 hi1 st1 b1| | | | | | ]; try discriminate.
  destruct s2 as [ | |x2 lo2 hi2 st2 b2| | | | | | ]; try discriminate.
  unfold fuse_safe_local in Es. repeat (apply andb_true_iff in Es as [Es ?]).
  apply Nat.eqb_eq in Es. subst x1.
  repeat match goal with
         | H : Nat.eqb _ _ = true |- _ => apply Nat.eqb_eq in H; subst
         | H : expr_eqb _ _ = true |- _ => apply expr_eqb_eq in H; subst
         end.
  (* the model's output for this segment *)
  cbn [fuse_seg fuse_nodes] in HF.
  destruct (negb _) in HF; [discriminate|]. rewrite Nat.eqb_refl in HF. cbn [negb andb] in HF.
  destruct (forallb _ _) in HF; [|discriminate]. injection HF as <-.
  apply fuse_commute_local; [assumption..|apply negb_mem_ok; assumption|apply negb_mem_ok; assumption|apply disjointb_ok; assumption|].
  apply indep_commute; try assumption; apply disjointb_ok; assumption.
Qed.

(* non-vacuity: do i=1,n { a(i) = c(i) + 1 }; do i=1,n { b(i) = c(i) * 2 } *)
Definition fuse_example : list stmt :=
  [SDo 0%nat (ELit 1) (EVar 2%nat) (ELit 1) [SAssign 10%nat [EVar 0%nat] (EBin Add (EIdx 12%nat [EVar 0%nat]) (ELit 1))];
   SDo 0%nat (ELit 1) (EVar 2%nat) (ELit 1) [SAssign 11%nat [EVar 0%nat] (EBin Mul (EIdx 12%nat [EVar 0%nat]) (ELit 2))]].

Example fuse_nonvacuous :
  fuse_safe 0%nat [0%nat] fuse_example = true /\
  fuse_apply expr_eqb [10%nat; 11%nat; 12%nat] false [0%nat] fuse_example =
  Some [SDo 0%nat (ELit 1) (EVar 2%nat) (ELit 1)
          [SAssign 10%nat [EVar 0%nat] (EBin Add (EIdx 12%nat [EVar 0%nat]) (ELit 1));
           SAssign 11%nat [EVar 0%nat] (EBin Mul (EIdx 12%nat [EVar 0%nat]) (ELit 2))]].
Proof. split; reflexivity. Qed.
