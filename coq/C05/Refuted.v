(* C05 — refutations: the faithful model of the unchanged code ACCEPTS these targets and the transformed
   program is observably different (a location outside the excluded names X ends with another value).
   Each witness is also replayed on the real implementation by props/C05/check.py (known findings).
   The programs of all the witnesses are here; the refutations not stated here are in Properties/C05.v. *)
From Coq Require Import List ZArith Bool.
Import ListNotations.
From PV Require Import Fort.Syntax Fort.Sem Fort.Facts C05.Model C05.Equiv.
Open Scope Z_scope.

Definition differ_at (fuel : nat) (p p' : list stmt) (st : store) (l : loc) : bool :=
  match exec fuel p st, exec fuel p' st with
  | Ok s1 _ _, Ok s2 _ _ => negb (val s1 l =? val s2 l)
  | _, _ => false
  end.

Lemma differ_not_sim X fuel p p' st l :
  differ_at fuel p p' st l = true -> ~ In (fst l) X -> ~ sim X p p'.
Proof.
  unfold differ_at. intros D Nl H.
  destruct (exec fuel p st) as [s1 t1 c1| |] eqn:E1; try discriminate.
  destruct (exec fuel p' st) as [s2 t2 c2| |] eqn:E2; try discriminate.
  destruct (H _ _ _ _ _ _ (agree_refl X st) E1) as [f' [s2' [tr' [F [[_ A] _]]]]].
  assert (Q : Ok s2' tr' c1 = Ok s2 t2 c2) by (eapply exec_det; [exact F|exact E2|discriminate|discriminate]).
  inversion Q; subst. rewrite (A l (fun Hx => Nl (in_xlocs _ _ Hx))) in D. rewrite Z.eqb_refl in D. discriminate.
Qed.

(* closes  T_apply .. = Some p' /\ ~ sim X p p'  for concrete p: the model's output by evaluation, then [differ_not_sim]
   with the store st and the location l, whose name is checked to lie outside X *)
Ltac refute fuel st l :=
  split; [vm_compute; reflexivity|];
  apply (differ_not_sim _ fuel _ _ st l); [vm_compute; reflexivity|];
  let H := fresh "H" in cbn [fst In]; intro H; repeat (destruct H as [H|H]; [discriminate|]); exact H.

(* names: i=0 j=1 n=2 m=3 s=4 a=10 b=11 c=12 d=13; introduced: 20.. *)
Notation i_ := 0%nat. Notation j_ := 1%nat. Notation n_ := 2%nat. Notation m_ := 3%nat. Notation s_ := 4%nat.
Notation a_ := 10%nat. Notation b_ := 11%nat. Notation c_ := 12%nat. Notation d_ := 13%nat.
Definition loop1 x lo hi body := SDo x lo hi (ELit 1) body.
Definition sc (x : name) (v : Z) : loc * Z := ((x, []), v).
Definition el1 (a : name) (k v : Z) : loc * Z := ((a, [k]), v).
Definition el2 (a : name) (k1 k2 v : Z) : loc * Z := ((a, [k1; k2]), v).

Definition fuse_p_offset : list stmt :=
  [loop1 i_ (ELit 1) (EVar n_) [SAssign a_ [EVar i_] (EVar i_)];
   loop1 i_ (ELit 1) (EVar n_) [SAssign b_ [EVar i_] (EIdx a_ [EBin Add (EVar i_) (ELit 1)])]].

Theorem fuse_refuted : exists p path p',
  fuse_apply expr_eqb [a_; b_; c_; d_] false path p = Some p' /\ ~ sim [i_] p p'.
Proof.
  exists fuse_p_offset, [0%nat]. eexists.
  refute 50%nat (store_of [sc n_ 3; el1 a_ 2 7; el1 a_ 3 8; el1 a_ 4 9] []) (b_, [1]).
Qed.

(* for apply(second, first): only abs(position difference) = 1 is tested *)
Definition fuse_p_same : list stmt :=
  [loop1 i_ (ELit 1) (EVar n_) [SAssign a_ [EVar i_] (EVar i_)];
   loop1 i_ (ELit 1) (EVar n_) [SAssign b_ [EVar i_] (EIdx a_ [EVar i_])]].

Definition fuse_p_exit : list stmt :=
  [loop1 i_ (ELit 1) (EVar n_) [SIf (EBin Gt (EIdx a_ [EVar i_]) (ELit 0)) [SExit] []; SAssign b_ [EVar i_] (ELit 1)];
   loop1 i_ (ELit 1) (EVar n_) [SAssign c_ [EVar i_] (ELit 2)]].

(* scalar written first in both loops, but conditionally in the second (TODO #641 in the code) *)
Definition fuse_p_scalar : list stmt :=
  [loop1 i_ (ELit 1) (EVar n_) [SAssign s_ [] (EIdx a_ [EVar i_]); SAssign b_ [EVar i_] (EVar s_)];
   loop1 i_ (ELit 1) (EVar n_) [SIf (EBin Gt (EIdx b_ [EVar i_]) (ELit 0)) [SAssign s_ [] (ELit 2)] [];
                                SAssign c_ [EVar i_] (EVar s_)]].

(* the same nest is the witness for LoopSwapTrans and LoopTiling2DTrans *)
Definition swap_p : list stmt :=
  [loop1 j_ (ELit 1) (EVar n_)
     [loop1 i_ (ELit 1) (EVar m_)
        [SAssign d_ [EVar i_; EVar j_] (EIdx d_ [EBin Add (EVar i_) (ELit 1); EBin Sub (EVar j_) (ELit 1)])]]].

Theorem swap_refuted : exists p path p', swap_apply path p = Some p' /\ ~ sim [j_; i_] p p'.
Proof.
  exists swap_p, [0%nat]. eexists.
  refute 80%nat (store_of [sc n_ 3; sc m_ 3; el2 d_ 2 0 5; el2 d_ 3 1 6; el2 d_ 2 1 7; el2 d_ 3 0 4] []) (d_, [1; 2]).
Qed.

Definition chunk_p (t : Z) (lo hi : expr) : list stmt :=
  [SDo i_ lo hi (ELit t) [SAssign a_ [EVar i_] (EBin Add (EIdx a_ [EVar i_]) (ELit 1))]].

(* negative step: inner bound out_var - (chunksize + 1): chunks overlap *)
Theorem chunk_refuted_neg : exists p path p',
  chunk_apply 2 20%nat 21%nat path p = Some p' /\ ~ sim [i_; 20%nat; 21%nat] p p'.
Proof.
  exists (chunk_p (-1) (EVar n_) (ELit 1)), [0%nat]. eexists.
  refute 80%nat (store_of [sc n_ 6] []) (a_, [4]).
Qed.

Definition hoist_p : list stmt :=
  [loop1 i_ (ELit 1) (EVar n_) [SAssign s_ [] (ELit 5); SAssign a_ [EVar i_] (EVar s_)]].

Theorem hoist_refuted_zero_trip : exists p path p', hoist_apply path p = Some p' /\ ~ sim [] p p'.
Proof.
  exists hoist_p, [0%nat; 0%nat]. eexists.
  refute 50%nat (store_of [sc n_ 0; sc s_ 1] []) (s_, @nil Z).
Qed.

Definition hoist_p_exit : list stmt :=
  [loop1 i_ (ELit 1) (EVar n_) [SIf (EBin Gt (EIdx a_ [EVar i_]) (ELit 0)) [SExit] []; SAssign s_ [] (ELit 5)]].

(* with hi = m:  do i = 1, m  becomes  do i = 1, i - 1 *)
Definition ind_p (hi : expr) : list stmt :=
  [loop1 i_ (ELit 1) hi [SAssign m_ [] (EBin Sub (EVar i_) (ELit 1)); SAssign a_ [EVar i_] (EVar m_)]].

Theorem induction_refuted_zero_trip : exists p path p', induction_apply path p = Some p' /\ ~ sim [] p p'.
Proof.
  exists (ind_p (EVar n_)), [0%nat]. eexists.
  refute 50%nat (store_of [sc n_ 0; sc m_ 7] []) (m_, @nil Z).
Qed.

Definition ind_p_exit : list stmt :=
  [loop1 i_ (ELit 1) (EVar n_)
     [SAssign m_ [] (EBin Sub (EVar i_) (ELit 1));
      SIf (EBin Gt (EIdx a_ [EVar i_]) (ELit 0)) [SExit] [];
      SAssign a_ [EVar i_] (EVar m_)]].
