(* C05 — HoistLoopBoundExprTrans: full soundness.  Fortran evaluates the DO bounds once, before the
   loop; assigning them to fresh scalars in front of the loop therefore changes nothing but those
   scalars. *)
From Coq Require Import List ZArith Bool Lia.
Import ListNotations.
From PV Require Import Fort.Syntax Fort.Sem Fort.Facts Fort.Facts3 C05.Model C05.Equiv.
Open Scope Z_scope.

Definition hb_pre (flag : bool) (n : name) (e : expr) : list stmt :=
  if flag then [] else [SAssign n [] e].
Definition hb_e (flag : bool) (n : name) (e : expr) : expr := if flag then e else EVar n.

Lemma hoistbound_at_eq n1 n2 n3 x lo hi st body :
  hoistbound_at n1 n2 n3 (SDo x lo hi st body) =
  Some (hb_pre (simple_bound st) n3 st ++ hb_pre (simple_bound hi) n2 hi ++ hb_pre (simple_bound lo) n1 lo ++
        [SDo x (hb_e (simple_bound lo) n1 lo) (hb_e (simple_bound hi) n2 hi) (hb_e (simple_bound st) n3 st) body]).
Proof. reflexivity. Qed.

(* executing one (possibly empty) hoisted assignment *)
Lemma hb_pre_exec X flag n e s1 s2 v :
  agree X s1 s2 -> In n X -> nomention X (enames e) -> eval s1 e = Some v ->
  exists s2' tr, exec 2 (hb_pre flag n e) s2 = Ok s2' tr CNormal /\ agree X s1 s2' /\ vis tr = [] /\
                 (flag = false -> val s2' (n, []) = v) /\
                 (forall m, m <> n -> val s2' (m, []) = val s2 (m, [])).
Proof.
  intros A Hn N Ev. destruct flag; cbn [hb_pre].
  - exists s2, []. split; [reflexivity|]. split; [exact A|]. split; [reflexivity|]. split; [discriminate|reflexivity].
  - destruct (eval_agree X s1 s2 e A N) as [E2 _]. rewrite Ev in E2.
    exists (upd s2 (n, []) v), (rds (ereads s2 e ++ flat_map (ereads s2) []) ++ [Wr (n, [])]). split.
    + apply (exec_assign 0 n [] e s2 [] v); [reflexivity|exact E2].
    + split; [apply agree_upd_r; assumption|]. split.
      * rewrite vis_rds_app. reflexivity.
      * split; [intros _; apply val_upd_same|].
        intros m Nm. apply val_upd_other. intro H. inversion H. contradiction.
Qed.

Lemma hb_e_eval X flag n e s1 s2 v :
  agree X s1 s2 -> nomention X (enames e) -> eval s1 e = Some v ->
  (flag = false -> val s2 (n, []) = v) ->
  eval s2 (hb_e flag n e) = Some v /\ vis (rds (ereads s2 (hb_e flag n e))) = [].
Proof.
  intros A N Ev Hv. split; [|apply vis_rds]. destruct flag; cbn [hb_e].
  - destruct (eval_agree X s1 s2 e A N) as [E2 _]. congruence.
  - cbn [eval]. rewrite Hv; reflexivity.
Qed.

Theorem hoistbound_local n1 n2 n3 s seg' :
  NoDup [n1; n2; n3] -> hoistbound_at n1 n2 n3 s = Some seg' ->
  nomention [n1; n2; n3] (rnames [s]) -> sim [n1; n2; n3] [s] seg'.
Proof.
  intros ND H N. destruct s as [ | |x lo hi st body| | | | | | ]; try discriminate.
  rewrite hoistbound_at_eq in H. injection H as <-.
  set (X := [n1; n2; n3]) in *.
  cbn [rnames flat_map rnames_stmt] in N. rewrite app_nil_r in N.
  apply nomention_app in N as [Nlo N]. apply nomention_app in N as [Nhi N]. apply nomention_app in N as [Nst Nb].
  assert (D12 : n1 <> n2 /\ n1 <> n3 /\ n2 <> n3).
  { inversion ND as [|? ? H1 H2]; subst. inversion H2 as [|? ? H3 H4]; subst. cbn [In] in *. repeat split; intro; subst; tauto. }
  destruct D12 as [D12 [D13 D23]].
  intros f s1 s2 s1' tr c A E.
  apply exec_do_inv in E as [f0 [l [h [t [tr0 [-> [E1 [E2 [E3 [Nt [E ->]]]]]]]]]]].
  destruct (hb_pre_exec X (simple_bound st) n3 st s1 s2 t A) as [sa [ta [Fa [Aa [Va [Wa Ua]]]]]];
    [cbn; auto|exact Nst|exact E3|].
  destruct (hb_pre_exec X (simple_bound hi) n2 hi s1 sa h Aa) as [sb [tb [Fb [Ab [Vb [Wb Ub]]]]]];
    [cbn; auto|exact Nhi|exact E2|].
  destruct (hb_pre_exec X (simple_bound lo) n1 lo s1 sb l Ab) as [sc [tc [Fc [Ac [Vc [Wc Uc]]]]]];
    [cbn; auto|exact Nlo|exact E1|].
  destruct (hb_e_eval X (simple_bound lo) n1 lo s1 sc l Ac Nlo E1 Wc) as [L1 L2].
  destruct (hb_e_eval X (simple_bound hi) n2 hi s1 sc h Ac Nhi E2) as [H1 H2].
  { intro Fl. rewrite Uc by (intro; apply D12; congruence). apply Wb, Fl. }
  destruct (hb_e_eval X (simple_bound st) n3 st s1 sc t Ac Nst E3) as [T1 T2].
  { intro Fl. rewrite Uc by (intro; apply D13; congruence). rewrite Ub by (intro; apply D23; congruence). apply Wa, Fl. }
  destruct (sim_do_loop X body body x l t (sim_refl X body Nb) _ _ _ _ _ _ _ _ Ac E) as [f1 [s2' [tr' [F1 [A1 W1]]]]].
  pose proof (exec_do f1 x _ _ _ body sc l h t L1 H1 T1 Nt) as Ed.
  rewrite (do_loop_mono_exec _ (S f1) _ _ _ _ _ _ _ _ F1 (ok_not_oof _ _ _)) in Ed by lia. cbn [prepend] in Ed.
  exists (2 + (2 + (2 + S (S f1))))%nat, s2'. eexists. split.
  - eapply exec_app_ok; [exact Fa|]. eapply exec_app_ok; [exact Fb|]. eapply exec_app_ok; [exact Fc|exact Ed].
  - split; [exact A1|]. rewrite !vis_app, Va, Vb, Vc, !vis_rds, W1. reflexivity.
Qed.

(* non-vacuity: do i = n+1, min(m, a(2)), s*2 ; a(i) = 0 *)
Definition hb_example : list stmt :=
  [SDo 0%nat (EBin Add (EVar 1%nat) (ELit 1)) (EIntr IMin [EVar 2%nat; EIdx 3%nat [ELit 2]]) (EBin Mul (EVar 4%nat) (ELit 2))
       [SAssign 3%nat [EVar 0%nat] (ELit 0)]].

Example hoistbound_nonvacuous :
  NoDup [10%nat; 11%nat; 12%nat] /\ nomentionb [10%nat; 11%nat; 12%nat] (rnames hb_example) = true /\
  hoistbound_apply 10%nat 11%nat 12%nat [0%nat] hb_example =
  Some [SAssign 12%nat [] (EBin Mul (EVar 4%nat) (ELit 2));
        SAssign 11%nat [] (EIntr IMin [EVar 2%nat; EIdx 3%nat [ELit 2]]);
        SAssign 10%nat [] (EBin Add (EVar 1%nat) (ELit 1));
        SDo 0%nat (EVar 10%nat) (EVar 11%nat) (EVar 12%nat) [SAssign 3%nat [EVar 0%nat] (ELit 0)]].
Proof.
  split; [|split; reflexivity].
  repeat constructor; cbn [In]; intro H; repeat (destruct H as [H|H]; [discriminate|]); exact H.
Qed.
