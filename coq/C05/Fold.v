(* C05 — FoldConditionalReturnExpressionsTrans: full soundness.  Same final store and the SAME trace;
   the routine-level control state may change from "returned" to "fell off the end", which is the
   same thing for the caller. *)
From Coq Require Import List ZArith Bool.
Import ListNotations.
From PV Require Import Fort.Syntax Fort.Sem Fort.Facts C05.Model C05.Equiv.
Open Scope Z_scope.

Definition cond_return (s : stmt) : option expr :=
  match s with SIf c (SReturn :: _) [] => Some c | _ => None end.

Lemma fold_apply_cons s rest :
  fold_apply (s :: rest) =
  match cond_return s with
  | Some c => [SIf (EUn Not c) (fold_apply rest) []]
  | None => s :: fold_apply rest
  end.
Proof.
  destruct s as [x ix e|c th el|x lo hi st body| | | |es|r body|d body]; try reflexivity.
  destruct th as [|t th]; [reflexivity|]. destruct t; try reflexivity. destruct el; reflexivity.
Qed.

Lemma cond_return_inv s c : cond_return s = Some c -> exists dead, s = SIf c (SReturn :: dead) [].
Proof.
  destruct s as [x ix e|c0 th el|x lo hi st body| | | |es|r body|d body]; try discriminate.
  destruct th as [|t th]; [discriminate|]. destruct t; try discriminate. destruct el; [|discriminate].
  cbn [cond_return]. intro H. injection H as <-. eauto.
Qed.

(* at routine level RETURN and normal completion are the same *)
Definition ctl_top (c c' : ctl) : Prop := c' = c \/ (c = CReturn /\ c' = CNormal).

Theorem fold_sound p : forall f s s' tr c,
  exec f p s = Ok s' tr c ->
  exists f' c', exec f' (fold_apply p) s = Ok s' tr c' /\ ctl_top c c'.
Proof.
  induction p as [|st rest IH]; intros f s s' tr c E.
  - exists f, c. split; [exact E|left; reflexivity].
  - rewrite fold_apply_cons. destruct (cond_return st) as [cnd|] eqn:Ecr.
    + apply cond_return_inv in Ecr as [dead ->].
      apply exec_cons_inv in E as [[s1 [tr1 [tr2 [E1 [E2 ->]]]]]|[Nc E1]].
      * (* condition false: the IF completes normally, the rest runs *)
        apply exec_single_inv in E1 as [f0 [-> E1]]. cbn [exec_stmt] in E1.
        destruct (eval s cnd) as [v|] eqn:Ev; [|discriminate].
        apply prepend_ok_inv in E1 as [tr0 [E1 ->]].
        destruct (v =? 0) eqn:Ez.
        -- destruct f0 as [|f0]; [discriminate|]. cbn [exec] in E1. inversion E1; subst s1 tr0.
           destruct (IH _ _ _ _ _ E2) as [f' [c' [F' Hc]]].
           exists (S (S f')), c'. split; [|exact Hc].
           apply exec_single_intro. cbn [exec_stmt eval]. rewrite Ev. cbn [option_map eval_un]. rewrite Ez.
           cbn [b2z Z.eqb]. cbn [ereads]. rewrite F'. cbn [prepend]. rewrite app_nil_r. reflexivity.
        -- (* RETURN does not complete normally *)
           destruct f0 as [|f0]; [discriminate|]. cbn [exec] in E1. discriminate.
      * (* condition true: RETURN *)
        apply exec_single_inv in E1 as [f0 [-> E1]]. cbn [exec_stmt] in E1.
        destruct (eval s cnd) as [v|] eqn:Ev; [|discriminate].
        apply prepend_ok_inv in E1 as [tr0 [E1 ->]].
        destruct (v =? 0) eqn:Ez.
        -- destruct f0 as [|f0]; [discriminate|]. cbn [exec] in E1. inversion E1; subst. contradiction.
        -- destruct f0 as [|f0]; [discriminate|]. cbn [exec] in E1. inversion E1; subst s' tr0 c.
           exists 3%nat, CNormal. split; [|right; split; reflexivity].
           apply (exec_single_intro 1). cbn [exec_stmt eval]. rewrite Ev. cbn [option_map eval_un]. rewrite Ez.
           cbn [b2z Z.eqb ereads exec prepend]. reflexivity.
    + apply exec_cons_inv in E as [[s1 [tr1 [tr2 [E1 [E2 ->]]]]]|[Nc E1]].
      * destruct (IH _ _ _ _ _ E2) as [f' [c' [F' Hc]]].
        exists (f + f')%nat, c'. split; [|exact Hc]. eapply exec_cons_ok; eassumption.
      * exists f, c. split; [|left; reflexivity].
        change (st :: fold_apply rest) with ([st] ++ fold_apply rest). apply exec_app_abrupt; assumption.
Qed.

(* non-vacuity: if (n < 5) return; s = 1; if (n > 10) return; t = 2 *)
Example fold_nonvacuous :
  fold_apply [SIf (EBin Lt (EVar 0%nat) (ELit 5)) [SReturn] []; SAssign 1%nat [] (ELit 1);
              SIf (EBin Gt (EVar 0%nat) (ELit 10)) [SReturn; SAssign 1%nat [] (ELit 3)] []; SAssign 2%nat [] (ELit 2)] =
  [SIf (EUn Not (EBin Lt (EVar 0%nat) (ELit 5)))
       [SAssign 1%nat [] (ELit 1);
        SIf (EUn Not (EBin Gt (EVar 0%nat) (ELit 10))) [SAssign 2%nat [] (ELit 2)] []] []].
Proof. reflexivity. Qed.
