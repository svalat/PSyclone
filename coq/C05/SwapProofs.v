(* C05 — LoopSwapTrans: interchange of a perfect 2-nest with literal bounds and a plain body.
   (a) the nest executes, up to the two DO variables, as the sequence of its (i, j) iterations in
       row-major order, the interchanged nest as the column-major sequence (both directions);
   (b) the two index lists are permutations of each other (and duplicate-free);
   (c) under a SEMANTIC independence premise on the iteration traces (the one of Fort/Facts2.seq_runs_perm)
       the interchanged nest computes the same store except for the two DO variables. *)
From Coq Require Import List ZArith Bool Lia Permutation.
Import ListNotations.
From PV Require Import Fort.Syntax Fort.Sem Fort.Facts Fort.Facts2 Fort.Facts3 Fort.Facts4 C05.Model C05.Equiv C05.Fuse.
Open Scope Z_scope.

Definition rowmajor {A B} (la : list A) (lb : list B) : list (A * B) :=
  flat_map (fun a => map (pair a) lb) la.
Definition colmajor {A B} (la : list A) (lb : list B) : list (A * B) :=
  flat_map (fun b => map (fun a => (a, b)) la) lb.

Lemma flat_map_cons_perm {A B} (f : A -> B) (g : A -> list B) l :
  Permutation (flat_map (fun b => f b :: g b) l) (map f l ++ flat_map g l).
Proof.
  induction l as [|a l IH]; [constructor|]. cbn [flat_map map app].
  constructor. rewrite IH. rewrite app_assoc, (Permutation_app_comm (g a) (map f l)), <- app_assoc. reflexivity.
Qed.

Lemma row_col_perm {A B} (la : list A) (lb : list B) : Permutation (rowmajor la lb) (colmajor la lb).
Proof.
  unfold rowmajor, colmajor. induction la as [|a la IH].
  - cbn [flat_map map]. induction lb as [|b lb IHb]; [constructor|exact IHb].
  - cbn [flat_map map]. rewrite IH. symmetry.
    apply (flat_map_cons_perm (fun b => (a, b)) (fun b => map (fun a0 => (a0, b)) la) lb).
Qed.

Lemma in_rowmajor {A B} (la : list A) (lb : list B) a b : In (a, b) (rowmajor la lb) <-> In a la /\ In b lb.
Proof.
  unfold rowmajor. rewrite in_flat_map. split.
  - intros [a' [Ha H]]. apply in_map_iff in H as [b' [E Hb]]. inversion E; subst. auto.
  - intros [Ha Hb]. exists a. split; [exact Ha|]. apply in_map. exact Hb.
Qed.

Lemma NoDup_app_intro {A} (l1 l2 : list A) :
  NoDup l1 -> NoDup l2 -> (forall x, In x l1 -> ~ In x l2) -> NoDup (l1 ++ l2).
Proof.
  intros H1 H2 D. induction H1 as [|a l1 Na _ IH]; [exact H2|].
  cbn [app]. constructor.
  - intro Q. apply in_app_or in Q as [Q|Q]; [exact (Na Q)|exact (D a (or_introl eq_refl) Q)].
  - apply IH. intros x Hx. apply D. right; exact Hx.
Qed.

Lemma rowmajor_NoDup {A B} (la : list A) (lb : list B) : NoDup la -> NoDup lb -> NoDup (rowmajor la lb).
Proof.
  intros Ha Hb. unfold rowmajor. induction Ha as [|a la Na _ IH]; [constructor|].
  cbn [flat_map]. apply NoDup_app_intro; [|exact IH|].
  - apply FinFun.Injective_map_NoDup; [|exact Hb]. intros b1 b2 E. inversion E; reflexivity.
  - intros [a' b'] H1 H2. apply in_map_iff in H1 as [b0 [E _]]. inversion E; subst.
    apply (in_rowmajor la lb a' b') in H2 as [H2 _]. exact (Na H2).
Qed.

(* two runs fail alike, or both complete normally in stores related by Q *)
Definition orel (Q : store -> store -> Prop) (o1 o2 : outcome) : Prop :=
  match o1, o2 with
  | Ok s1 _ c1, Ok s2 _ c2 => Q s1 s2 /\ c1 = CNormal /\ c2 = CNormal
  | Fault, Fault | OutOfFuel, OutOfFuel => True
  | _, _ => False
  end.

Lemma orel_prepend Q t1 t2 o1 o2 : orel Q o1 o2 -> orel Q (prepend t1 o1) (prepend t2 o2).
Proof. destruct o1, o2; exact (fun H => H). Qed.

Section Nest.
  Variables (x1 x2 : name) (body : list stmt) (gq : nat).
  Let gp := S gq.
  Hypothesis Hplain : plain body = true.
  Let X := [x1; x2].

  (* one iteration in canonical form: set i, set j, run the body *)
  Definition pair_run (p : Z * Z) : runner :=
    fun s => then_run (set_run (x1, []) (fst p) s)
                      (fun s1 => then_run (set_run (x2, []) (snd p) s1) (exec gp body)).

  Lemma pair_run_eq p s :
    pair_run p s = prepend [Wr (x1, []); Wr (x2, [])] (exec gp body (upd (upd s (x1, []) (fst p)) (x2, []) (snd p))).
  Proof.
    unfold pair_run, then_run, set_run. cbn [bind_run]. rewrite prepend_prepend. reflexivity.
  Qed.

  Lemma pair_run_frame p : frame_ok (pair_run p).
  Proof.
    unfold pair_run. apply (frame_then (set_run (x1, []) (fst p))); [apply frame_set_run|].
    apply (frame_then (set_run (x2, []) (snd p))); [apply frame_set_run|apply frame_exec].
  Qed.

  (* the nest  do xo { do xi { body } }  where (xo, xi) is (x1, x2) or (x2, x1); mk puts the pair of values
     in canonical (x1, x2) order *)
  Variables (xo xi : name) (mk : Z -> Z -> Z * Z).
  Hypothesis Hoi : xo <> xi.
  Hypothesis Hwo : ~ In xo (wnames body).
  Hypothesis Hxo : In xo X.
  Hypothesis Hxi : In xi X.
  Hypothesis Hmk : forall s vo vi,
    steq (upd (upd s (xo, []) vo) (xi, []) vi)
         (upd (upd s (x1, []) (fst (mk vo vi))) (x2, []) (snd (mk vo vi))).

  Lemma agree_pair_steq s1 s2 a b :
    agree X s1 s2 -> steq (upd (upd s1 (x1, []) a) (x2, []) b) (upd (upd s2 (x1, []) a) (x2, []) b).
  Proof. intro A. apply agree_upd_steq, agree_set, A. Qed.

  (* the store in which the body runs in the nest is the store of the canonical iteration *)
  Lemma body_store_steq s1 s2 vo vi :
    agree X s1 s2 -> val s1 (xo, []) = vo ->
    steq (upd s1 (xi, []) vi) (upd (upd s2 (x1, []) (fst (mk vo vi))) (x2, []) (snd (mk vo vi))).
  Proof.
    intros A Hv. eapply steq_trans; [|apply agree_pair_steq, A].
    eapply steq_trans; [|apply Hmk]. apply upd_steq, steq_sym, upd_same_steq, Hv.
  Qed.

  (* one row: the inner loop, entered with xo = vo, against the iterations (vo, .) *)
  Lemma row_eq li ti vo : forall n k s1 s2,
    agree X s1 s2 -> val s1 (xo, []) = vo ->
    orel (fun s1' s2' => agree X s1' s2' /\ val s1' (xo, []) = vo)
         (do_loop (exec gp body) xi li ti n k s1)
         (seq_runs (map pair_run (map (mk vo) (ivals li ti k n))) s2).
  Proof.
    induction n as [|n IH]; intros k s1 s2 A Hv.
    - cbn [do_loop ivals zseq map seq_runs orel]. split; [|auto].
      split; [apply agree_upd_l; [exact A|exact Hxi]|].
      rewrite val_upd_other by (intro Q; inversion Q; congruence). exact Hv.
    - unfold ivals. cbn [zseq map seq_runs do_loop]. fold (ivals li ti (k + 1) n). rewrite pair_run_eq.
      (* both sides run the body, in equivalent stores *)
      generalize (exec_steq_outcome gp body _ _ (body_store_steq s1 s2 vo (li + k * ti) A Hv)).
      destruct (exec gp body (upd s1 (xi, []) (li + k * ti))) as [sa ta ca| |] eqn:Eb;
        destruct (exec gp body (upd (upd s2 (x1, []) _) (x2, []) _)) as [sb tb cb| |];
        intro O; try contradiction; try exact I.
      destruct O as [Sab [_ <-]]. destruct (plain_exec _ _ _ _ _ _ Hplain Eb) as [-> _].
      unfold then_run. cbn [prepend bind_run]. apply orel_prepend, IH; [apply steq_agree, Sab|].
      rewrite (exec_unchanged_names _ _ _ _ _ _ (xo, []) Eb Hwo).
      rewrite val_upd_other by (intro Q; inversion Q; congruence). exact Hv.
  Qed.

  Variables (li hi ti : Z).
  Hypothesis Hti : ti <> 0.
  Let inner := SDo xi (ELit li) (ELit hi) (ELit ti) body.
  Let Vi := ivals li ti 0 (trip_count li hi ti).

  Lemma inner_exec s :
    exec (S gp) [inner] s = do_loop (exec gp body) xi li ti (trip_count li hi ti) 0 s.
  Proof. apply exec_do_lit, Hti. Qed.

  Lemma nest_eq lo to : forall n k s1 s2,
    agree X s1 s2 ->
    orel (agree X) (do_loop (exec (S gp) [inner]) xo lo to n k s1)
         (seq_runs (map pair_run (flat_map (fun vo => map (mk vo) Vi) (ivals lo to k n))) s2).
  Proof.
    induction n as [|n IH]; intros k s1 s2 A.
    - cbn [do_loop ivals zseq map flat_map seq_runs orel]. split; [|auto]. apply agree_upd_l; [exact A|exact Hxo].
    - unfold ivals. cbn [zseq map flat_map do_loop]. fold (ivals lo to (k + 1) n).
      rewrite map_app, seq_runs_app, inner_exec.
      generalize (row_eq li ti (lo + k * to) (trip_count li hi ti) 0 _ s2
                    (agree_upd_l _ _ _ _ (lo + k * to) A Hxo) (val_upd_same _ _ _)).
      fold Vi.
      destruct (do_loop (exec gp body) xi li ti (trip_count li hi ti) 0 _) as [sa ta ca| |];
        destruct (seq_runs (map pair_run (map (mk (lo + k * to)) Vi)) s2) as [sb tb cb| |];
        intro O; try contradiction; try exact I.
      destruct O as [[Aa _] [-> ->]]. unfold then_run. cbn [bind_run]. apply orel_prepend, IH, Aa.
  Qed.
End Nest.

(* The iterations (i, j), each run from the store st the nest starts from, succeed; no iteration writes a
   location another one reads upward-exposed; only the two DO variables are written by several iterations.
   (This is the premise of Fort/Facts2.seq_runs_perm; gq + 1 is the fuel given to the body.) *)
Definition swap_indep (x1 x2 : name) (body : list stmt) (gq : nat) (V1 V2 : list Z) (st : store) : Prop :=
  exists (sts : Z * Z -> store) (trs : Z * Z -> list event),
    (forall p, In p (rowmajor V1 V2) -> pair_run x1 x2 body gq p st = Ok (sts p) (trs p) CNormal) /\
    (forall i j l, In i (rowmajor V1 V2) -> In j (rowmajor V1 V2) -> i <> j ->
                   In l (writes (trs i)) -> ~ In l (exposed (trs j))) /\
    (forall i j l, In i (rowmajor V1 V2) -> In j (rowmajor V1 V2) -> i <> j ->
                   In l (writes (trs i)) -> In l (writes (trs j)) -> In l (xlocs [x1; x2])).

Lemma swap_indep_mono x1 x2 body gq gq' V1 V2 st :
  (gq <= gq')%nat -> swap_indep x1 x2 body gq V1 V2 st -> swap_indep x1 x2 body gq' V1 V2 st.
Proof.
  intros L [sts [trs [H1 [H2 H3]]]]. exists sts, trs. split; [|split; assumption].
  intros p Hp. specialize (H1 p Hp). rewrite pair_run_eq in H1 |- *.
  destruct (exec (S gq) body _) as [sa ta ca| |] eqn:E; try discriminate.
  rewrite (exec_mono _ (S gq') _ _ _ E (ok_not_oof _ _ _)) by lia. exact H1.
Qed.

Theorem swap_sound_partial x1 x2 l1 h1 t1 l2 h2 t2 body gq seg' f st s' tr c :
  x1 <> x2 -> ~ In x1 (wnames body) -> ~ In x2 (wnames body) -> plain body = true -> t2 <> 0 ->
  swap_at (SDo x1 (ELit l1) (ELit h1) (ELit t1) [SDo x2 (ELit l2) (ELit h2) (ELit t2) body]) = Some seg' ->
  swap_indep x1 x2 body gq (ivals l1 t1 0 (trip_count l1 h1 t1)) (ivals l2 t2 0 (trip_count l2 h2 t2)) st ->
  exec f [SDo x1 (ELit l1) (ELit h1) (ELit t1) [SDo x2 (ELit l2) (ELit h2) (ELit t2) body]] st = Ok s' tr c ->
  exists f' s'' tr', exec f' seg' st = Ok s'' tr' c /\ agree [x1; x2] s' s'' /\ vis tr' = vis tr.
Proof.
  intros Hx12 Hw1 Hw2 Hp Ht2 Hsw Hind E.
  cbn [swap_at] in Hsw. destruct (swap_ok _); [|discriminate]. injection Hsw as <-.
  set (V1 := ivals l1 t1 0 (trip_count l1 h1 t1)) in *. set (V2 := ivals l2 t2 0 (trip_count l2 h2 t2)) in *.
  (* plain nests complete normally and print nothing *)
  assert (Hpl : forall xa la ha ta xb lb hb tb,
            plain [SDo xa (ELit la) (ELit ha) (ELit ta) [SDo xb (ELit lb) (ELit hb) (ELit tb) body]] = true)
    by (intros; rewrite !plain_do; exact Hp).
  destruct (plain_exec _ _ _ _ _ _ (Hpl _ _ _ _ _ _ _ _) E) as [-> V0].
  apply exec_do_lit_inv in E as [f0 [-> [Ht1 E]]].
  set (G := Nat.max gq f0).
  apply (swap_indep_mono _ _ _ gq G) in Hind; [|lia].
  apply (do_loop_mono_exec _ (S (S G))) in E; [|discriminate|lia].
  (* the nest is the row-major sequence of its iterations *)
  pose proof (nest_eq x1 x2 body G Hp x1 x2 pair Hx12 Hw1 (or_introl eq_refl) (or_intror (or_introl eq_refl))
                (fun s vo vi => steq_refl _) l2 h2 t2 Ht2 l1 t1 (trip_count l1 h1 t1) 0 st st (agree_refl _ st)) as O1.
  rewrite E in O1. fold V2 V1 in O1. change (flat_map (fun vo => map (pair vo) V2) V1) with (rowmajor V1 V2) in O1.
  (* reorder the iterations *)
  destruct Hind as [sts [trs [H1 [H2 H3]]]].
  assert (ND : NoDup (rowmajor V1 V2)) by (apply rowmajor_NoDup; apply ivals_NoDup; assumption).
  destruct (seq_runs_perm (pair_run x1 x2 body G) sts trs (fun l0 => In l0 (xlocs [x1; x2])) st
              (rowmajor V1 V2) (colmajor V1 V2) ND (row_col_perm V1 V2)
              (fun i _ => pair_run_frame x1 x2 body G i) H1 H2 H3)
    as [sA [sB [RA [RB [BA [BB [AB _]]]]]]].
  rewrite RA in O1. destruct O1 as [AA _].
  (* the column-major sequence is the interchanged nest *)
  pose proof (nest_eq x1 x2 body G Hp x2 x1 (fun vo vi => (vi, vo)) (fun Q => Hx12 (eq_sym Q)) Hw2
                (or_intror (or_introl eq_refl)) (or_introl eq_refl)
                (fun s vo vi => upd_comm s (x2, []) (x1, []) vo vi ltac:(intro Q; inversion Q; congruence))
                l1 h1 t1 Ht1 l2 t2 (trip_count l2 h2 t2) 0 st st (agree_refl _ st)
              : orel _ _ (seq_runs (map (pair_run x1 x2 body G) (colmajor V1 V2)) st)) as O2.
  rewrite RB, <- (exec_do_lit (S G) x2 l2 h2 t2 _ st Ht2) in O2.
  destruct (exec (S (S (S G))) _ st) as [sC trC cC| |] eqn:Ed; try contradiction. destruct O2 as [AC [-> _]].
  exists (S (S (S G))), sC, trC. split; [exact Ed|]. split.
  - eapply agree_trans; [exact AA|]. eapply agree_trans; [|apply agree_sym, AC].
    split; [congruence|]. intros l0 N. symmetry. apply AB, N.
  - rewrite V0. apply (plain_exec _ _ _ _ _ _ (Hpl _ _ _ _ _ _ _ _) Ed).
Qed.

(* non-vacuity: do j = 1,2 { do i = 1,2 { d(i,j) = e(i,j) + 1 } } from the empty store;
   the two conditions of [swap_indep] on a pair of concrete traces are checked by boolean tests *)
Lemma disjoint_locs (A B : list loc) :
  forallb (fun l => negb (existsb (loc_eqb l) B)) A = true -> forall l, In l A -> ~ In l B.
Proof.
  rewrite forallb_forall. intros H l Ha Hb. specialize (H l Ha).
  apply existsb_loc_eqb in Hb. rewrite Hb in H. discriminate.
Qed.
Lemma common_locs (A B X : list loc) :
  forallb (fun l => negb (existsb (loc_eqb l) B) || existsb (loc_eqb l) X) A = true ->
  forall l, In l A -> In l B -> In l X.
Proof.
  rewrite forallb_forall. intros H l Ha Hb. specialize (H l Ha).
  apply existsb_loc_eqb in Hb. rewrite Hb in H. apply existsb_loc_eqb, H.
Qed.

Definition swap_ex_body : list stmt :=
  [SAssign 13%nat [EVar 0%nat; EVar 1%nat] (EBin Add (EIdx 14%nat [EVar 0%nat; EVar 1%nat]) (ELit 1))].
Definition swap_ex_store : store := store_of [] [].
Definition swap_ex_run (p : Z * Z) : outcome := pair_run 1%nat 0%nat swap_ex_body 1 p swap_ex_store.
Definition swap_ex_trs (p : Z * Z) : list event := match swap_ex_run p with Ok _ tr _ => tr | _ => [] end.
Definition swap_ex_sts (p : Z * Z) : store := match swap_ex_run p with Ok s _ _ => s | _ => swap_ex_store end.

Example swap_nonvacuous :
  swap_at (SDo 1%nat (ELit 1) (ELit 2) (ELit 1) [SDo 0%nat (ELit 1) (ELit 2) (ELit 1) swap_ex_body]) =
    Some [SDo 0%nat (ELit 1) (ELit 2) (ELit 1) [SDo 1%nat (ELit 1) (ELit 2) (ELit 1) swap_ex_body]] /\
  plain swap_ex_body = true /\
  swap_indep 1%nat 0%nat swap_ex_body 1 (ivals 1 1 0 (trip_count 1 2 1)) (ivals 1 1 0 (trip_count 1 2 1)) swap_ex_store.
Proof.
  split; [reflexivity|]. split; [reflexivity|].
  exists swap_ex_sts, swap_ex_trs.
  change (rowmajor (ivals 1 1 0 (trip_count 1 2 1)) (ivals 1 1 0 (trip_count 1 2 1))) with [(1, 1); (1, 2); (2, 1); (2, 2)].
  split; [|split].
  - intros p [<-|[<-|[<-|[<-|[]]]]]; reflexivity.
  - intros i j l Hi Hj Nij.
    destruct Hi as [<-|[<-|[<-|[<-|[]]]]]; destruct Hj as [<-|[<-|[<-|[<-|[]]]]]; try (exfalso; apply Nij; reflexivity);
      apply disjoint_locs; vm_compute; reflexivity.
  - intros i j l Hi Hj Nij.
    destruct Hi as [<-|[<-|[<-|[<-|[]]]]]; destruct Hj as [<-|[<-|[<-|[<-|[]]]]]; try (exfalso; apply Nij; reflexivity);
      apply common_locs; vm_compute; reflexivity.
Qed.
