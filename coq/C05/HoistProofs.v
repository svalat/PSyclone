(* C05 — HoistTrans: soundness under a computable sufficient condition (hoist_sound_partial):
   the loop has literal bounds with trip count >= 1, the hoisted statement is a scalar assignment
   x = e whose right-hand side reads nothing the loop writes (name-level frame of Fort/Facts3), the
   statements before it are plain (no EXIT/CYCLE/RETURN) and do not read x, and x is written nowhere
   else in the body.  Excluded names: none (sim []).  The refutations are in Refuted.v. *)
From Coq Require Import List ZArith Bool Lia.
Import ListNotations.
From PV Require Import Fort.Syntax Fort.Sem Fort.Facts Fort.Facts3 C05.Model C05.Equiv C05.Fuse.
Open Scope Z_scope.

Lemma remove_nth_split {A} n (l : list A) : remove_nth n l = firstn n l ++ skipn (S n) l.
Proof.
  revert l. induction n as [|n IH]; intros [|a l]; try reflexivity.
  cbn [remove_nth firstn skipn app]. rewrite IH. reflexivity.
Qed.

Section Hoist.
  Variables (x y : name) (e : expr) (pre post : list stmt) (s0 : store) (v : Z) (g : nat).
  Let body := pre ++ SAssign x [] e :: post.
  Let body' := pre ++ post.
  Hypothesis Hxy : x <> y.
  Hypothesis Hpre_plain : plain pre = true.
  Hypothesis Hpre_r : ~ In x (rnames pre).
  Hypothesis Hpre_w : ~ In x (wnames pre).
  Hypothesis Hpost_w : ~ In x (wnames post).
  Hypothesis Hey : ~ In y (enames e).
  Hypothesis Hew : forall nm, In nm (enames e) -> ~ In nm (wnames body).
  Hypothesis Hv : eval s0 e = Some v.

  (* the names read by e keep the values they have in s0 *)
  Definition Inv (s : store) : Prop :=
    bnd s = bnd s0 /\ forall l, In (fst l) (enames e) -> val s l = val s0 l.
  (* transformed store: x already holds v, everything else as in the original *)
  Definition Rel (s1 s2 : store) : Prop := agree [x] s1 s2 /\ val s2 (x, []) = v.

  Lemma Inv_eval s : Inv s -> eval s e = eval s0 e.
  Proof.
    intros [B I]. apply eval_frame; [exact B|].
    intros l Hl. apply I. eapply ereads_names; exact Hl.
  Qed.

  Lemma Inv_upd_y s k : Inv s -> Inv (upd s (y, []) k).
  Proof.
    intros [B I]. split; [exact B|]. intros l Hl. rewrite val_upd_other; [apply I, Hl|].
    intro Q. subst l. exact (Hey Hl).
  Qed.

  (* running the loop variable's assignment and then statements that write no name of e keeps Inv *)
  Lemma Inv_exec ss k s s' tr c :
    (forall nm, In nm (enames e) -> ~ In nm (wnames ss)) ->
    Inv s -> exec g ss (upd s (y, []) k) = Ok s' tr c -> Inv s'.
  Proof.
    intros Hw HI E. destruct (Inv_upd_y s k HI) as [B I]. split; [rewrite (exec_bnd _ _ _ _ _ _ E); exact B|].
    intros l Hl. rewrite (exec_unchanged_names _ _ _ _ _ _ l E (Hw _ Hl)). apply I, Hl.
  Qed.

  (* after an iteration the two stores coincide and x holds v *)
  Definition Post (s1 s2 : store) : Prop := steq s1 s2 /\ val s2 (x, []) = v /\ Inv s1.

  Lemma hoist_iteration k s1 s2 :
    Rel s1 s2 -> Inv s1 ->
    osim Post (exec g body (upd s1 (y, []) k)) (exec (g + g) body' (upd s2 (y, []) k)).
  Proof.
    intros [A Rx] HI sa ta ca E.
    assert (Isa : Inv sa) by exact (Inv_exec _ _ _ _ _ _ Hew HI E).
    unfold body in E. apply exec_app_inv in E as [[sp [tp [tq [Ep [Eq ->]]]]]|[Nc Ep]].
    2:{ destruct (plain_exec _ _ _ _ _ _ Hpre_plain Ep) as [-> _]. contradiction. }
    apply exec_cons_inv in Eq as [[sq [tq1 [tq2 [Ea [Eq ->]]]]]|[Nc Ea]].
    2:{ apply exec_single_inv in Ea as [f' [_ Ea]]. cbn [exec_stmt map opt_all] in Ea.
        destruct (eval sp e); [|discriminate]. inversion Ea; subst. contradiction. }
    (* the assignment stores v *)
    assert (Isp : Inv sp).
    { refine (Inv_exec pre _ _ _ _ _ _ HI Ep). intros nm Hn W. apply (Hew _ Hn).
      unfold body. rewrite wnames_app. apply in_or_app. left; exact W. }
    apply exec_single_inv in Ea as [f' [_ Ea]]. cbn [exec_stmt map opt_all] in Ea.
    rewrite (Inv_eval _ Isp), Hv in Ea. inversion Ea; subst sq tq1. clear Ea.
    (* pre neither reads nor writes x: it runs alike on the transformed store and leaves v in x *)
    assert (Npre : nomention [x] (rnames pre)) by (intros z [<-|[]]; exact Hpre_r).
    destruct (exec_osim_refl [x] g g pre _ _ (le_n g) Npre (agree_upd _ _ _ (y, []) k A) _ _ _ Ep)
      as [sb [tb [Fp [Ab Vb]]]].
    assert (Xb : val sb (x, []) = v).
    { rewrite (exec_unchanged_names _ _ _ _ _ _ (x, []) Fp Hpre_w).
      rewrite val_upd_other by (intro Q; inversion Q; congruence). exact Rx. }
    assert (St : steq (upd sp (x, []) v) sb).
    { eapply steq_trans; [apply (agree_upd_steq x sp sb v Ab)|apply upd_same_steq, Xb]. }
    destruct (exec_steq _ _ _ _ _ _ _ St Eq) as [sb2 [Fq St2]].
    exists sb2, (tb ++ tq2). split; [eapply exec_app_ok; eassumption|]. split.
    - split; [exact St2|]. split; [|exact Isa].
      rewrite (exec_unchanged_names _ _ _ _ _ _ (x, []) Fq Hpost_w). exact Xb.
    - rewrite !vis_app, vis_rds, Vb. reflexivity.
  Qed.

  Lemma Post_Rel s1 s2 : Post s1 s2 -> Rel s1 s2.
  Proof. intros [St [H _]]. split; [apply steq_agree, St|exact H]. Qed.

  (* the first iteration establishes Post, the others keep it *)
  Lemma hoist_loop l t n k s1 s2 :
    Rel s1 s2 -> Inv s1 ->
    osim Post (do_loop (exec g body) y l t (S n) k s1) (do_loop (exec (g + g) body') y l t (S n) k s2).
  Proof.
    intros HR HI. rewrite !do_loop_S. apply osim_bind.
    - apply osim_iter_run, hoist_iteration; assumption.
    - intros sa sb. apply osim_do_loop.
      + intros s1' s2' w [St [Vx I]]. split; [apply upd_steq, St|]. split; [|apply Inv_upd_y, I].
        rewrite val_upd_other by (intro Q; inversion Q; congruence). exact Vx.
      + intros w s1' s2' HP. apply hoist_iteration; [apply Post_Rel, HP|apply HP].
  Qed.
End Hoist.

Definition hoist_safe_local (n : nat) (s : stmt) : bool :=
  match s with
  | SDo y (ELit l) (ELit h) (ELit t) body =>
      match nth_error body n with
      | Some (SAssign x [] e) =>
          negb (t =? 0) && Nat.ltb 0 (trip_count l h t) && negb (Nat.eqb x y) &&
          plain (firstn n body) &&
          negb (mem x (rnames (firstn n body))) && negb (mem x (wnames (firstn n body))) &&
          negb (mem x (wnames (skipn (S n) body))) &&
          negb (mem y (enames e)) && disjointb (enames e) (wnames body)
      | _ => false
      end
  | _ => false
  end.

Lemma hoist_local n s seg' :
  hoist_safe_local n s = true -> hoist_at n s = Some seg' -> sim [] [s] seg'.
Proof.
  intros Hs Ha.
  destruct s as [ | |y lo hi st body| | | | | | ]; try discriminate.
  destruct lo as [l| | | | | ]; try discriminate. destruct hi as [h| | | | | ]; try discriminate.
  destruct st as [t| | | | | ]; try discriminate.
  cbn [hoist_safe_local] in Hs. cbn [hoist_at] in Ha.
  destruct (nth_error body n) as [a|] eqn:En; [|discriminate].
  destruct a as [x ix e| | | | | | | | ]; try discriminate. destruct ix; [|discriminate].
  destruct (hoist_ok n _); [|discriminate]. injection Ha as <-.
  repeat (apply andb_true_iff in Hs as [Hs ?]).
  assert (Htrip : (0 < trip_count l h t)%nat) by (apply Nat.ltb_lt; assumption).
  assert (Hxy : x <> y) by (apply negb_eqb_ok; assumption).
  set (pre := firstn n body) in *. set (post := skipn (S n) body) in *.
  assert (Hbody : body = pre ++ SAssign x [] e :: post) by (apply nth_error_split_list, En).
  assert (Hpre_r : ~ In x (rnames pre)) by (apply negb_mem_ok; assumption).
  assert (Hpre_w : ~ In x (wnames pre)) by (apply negb_mem_ok; assumption).
  assert (Hpost_w : ~ In x (wnames post)) by (apply negb_mem_ok; assumption).
  assert (Hey : ~ In y (enames e)) by (apply negb_mem_ok; assumption).
  assert (Hew : forall nm, In nm (enames e) -> ~ In nm (wnames (pre ++ SAssign x [] e :: post))).
  { rewrite <- Hbody. apply disjointb_ok. assumption. }
  rewrite remove_nth_split. fold pre post.
  intros f s1 s2 s1' tr c A E.
  apply exec_do_lit_inv in E as [f0 [-> [Nt E]]].
  destruct (trip_count l h t) as [|n0] eqn:Etc; [lia|].
  rewrite Hbody in E.
  (* the value of e: taken from the first iteration of the original run *)
  assert (Hv : exists v, eval s1 e = Some v).
  { cbn [do_loop] in E.
    destruct (exec (S f0) (pre ++ SAssign x [] e :: post) (upd s1 (y, []) (l + 0 * t))) as [sa ta ca| |] eqn:Eb;
      try discriminate.
    apply exec_app_inv in Eb as [[sp [tp [tq [Ep [Eq _]]]]]|[Nc Ep]].
    2:{ destruct (plain_exec _ _ _ _ _ _ ltac:(eassumption) Ep) as [-> _]. contradiction. }
    assert (Ev : exists v, eval sp e = Some v).
    { apply exec_cons_inv in Eq as [[sq [tq1 [tq2 [Ea _]]]]|[_ Ea]];
        apply exec_single_inv in Ea as [f' [_ Ea]]; cbn [exec_stmt map opt_all] in Ea;
        destruct (eval sp e) as [v|]; try discriminate; eauto. }
    destruct Ev as [v Ev]. exists v. rewrite <- Ev. symmetry. apply Inv_eval.
    refine (Inv_exec y e s1 (S f0) Hey pre _ _ _ _ _ _ (conj eq_refl (fun _ _ => eq_refl)) Ep).
    intros nm Hn W. apply (Hew _ Hn). rewrite wnames_app. apply in_or_app. left; exact W. }
  destruct Hv as [v Hv].
  apply agree_nil_steq in A.
  assert (Hv2 : eval s2 e = Some v) by (rewrite (proj1 (eval_steq s1 s2 e A)); exact Hv).
  assert (HR : Rel x v s1 (upd s2 (x, []) v)).
  { split; [apply agree_upd_r; [apply steq_agree, A|left; reflexivity]|apply val_upd_same]. }
  assert (HI : Inv e s1 s1) by (split; reflexivity).
  destruct (hoist_loop x y e pre post s1 v (S f0) Hxy ltac:(assumption) Hpre_r Hpre_w Hpost_w Hey Hew Hv
              l t n0 0 s1 (upd s2 (x, []) v) HR HI _ _ _ E) as [s2' [tr' [F2 [[S2 _] V2]]]].
  pose proof (exec_assign 0 x [] e s2 [] v eq_refl Hv2) as Ea.
  pose proof (exec_do_lit (f0 + S f0) y l h t (pre ++ post) (upd s2 (x, []) v) Nt) as Ed.
  rewrite Etc in Ed. change (S (f0 + S f0)) with (S f0 + S f0)%nat in Ed. rewrite F2 in Ed.
  eexists. eexists. eexists. split; [eapply (exec_cons_ok 2); [exact Ea|exact Ed]|].
  split; [apply steq_agree, S2|].
  rewrite !vis_app, !vis_rds. cbn [vis filter visible app]. exact V2.
Qed.

Definition hoist_guard (n : nat) (seg : list stmt) : option (list stmt) :=
  match seg with [s] => if hoist_safe_local n s then Some [] else None | _ => None end.

Definition hoist_safe (path : list nat) (p : list stmt) : bool :=
  match rev path with
  | n :: rl => match rw 1 (hoist_guard n) (rev rl) p with Some _ => true | None => false end
  | [] => false
  end.

Theorem hoist_sound_partial path p p' :
  hoist_safe path p = true -> hoist_apply path p = Some p' -> sim [] p p'.
Proof.
  unfold hoist_safe, hoist_apply. intros Hs Ha.
  destruct (rev path) as [|n rl]; [discriminate|].
  destruct (rw 1 (hoist_guard n) (rev rl) p) as [p0|] eqn:E0; [|discriminate].
  refine (rw1_sim _ _ _ _ _ _ _ (hoist_local n) Ha E0 _). intros z [].
Qed.

(* non-vacuity:  do i = 1, 3 { b(i) = 2; s = n + 1; a(i) = s } *)
Definition hoist_example : list stmt :=
  [SDo 0%nat (ELit 1) (ELit 3) (ELit 1)
     [SAssign 11%nat [EVar 0%nat] (ELit 2);
      SAssign 4%nat [] (EBin Add (EVar 2%nat) (ELit 1));
      SAssign 10%nat [EVar 0%nat] (EVar 4%nat)]].

Example hoist_nonvacuous :
  hoist_safe [0%nat; 1%nat] hoist_example = true /\
  hoist_apply [0%nat; 1%nat] hoist_example =
  Some [SAssign 4%nat [] (EBin Add (EVar 2%nat) (ELit 1));
        SDo 0%nat (ELit 1) (ELit 3) (ELit 1)
          [SAssign 11%nat [EVar 0%nat] (ELit 2); SAssign 10%nat [EVar 0%nat] (EVar 4%nat)]].
Proof. split; reflexivity. Qed.
