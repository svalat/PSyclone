(* C05 — the commutation premise of loop fusion (C05/Fuse.v): SEMANTIC, over the iterations of the two bodies. *)
From Coq Require Import List ZArith Bool.
Import ListNotations.
From PV Require Import Fort.Syntax Fort.Sem Fort.Facts Fort.Facts3 C05.Model C05.Equiv C05.FusePCProofs.
Open Scope Z_scope.

(* iteration v of the second loop commutes, up to the DO variable, with every other iteration of the first loop *)
Definition pc_commute (x : name) (b1 b2 : list stmt) : Prop :=
  forall g v v', v <> v' ->
    rsim x (seqr (iter_run (exec g b1) x v') (iter_run (exec g b2) x v))
           (seqr (iter_run (exec g b2) x v) (iter_run (exec g b1) x v')).

Lemma iter_refl x g b v : rsim x (iter_run (exec g b) x v) (iter_run (exec g b) x v).
Proof. apply rsim_iter_refl. intros s s' s1 tr c St E. exact (exec_steq _ _ _ _ _ _ _ St E). Qed.

Lemma iters_refl x g b vs : rsim x (iters (exec g b) x vs) (iters (exec g b) x vs).
Proof.
  unfold iters. apply rsim_seq_runs_map. intro v. apply iter_refl.
Qed.
