(* C05 — ReplaceInductionVariablesTrans: soundness under a computable sufficient condition
   (induction_sound_partial): literal bounds with trip count >= 1, the body is the induction assignment
   v = rhs followed by assignments only (no EXIT/CYCLE/RETURN, no nested blocks), rhs reads nothing the
   body writes (it may read the loop variable), v is not written again and not used as an array, and the
   model's algorithm yields exactly the single replacement (checked by computation in the condition).
   Excluded names: none (sim []).  The refutations are in Refuted.v. *)
From Coq Require Import List ZArith Bool Lia.
Import ListNotations.
From PV Require Import Fort.Syntax Fort.Sem Fort.Facts Fort.Facts3 C05.Model C05.Equiv C05.Fuse.
Open Scope Z_scope.

(* names used as arrays (EIdx) or as the inquired argument of LBOUND/UBOUND/SIZE *)
Fixpoint arrnames (e : expr) : list name :=
  match e with
  | ELit _ | EVar _ => []
  | EIdx a ix => a :: flat_map arrnames ix
  | EUn _ e1 => arrnames e1
  | EBin _ l r => arrnames l ++ arrnames r
  | EIntr f args =>
      (if is_inquiry f then match args with EVar a :: _ => [a] | _ => [] end else []) ++ flat_map arrnames args
  end.

Section Subst.
  Variables (z : name) (r : expr) (s1 s2 : store).
  (* s2 = s1 except at the scalar z, and r evaluates in s2 to the value z has in s1 *)
  Hypothesis Hb : bnd s2 = bnd s1.
  Hypothesis Ho : forall l, l <> (z, []) -> val s2 l = val s1 l.
  Hypothesis Hr : eval s2 r = Some (val s1 (z, [])).

  Lemma esubst_evals es :
    Forall (fun e => ~ In z (arrnames e) -> eval s2 (esubst z r e) = eval s1 e) es ->
    ~ In z (flat_map arrnames es) -> map (eval s2) (map (esubst z r) es) = map (eval s1) es.
  Proof.
    induction 1 as [|e es He _ IH]; intro N; [reflexivity|]. cbn [map flat_map] in *.
    rewrite He by (intro Q; apply N, in_or_app; left; exact Q).
    rewrite IH by (intro Q; apply N, in_or_app; right; exact Q). reflexivity.
  Qed.

  Lemma esubst_eval : forall e, ~ In z (arrnames e) -> eval s2 (esubst z r e) = eval s1 e.
  Proof.
    induction e as [c|y|a ix IH|o e IH|o l rr IHl IHr|f args IH] using expr_ind'; intro N; cbn [esubst eval].
    - reflexivity.
    - destruct (Nat.eqb y z) eqn:E.
      + apply Nat.eqb_eq in E. subst y. exact Hr.
      + apply Nat.eqb_neq in E. cbn [eval]. rewrite Ho; [reflexivity|]. intro Q. inversion Q. contradiction.
    - cbn [arrnames] in N. rewrite (esubst_evals ix IH) by (intro Q; apply N; right; exact Q).
      destruct (opt_all (map (eval s1) ix)) as [vs|]; [|reflexivity].
      rewrite Ho; [reflexivity|]. intro Q. inversion Q. subst. apply N. left; reflexivity.
    - rewrite IH by exact N. reflexivity.
    - cbn [arrnames] in N. rewrite IHl by (intro Q; apply N, in_or_app; left; exact Q).
      rewrite IHr by (intro Q; apply N, in_or_app; right; exact Q). reflexivity.
    - cbn [arrnames] in N.
      assert (N2 : ~ In z (flat_map arrnames args)) by (intro Q; apply N, in_or_app; right; exact Q).
      destruct (is_inquiry f) eqn:Ei.
      + destruct args as [|a0 rest]; [reflexivity|]. cbn [map].
        cbn [flat_map] in N2.
        rewrite (esubst_evals rest (Forall_inv_tail IH)) by (intro Q; apply N2, in_or_app; right; exact Q).
        destruct (opt_all (map (eval s1) rest)) as [vs|]; [|reflexivity].
        (* the inquired array name is unchanged *)
        assert (Hd : forall a d, dim_of s2 a d = dim_of s1 a d) by (intros; unfold dim_of; rewrite Hb; reflexivity).
        destruct a0 as [c|y|a ix|o e|o l rr|g args']; cbn [esubst]; try reflexivity.
        destruct (Nat.eqb y z) eqn:E.
        * apply Nat.eqb_eq in E. subst y. exfalso. apply N. left; reflexivity.
        * destruct f; try discriminate; cbn [eval_intr]; destruct vs as [|d [|]]; try reflexivity; rewrite Hd; reflexivity.
      + rewrite (esubst_evals args IH N2). destruct (opt_all (map (eval s1) args)) as [vs|]; [|reflexivity].
        destruct f; try discriminate; reflexivity.
  Qed.
End Subst.

Definition is_assign (s : stmt) : bool := match s with SAssign _ _ _ => true | _ => false end.
Definition arrnames_stmt (s : stmt) : list name :=
  match s with SAssign _ ix e => flat_map arrnames ix ++ arrnames e | _ => [] end.

Lemma assigns_plain ss : forallb is_assign ss = true -> plain ss = true.
Proof.
  unfold plain. rewrite !forallb_forall. intros H s Hs. specialize (H s Hs). destruct s; try discriminate. reflexivity.
Qed.

Section Ind.
  Variables (v x : name) (rhs : expr).
  Hypothesis Hvx : v <> x.
  Hypothesis Hv_rhs : ~ In v (enames rhs).

  (* Between iterations the two stores agree except at v (stale in the transformed program).  Inside an
     iteration, after the induction assignment: original store s1 (v holds the value of rhs), transformed
     store s2 (rhs still has that value). *)
  Definition coupled (s1 s2 : store) : Prop := agree [v] s1 s2 /\ eval s2 rhs = Some (val s1 (v, [])).

  Lemma coupled_eval s1 s2 e : coupled s1 s2 -> ~ In v (arrnames e) -> eval s2 (esubst v rhs e) = eval s1 e.
  Proof. intros [A R]. exact (esubst_eval v rhs s1 s2 (proj1 A) (agree1_val v s1 s2 A) R e). Qed.

  Lemma coupled_evals s1 s2 es : coupled s1 s2 -> ~ In v (flat_map arrnames es) ->
    map (eval s2) (map (esubst v rhs) es) = map (eval s1) es.
  Proof. intro HC. apply esubst_evals, Forall_forall. intros e _. apply coupled_eval, HC. Qed.

  Lemma rest_sim : forall rest f s1 s2,
    forallb is_assign rest = true -> ~ In v (wnames rest) ->
    (forall nm, In nm (enames rhs) -> ~ In nm (wnames rest)) ->
    ~ In v (flat_map arrnames_stmt rest) ->
    coupled s1 s2 -> osim coupled (exec f rest s1) (exec f (map (ssubst v rhs) rest) s2).
  Proof.
    induction rest as [|st rest IH]; intros f s1 s2 Ha Hw Hr Harr HC s1' tr c E.
    - destruct f; [discriminate|]. cbn [exec map] in *. inversion E; subst. exists s2, []. auto.
    - destruct f as [|f]; [discriminate|]. cbn [forallb] in Ha. apply andb_true_iff in Ha as [Ha1 Ha2].
      destruct st as [a ix e| | | | | | | | ]; try discriminate.
      rewrite wnames_cons in Hw. cbn [wnames_stmt app] in Hw.
      cbn [flat_map arrnames_stmt] in Harr.
      cbn [map ssubst]. rewrite exec_cons in E |- *. cbn [exec_stmt] in E |- *.
      rewrite (coupled_evals s1 s2 ix HC) by (intro Q; apply Harr, in_or_app; left; apply in_or_app; left; exact Q).
      rewrite (coupled_eval s1 s2 e HC) by (intro Q; apply Harr, in_or_app; left; apply in_or_app; right; exact Q).
      destruct HC as [A R].
      destruct (opt_all (map (eval s1) ix)) as [vs|]; [|discriminate].
      destruct (eval s1 e) as [w|]; [|discriminate].
      unfold then_run in E |- *. cbn [bind_run] in E |- *.
      apply prepend_ok_inv in E as [tr0 [E ->]].
      assert (Nav : (a, vs) <> (v, [])) by (intro Q; inversion Q; subst; apply Hw; left; reflexivity).
      assert (HC' : coupled (upd s1 (a, vs) w) (upd s2 (a, vs) w)).
      { split; [apply agree_upd, A|].
        rewrite val_upd_other by (intro Q; apply Nav; symmetry; exact Q). rewrite <- R.
        apply eval_frame; [reflexivity|]. intros l Hl. apply val_upd_other. intro Q. subst l.
        apply (Hr a); [apply (ereads_names _ _ _ Hl)|rewrite wnames_cons; left; reflexivity]. }
      assert (Hw' : ~ In v (wnames rest)) by (intro Q; apply Hw; right; exact Q).
      assert (Hr' : forall nm, In nm (enames rhs) -> ~ In nm (wnames rest)).
      { intros nm Hn Q. apply (Hr nm Hn). rewrite wnames_cons. apply in_or_app. right; exact Q. }
      assert (Harr' : ~ In v (flat_map arrnames_stmt rest)) by (intro Q; apply Harr, in_or_app; right; exact Q).
      destruct (IH f _ _ Ha2 Hw' Hr' Harr' HC' _ _ _ E) as [s2' [tr' [F [C2 V]]]].
      rewrite F. cbn [prepend]. eexists. eexists. split; [reflexivity|]. split; [exact C2|].
      rewrite !vis_app, !vis_rds, V. reflexivity.
  Qed.

  Variables (rest : list stmt) (g : nat).
  Hypothesis Hassign : forallb is_assign rest = true.
  Hypothesis Hv_w : ~ In v (wnames rest).
  Hypothesis Hrhs_w : forall nm, In nm (enames rhs) -> ~ In nm (wnames rest).
  Hypothesis Hv_arr : ~ In v (flat_map arrnames_stmt rest).
  Let body := SAssign v [] rhs :: rest.
  Let body' := map (ssubst v rhs) rest.

  Lemma body_plain : plain body = true.
  Proof. exact (assigns_plain body Hassign). Qed.

  Lemma body_inv s0 sa ta ca : exec g body s0 = Ok sa ta ca ->
    exists g' r tr0, g = S g' /\ eval s0 rhs = Some r /\
                     exec g' rest (upd s0 (v, []) r) = Ok sa tr0 ca /\ vis ta = vis tr0.
  Proof.
    intro E. unfold body in E. destruct g as [|g']; [discriminate|].
    rewrite exec_cons in E. cbn [exec_stmt map opt_all] in E.
    destruct (eval s0 rhs) as [r|]; [|discriminate].
    unfold then_run in E. cbn [bind_run] in E. apply prepend_ok_inv in E as [tr0 [E ->]].
    exists g', r, tr0. rewrite vis_app, vis_rds_app. auto.
  Qed.

  Lemma ind_iteration k s1 s2 :
    agree [v] s1 s2 -> osim (agree [v]) (exec g body (upd s1 (x, []) k)) (exec g body' (upd s2 (x, []) k)).
  Proof.
    intros A sa ta ca E. apply body_inv in E as [g' [r [tr0 [-> [Er [E Vt]]]]]].
    assert (Ax : agree [v] (upd s1 (x, []) k) (upd s2 (x, []) k)) by apply agree_upd, A.
    assert (HC : coupled (upd (upd s1 (x, []) k) (v, []) r) (upd s2 (x, []) k)).
    { split; [apply agree_upd_l; [exact Ax|left; reflexivity]|].
      rewrite val_upd_same, <- Er. apply (eval_agree [v] _ _ rhs Ax). intros y [<-|[]]. exact Hv_rhs. }
    destruct (rest_sim rest g' _ _ Hassign Hv_w Hrhs_w Hv_arr HC _ _ _ E) as [sb [tb [F [[Ab _] V]]]].
    exists sb, tb. split; [apply (exec_mono g' (S g')); [exact F|discriminate|lia]|]. split; [exact Ab|congruence].
  Qed.

  (* after an iteration of the original body, v holds the value rhs has with x at the iteration value *)
  Lemma ind_body_post k s sa ta ca :
    exec g body (upd s (x, []) k) = Ok sa ta ca -> eval (upd sa (x, []) k) rhs = Some (val sa (v, [])).
  Proof.
    intro E. apply body_inv in E as [g' [r [tr0 [_ [Er [E _]]]]]].
    rewrite (exec_unchanged_names _ _ _ _ _ _ (v, []) E Hv_w). rewrite val_upd_same. rewrite <- Er.
    apply eval_frame; [cbn [bnd upd]; apply (exec_bnd _ _ _ _ _ _ E)|].
    intros l Hl. apply ereads_names in Hl. rewrite !val_upd. destruct (loc_eq_dec l (x, [])); [reflexivity|].
    rewrite (exec_unchanged_names _ _ _ _ _ _ l E (Hrhs_w _ Hl)).
    rewrite val_upd_other; [rewrite val_upd_other by assumption; reflexivity|].
    intro Q. subst l. exact (Hv_rhs Hl).
  Qed.

  Lemma ind_loop_sim l t n k s1 s2 :
    agree [v] s1 s2 ->
    osim (agree [v]) (do_loop (exec g body) x l t n k s1) (do_loop (exec g body') x l t n k s2).
  Proof. apply osim_do_loop; [intros ? ? ?; apply agree_upd|intros; apply ind_iteration; assumption]. Qed.

  (* what the last iteration leaves behind *)
  Lemma ind_loop_post l t n k s s' tr :
    do_loop (exec g body) x l t (S n) k s = Ok s' tr CNormal ->
    eval (upd s' (x, []) (l + (k + Z.of_nat n) * t)) rhs = Some (val s' (v, [])) /\
    val s' (x, []) = l + (k + Z.of_nat (S n)) * t.
  Proof.
    rewrite do_loop_last. intro E.
    destruct (iters (exec g body) x (ivals l t k n) s) as [sa ta ca| |] eqn:Ei; [|discriminate..].
    destruct (plain_iters _ _ x body_plain _ _ _ _ _ Ei) as [-> _]. cbn [bind_run] in E.
    apply prepend_ok_inv in E as [t2 [E _]]. cbn [do_loop] in E.
    destruct (exec g body (upd sa (x, []) (l + (k + Z.of_nat n) * t))) as [sb tb cb| |] eqn:Eb; try discriminate.
    destruct (plain_exec _ _ _ _ _ _ body_plain Eb) as [-> _]. cbn [prepend] in E. injection E as <- _.
    split.
    - rewrite val_upd_other by (intro Q; inversion Q; congruence). rewrite <- (ind_body_post _ _ _ _ _ Eb).
      apply (proj1 (eval_steq _ _ rhs (steq_sym _ _ (upd_shadow sb (x, []) _ _)))).
    - rewrite val_upd_same. do 2 f_equal. lia.
  Qed.
End Ind.

Definition induction_expected (x : name) (l h t : Z) (v : name) (rhs : expr) (rest : list stmt) : list stmt :=
  [SDo x (ELit l) (ELit h) (ELit t) (map (ssubst v rhs) rest);
   SAssign v [] (esubst x (EBin Sub (EVar x) (ELit t)) rhs)].

Definition induction_safe_local (s : stmt) : bool :=
  match s with
  | SDo x (ELit l) (ELit h) (ELit t) (SAssign v [] rhs :: rest) =>
      negb (t =? 0) && Nat.ltb 0 (trip_count l h t) && negb (Nat.eqb v x) &&
      forallb is_assign rest && negb (mem v (enames rhs)) && negb (mem v (wnames rest)) &&
      negb (mem x (wnames rest)) && disjointb (enames rhs) (wnames rest) &&
      negb (mem v (flat_map arrnames_stmt rest)) && negb (mem x (arrnames rhs)) &&
      stmts_eqb (ind_loop (length (SAssign v [] rhs :: rest)) x (ELit l) (ELit h) (ELit t)
                          (SAssign v [] rhs :: rest) 0 [])
                (induction_expected x l h t v rhs rest)
  | _ => false
  end.

Lemma induction_local s seg' :
  induction_safe_local s = true -> induction_at s = Some seg' -> sim [] [s] seg'.
Proof.
  intros Hs Ha.
  destruct s as [ | |x lo hi st body| | | | | | ]; try discriminate.
  destruct lo as [l| | | | | ]; try discriminate. destruct hi as [h| | | | | ]; try discriminate.
  destruct st as [t| | | | | ]; try discriminate.
  destruct body as [|a rest]; try discriminate.
  destruct a as [v ix rhs| | | | | | | | ]; try discriminate. destruct ix; [|discriminate].
  cbn [induction_safe_local] in Hs. cbn [induction_at] in Ha.
  repeat (apply andb_true_iff in Hs as [Hs ?]).
  match goal with H : stmts_eqb _ _ = true |- _ => apply stmts_eqb_eq in H; rewrite H in Ha end.
  injection Ha as <-.
  assert (Htrip : (0 < trip_count l h t)%nat) by (apply Nat.ltb_lt; assumption).
  assert (Hvx : v <> x) by (apply negb_eqb_ok; assumption).
  assert (Hv_rhs : ~ In v (enames rhs)) by (apply negb_mem_ok; assumption).
  assert (Hv_w : ~ In v (wnames rest)) by (apply negb_mem_ok; assumption).
  assert (Hv_arr : ~ In v (flat_map arrnames_stmt rest)) by (apply negb_mem_ok; assumption).
  assert (Hx_arr : ~ In x (arrnames rhs)) by (apply negb_mem_ok; assumption).
  assert (Hrhs_w : forall nm, In nm (enames rhs) -> ~ In nm (wnames rest)) by (apply disjointb_ok; assumption).
  assert (Hassign : forallb is_assign rest = true) by assumption.
  unfold induction_expected.
  intros f s1 s2 s1' tr c A E.
  destruct (plain_exec _ _ _ _ _ _ (eq_trans (plain_do _ _ _ _ _) (assigns_plain (SAssign v [] rhs :: rest) Hassign)) E)
    as [-> W2].
  apply exec_do_lit_inv in E as [f0 [-> [Nt E]]].
  destruct (trip_count l h t) as [|n0] eqn:Etc; [lia|].
  destruct (ind_loop_sim v x rhs Hvx Hv_rhs rest (S f0) Hassign Hv_w Hrhs_w Hv_arr l t (S n0) 0 s1 s2
              (agree_weaken [] [v] _ _ (incl_nil_l _) A) _ _ _ E) as [s2' [tr' [F2 [A' V]]]].
  destruct (ind_loop_post v x rhs Hvx Hv_rhs rest (S f0) Hassign Hv_w Hrhs_w l t n0 0 s1 s1' tr E) as [L2 L3].
  pose proof (agree1_val v s1' s2' A') as A2. pose proof (proj1 A') as B2.
  pose proof (exec_do_lit f0 x l h t (map (ssubst v rhs) rest) s2 Nt) as Ed.
  rewrite Etc, F2 in Ed.
  (* the assignment after the loop *)
  set (fin := val s2' (x, [])).
  assert (Ev : eval s2' (esubst x (EBin Sub (EVar x) (ELit t)) rhs) = Some (val s1' (v, []))).
  { rewrite (esubst_eval x (EBin Sub (EVar x) (ELit t)) (upd s2' (x, []) (fin - t)) s2').
    - rewrite <- L2. apply eval_frame; [cbn [bnd upd]; exact B2|].
      intros l0 Hl. apply ereads_names in Hl. rewrite !val_upd. destruct (loc_eq_dec l0 (x, [])).
      + subst fin. rewrite A2 by (intro Q; inversion Q; congruence). rewrite L3. lia.
      + apply A2. intro Q. subst l0. exact (Hv_rhs Hl).
    - reflexivity.
    - intros l0 Nl. rewrite val_upd_other by exact Nl. reflexivity.
    - cbn [eval eval_bin]. rewrite val_upd_same. reflexivity.
    - exact Hx_arr. }
  pose proof (exec_assign 0 v [] _ s2' [] _ eq_refl Ev) as Ea.
  eexists. eexists. eexists. split; [eapply (exec_cons_ok (S (S f0)) 2); [exact Ed|exact Ea]|].
  split.
  - apply steq_agree. eapply steq_trans; [apply steq_sym, upd_same_steq; reflexivity|apply agree_upd_steq, A'].
  - rewrite !vis_app, !vis_rds, V, W2. reflexivity.
Qed.

Definition induction_guard (seg : list stmt) : option (list stmt) :=
  match seg with [s] => if induction_safe_local s then Some [] else None | _ => None end.

Definition induction_safe (path : list nat) (p : list stmt) : bool :=
  match rw 1 induction_guard path p with Some _ => true | None => false end.

Theorem induction_sound_partial path p p' :
  induction_safe path p = true -> induction_apply path p = Some p' -> sim [] p p'.
Proof.
  unfold induction_safe, induction_apply. intros Hs Ha.
  destruct (rw 1 induction_guard path p) as [p0|] eqn:E0; [|discriminate].
  refine (rw1_sim _ _ _ _ _ _ _ induction_local Ha E0 _). intros z [].
Qed.

(* non-vacuity:  do i = 1, 4 { m = i - 1; a(i) = m; b(m) = a(i) + m } *)
Definition induction_example : list stmt :=
  [SDo 0%nat (ELit 1) (ELit 4) (ELit 1)
     [SAssign 3%nat [] (EBin Sub (EVar 0%nat) (ELit 1));
      SAssign 10%nat [EVar 0%nat] (EVar 3%nat);
      SAssign 11%nat [EVar 3%nat] (EBin Add (EIdx 10%nat [EVar 0%nat]) (EVar 3%nat))]].

Example induction_nonvacuous :
  induction_safe [0%nat] induction_example = true /\
  induction_apply [0%nat] induction_example =
  Some [SDo 0%nat (ELit 1) (ELit 4) (ELit 1)
          [SAssign 10%nat [EVar 0%nat] (EBin Sub (EVar 0%nat) (ELit 1));
           SAssign 11%nat [EBin Sub (EVar 0%nat) (ELit 1)]
                   (EBin Add (EIdx 10%nat [EVar 0%nat]) (EBin Sub (EVar 0%nat) (ELit 1)))];
        SAssign 3%nat [] (EBin Sub (EBin Sub (EVar 0%nat) (ELit 1)) (ELit 1))].
Proof. split; reflexivity. Qed.
