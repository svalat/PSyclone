(* C05 — ChunkLoopTrans: soundness for positive steps that divide the chunk size
   (chunk_sound_partial).  The refutations for the other accepted cases are in Refuted.v. *)
From Coq Require Import List ZArith Bool Lia.
Import ListNotations.
From PV Require Import Fort.Syntax Fort.Sem Fort.Facts Fort.Facts3 C05.Model C05.Equiv.
Open Scope Z_scope.

Lemma no_cb_ctl f : forall ss s s' tr c,
  has_cb ss = false -> exec f ss s = Ok s' tr c -> c = CNormal \/ c = CReturn.
Proof.
  induction f as [|f IH]; intros ss s s' tr c H E; [discriminate|].
  destruct ss as [|st rest]; [cbn [exec] in E; inversion E; auto|].
  unfold has_cb in H. cbn [existsb] in H. apply orb_false_iff in H as [H1 H2].
  rewrite exec_cons in E.
  apply then_run_ok_inv in E as [[s1 [tr1 [tr2 [E1 [E2 ->]]]]]|[Nc E1]].
  - eapply IH; [exact H2|exact E2].
  - destruct st as [x ix e|cnd th el|x lo hi st body| | | |es|r body|d body]; cbn [exec_stmt has_cb_stmt] in *;
      try discriminate.
    + destruct (opt_all _); [|discriminate]. destruct (eval s e); [|discriminate]. inversion E1; subst. contradiction.
    + destruct (eval s cnd) as [v|]; [|discriminate]. apply prepend_ok_inv in E1 as [tr0 [E1 _]].
      apply orb_false_iff in H1 as [Ha Hb]. eapply IH; [|exact E1]. destruct (v =? 0); assumption.
    + destruct (eval s lo); [|discriminate]. destruct (eval s hi); [|discriminate].
      destruct (eval s st) as [t|]; [|discriminate]. destruct (t =? 0); [discriminate|].
      apply prepend_ok_inv in E1 as [tr0 [E1 _]]. eapply do_loop_ctl; exact E1.
    + inversion E1; auto.
    + destruct (opt_all _); [|discriminate]. inversion E1; subst. contradiction.
    + destruct (exec f body s) as [sa ta ca| |] eqn:Eb; try discriminate. inversion E1; subst.
      eapply IH; [exact H1|exact Eb].
    + eapply IH; [exact H1|exact E1].
Qed.

Lemma trip_count_pos l h t : 0 < t ->
  trip_count l h t = Z.to_nat (if h <? l then 0 else (h - l) / t + 1).
Proof.
  intro Ht. unfold trip_count. f_equal. destruct (h <? l) eqn:E.
  - apply Z.ltb_lt in E. destruct (Z_lt_ge_dec (h - l + t) 0) as [N|N].
    + assert (Q : Z.quot (h - l + t) t <= 0).
      { replace (h - l + t) with (- (l - h - t)) by lia. rewrite Z.quot_opp_l by lia.
        assert (0 <= Z.quot (l - h - t) t) by (apply Z.quot_pos; lia). lia. }
      lia.
    + rewrite Z.quot_div_nonneg by lia. rewrite Z.div_small by lia. reflexivity.
  - apply Z.ltb_ge in E. rewrite Z.quot_div_nonneg by lia.
    replace (h - l + t) with ((h - l) + 1 * t) by lia. rewrite Z.div_add by lia.
    assert (0 <= (h - l) / t) by (apply Z.div_pos; lia). lia.
Qed.

Section Arith.
  Variables (l h t q : Z).
  Hypothesis Ht : 0 < t.
  Hypothesis Hq : 0 < q.
  Let c := t * q.
  Let N := Z.of_nat (trip_count l h t).
  Let M := Z.of_nat (trip_count l h c).

  Lemma chunks_cover : N <= M * q.
  Proof.
    subst N M. rewrite !trip_count_pos by (subst c; nia). destruct (h <? l) eqn:E; [cbn; lia|].
    apply Z.ltb_ge in E. subst c. rewrite <- Z.div_div by lia.
    set (a := (h - l) / t). assert (0 <= a) by (apply Z.div_pos; lia).
    assert (0 <= a / q) by (apply Z.div_pos; lia).
    rewrite !Z2Nat.id by lia. pose proof (Z.mul_succ_div_gt a q Hq). lia.
  Qed.

  Lemma chunk_trip j : 0 <= j < M ->
    let o := l + j * c in
    Z.of_nat (trip_count o (Z.min (o + (c - 1)) h) t) = Z.min q (N - j * q) /\ 1 <= N - j * q.
  Proof.
    intros Hj o. subst N M. rewrite !trip_count_pos in * by (subst c; nia).
    destruct (h <? l) eqn:E; [cbn in Hj; lia|]. apply Z.ltb_ge in E.
    assert (Hc : c = t * q) by reflexivity.
    rewrite Hc in Hj. rewrite <- Z.div_div in Hj by lia.
    set (a := (h - l) / t) in *. assert (Ha : 0 <= a) by (apply Z.div_pos; lia).
    assert (Haq : 0 <= a / q) by (apply Z.div_pos; lia).
    rewrite Z2Nat.id in Hj by lia. rewrite (Z2Nat.id (a + 1)) by lia.
    assert (Hjq : j * q <= a).
    { pose proof (Z.mul_div_le a q Hq). nia. }
    assert (Hdec : h - l = t * a + (h - l) mod t) by (apply Z.div_mod; lia).
    assert (Hmod : 0 <= (h - l) mod t < t) by (apply Z.mod_pos_bound; lia).
    assert (Ho : o <= h) by (subst o; rewrite Hc; nia).
    destruct (Z.min (o + (c - 1)) h <? o) eqn:E2; [apply Z.ltb_lt in E2; nia|].
    assert (D1 : (c - 1) / t = q - 1).
    { rewrite Hc. replace (t * q - 1) with ((t - 1) + (q - 1) * t) by lia.
      rewrite Z.div_add by lia. rewrite Z.div_small by lia. lia. }
    assert (D2 : (h - o) / t = a - j * q).
    { subst o. rewrite Hc. replace (h - (l + j * (t * q))) with ((h - l) + (- (j * q)) * t) by lia.
      rewrite Z.div_add by lia. fold a. lia. }
    split; [|lia].
    destruct (Z.min_spec (o + (c - 1)) h) as [[Hlt ->]|[Hge ->]].
    - replace (o + (c - 1) - o) with (c - 1) by lia. rewrite D1.
      assert (q - 1 <= a - j * q).
      { rewrite <- D1, <- D2. apply Z.div_le_mono; lia. }
      rewrite Z2Nat.id by lia. lia.
    - rewrite D2.
      assert (a - j * q <= q - 1).
      { rewrite <- D1, <- D2. apply Z.div_le_mono; lia. }
      rewrite Z2Nat.id by lia. lia.
  Qed.
End Arith.

Lemma xlocs3_inv x out el l :
  ~ In l (xlocs [x; out; el]) -> l <> (x, []) /\ l <> (out, []) /\ l <> (el, []).
Proof. intro N. cbn [xlocs map In] in N. repeat split; intro E; apply N; subst; auto. Qed.

Lemma zseq_shift k n : zseq k n = map (Z.add k) (zseq 0 n).
Proof.
  revert k. induction n as [|n IH]; intro k; [reflexivity|].
  cbn [zseq map]. f_equal; [lia|]. rewrite (IH (k + 1)), (IH (0 + 1)). rewrite map_map.
  apply map_ext. intro a. lia.
Qed.

Lemma ivals_shift l t k n : ivals l t k n = ivals (l + k * t) t 0 n.
Proof.
  unfold ivals. rewrite (zseq_shift k n), map_map. apply map_ext. intro a. lia.
Qed.

Section Iters.
  Variables (x out el : name) (body : list stmt) (g g2 : nat).
  Hypothesis Hg : (g <= g2)%nat.
  Hypothesis Hfresh : nomention [out; el] (rnames body).
  Hypothesis Hcb : has_cb body = false.

  (* the body does not read the chunk variables, and x is set at the start of every iteration *)
  Lemma iters_chunk_sim vs s1 s2 :
    agree [x; out; el] s1 s2 ->
    osim (agree [x; out; el]) (iters (exec g body) x vs s1) (iters (exec g2 body) x vs s2).
  Proof.
    apply osim_iters. intros v sa sb A.
    apply (osim_weaken (agree [out; el])); [intros ? ?; apply agree_weaken, incl_tl, incl_refl|].
    apply exec_osim_refl; [exact Hg|exact Hfresh|apply agree_set, A].
  Qed.

  Lemma iters_ctl : forall vs s s' tr c,
    iters (exec g body) x vs s = Ok s' tr c -> c = CNormal \/ c = CReturn.
  Proof.
    intro vs. apply (iters_post (fun _ _ _ c => c = CNormal \/ c = CReturn)); auto.
    intros v s s' tr c E. destruct (no_cb_ctl _ _ _ _ _ _ Hcb E) as [-> | ->]; auto.
  Qed.
End Iters.

Section Chunk.
  Variables (x out el : name) (hi : expr) (body : list stmt) (l h t q : Z) (g : nat).
  Hypothesis Ht : 0 < t.
  Hypothesis Hq : 0 < q.
  Let c := t * q.
  Hypothesis Dxo : x <> out.
  Hypothesis Dxe : x <> el.
  Hypothesis Doe : out <> el.
  Hypothesis Hfresh : nomention [out; el] (rnames body).
  Hypothesis Hcb : has_cb body = false.
  Hypothesis Hhi : nomention [x; out; el] (enames hi).
  Hypothesis Hhiw : forall nm, In nm (enames hi) -> ~ In nm (wnames body).

  Let endv := EIntr IMin [EBin Add (EVar out) (EBin Sub (ELit c) (ELit 1)); hi].
  Let inner := SDo x (EVar out) (EVar el) (ELit t) body.
  Let B' := [SAssign el [] endv; inner].
  Let F' := (2 + S (S g))%nat.
  Let N := Z.of_nat (trip_count l h t).
  Let M := Z.of_nat (trip_count l h c).

  (* one outer iteration of the chunked loop, given the run of its inner iterations *)
  Lemma chunk_body_exec s2 o n sb tb cb :
    eval (upd s2 (out, []) o) hi = Some h ->
    n = trip_count o (Z.min (o + (c - 1)) h) t ->
    iters (exec (S g) body) x (ivals o t 0 n)
          (upd (upd s2 (out, []) o) (el, []) (Z.min (o + (c - 1)) h)) = Ok sb tb cb ->
    cb = CNormal \/ cb = CReturn ->
    exists tr', vis tr' = vis tb /\
      exec F' B' (upd s2 (out, []) o) =
      Ok (match cb with CNormal => upd sb (x, []) (o + Z.of_nat n * t) | _ => sb end) tr' cb.
  Proof.
    intros Eh Hn Ei Hc.
    set (s2o := upd s2 (out, []) o) in *. set (e := Z.min (o + (c - 1)) h) in *.
    assert (Ea : exec 2 [SAssign el [] endv] s2o =
                 Ok (upd s2o (el, []) e) (rds (ereads s2o endv ++ flat_map (ereads s2o) []) ++ [Wr (el, [])]) CNormal).
    { apply (exec_assign 0 el [] endv s2o [] e); [reflexivity|].
      subst endv. cbn [eval is_inquiry map opt_all eval_bin]. rewrite Eh.
      replace (val s2o (out, [])) with o by (subst s2o; rewrite val_upd_same; reflexivity).
      cbn [opt_all eval_intr fold_left]. reflexivity. }
    set (s2e := upd s2o (el, []) e) in *.
    assert (Eo : eval s2e (EVar out) = Some o).
    { cbn [eval]. subst s2e s2o. rewrite val_upd_other by (intro Q; inversion Q; congruence).
      rewrite val_upd_same. reflexivity. }
    assert (Ee : eval s2e (EVar el) = Some e) by (cbn [eval]; subst s2e; rewrite val_upd_same; reflexivity).
    assert (Ed := exec_do g x (EVar out) (EVar el) (ELit t) body s2e o e t Eo Ee eq_refl ltac:(lia)).
    rewrite <- Hn in Ed. rewrite do_loop_iters in Ed. rewrite Ei in Ed.
    destruct Hc as [-> | ->]; cbn [bind_run set_run prepend exit2norm] in Ed;
      eexists; (split; [|eapply (exec_cons_ok 2 (S (S g))); [exact Ea|exact Ed]]);
      rewrite !vis_app, !vis_rds; cbn [vis filter visible app]; rewrite ?app_nil_r; reflexivity.
  Qed.

  (* j chunks are done: m chunks are left to the chunked loop, and to the original loop nrem iterations,
     starting with iteration number k *)
  Lemma chunk_loop_sim : forall m j nrem k s1 s2 s1' tr cc,
    0 <= j -> Z.of_nat m = M - j -> Z.of_nat nrem = Z.max 0 (N - j * q) -> (nrem <> O -> k = j * q) ->
    agree [x; out; el] s1 s2 -> eval s1 hi = Some h ->
    do_loop (exec g body) x l t nrem k s1 = Ok s1' tr cc ->
    exists s2' tr', do_loop (exec F' B') out l c m j s2 = Ok s2' tr' cc /\
                    agree [x; out; el] s1' s2' /\ vis tr' = vis tr.
  Proof.
    induction m as [|m IH]; intros j nrem k s1 s2 s1' tr cc Hj Hm Hn Hk A Eh E.
    - (* no chunk left: no iteration left *)
      assert (nrem = O).
      { pose proof (chunks_cover l h t q Ht Hq) as Hc. fold c N M in Hc. nia. }
      subst nrem. cbn [do_loop] in E |- *. inversion E; subst.
      eexists. eexists. split; [reflexivity|]. split; [|reflexivity].
      apply agree_upd_l; [|left; reflexivity]. apply agree_upd_r; [|right; left; reflexivity].
      exact A.
    - assert (Hjm : 0 <= j < M) by lia.
      destruct (chunk_trip l h t q Ht Hq j) as [Hn1 Hn2]; [fold c M; exact Hjm|].
      fold c N in Hn1, Hn2.
      set (o := l + j * c) in *. set (e := Z.min (o + (c - 1)) h) in *.
      set (n := trip_count o e t) in *.
      assert (Hk' : k = j * q) by (apply Hk; lia).
      set (nrem' := Z.to_nat (N - (j + 1) * q)).
      assert (Hsplit : nrem = (n + nrem')%nat) by (subst nrem'; lia).
      rewrite Hsplit, do_loop_split in E. subst k.
      rewrite ivals_shift in E. replace (l + j * q * t) with o in E by (subst o c; lia).
      destruct (iters (exec g body) x (ivals o t 0 n) s1) as [sa ta ca| |] eqn:Ei;
        [|cbn [bind_run] in E; discriminate..].
      (* the chunked program runs the same iterations inside one outer iteration *)
      assert (Ao : agree [x; out; el] s1 (upd s2 (out, []) o)) by (apply agree_upd_r; [exact A|right; left; reflexivity]).
      assert (A2e : agree [x; out; el] s1 (upd (upd s2 (out, []) o) (el, []) e))
        by (apply agree_upd_r; [exact Ao|right; right; left; reflexivity]).
      destruct (iters_chunk_sim x out el body g (S g) ltac:(lia) Hfresh _ _ _ A2e _ _ _ Ei) as [sb [tb [Fi [Ab Vt]]]].
      assert (Eh2 : eval (upd s2 (out, []) o) hi = Some h) by (rewrite <- Eh; apply (eval_agree _ _ _ hi Ao Hhi)).
      destruct (chunk_body_exec s2 o n sb tb ca Eh2 eq_refl Fi (iters_ctl x body g Hcb _ _ _ _ _ Ei))
        as [trb [Vb Fb]].
      rewrite Vt in Vb.
      rewrite do_loop_S, iter_run_eq. fold o. rewrite Fb.
      destruct (iters_ctl x body g Hcb _ _ _ _ _ Ei) as [-> | ->].
      + (* all iterations of the chunk completed *)
        cbn [bind_run] in E. apply prepend_ok_inv in E as [tr0 [E ->]].
        assert (Anext : agree [x; out; el] sa (upd sb (x, []) (o + Z.of_nat n * t))).
        { apply agree_upd_r; [exact Ab|left; reflexivity]. }
        assert (Eh3 : eval sa hi = Some h).
        { rewrite <- Eh. destruct (iters_unchanged _ _ _ _ _ _ _ _ Ei) as [B U].
          apply eval_frame; [exact B|]. intros l0 Hl. apply ereads_names in Hl. apply U.
          - intro Q. subst l0. exact (Hhi x (or_introl eq_refl) Hl).
          - apply Hhiw, Hl. }
        destruct (IH (j + 1) nrem' (j * q + Z.of_nat n) sa (upd sb (x, []) (o + Z.of_nat n * t)) s1' tr0 cc) as [s2' [tr' [F2 [A2 V2]]]];
          try assumption; try lia.
        exists s2', ((Wr (out, []) :: trb) ++ tr'). split.
        * cbn [map_ctl cyc2norm prepend bind_run app]. rewrite F2. reflexivity.
        * split; [exact A2|]. rewrite !vis_app, !vis_wr. congruence.
      + (* an iteration of the chunk executed RETURN *)
        cbn [bind_run exit2norm] in E. inversion E; subst s1' tr cc.
        exists sb, (Wr (out, []) :: trb). split; [reflexivity|]. split; [exact Ab|]. rewrite vis_wr. exact Vb.
  Qed.
End Chunk.

(* sufficient condition on the target loop: the model accepts it, the step is positive and divides the
   chunk size, the introduced symbols are distinct from the loop variable and not read in the loop,
   the bounds do not mention the loop variable or the introduced symbols, and the stop expression reads
   nothing the body writes *)
Definition chunk_safe_local (c : Z) (x out el : name) (s : stmt) : bool :=
  match s with
  | SDo x' lo hi (ELit t) body =>
      Nat.eqb x' x && chunk_ok c s && (0 <? t) && (c mod t =? 0) &&
      negb (Nat.eqb x out) && negb (Nat.eqb x el) && negb (Nat.eqb out el) &&
      nomentionb [out; el] (rnames body) &&
      nomentionb [x; out; el] (enames lo ++ enames hi) &&
      forallb (fun nm => negb (mem nm (wnames body))) (enames hi)
  | _ => false
  end.

Lemma chunk_local c x out el s seg' :
  chunk_safe_local c x out el s = true -> chunk_at c out el s = Some seg' -> sim [x; out; el] [s] seg'.
Proof.
  intros Hs Ha. destruct s as [ | |x' lo hi st body| | | | | | ]; try discriminate.
  destruct st as [t| | | | | ]; try discriminate.
  unfold chunk_safe_local in Hs. repeat (apply andb_true_iff in Hs as [Hs ?]).
  apply Nat.eqb_eq in Hs. subst x'.
  match goal with H : chunk_ok _ _ = true |- _ => rename H into Hok end.
  unfold chunk_at in Ha. rewrite Hok in Ha. injection Ha as <-.
  unfold chunk_ok in Hok. repeat (apply andb_true_iff in Hok as [Hok ?]).
  assert (Hc : 0 < c) by (apply Z.ltb_lt; assumption).
  assert (Ht : 0 < t) by (apply Z.ltb_lt; assumption).
  assert (Hmod : c mod t = 0) by (apply Z.eqb_eq; assumption).
  assert (Dxo : x <> out) by (apply negb_eqb_ok; assumption).
  assert (Dxe : x <> el) by (apply negb_eqb_ok; assumption).
  assert (Doe : out <> el) by (apply negb_eqb_ok; assumption).
  assert (Hcb : has_cb body = false) by (apply negb_true_iff; assumption).
  assert (Hfresh : nomention [out; el] (rnames body)) by (apply nomentionb_ok; assumption).
  assert (Hb : nomention [x; out; el] (enames lo ++ enames hi)) by (apply nomentionb_ok; assumption).
  apply nomention_app in Hb as [Hlo Hhi].
  assert (Hhiw : forall nm, In nm (enames hi) -> ~ In nm (wnames body)).
  { intros nm Hn. apply negb_mem_ok. revert nm Hn. apply forallb_forall. assumption. }
  set (q := c / t).
  assert (Hcq : c = t * q) by (subst q; apply Z_div_exact_full_2; lia).
  assert (Hq : 0 < q) by nia.
  unfold chunk_build. replace (t >? 0) with true by (symmetry; apply Z.gtb_lt; lia).
  intros f s1 s2 s1' tr cc A E.
  apply exec_do_inv in E as [f0 [l [h [t' [tr0 [-> [E1 [E2 [E3 [Nt [E ->]]]]]]]]]]].
  cbn [eval] in E3. injection E3 as <-.
  destruct (eval_agree _ s1 s2 lo A Hlo) as [V1 R1]. destruct (eval_agree _ s1 s2 hi A Hhi) as [V2 R2].
  rewrite Hcq in *.
  destruct (chunk_loop_sim x out el hi body l h t q (S f0) Ht Hq Dxo Dxe Doe Hfresh Hcb Hhi Hhiw
              (trip_count l h (t * q)) 0 (trip_count l h t) 0 s1 s2 s1' tr0 cc)
    as [s2' [tr' [F2 [A2 W2]]]]; try assumption; try lia.
  pose proof (exec_do (1 + S (S (S f0))) out lo hi (ELit (t * q))
                [SAssign el [] (EIntr IMin [EBin Add (EVar out) (EBin Sub (ELit (t * q)) (ELit 1)); hi]);
                 SDo x (EVar out) (EVar el) (ELit t) body] s2 l h (t * q)
                ltac:(congruence) ltac:(congruence) eq_refl ltac:(lia)) as Ed.
  change (S (1 + S (S (S f0)))) with (2 + S (S (S f0)))%nat in Ed. rewrite F2 in Ed. cbn [prepend] in Ed.
  eexists. eexists. eexists. split; [exact Ed|]. split; [exact A2|].
  rewrite !vis_app, !vis_rds. exact W2.
Qed.

(* whole-program condition: the target satisfies [chunk_safe_local] and nothing else in the program reads
   the loop variable or the introduced symbols (their values after the loop are the documented
   exclusions of the property) *)
Definition chunk_guard (c : Z) (x out el : name) (seg : list stmt) : option (list stmt) :=
  match seg with [s] => if chunk_safe_local c x out el s then Some [] else None | _ => None end.

Definition chunk_safe (c : Z) (x out el : name) (path : list nat) (p : list stmt) : bool :=
  match rw 1 (chunk_guard c x out el) path p with
  | Some p0 => nomentionb [x; out; el] (rnames p0)
  | None => false
  end.

Theorem chunk_sound_partial c x out el path p p' :
  chunk_safe c x out el path p = true -> chunk_apply c out el path p = Some p' -> sim [x; out; el] p p'.
Proof.
  unfold chunk_safe, chunk_apply. intros Hs Ha.
  destruct (rw 1 (chunk_guard c x out el) path p) as [p0|] eqn:E0; [|discriminate].
  exact (rw1_sim _ _ _ _ _ _ _ (chunk_local c x out el) Ha E0 (nomentionb_ok _ _ Hs)).
Qed.

(* non-vacuity:  s = 0; do i = 1, n, 2 { a(i) = a(i) + i };  chunk size 4 *)
Definition chunk_example : list stmt :=
  [SAssign 4%nat [] (ELit 0);
   SDo 0%nat (ELit 1) (EVar 2%nat) (ELit 2) [SAssign 10%nat [EVar 0%nat] (EBin Add (EIdx 10%nat [EVar 0%nat]) (EVar 0%nat))]].

Example chunk_nonvacuous :
  chunk_safe 4 0%nat 20%nat 21%nat [1%nat] chunk_example = true /\
  chunk_apply 4 20%nat 21%nat [1%nat] chunk_example =
  Some [SAssign 4%nat [] (ELit 0);
        SDo 20%nat (ELit 1) (EVar 2%nat) (ELit 4)
          [SAssign 21%nat [] (EIntr IMin [EBin Add (EVar 20%nat) (EBin Sub (ELit 4) (ELit 1)); EVar 2%nat]);
           SDo 0%nat (EVar 20%nat) (EVar 21%nat) (ELit 2)
             [SAssign 10%nat [EVar 0%nat] (EBin Add (EIdx 10%nat [EVar 0%nat]) (EVar 0%nat))]]].
Proof. split; reflexivity. Qed.
