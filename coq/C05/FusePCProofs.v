(* C05 — LoopFuseTrans: simulation between runners up to the DO variable, and the interleaving of two
   sequences of iterations under a SEMANTIC premise: iteration v of the second sequence commutes (up to the DO
   variable) with every iteration v' <> v of the first.  Proof: bubble the iterations of the second sequence to
   the left, by induction on the list of iteration values. *)
From Coq Require Import List ZArith Bool.
Import ListNotations.
From PV Require Import Fort.Syntax Fort.Sem Fort.Facts Fort.Facts3 C05.Model C05.Equiv.
Open Scope Z_scope.

Section Runners.
  Variable x : name.
  Let X := [x].

  (* simulation between runners, up to the scalar x *)
  Definition rsim (R R' : runner) : Prop :=
    forall s s' s1 tr c, agree X s s' -> R s = Ok s1 tr c ->
      exists s1' tr', R' s' = Ok s1' tr' c /\ agree X s1 s1' /\ vis tr' = vis tr.

  Definition seqr (R1 R2 : runner) : runner := fun s => then_run (R1 s) R2.

  Lemma rsim_trans A B C : rsim A B -> rsim B C -> rsim A C.
  Proof.
    intros H1 H2 s s' s1 tr c Ag E.
    destruct (H1 _ _ _ _ _ (agree_refl X s) E) as [sa [ta [Ea [Aa Va]]]].
    destruct (H2 _ _ _ _ _ Ag Ea) as [sb [tb [Eb [Ab Vb]]]].
    exists sb, tb. split; [exact Eb|]. split; [eapply agree_trans; eassumption|congruence].
  Qed.

  Lemma rsim_ext A A' B B' : (forall s, A s = A' s) -> (forall s, B s = B' s) -> rsim A' B' -> rsim A B.
  Proof.
    intros EA EB H s s' s1 tr c Ag E. rewrite EA in E. destruct (H _ _ _ _ _ Ag E) as [sb [tb [Eb R]]].
    exists sb, tb. rewrite EB. auto.
  Qed.

  Lemma rsim_seq A A' B B' : rsim A A' -> rsim B B' -> rsim (seqr A B) (seqr A' B').
  Proof.
    intros HA HB s s' s1 tr c Ag. revert s1 tr c. unfold seqr, then_run. apply osim_bind.
    - intros s1 tr c. apply HA, Ag.
    - intros sa sa' Aa s1 tr c. apply HB, Aa.
  Qed.

  Lemma seqr_assoc A B C s : seqr (seqr A B) C s = seqr A (seqr B C) s.
  Proof. unfold seqr. apply then_run_assoc. Qed.

  Lemma rsim_assoc_r A B C : rsim A A -> rsim B B -> rsim C C -> rsim (seqr (seqr A B) C) (seqr A (seqr B C)).
  Proof.
    intros HA HB HC. eapply rsim_ext; [intro; apply seqr_assoc|intro; reflexivity|].
    apply rsim_seq; [exact HA|apply rsim_seq; assumption].
  Qed.
  Lemma rsim_assoc_l A B C : rsim A A -> rsim B B -> rsim C C -> rsim (seqr A (seqr B C)) (seqr (seqr A B) C).
  Proof.
    intros HA HB HC. eapply rsim_ext; [intro; reflexivity|intro; apply seqr_assoc|].
    apply rsim_seq; [exact HA|apply rsim_seq; assumption].
  Qed.

  (* an iteration starts by setting x: it does not depend on the value of x before *)
  Lemma rsim_iter_refl (R : runner) v :
    (forall s s' s1 tr c, steq s s' -> R s = Ok s1 tr c -> exists s1', R s' = Ok s1' tr c /\ steq s1 s1') ->
    rsim (iter_run R x v) (iter_run R x v).
  Proof.
    intros HR s s' s1 tr c A. revert s1 tr c. apply osim_iter_run. intros s1 tr c Er.
    destruct (HR _ _ _ _ _ (agree_upd_steq x s s' v A) Er) as [sb [Eb Sb]].
    exists sb, tr. split; [exact Eb|]. split; [apply steq_agree, Sb|reflexivity].
  Qed.

  Lemma rsim_seq_runs_map (f f' : Z -> runner) vs :
    (forall v, rsim (f v) (f' v)) -> rsim (seq_runs (map f vs)) (seq_runs (map f' vs)).
  Proof.
    intro H. induction vs as [|v vs IH].
    - intros s s' s1 tr c Ag E. cbn [map seq_runs] in *. inversion E; subst. exists s', []. auto.
    - cbn [map]. change (rsim (seqr (f v) (seq_runs (map f vs))) (seqr (f' v) (seq_runs (map f' vs)))).
      apply rsim_seq; [apply H|exact IH].
  Qed.

  Variables (r1 r2 : Z -> runner).
  Hypothesis Hr1 : forall v, rsim (r1 v) (r1 v).
  Hypothesis Hr2 : forall v, rsim (r2 v) (r2 v).

  (* iteration v of the second loop moves in front of a block of other iterations of the first loop *)
  Lemma move_left v : forall vs,
    (forall v', In v' vs -> rsim (seqr (r1 v') (r2 v)) (seqr (r2 v) (r1 v'))) ->
    rsim (seqr (seq_runs (map r1 vs)) (r2 v)) (seqr (r2 v) (seq_runs (map r1 vs))).
  Proof.
    induction vs as [|v' vs IH]; intro HC.
    - apply (rsim_ext _ (r2 v) _ (r2 v)); [| |apply Hr2].
      + intro s. unfold seqr. cbn [map seq_runs]. unfold then_run. cbn [bind_run]. apply prepend_nil.
      + intro s. unfold seqr. cbn [map]. change (seq_runs []) with (fun s0 : store => Ok s0 [] CNormal). apply then_run_ret.
    - cbn [map]. set (A := seq_runs (map r1 vs)) in *.
      change (seq_runs (r1 v' :: map r1 vs)) with (seqr (r1 v') A).
      pose proof (rsim_seq_runs_map r1 r1 vs Hr1 : rsim A A) as HA.
      (* (r1 v'; A); r2 v  ~  r1 v'; (A; r2 v)  ~  r1 v'; (r2 v; A)  ~  (r1 v'; r2 v); A  ~  (r2 v; r1 v'); A *)
      eapply rsim_trans; [apply rsim_assoc_r; [apply Hr1|exact HA|apply Hr2]|].
      eapply rsim_trans; [apply rsim_seq; [apply Hr1|apply IH; intros w Hw; apply HC; right; exact Hw]|].
      eapply rsim_trans; [apply rsim_assoc_l; [apply Hr1|apply Hr2|exact HA]|].
      eapply rsim_trans; [apply rsim_seq; [apply HC; left; reflexivity|exact HA]|].
      apply rsim_assoc_r; [apply Hr2|apply Hr1|exact HA].
  Qed.

  Theorem interleave : forall vs, NoDup vs ->
    (forall v v', In v vs -> In v' vs -> v <> v' -> rsim (seqr (r1 v') (r2 v)) (seqr (r2 v) (r1 v'))) ->
    rsim (seqr (seq_runs (map r1 vs)) (seq_runs (map r2 vs)))
         (seq_runs (map (fun v => seqr (r1 v) (r2 v)) vs)).
  Proof.
    induction vs as [|v vs IH]; intros ND HC.
    - apply (rsim_ext _ (seq_runs []) _ (seq_runs [])); try reflexivity.
      exact (rsim_seq_runs_map r1 r1 [] Hr1).
    - inversion ND as [|? ? Nv ND']; subst. cbn [map].
      set (A := seq_runs (map r1 vs)) in *. set (B := seq_runs (map r2 vs)) in *.
      set (F := seq_runs (map (fun v0 => seqr (r1 v0) (r2 v0)) vs)) in *.
      change (seq_runs (r1 v :: map r1 vs)) with (seqr (r1 v) A).
      change (seq_runs (r2 v :: map r2 vs)) with (seqr (r2 v) B).
      change (seq_runs (seqr (r1 v) (r2 v) :: map (fun v0 => seqr (r1 v0) (r2 v0)) vs)) with (seqr (seqr (r1 v) (r2 v)) F).
      pose proof (rsim_seq_runs_map r1 r1 vs Hr1 : rsim A A) as HA. pose proof (rsim_seq_runs_map r2 r2 vs Hr2 : rsim B B) as HB.
      assert (HF : rsim F F) by (apply rsim_seq_runs_map; intro w; apply rsim_seq; [apply Hr1|apply Hr2]).
      (* (r1 v; A); (r2 v; B)  ~  r1 v; (A; (r2 v; B)) *)
      eapply rsim_trans; [apply rsim_assoc_r; [apply Hr1|exact HA|apply rsim_seq; [apply Hr2|exact HB]]|].
      (* ~  r1 v; ((A; r2 v); B)  ~  r1 v; ((r2 v; A); B) *)
      eapply rsim_trans.
      { apply rsim_seq; [apply Hr1|]. eapply rsim_trans; [apply rsim_assoc_l; [exact HA|apply Hr2|exact HB]|].
        apply rsim_seq; [|exact HB]. apply move_left.
        intros v' Hv'. apply HC; [left; reflexivity|right; exact Hv'|]. intro Q. subst. contradiction. }
      (* ~  r1 v; (r2 v; (A; B))  ~  r1 v; (r2 v; F) *)
      eapply rsim_trans.
      { apply rsim_seq; [apply Hr1|]. eapply rsim_trans; [apply rsim_assoc_r; [apply Hr2|exact HA|exact HB]|].
        apply rsim_seq; [apply Hr2|]. apply IH; [exact ND'|]. intros a b Ha Hb. apply HC; right; assumption. }
      apply rsim_assoc_l; [apply Hr1|apply Hr2|exact HF].
  Qed.
End Runners.
