(* C03/C04 -- proofs about the scope merging done by FortranWriter.routine_node ([flatten]). *)
From Coq Require Import List Arith Bool String NArith.
Import ListNotations.
From PV Require Import C03.Names C03.Decls.
Open Scope list_scope.

(* what merging may do to a symbol: nothing, or give it a new name that is not visible from the
   enclosing containers; identity, category and dependencies are never touched *)
Inductive renamed (outer : list string) : sym -> sym -> Prop :=
| rn_same : forall s, renamed outer s s
| rn_fresh : forall s n, ~ In (normalize n) outer -> normalize n <> normalize (s_name s) ->
                         renamed outer s (set_name s n).

Lemma nnames_app : forall a b, nnames (a ++ b) = nnames a ++ nnames b.
Proof. intros. unfold nnames. apply map_app. Qed.

Lemma NoDup_snoc {A} (l : list A) a : NoDup l -> ~ In a l -> NoDup (l ++ [a]).
Proof. intros H Ha. apply (NoDup_Add (Add_app a l [])). rewrite app_nil_r. split; assumption. Qed.

Lemma NoDup_app_remove_r {A} (l l' : list A) : NoDup (l ++ l') -> NoDup l.
Proof.
  induction l as [|x l IH]; simpl; intro H; [constructor|].
  inversion H as [|? ? Hx Hl]; subst. constructor; [|auto].
  intro Hin. apply Hx. apply in_or_app. left. exact Hin.
Qed.

(* the name chosen for a clashing symbol *)
Lemma fresh_for_clash : forall outer acc s r,
    exists n, fresh_loop (S (List.length (nnames acc ++ outer ++ nnames (s :: r)))) (s_name s)
                         (nnames acc ++ outer ++ nnames (s :: r)) 0%N = Some n /\
              ~ In (normalize n) (nnames acc) /\ renamed outer s (set_name s n).
Proof.
  intros outer acc s r. set (ex := nnames acc ++ outer ++ nnames (s :: r)).
  destruct (fresh_loop_total (s_name s) ex 0%N) as [n Hn]. exists n. split; [exact Hn|].
  apply fresh_loop_some in Hn as [_ [_ [Hfree _]]]. unfold ex in Hfree. rewrite !in_app_iff in Hfree.
  split; [tauto|]. apply rn_fresh; [tauto|].
  intro E. apply Hfree. right. right. left. symmetry. exact E.
Qed.

(* one step of the merge: [s] goes in as [s'], itself or renamed, under a name not yet in [acc] *)
Lemma merge_table_step : forall outer acc s r,
    exists s', merge_table outer acc (s :: r) = merge_table outer (acc ++ [s']) r /\
               renamed outer s s' /\ ~ In (normalize (s_name s')) (nnames acc) /\
               (~ In (normalize (s_name s)) (nnames acc) -> s' = s).
Proof.
  intros outer acc s r. simpl. destruct (mem_str (normalize (s_name s)) (nnames acc)) eqn:E.
  - destruct (fresh_for_clash outer acc s r) as [n [Hn [Ha Hs]]]. simpl in Hn. rewrite Hn.
    exists (set_name s n). repeat split; try assumption.
    intro H. apply mem_str_false in H. congruence.
  - apply mem_str_false in E. exists s. repeat split; [apply rn_same | exact E].
Qed.

Lemma merge_table_spec : forall outer inner acc,
    exists inner', merge_table outer acc inner = acc ++ inner' /\ Forall2 (renamed outer) inner inner'.
Proof.
  intros outer inner; induction inner as [|s r IH]; intros acc.
  - exists []. simpl. rewrite app_nil_r. split; [reflexivity|constructor].
  - destruct (merge_table_step outer acc s r) as [s' [-> [Hs _]]].
    destruct (IH (acc ++ [s'])) as [r' [-> Hr]].
    exists (s' :: r'). rewrite <- app_assoc. split; [reflexivity | constructor; assumption].
Qed.

Lemma merge_table_nodup : forall outer inner acc, NoDup (nnames acc) -> NoDup (nnames (merge_table outer acc inner)).
Proof.
  intros outer inner; induction inner as [|s r IH]; intros acc H; [exact H|].
  destruct (merge_table_step outer acc s r) as [s' [-> [_ [Ha _]]]].
  apply IH. rewrite nnames_app. apply NoDup_snoc; assumption.
Qed.

Lemma merge_table_noclash : forall outer inner acc, NoDup (nnames (acc ++ inner)) ->
                                                   merge_table outer acc inner = acc ++ inner.
Proof.
  intros outer inner; induction inner as [|s r IH]; intros acc H; [symmetry; apply app_nil_r|].
  destruct (merge_table_step outer acc s r) as [s' [-> [_ [_ ->]]]].
  - rewrite IH; rewrite <- app_assoc; [reflexivity | exact H].
  - rewrite nnames_app in H. apply NoDup_remove_2 in H. rewrite in_app_iff in H. tauto.
Qed.

Lemma fold_merge_spec : forall outer inners acc,
    exists x, fold_left (merge_table outer) inners acc = acc ++ x /\
              Forall2 (renamed outer) (List.concat inners) x.
Proof.
  intros outer inners; induction inners as [|i is IH]; intros acc; simpl.
  - exists []. rewrite app_nil_r. split; [reflexivity|constructor].
  - destruct (merge_table_spec outer i acc) as [i' [E1 E2]].
    destruct (IH (merge_table outer acc i)) as [x [E3 E4]].
    exists (i' ++ x). rewrite E3, E1, <- app_assoc. split; [reflexivity|].
    apply Forall2_app; assumption.
Qed.

Lemma fold_merge_nodup : forall outer inners acc, NoDup (nnames acc) ->
                                                 NoDup (nnames (fold_left (merge_table outer) inners acc)).
Proof.
  intros outer inners; induction inners as [|i is IH]; intros acc H; simpl; [exact H|].
  apply IH, merge_table_nodup, H.
Qed.

Lemma fold_merge_noclash : forall outer inners acc, NoDup (nnames (acc ++ List.concat inners)) ->
    fold_left (merge_table outer) inners acc = acc ++ List.concat inners.
Proof.
  intros outer inners; induction inners as [|i is IH]; intros acc H; simpl in *; [symmetry; apply app_nil_r|].
  rewrite app_assoc in H. rewrite merge_table_noclash, IH, <- app_assoc; [reflexivity | exact H |].
  rewrite nnames_app in H. apply NoDup_app_remove_r in H. exact H.
Qed.

(* no symbol is lost, duplicated or moved; only names of clashing symbols change, and a new name
   never equals a name visible from the enclosing scopes *)
Theorem flatten_spec_ : forall outer routine inners,
    Forall2 (renamed outer) (routine ++ List.concat inners) (flatten outer routine inners).
Proof.
  intros outer routine inners. unfold flatten.
  destruct (merge_table_spec outer routine []) as [r' [E1 E2]]. simpl in E1.
  destruct (fold_merge_spec outer inners (merge_table outer [] routine)) as [x [E3 E4]].
  rewrite E3, E1. apply Forall2_app; assumption.
Qed.

(* after merging, every name is declared once: a reference (which points at a symbol object and is
   written with that object's final name) can only resolve to its own symbol *)
Theorem flatten_names_unique_ : forall outer routine inners, NoDup (nnames (flatten outer routine inners)).
Proof.
  intros. unfold flatten. apply fold_merge_nodup, merge_table_nodup. constructor.
Qed.

(* nothing is renamed when nothing clashes *)
Theorem flatten_noclash_ : forall outer routine inners,
    NoDup (nnames (routine ++ List.concat inners)) -> flatten outer routine inners = routine ++ List.concat inners.
Proof.
  intros outer routine inners H. unfold flatten.
  rewrite (merge_table_noclash outer routine []); [apply fold_merge_noclash, H|].
  simpl. rewrite nnames_app in H. apply NoDup_app_remove_r in H. exact H.
Qed.

Lemma renamed_ids : forall outer a b, Forall2 (renamed outer) a b -> ids a = ids b.
Proof. intros outer a b H. induction H as [|x y a b Hxy _ IH]; simpl; [reflexivity|]. rewrite IH. destruct Hxy; reflexivity. Qed.

Theorem flatten_ids_ : forall outer routine inners,
    ids (flatten outer routine inners) = ids (routine ++ List.concat inners).
Proof. intros. symmetry. eapply renamed_ids, flatten_spec_. Qed.

(* a concrete merge that renames: i clashes twice, and the candidate i_1 is itself taken *)
Open Scope string_scope.
Example flatten_nonvacuous :
  map s_name (flatten ["modvar"; "i_2"]
                      [mkSym 0 "i" CVar [] []; mkSym 1 "i_1" CVar [] []]
                      [[mkSym 2 "I" CVar [] []; mkSym 3 "j" CVar [] []]; [mkSym 4 "i" CVar [] []; mkSym 5 "modvar" CVar [] []]])
  = ["i"; "i_1"; "I_3"; "j"; "i_4"; "modvar"].
Proof. vm_compute. reflexivity. Qed.
