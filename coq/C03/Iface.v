(* C03 -- generic interfaces: GenericInterfaceSymbol.routines as a list of (procedure name, kind).
   write_iface = FortranWriter.gen_interfacedecl (fortran.py 633-669): one "module procedure :: ..." line
   with the container routines, then one "procedure :: ..." line with the external ones (a line is omitted
   when empty).  read_iface = Fparser2Reader._process_interface_block: statement by statement, the kind
   of every name taken from ITS OWN statement (is_module recomputed per Procedure_Stmt). *)
From Coq Require Import List Bool String Permutation.
Import ListNotations.
Open Scope list_scope.

Inductive pkind := PModule | PPlain.
Definition pkind_eqb (a b : pkind) : bool :=
  match a, b with PModule, PModule | PPlain, PPlain => true | _, _ => false end.

Definition iface := list (string * pkind).          (* as read, in order *)
Definition stmt := (pkind * list string)%type.       (* one PROCEDURE statement *)

Definition of_kind (k : pkind) (i : iface) : iface := filter (fun p => pkind_eqb (snd p) k) i.
Definition names_of (k : pkind) (i : iface) : list string := map fst (of_kind k i).

Definition line (k : pkind) (i : iface) : list stmt :=
  match names_of k i with [] => [] | ns => [(k, ns)] end.

Definition write_iface (i : iface) : list stmt := line PModule i ++ line PPlain i.

Definition read_stmt (s : stmt) : iface := map (fun n => (n, fst s)) (snd s).
Definition read_iface (l : list stmt) : iface := flat_map read_stmt l.

(* harness checker: (interface as read, statements the real writer emitted, interface re-read) *)
Fixpoint strs_eqb (a b : list string) : bool :=
  match a, b with
  | [], [] => true
  | x :: a', y :: b' => String.eqb x y && strs_eqb a' b'
  | _, _ => false
  end.
Fixpoint stmts_eqb (a b : list stmt) : bool :=
  match a, b with
  | [], [] => true
  | (k, n) :: a', (k', n') :: b' => pkind_eqb k k' && strs_eqb n n' && stmts_eqb a' b'
  | _, _ => false
  end.
Fixpoint iface_eqb (a b : iface) : bool :=
  match a, b with
  | [], [] => true
  | (n, k) :: a', (n', k') :: b' => String.eqb n n' && pkind_eqb k k' && iface_eqb a' b'
  | _, _ => false
  end.
Definition agrees_iface (c : iface * list stmt * iface) : bool :=
  match c with
  | (i, written, reread) => stmts_eqb (write_iface i) written && iface_eqb (read_iface written) reread
  end.

Lemma read_line : forall k i, read_iface (line k i) = of_kind k i.
Proof.
  intros k i. unfold line, names_of.
  (* the names of kind [k], given the kind [k] back *)
  assert (H : map (fun n => (n, k)) (map fst (of_kind k i)) = of_kind k i).
  { unfold of_kind. induction i as [|[n k'] i IH]; simpl; [reflexivity|].
    destruct (pkind_eqb k' k) eqn:E; [|exact IH].
    simpl. rewrite IH. destruct k', k; (reflexivity || discriminate). }
  destruct (map fst (of_kind k i)) as [|n ns].
  - exact H.
  - rewrite <- H. simpl. rewrite app_nil_r. reflexivity.
Qed.

Lemma read_write : forall i, read_iface (write_iface i) = of_kind PModule i ++ of_kind PPlain i.
Proof.
  intro i. unfold write_iface, read_iface. rewrite flat_map_app.
  fold (read_iface (line PModule i)) (read_iface (line PPlain i)). rewrite !read_line. reflexivity.
Qed.

(* no procedure lost, duplicated or changed in kind; only the order is normalised *)
Theorem interface_roundtrip_ : forall i, Permutation (read_iface (write_iface i)) i.
Proof.
  intro i. rewrite read_write. unfold of_kind.
  induction i as [|[n k] i IH]; [apply Permutation_refl|].
  destruct k; simpl.
  - apply perm_skip. exact IH.
  - apply Permutation_sym, Permutation_cons_app, Permutation_sym, IH.
Qed.

Lemma of_kind_app : forall k a b, of_kind k (a ++ b) = of_kind k a ++ of_kind k b.
Proof. intros. apply filter_app. Qed.

Lemma of_kind_same : forall k i, of_kind k (of_kind k i) = of_kind k i.
Proof.
  intros k i. unfold of_kind. induction i as [|p i IH]; simpl; [reflexivity|].
  destruct (pkind_eqb (snd p) k) eqn:E; simpl; [rewrite E, IH; reflexivity | exact IH].
Qed.

Lemma of_kind_other : forall k k' i, pkind_eqb k k' = false -> of_kind k (of_kind k' i) = [].
Proof.
  intros k k' i Hk. unfold of_kind. induction i as [|p i IH]; simpl; [reflexivity|].
  destruct (pkind_eqb (snd p) k') eqn:E; simpl; [|exact IH].
  destruct (pkind_eqb (snd p) k) eqn:E2; [|exact IH].
  destruct (snd p), k, k'; simpl in *; congruence.
Qed.

Theorem interface_second_write_stable_ : forall i, write_iface (read_iface (write_iface i)) = write_iface i.
Proof.
  intro i. rewrite read_write. unfold write_iface, line, names_of.
  rewrite !of_kind_app, !of_kind_same.
  rewrite (of_kind_other PModule PPlain), (of_kind_other PPlain PModule) by reflexivity.
  rewrite app_nil_r. reflexivity.
Qed.

Open Scope string_scope.
(* the seeded scenario: plain statement first in the source *)
Example interface_nonvacuous :
  let i := [("solve_banded", PPlain); ("solve_dense", PPlain); ("solve_diag", PModule); ("solve_ident", PModule)] in
  write_iface i = [(PModule, ["solve_diag"; "solve_ident"]); (PPlain, ["solve_banded"; "solve_dense"])]
  /\ read_iface (write_iface i) = [("solve_diag", PModule); ("solve_ident", PModule); ("solve_banded", PPlain); ("solve_dense", PPlain)].
Proof. intro i. split; vm_compute; reflexivity. Qed.
