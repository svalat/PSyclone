(* C03/C04 -- names: SymbolTable._normalize (ASCII lower-casing), the candidates root, root_1,
   root_2 ... of SymbolTable.next_available_name, and the search loop for a free one.
   Same definitions and lemmas as coq/C16/{Model,Names}.v (property C16), repeated here so that the
   C03/C04 build does not depend on C16's generated table file. *)
From Coq Require Import List Arith Bool String Ascii NArith Lia DecimalString DecimalN FinFun.
Import ListNotations.
Open Scope string_scope.

Definition lower_ascii (c : ascii) : ascii :=
  let n := N_of_ascii c in
  if (N.leb 65 n && N.leb n 90)%bool then ascii_of_N (n + 32) else c.

Fixpoint normalize (s : string) : string :=
  match s with
  | EmptyString => EmptyString
  | String c r => String (lower_ascii c) (normalize r)
  end.

(* str(idx) *)
Definition dec (n : N) : string := NilEmpty.string_of_uint (N.to_uint n).

(* candidate_name = root, then f"{root}_{idx}" for idx = 1, 2, ... *)
Definition cand (root : string) (i : N) : string :=
  match i with
  | N0 => root
  | _ => root ++ "_" ++ dec i
  end.

Fixpoint mem_str (x : string) (l : list string) : bool :=
  match l with
  | [] => false
  | y :: r => if String.eqb x y then true else mem_str x r
  end.

(* while self._normalize(candidate_name) in existing_names: ... *)
Fixpoint fresh_loop (fuel : nat) (root : string) (existing : list string) (i : N) : option string :=
  match fuel with
  | O => None
  | S f => let c := cand root i in
           if mem_str (normalize c) existing then fresh_loop f root existing (N.succ i)
           else Some c
  end.

Lemma str_length_app : forall a b, String.length (a ++ b) = String.length a + String.length b.
Proof. induction a as [|c a IH]; intros b; simpl; [reflexivity | rewrite IH; reflexivity]. Qed.

Lemma str_app_inv_head : forall a b c, a ++ b = a ++ c -> b = c.
Proof. induction a as [|x a IH]; intros b c H; simpl in H; [exact H | inversion H; auto]. Qed.

Lemma str_app_assoc : forall a b c, (a ++ b) ++ c = a ++ (b ++ c).
Proof. induction a as [|x a IH]; intros b c; simpl; [reflexivity | rewrite IH; reflexivity]. Qed.

Lemma normalize_app : forall a b, normalize (a ++ b) = normalize a ++ normalize b.
Proof. induction a as [|c a IH]; intros b; simpl; [reflexivity | rewrite IH; reflexivity]. Qed.

Lemma normalize_length : forall a, String.length (normalize a) = String.length a.
Proof. induction a as [|c a IH]; simpl; [reflexivity | rewrite IH; reflexivity]. Qed.

Lemma lower_ascii_idem : forall c, lower_ascii (lower_ascii c) = lower_ascii c.
Proof.
  intro c. unfold lower_ascii. set (n := N_of_ascii c).
  destruct (N.leb 65 n && N.leb n 90)%bool eqn:E; [|fold n; rewrite E; reflexivity].
  (* a lowered capital is no capital *)
  apply andb_prop in E as [E1 E2]. apply N.leb_le in E1, E2.
  rewrite N_ascii_embedding by lia.
  replace (N.leb (n + 32) 90) with false by (symmetry; apply N.leb_gt; lia).
  rewrite andb_false_r. reflexivity.
Qed.

Lemma normalize_idem : forall a, normalize (normalize a) = normalize a.
Proof. induction a as [|c a IH]; simpl; [reflexivity | rewrite lower_ascii_idem, IH; reflexivity]. Qed.

(* decimal digits are not changed by lower-casing *)
Lemma normalize_uint : forall d, normalize (NilEmpty.string_of_uint d) = NilEmpty.string_of_uint d.
Proof. induction d; simpl; try rewrite IHd; reflexivity. Qed.

Lemma normalize_dec : forall n, normalize (dec n) = dec n.
Proof. intros n. unfold dec. apply normalize_uint. Qed.

Lemma dec_inj : forall n m, dec n = dec m -> n = m.
Proof.
  intros n m H. unfold dec in H.
  assert (E : Some (N.to_uint n) = Some (N.to_uint m)).
  { rewrite <- (NilEmpty.usu (N.to_uint n)), <- (NilEmpty.usu (N.to_uint m)), H. reflexivity. }
  inversion E as [E'].
  rewrite <- (Unsigned.of_to n), <- (Unsigned.of_to m), E'. reflexivity.
Qed.

Lemma normalize_cand : forall root i, normalize (cand root i) = cand (normalize root) i.
Proof.
  intros root [|p]; simpl; [reflexivity|].
  rewrite normalize_app. simpl. f_equal.
  change (String (lower_ascii "_"%char) (normalize (dec (N.pos p)))) with
      (String "_"%char (normalize (dec (N.pos p)))).
  rewrite normalize_dec. reflexivity.
Qed.

Lemma cand_inj : forall root i j, cand root i = cand root j -> i = j.
Proof.
  intros root [|p] [|q] H; simpl in H; [reflexivity | | |].
  (* root alone is shorter than root with a suffix *)
  1,2: exfalso; apply (f_equal String.length) in H; rewrite str_length_app in H; simpl in H; lia.
  apply str_app_inv_head in H. simpl in H. inversion H as [H']. apply dec_inj in H'. exact H'.
Qed.

Lemma ncand_inj : forall root i j,
    normalize (cand root i) = normalize (cand root j) -> i = j.
Proof. intros root i j H. rewrite !normalize_cand in H. eapply cand_inj; eauto. Qed.

Lemma mem_str_In : forall x l, mem_str x l = true <-> In x l.
Proof.
  intros x l; induction l as [|y l IH]; simpl; [split; [discriminate | tauto]|].
  destruct (String.eqb_spec x y) as [E|E].
  - subst; split; auto.
  - rewrite IH. split; [auto | intros [H|H]; [congruence | exact H]].
Qed.

Lemma mem_str_false : forall x l, mem_str x l = false <-> ~ In x l.
Proof.
  intros x l. rewrite <- mem_str_In. destruct (mem_str x l); split; intro H; congruence.
Qed.

Fixpoint nseq (i : N) (n : nat) : list N :=
  match n with O => [] | S n' => i :: nseq (N.succ i) n' end.

Lemma nseq_lt : forall n i x, In x (nseq i n) -> (i <= x)%N.
Proof.
  induction n as [|n IH]; intros i x H; simpl in H; [tauto|].
  destruct H as [H|H]; [subst; lia | apply IH in H; lia].
Qed.

Lemma nseq_NoDup : forall n i, NoDup (nseq i n).
Proof.
  induction n as [|n IH]; intros i; simpl; constructor; [|apply IH].
  intro H. apply nseq_lt in H. lia.
Qed.

Lemma nseq_length : forall n i, List.length (nseq i n) = n.
Proof. induction n as [|n IH]; intros i; simpl; [reflexivity | rewrite IH; reflexivity]. Qed.

(* if the loop runs out of fuel, every candidate tried is in use *)
Lemma fresh_loop_none : forall fuel root ex i,
    fresh_loop fuel root ex i = None ->
    forall x, In x (nseq i fuel) -> In (normalize (cand root x)) ex.
Proof.
  induction fuel as [|f IH]; intros root ex i H x Hx; simpl in *; [tauto|].
  destruct (mem_str (normalize (cand root i)) ex) eqn:E; [|discriminate].
  destruct Hx as [Hx|Hx]; [subst; apply mem_str_In; exact E | eapply IH; eauto].
Qed.

(* pigeonhole: fuel = |existing| + 1 is never exhausted *)
Lemma fresh_loop_total : forall root ex i,
    exists c, fresh_loop (S (List.length ex)) root ex i = Some c.
Proof.
  intros root ex i.
  destruct (fresh_loop (S (List.length ex)) root ex i) as [c|] eqn:E; [eauto|exfalso].
  pose proof (fresh_loop_none _ _ _ _ E) as Hall.
  assert (Hnd : NoDup (map (fun x => normalize (cand root x)) (nseq i (S (List.length ex))))).
  { apply Injective_map_NoDup; [intros x y; apply ncand_inj | apply nseq_NoDup]. }
  assert (Hincl : incl (map (fun x => normalize (cand root x)) (nseq i (S (List.length ex)))) ex).
  { intros y Hy. apply in_map_iff in Hy as [x [Hx Hx']]. subst. apply Hall; exact Hx'. }
  pose proof (NoDup_incl_length Hnd Hincl) as Hlen.
  rewrite map_length, nseq_length in Hlen. lia.
Qed.

(* what the loop returns: the first candidate (from i on) that is free *)
Lemma fresh_loop_some : forall fuel root ex i c,
    fresh_loop fuel root ex i = Some c ->
    exists k, c = cand root (i + N.of_nat k)%N /\ ~ In (normalize c) ex /\
              forall k', k' < k -> In (normalize (cand root (i + N.of_nat k')%N)) ex.
Proof.
  induction fuel as [|f IH]; intros root ex i c H; simpl in H; [discriminate|].
  destruct (mem_str (normalize (cand root i)) ex) eqn:E.
  - apply IH in H as [k [Hc [Hfree Hmin]]].
    exists (S k). split; [|split].
    + rewrite Hc. f_equal. lia.
    + exact Hfree.
    + intros k' Hk'. destruct k' as [|k'].
      * replace (i + N.of_nat 0)%N with i by lia. apply mem_str_In. exact E.
      * replace (i + N.of_nat (S k'))%N with (N.succ i + N.of_nat k')%N by lia.
        apply Hmin. lia.
  - inversion H; subst. exists 0. split; [|split].
    + f_equal. lia.
    + apply mem_str_false. exact E.
    + intros k' Hk'. lia.
Qed.
