(* C03/C04 -- proofs about gen_decls and its re-reading. *)
From Coq Require Import List Arith Bool Permutation String.
Import ListNotations.
From PV Require Import C03.Decls C03.OrderProofs.
Open Scope list_scope.

Lemma NoDup_map_filter {A B} (f : A -> B) (p : A -> bool) l : NoDup (map f l) -> NoDup (map f (filter p l)).
Proof.
  induction l as [|a l IH]; intros H; simpl; [constructor|].
  inversion H as [|? ? Ha Hn]; subst. destruct (p a); simpl; [|auto].
  constructor; [|auto]. intro Hx. apply Ha. apply in_map_iff in Hx as [y [Ey Hy]].
  apply filter_In in Hy as [Hy _]. rewrite <- Ey. apply in_map. exact Hy.
Qed.

Lemma cat_eqb_eq : forall a b, cat_eqb a b = true <-> a = b.
Proof. intros a b; destruct a, b; simpl; split; intro H; congruence. Qed.

Lemma sect_app : forall c a b, sect c (a ++ b) = sect c a ++ sect c b.
Proof. intros. apply filter_app. Qed.

Lemma sect_Forall : forall c t, Forall (fun s => has_cat c s = true) (sect c t).
Proof. intros c t. apply Forall_forall. intros s Hs. apply filter_In in Hs. tauto. Qed.

(* of a list whose symbols all have category [c], a section is all or nothing *)
Lemma sect_uniform : forall c c' l, Forall (fun s => has_cat c s = true) l ->
                                    sect c' l = if cat_eqb c' c then l else [].
Proof.
  intros c c' l H. induction H as [|s l Hs _ IH]; [destruct (cat_eqb c' c); reflexivity|].
  apply cat_eqb_eq in Hs. unfold sect, has_cat in *. simpl. rewrite IH, Hs.
  destruct c, c'; reflexivity.
Qed.

Lemma sect_sect : forall c c' t, sect c (sect c' t) = if cat_eqb c c' then sect c' t else [].
Proof. intros. apply sect_uniform, sect_Forall. Qed.

Definition declarable (s : sym) : bool := negb (has_cat CSkip s).

Lemma sections_perm : forall t,
    Permutation (sect CRoutine t ++ sect CConst t ++ sect CArg t ++ sect CType t ++ sect CVar t)
                (filter declarable t).
Proof.
  induction t as [|s t IH]; [apply perm_nil|].
  unfold sect, declarable, has_cat in *. simpl.
  destruct (s_cat s); simpl; try exact IH; [apply perm_skip, IH | ..];
    (* [s] heads its section: associate the appends so that it stands between two lists *)
    rewrite !app_assoc; apply Permutation_sym, Permutation_cons_app, Permutation_sym;
    rewrite <- !app_assoc; exact IH.
Qed.

Lemma gen_decls_sections : forall t l, gen_decls t = Some l ->
    exists cs, order_consts (sect CConst t) = Some cs /\
               l = sect CRoutine t ++ cs ++ sect CArg t ++ sect CType t ++ sect CVar t.
Proof.
  intros t l H. unfold gen_decls in H.
  destruct (order_consts (sect CConst t)) as [cs|]; [|discriminate]. injection H as <-. eauto.
Qed.

(* C04 decls_complete / C03 order_perm: every declarable symbol of the table is emitted exactly
   once (the emitted list is a permutation of the declarable symbols) *)
Theorem gen_decls_perm : forall t l, gen_decls t = Some l -> Permutation l (filter declarable t).
Proof.
  intros t l H. destruct (gen_decls_sections _ _ H) as [cs [Ec ->]].
  eapply Permutation_trans; [|apply sections_perm].
  apply Permutation_app_head, Permutation_app_tail, order_consts_perm, Ec.
Qed.

Lemma NoDup_ids_perm : forall l l', Permutation l l' -> NoDup (ids l) -> NoDup (ids l').
Proof. intros l l' P H. eapply Permutation_NoDup; [apply ids_perm; exact P | exact H]. Qed.

Lemma gen_decls_NoDup : forall t l, NoDup (ids t) -> gen_decls t = Some l -> NoDup (ids l).
Proof.
  intros t l Hn H. eapply NoDup_ids_perm; [apply Permutation_sym, gen_decls_perm, H|].
  apply NoDup_map_filter, Hn.
Qed.

Lemma sect_of_output : forall t cs c,
    Forall (fun s => has_cat CConst s = true) cs ->
    sect c (sect CRoutine t ++ cs ++ sect CArg t ++ sect CType t ++ sect CVar t) =
    match c with CRoutine => sect CRoutine t | CConst => cs | CArg => sect CArg t
            | CType => sect CType t | CVar => sect CVar t | CSkip => [] end.
Proof.
  intros t cs c Hcs. rewrite !sect_app, !sect_sect, (sect_uniform CConst c cs Hcs).
  destruct c; simpl; rewrite ?app_nil_r; reflexivity.
Qed.

(* writing twice without re-reading in between changes nothing *)
Theorem gen_decls_idem : forall t l, gen_decls t = Some l -> gen_decls l = Some l.
Proof.
  intros t l H. destruct (gen_decls_sections _ _ H) as [cs [Ec ->]].
  assert (Hcs : Forall (fun s => has_cat CConst s = true) cs).
  { eapply Permutation_Forall; [apply Permutation_sym, order_consts_perm, Ec | apply sect_Forall]. }
  unfold gen_decls. rewrite !sect_of_output by exact Hcs.
  rewrite (order_consts_idem _ _ Ec). reflexivity.
Qed.

(* gen_decls only looks at the sections *)
Lemma gen_decls_sect_ext : forall t t', (forall c, sect c t = sect c t') -> gen_decls t = gen_decls t'.
Proof. intros t t' H. unfold gen_decls. rewrite !H. reflexivity. Qed.

Lemma dedup_skip : forall a seen b, (forall x, In x a -> In x seen) -> dedup seen (a ++ b) = dedup seen b.
Proof.
  induction a as [|x a IH]; intros seen b H; simpl; [reflexivity|].
  rewrite (proj2 (mem_nat_In x seen)) by (apply H; left; reflexivity).
  apply IH. intros y Hy. apply H. right. exact Hy.
Qed.

Lemma dedup_nofwd : forall l dn seen,
    before_use dn seen l = true -> NoDup (ids l) -> (forall d, In d l -> ~ In (s_id d) seen) ->
    dedup seen (flat_map (mentions dn) l) = ids l.
Proof.
  induction l as [|d l IH]; intros dn seen Hb Hn Hs; simpl; [reflexivity|].
  simpl in Hb. apply andb_prop in Hb as [Hb1 Hb2].
  unfold mentions at 1. rewrite <- app_assoc. rewrite dedup_skip.
  - simpl. rewrite (proj2 (mem_nat_false (s_id d) seen)) by (apply Hs; left; reflexivity).
    f_equal. inversion Hn as [|? ? Hnd Hn']; subst. apply IH; [exact Hb2 | exact Hn' |].
    intros e He [Hx|Hx].
    + apply Hnd. rewrite Hx. apply in_map. exact He.
    + eapply Hs; [right; exact He | exact Hx].
  - intros x Hx. apply filter_In in Hx as [Hx1 Hx2].
    rewrite forallb_forall in Hb1. specialize (Hb1 x Hx1). rewrite Hx2 in Hb1. simpl in Hb1.
    apply mem_nat_In. exact Hb1.
Qed.

Lemma filter_id_none : forall l n, ~ In n (ids l) -> filter (fun d => Nat.eqb (s_id d) n) l = [].
Proof.
  induction l as [|a l IH]; intros n H; simpl; [reflexivity|].
  destruct (Nat.eqb_spec (s_id a) n) as [E|E]; [exfalso; apply H; left; exact E|].
  apply IH. intro Hx. apply H. right. exact Hx.
Qed.

Lemma filter_id_unique : forall l d, NoDup (ids l) -> In d l -> filter (fun x => Nat.eqb (s_id x) (s_id d)) l = [d].
Proof.
  induction l as [|a l IH]; intros d Hn Hd; [destruct Hd|].
  inversion Hn as [|? ? Ha Hn']; subst. simpl. destruct Hd as [Hd|Hd].
  - subst. rewrite Nat.eqb_refl. f_equal. apply filter_id_none. exact Ha.
  - destruct (Nat.eqb_spec (s_id a) (s_id d)) as [E|E].
    + exfalso. apply Ha. rewrite E. apply in_map. exact Hd.
    + apply IH; assumption.
Qed.

Lemma by_ids_self : forall D l, NoDup (ids D) -> incl l D -> by_ids D (ids l) = l.
Proof.
  intros D l Hn. induction l as [|d l IH]; intros Hi; simpl; [reflexivity|].
  rewrite filter_id_unique; [|exact Hn | apply Hi; left; reflexivity].
  simpl. f_equal. apply IH. intros x Hx. apply Hi. right. exact Hx.
Qed.

(* without forward references the reader's table is the text order with the types first *)
Lemma reread_nofwd : forall l, NoDup (ids l) -> no_forward_refs l = true ->
                               reread l = sect CType l ++ filter nontype l.
Proof.
  intros l Hn Hf. unfold reread. f_equal. unfold no_forward_refs in Hf.
  rewrite dedup_nofwd; [| exact Hf | apply NoDup_map_filter, Hn | intros d _ H; exact H].
  apply by_ids_self; [apply NoDup_map_filter, Hn | apply incl_refl].
Qed.

Lemma sect_nontype : forall c l, sect c (filter nontype l) = if cat_eqb c CType then [] else sect c l.
Proof.
  intros c l. induction l as [|a l IH]; [destruct c; reflexivity|].
  unfold sect, nontype, has_cat in *. destruct a as [? ? k ? ?]. destruct k, c; simpl; rewrite IH; reflexivity.
Qed.

Lemma sect_types_first : forall l c, sect c (sect CType l ++ filter nontype l) = sect c l.
Proof.
  intros l c. rewrite sect_app, sect_sect, sect_nontype.
  destruct c; simpl; rewrite ?app_nil_r; reflexivity.
Qed.

(* C03, the provable part: if the written declarations contain no forward reference, re-reading
   them and writing again gives the same declarations in the same order *)
Theorem decl_order_idempotent_partial_ : forall t l,
    NoDup (ids t) -> gen_decls t = Some l -> no_forward_refs l = true ->
    gen_decls (reread l) = Some l.
Proof.
  intros t l Hn H Hf.
  rewrite (reread_nofwd l (gen_decls_NoDup t l Hn H) Hf).
  rewrite (gen_decls_sect_ext _ l) by (intro c; apply sect_types_first).
  exact (gen_decls_idem t l H).
Qed.

(* C03: no declaration is lost or duplicated by the further round trip *)
Theorem reread_perm_partial_ : forall l, NoDup (ids l) -> no_forward_refs l = true -> Permutation (reread l) l.
Proof.
  intros l Hn Hf. rewrite (reread_nofwd l Hn Hf). unfold sect.
  clear. induction l as [|a l IH]; [apply Permutation_refl|].
  unfold nontype in *. simpl. destruct (has_cat CType a); simpl.
  - apply perm_skip. exact IH.
  - apply Permutation_sym, Permutation_cons_app, Permutation_sym, IH.
Qed.

Open Scope string_scope.
(* non-vacuity of the partial theorem: kinds and parameters in scrambled table order, an argument,
   a derived type, variables whose bounds use the parameters *)
Definition sample_tbl : list sym :=
  [ mkSym 0 "x" CVar [] [3; 5]; mkSym 1 "n2" CConst [3] [3]; mkSym 2 "arg" CArg [] [3];
    mkSym 3 "n" CConst [4] [4]; mkSym 4 "wp" CConst [] []; mkSym 5 "tt" CType [] [4];
    mkSym 6 "mod1" CSkip [] []; mkSym 7 "y" CVar [] [1; 0] ].

Example partial_nonvacuous :
  NoDup (ids sample_tbl) /\
  exists l, gen_decls sample_tbl = Some l /\ no_forward_refs l = true /\ ids l = [4; 3; 1; 2; 5; 0; 7]
            /\ ids (reread l) = [5; 4; 3; 1; 2; 0; 7].
Proof.
  split; [exact (seq_NoDup 8 0)|].
  eexists. split; [vm_compute; reflexivity|]. repeat split; vm_compute; reflexivity.
Qed.
