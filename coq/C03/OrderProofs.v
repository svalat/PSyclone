(* C03/C04 -- proofs about order_consts (FortranWriter._gen_parameter_decls). *)
From Coq Require Import List Arith Bool Lia Permutation.
Import ListNotations.
From PV Require Import C03.Decls.

Lemma mem_nat_In : forall x l, mem_nat x l = true <-> In x l.
Proof.
  intros x l; induction l as [|y l IH]; simpl; [split; [discriminate|tauto]|].
  destruct (Nat.eqb_spec x y) as [E|E].
  - subst; split; auto.
  - rewrite IH. split; [auto | intros [H|H]; [congruence|exact H]].
Qed.

Lemma mem_nat_false : forall x l, mem_nat x l = false <-> ~ In x l.
Proof. intros x l. rewrite <- mem_nat_In. destruct (mem_nat x l); split; intro H; congruence. Qed.

Lemma mem_nat_ext : forall l l', (forall x, In x l <-> In x l') -> forall x, mem_nat x l = mem_nat x l'.
Proof.
  intros l l' H x. destruct (mem_nat x l) eqn:E.
  - symmetry. apply mem_nat_In, H, mem_nat_In, E.
  - symmetry. apply mem_nat_false. intro Hx. apply H in Hx. apply mem_nat_In in Hx. congruence.
Qed.

Lemma subset_spec : forall a b, subset a b = true <-> (forall x, In x a -> In x b).
Proof.
  intros a b. unfold subset. rewrite forallb_forall. split; intros H x Hx; apply mem_nat_In, H, Hx.
Qed.

Lemma subset_mono : forall a b b', subset a b = true -> (forall x, In x b -> In x b') -> subset a b' = true.
Proof. intros a b b' H Hb. apply subset_spec. intros x Hx. apply Hb. eapply subset_spec; eauto. Qed.

(* the constants-section is valid from [declared]: every constant's local inputs are declared
   by the constants before it (or were declared already) *)
Fixpoint cvalid (cn declared : list nat) (l : list sym) : bool :=
  match l with
  | [] => true
  | c :: r => subset (ldeps cn c) declared && cvalid cn (s_id c :: declared) r
  end.

Lemma ids_perm : forall l l', Permutation l l' -> Permutation (ids l) (ids l').
Proof. intros. unfold ids. apply Permutation_map. assumption. Qed.

Lemma ids_perm_In : forall l l', Permutation l l' -> forall x, In x (ids l) <-> In x (ids l').
Proof. intros l l' P x. split; apply Permutation_in, ids_perm; [|apply Permutation_sym]; exact P. Qed.

(* pick returns a constant whose local inputs are declared, and the other constants *)
Lemma pick_some : forall cn dcl l x r, pick cn dcl l = Some (x, r) ->
    subset (ldeps cn x) dcl = true /\ Permutation l (x :: r).
Proof.
  intros cn dcl l; induction l as [|c l IH]; intros x r H; simpl in H; [discriminate|].
  destruct (subset (ldeps cn c) dcl) eqn:Es.
  - injection H as <- <-. split; [exact Es | apply Permutation_refl].
  - destruct (pick cn dcl l) as [[y r']|]; [|discriminate].
    injection H as <- <-. destruct (IH _ _ eq_refl) as [Hy P]. split; [exact Hy|].
    eapply Permutation_trans; [apply perm_skip; exact P | apply perm_swap].
Qed.

(* pick fails exactly when no remaining constant is declarable *)
Lemma pick_none : forall cn dcl l, pick cn dcl l = None ->
                                   forall c, In c l -> subset (ldeps cn c) dcl = false.
Proof.
  intros cn dcl l; induction l as [|c l IH]; intros H c' Hc'; simpl in *; [tauto|].
  destruct (subset (ldeps cn c) dcl) eqn:Es; [discriminate|].
  destruct (pick cn dcl l) as [[y r']|] eqn:E; [discriminate|].
  destruct Hc' as [Hc'|Hc']; [subst; exact Es | apply IH; auto].
Qed.

(* the sort returns the constants it was given, in an order valid from [dcl] *)
Lemma order_go_some : forall f cn dcl l o, order_go f cn dcl l = Some o ->
    Permutation o l /\ cvalid cn dcl o = true.
Proof.
  induction f as [|f IH]; intros cn dcl l o H; destruct l as [|c l]; cbn [order_go] in H;
    try discriminate; try (injection H as <-; split; [apply perm_nil | reflexivity]).
  destruct (pick cn dcl (c :: l)) as [[x r]|] eqn:E; [|discriminate].
  destruct (order_go f cn (s_id x :: dcl) r) as [o'|] eqn:Eo; [|discriminate].
  injection H as <-. destruct (pick_some _ _ _ _ _ E) as [Hx Px], (IH _ _ _ _ Eo) as [Po Hv]. split.
  - apply Permutation_sym. eapply Permutation_trans; [exact Px | apply perm_skip, Permutation_sym, Po].
  - simpl. rewrite Hx. exact Hv.
Qed.

(* on an already valid order the dependency sort is the identity *)
Lemma order_go_id : forall l f cn dcl, cvalid cn dcl l = true -> length l <= f -> order_go f cn dcl l = Some l.
Proof.
  induction l as [|c l IH]; intros f cn dcl Hv Hf; [destruct f; reflexivity|].
  destruct f as [|f]; [simpl in Hf; lia|].
  simpl in Hv. apply andb_prop in Hv as [H1 H2].
  cbn [order_go pick]. rewrite H1. rewrite (IH f cn (s_id c :: dcl) H2); [reflexivity|simpl in Hf; lia].
Qed.

Lemma ldeps_In : forall cn c d, In d (ldeps cn c) <-> In d (s_deps c) /\ In d cn.
Proof. intros cn c d. unfold ldeps. rewrite filter_In, mem_nat_In. reflexivity. Qed.

Lemma ldeps_ext : forall cn cn' c, (forall x, In x cn <-> In x cn') -> ldeps cn c = ldeps cn' c.
Proof. intros cn cn' c H. unfold ldeps. apply filter_ext. intro d. apply mem_nat_ext, H. Qed.

Lemma cvalid_ext : forall cn cn' l dcl, (forall x, In x cn <-> In x cn') -> cvalid cn dcl l = cvalid cn' dcl l.
Proof.
  intros cn cn' l; induction l as [|c l IH]; intros dcl H; simpl; [reflexivity|].
  rewrite (ldeps_ext cn cn' c H), (IH _ H). reflexivity.
Qed.

Theorem order_consts_perm : forall cs o, order_consts cs = Some o -> Permutation o cs.
Proof. intros cs o H. exact (proj1 (order_go_some _ _ _ _ _ H)). Qed.

Theorem order_consts_valid : forall cs o, order_consts cs = Some o -> cvalid (ids o) [] o = true.
Proof.
  intros cs o H. rewrite (cvalid_ext (ids o) (ids cs)).
  - exact (proj2 (order_go_some _ _ _ _ _ H)).
  - apply ids_perm_In, order_consts_perm, H.
Qed.

Theorem order_consts_id : forall o, cvalid (ids o) [] o = true -> order_consts o = Some o.
Proof. intros o H. unfold order_consts. apply order_go_id; [exact H | lia]. Qed.

Theorem order_consts_idem : forall cs o, order_consts cs = Some o -> order_consts o = Some o.
Proof. intros cs o H. apply order_consts_id. eapply order_consts_valid; eauto. Qed.

(* cvalid, spelled out: a constant's local inputs all occur strictly before it *)
Lemma cvalid_split : forall cn l dcl l1 c l2, cvalid cn dcl l = true -> l = l1 ++ c :: l2 ->
   forall d, In d (ldeps cn c) -> In d dcl \/ In d (ids l1).
Proof.
  intros cn l; induction l as [|a l IH]; intros dcl l1 c l2 Hv E d Hd; [destruct l1; discriminate|].
  simpl in Hv. apply andb_prop in Hv as [H1 H2].
  destruct l1 as [|b l1]; simpl in E; inversion E; subst.
  - left. eapply subset_spec; eauto.
  - destruct (IH _ _ _ _ H2 eq_refl d Hd) as [[Hx|Hx]|Hx].
    + right. left. exact Hx.
    + left. exact Hx.
    + right. right. exact Hx.
Qed.

Theorem order_consts_deps_first : forall cs o l1 c l2, order_consts cs = Some o -> o = l1 ++ c :: l2 ->
   forall d, In d (s_deps c) -> In d (ids cs) -> In d (ids l1).
Proof.
  intros cs o l1 c l2 H E d Hd Hcs.
  pose proof (proj2 (order_go_some _ _ _ _ _ H)) as Hv.
  destruct (cvalid_split _ _ _ _ _ _ Hv E d) as [Hx|Hx]; [|destruct Hx|exact Hx].
  apply ldeps_In. split; assumption.
Qed.

Lemma cvalid_mono : forall cn l dcl dcl', cvalid cn dcl l = true -> (forall x, In x dcl -> In x dcl') ->
                                          cvalid cn dcl' l = true.
Proof.
  intros cn l; induction l as [|c l IH]; intros dcl dcl' H Hm; simpl in *; [reflexivity|].
  apply andb_prop in H as [H1 H2]. apply andb_true_intro. split.
  - eapply subset_mono; eauto.
  - eapply IH; eauto. intros x [Hx|Hx]; [left; exact Hx | right; auto].
Qed.

(* removing one element from a valid arrangement and declaring it up front keeps it valid *)
Lemma cvalid_remove : forall cn v dcl v1 x v2, cvalid cn dcl v = true -> v = v1 ++ x :: v2 ->
                                               cvalid cn (s_id x :: dcl) (v1 ++ v2) = true.
Proof.
  intros cn v; induction v as [|a v IH]; intros dcl v1 x v2 H E; [destruct v1; discriminate|].
  simpl in H. apply andb_prop in H as [H1 H2].
  destruct v1 as [|b v1]; simpl in E; inversion E; subst; simpl.
  - exact H2.
  - apply andb_true_intro. split.
    + eapply subset_mono; eauto. intros y Hy. right. exact Hy.
    + apply (cvalid_mono cn (v1 ++ v2) (s_id x :: s_id b :: dcl)).
      * eapply IH; eauto.
      * intros y [Hy|[Hy|Hy]]; [right; left|left|right; right]; exact Hy.
Qed.

(* if SOME arrangement of the constants is valid, the writer's sort succeeds.
   Invariant: [l] = what remains, [dcl] = what was emitted; some valid arrangement [v] of the
   remaining ones (relative to dcl) exists. *)
Lemma order_go_complete : forall f cn l dcl v, Permutation v l -> cvalid cn dcl v = true ->
    length l <= f -> exists o, order_go f cn dcl l = Some o.
Proof.
  induction f as [|f IH]; intros cn l dcl v P Hv Hf;
    (destruct l as [|c l]; [exists []; reflexivity|]); [simpl in Hf; lia|].
  cbn [order_go]. destruct (pick cn dcl (c :: l)) as [[x r]|] eqn:E.
  - destruct (pick_some _ _ _ _ _ E) as [_ Px].
    assert (Pv : Permutation v (x :: r)) by (eapply Permutation_trans; eassumption).
    assert (Hin : In x v) by (eapply Permutation_in; [apply Permutation_sym, Pv | left; reflexivity]).
    apply in_split in Hin as [v1 [v2 Ev]].
    destruct (IH cn r (s_id x :: dcl) (v1 ++ v2)) as [o Ho].
    + apply (Permutation_cons_inv (a := x)).
      eapply Permutation_trans; [apply Permutation_middle|]. rewrite <- Ev. exact Pv.
    + eapply cvalid_remove; eauto.
    + apply Permutation_length in Px. simpl in Px, Hf. lia.
    + rewrite Ho. eauto.
  - (* the head of the valid arrangement is declarable, so pick cannot fail *)
    exfalso. destruct v as [|a v]; [apply Permutation_nil in P; discriminate|].
    simpl in Hv. apply andb_prop in Hv as [Ha _].
    rewrite (pick_none _ _ _ E a) in Ha; [discriminate|].
    eapply Permutation_in; [exact P | left; reflexivity].
Qed.

Theorem order_consts_complete : forall cs v, Permutation v cs -> cvalid (ids cs) [] v = true ->
                                             exists o, order_consts cs = Some o.
Proof. intros cs v P Hv. unfold order_consts. eapply order_go_complete; eauto. Qed.
