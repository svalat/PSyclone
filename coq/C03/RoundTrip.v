(* C03 -- write (merge scopes + order declarations), re-read, write again. *)
From Coq Require Import List Arith Bool Permutation String.
Import ListNotations.
From PV Require Import C03.Names C03.Decls C03.OrderProofs C03.DeclProofs C03.FlattenProofs.
Open Scope list_scope.

Lemma nnames_perm : forall l l', Permutation l l' -> Permutation (nnames l) (nnames l').
Proof. intros. unfold nnames. apply Permutation_map. assumption. Qed.

(* the written declarations of a routine name every entity once *)
Theorem written_names_unique_ : forall outer routine inners l,
    write_decls outer routine inners = Some l -> NoDup (nnames l).
Proof.
  intros outer routine inners l H. unfold write_decls in H.
  eapply Permutation_NoDup; [apply nnames_perm, Permutation_sym, gen_decls_perm; exact H|].
  unfold nnames. apply NoDup_map_filter. apply flatten_names_unique_.
Qed.

(* merge_then_flat (partial): scopes merged and declarations ordered by the first write; if the
   written declarations have no forward reference then reading them back (one flat scope, table in
   first-mention order, types first) and writing again produces the same declarations, with the
   same names, in the same order -- the second pass renames nothing and re-orders nothing *)
Theorem merge_then_flat_partial_ : forall outer outer' routine inners l,
    NoDup (ids (routine ++ List.concat inners)) ->
    write_decls outer routine inners = Some l ->
    no_forward_refs l = true ->
    write_decls outer' (reread l) [] = Some l.
Proof.
  intros outer outer' routine inners l Hn H Hf.
  assert (Hnf : NoDup (ids (flatten outer routine inners))) by (rewrite flatten_ids_; exact Hn).
  pose proof (gen_decls_NoDup _ _ Hnf H) as Hnl.
  unfold write_decls. rewrite (flatten_noclash_ outer' (reread l) []).
  - simpl. rewrite app_nil_r.
    apply (decl_order_idempotent_partial_ (flatten outer routine inners) l Hnf H Hf).
  - simpl. rewrite app_nil_r.
    eapply Permutation_NoDup; [apply nnames_perm, Permutation_sym, reread_perm_partial_; assumption|].
    eapply written_names_unique_; eauto.
Qed.

Open Scope string_scope.
(* non-vacuity: two nested scopes re-declare i and a parameter n; kinds in scrambled order *)
Example merge_then_flat_nonvacuous :
  let routine := [mkSym 0 "x" CVar [] [2; 1]; mkSym 1 "n" CConst [2] [2]; mkSym 2 "wp" CConst [] [];
                  mkSym 3 "i" CVar [] []; mkSym 4 "a" CArg [] [1]] in
  let inners := [[mkSym 5 "i" CVar [] []; mkSym 6 "n" CConst [] []]; [mkSym 7 "I" CVar [] [6]]] in
  NoDup (ids (routine ++ List.concat inners)) /\
  exists l, write_decls ["m"] routine inners = Some l /\ no_forward_refs l = true /\
            map s_name l = ["wp"; "n"; "n_1"; "a"; "x"; "i"; "i_1"; "I_2"] /\
            write_decls ["m"] (reread l) [] = Some l.
Proof.
  intros routine inners. split; [exact (seq_NoDup 8 0)|].
  eexists. split; [vm_compute; reflexivity|]. repeat split; vm_compute; reflexivity.
Qed.
