(* C29 -- 'multiple' scheme: from every reachable state, a run that is given enough steps
   completes (the index search terminates because the directory is finite). *)
From Coq Require Import List Arith Bool Lia.
Import ListNotations.
From PV Require Import C29.Model C29.Proofs.

Fixpoint max_idx (fs : fsys) : nat :=
  match fs with
  | [] => 0
  | ((_, j), _) :: r => Nat.max j (max_idx r)
  end.

Lemma lookup_above : forall fs b j, max_idx fs < j -> lookup fs (b, j) = None.
Proof.
  induction fs as [|[[b' j'] c] r IH]; intros b j H; cbn in *; [reflexivity|].
  unfold fname_eqb; cbn.
  destruct (Nat.eqb_spec j' j) as [E|N]; [lia|].
  rewrite andb_false_r. apply IH. lia.
Qed.

(* the stepping run under the 'multiple' scheme, position by position *)
Lemma step_try_free : forall sch st i idx, r_pc (st_runs st i) = Try idx ->
  lookup (st_fs st) (k_base (r_kern (st_runs st i)), idx) = None ->
  r_pc (st_runs (step sch st i) i) = Created idx.
Proof. intros sch st i idx H L. unfold step. rewrite H, L. cbn. rewrite upd_same. reflexivity. Qed.

Lemma step_try_taken : forall st i idx c, r_pc (st_runs st i) = Try idx ->
  lookup (st_fs st) (k_base (r_kern (st_runs st i)), idx) = Some c ->
  step Multiple st i = {| st_fs := st_fs st;
                          st_runs := upd (st_runs st) i (set_pc (st_runs st i) (Try (S idx))) |}.
Proof. intros st i idx c H L. unfold step. rewrite H, L. reflexivity. Qed.

Lemma step_created : forall sch st i idx, r_pc (st_runs st i) = Created idx ->
  r_pc (st_runs (step sch st i) i) = ToWrite idx.
Proof. intros sch st i idx H. unfold step. rewrite H. cbn. rewrite upd_same. reflexivity. Qed.

Lemma step_towrite : forall sch st i idx, r_pc (st_runs st i) = ToWrite idx ->
  r_pc (st_runs (step sch st i) i) = ToClose idx.
Proof. intros sch st i idx H. unfold step. rewrite H. cbn. rewrite upd_same. reflexivity. Qed.

Lemma step_toclose : forall sch st i idx, r_pc (st_runs st i) = ToClose idx ->
  r_pc (st_runs (step sch st i) i) = Done idx true.
Proof. intros sch st i idx H. unfold step. rewrite H. cbn. rewrite upd_same. reflexivity. Qed.

(* the index search ends at the latest at an index that is free: idx + m *)
Lemma solo_try : forall m st idx i,
  r_pc (st_runs st i) = Try idx ->
  lookup (st_fs st) (k_base (r_kern (st_runs st i)), idx + m) = None ->
  exists n idx', r_pc (st_runs (exec Multiple st (repeat i n)) i) = Created idx'.
Proof.
  induction m as [|m IH]; intros st idx i H L.
  - rewrite Nat.add_0_r in L. exists 1, idx. exact (step_try_free Multiple st i idx H L).
  - destruct (lookup (st_fs st) (k_base (r_kern (st_runs st i)), idx)) as [c|] eqn:El.
    + destruct (IH (step Multiple st i) (S idx) i) as [n [idx' Hn]].
      * rewrite (step_try_taken st i idx c H El). cbn. rewrite upd_same. reflexivity.
      * rewrite (step_try_taken st i idx c H El). cbn. rewrite upd_same. cbn.
        rewrite <- Nat.add_succ_r. exact L.
      * exists (S n), idx'. exact Hn.
    + exists 1, idx. exact (step_try_free Multiple st i idx H El).
Qed.

Lemma solo_completes : forall st i, multiple_pc (r_pc (st_runs st i)) ->
  exists n idx, r_pc (st_runs (exec Multiple st (repeat i n)) i) = Done idx true.
Proof.
  intros st i M.
  assert (C : forall st' idx, r_pc (st_runs st' i) = Created idx ->
              r_pc (st_runs (exec Multiple st' (repeat i 3)) i) = Done idx true).
  { intros st' idx H. cbn. apply step_toclose, step_towrite, step_created. exact H. }
  destruct (r_pc (st_runs st i)) as [idx|idx|idx|idx|idx|idx|idx w|idx] eqn:E; cbn in M;
    try contradiction.
  - destruct (solo_try (S (max_idx (st_fs st))) st idx i E) as [n [idx' Hn]].
    + apply lookup_above. lia.
    + exists (n + 3), idx'. rewrite repeat_app, exec_app. apply C. exact Hn.
  - exists 3, idx. apply C. exact E.
  - exists 2, idx. cbn. apply step_toclose, step_towrite. exact E.
  - exists 1, idx. cbn. apply step_toclose. exact E.
  - destruct w; [|contradiction]. exists 0, idx. cbn. exact E.
Qed.
