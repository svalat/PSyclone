(* C29 -- invariant of the kernel-file protocol over ALL interleavings of ANY number of runs, and
   what it gives for each naming scheme; the sharing half of the 'single' rule under read_safe;
   the kernels of the witness and of the examples of Properties/C29.v. *)
From Coq Require Import List Arith Bool.
Import ListNotations.
From PV Require Import C29.Model.

Lemma fname_eqb_eq : forall a b, fname_eqb a b = true <-> a = b.
Proof.
  intros [a1 a2] [b1 b2]; unfold fname_eqb; cbn. rewrite andb_true_iff, !Nat.eqb_eq.
  split; [intros [-> ->]; reflexivity | intro E; inversion E; auto].
Qed.

Lemma fname_eqb_spec : forall a b, reflect (a = b) (fname_eqb a b).
Proof. intros a b. apply iff_reflect. symmetry. apply fname_eqb_eq. Qed.

Lemma code_eqb_eq : forall a b, code_eqb a b = true <-> a = b.
Proof.
  intros [am ar ab] [bm br bb]; unfold code_eqb; cbn.
  rewrite !andb_true_iff, !fname_eqb_eq, Nat.eqb_eq.
  split; [intros [[-> ->] ->]; reflexivity | intro E; inversion E; auto].
Qed.

Lemma lookup_fset_same : forall fs f c, lookup (fset fs f c) f = Some c.
Proof. intros fs f c. cbn. destruct (fname_eqb_spec f f); [reflexivity | contradiction]. Qed.

Lemma lookup_fset_other : forall fs f g c, f <> g -> lookup (fset fs f c) g = lookup fs g.
Proof. intros fs f g c N. cbn. destruct (fname_eqb_spec f g); [contradiction | reflexivity]. Qed.

(* files are only ever added or rewritten, never removed *)
Lemma lookup_fset_exists : forall fs f g c, lookup fs g <> None -> lookup (fset fs f c) g <> None.
Proof. intros fs f g c H. cbn. destruct (fname_eqb f g); [discriminate | exact H]. Qed.

Lemma upd_same : forall rs a r, upd rs a r a = r.
Proof. intros; unfold upd; rewrite Nat.eqb_refl; reflexivity. Qed.

Lemma upd_other : forall rs a r j, j <> a -> upd rs a r j = rs j.
Proof. intros; unfold upd. destruct (Nat.eqb_spec j a); [contradiction | reflexivity]. Qed.

(* a fact about every run once run [a] is set to r: about r, and about the others *)
Lemma upd_all : forall (P : nat -> run -> Prop) rs a r,
  P a r -> (forall i, i <> a -> P i (rs i)) -> forall i, P i (upd rs a r i).
Proof.
  intros P rs a r Ha Hi i. destruct (Nat.eq_dec i a) as [->|N];
    [rewrite upd_same; exact Ha | rewrite upd_other by exact N; exact (Hi i N)].
Qed.

Lemma step_other : forall sch st a i, i <> a -> st_runs (step sch st a) i = st_runs st i.
Proof.
  intros sch st a i N. unfold step.
  destruct (r_pc (st_runs st a)) as [idx|idx|idx|idx|idx|idx|idx w|idx];
    try reflexivity; try (apply upd_other; exact N).
  - destruct (lookup _ _); [destruct sch|]; apply upd_other; exact N.
  - destruct (lookup _ _) as [[|c|n]|]; [|destruct (code_eqb _ _)|..]; apply upd_other; exact N.
Qed.

(* positions that only the 'single' scheme reaches *)
Definition multiple_pc (p : pc) : Prop :=
  match p with Found _ | ToRead _ | Failed _ | Done _ false => False | _ => True end.

Definition local_ok (sch : scheme) (r : run) : Prop :=
  match r_pc r with
  | Try _ | Created _ | Found _ => r_psy r = None
  | ToWrite i | ToRead i | ToClose i | Done i _ | Failed i => r_psy r = Some i
  end /\
  (sch = Single -> pc_idx (r_pc r) = 0) /\
  (sch = Multiple -> multiple_pc (r_pc r)).

(* What a run on kernel k that stands at p relies on in the directory fs (fs0 = the directory
   before any run started): a file it created was absent initially and holds nothing or its
   kernel; a file it re-uses holds its kernel, and stays so; a file it is about to read exists. *)
Definition dir_ok (fs0 fs : fsys) (k : kernel) (p : pc) : Prop :=
  match p with
  | Try _ | Failed _ => True
  | Found i | ToRead i => lookup fs (k_base k, i) <> None
  | Done i false => lookup fs (k_base k, i) = Some (Text (render k i))
  | Created i | ToWrite i | ToClose i | Done i true =>
      lookup fs0 (k_base k, i) = None /\
      lookup fs (k_base k, i) = Some (if written p then Text (render k i) else Empty)
  end.

Record Inv (fs0 : fsys) (ks : nat -> kernel) (sch : scheme) (st : state) : Prop := {
  inv_kern : forall i, r_kern (st_runs st i) = ks i;
  inv_local : forall i, local_ok sch (st_runs st i);
  (* files present before the runs started are never changed *)
  inv_pre : forall f c, lookup fs0 f = Some c -> lookup (st_fs st) f = Some c;
  inv_dir : forall i, dir_ok fs0 (st_fs st) (ks i) (r_pc (st_runs st i));
  inv_distinct : forall i j idx idx', i <> j ->
      own_idx (r_pc (st_runs st i)) = Some idx -> own_idx (r_pc (st_runs st j)) = Some idx' ->
      (k_base (ks i), idx) <> (k_base (ks j), idx') }.

Lemma init_inv : forall fs0 ks sch, Inv fs0 ks sch (init fs0 ks).
Proof. intros; constructor; cbn; intros; try discriminate; auto. repeat split; cbn; auto. Qed.

Lemma own_exists : forall fs0 fs k p i,
  dir_ok fs0 fs k p -> own_idx p = Some i -> lookup fs (k_base k, i) <> None.
Proof.
  intros fs0 fs k p i D O.
  destruct p as [j|j|j|j|j|j|j [|]|j]; try discriminate O; injection O as <-;
    destruct D as [_ ->]; discriminate.
Qed.

(* Writing c to file f keeps what a run relies on, unless f is a file that run has created or f
   holds a kernel text already. *)
Lemma dir_ok_fset : forall fs0 fs k p f c,
  dir_ok fs0 fs k p ->
  (forall i, own_idx p = Some i -> f <> (k_base k, i)) ->
  (forall t, lookup fs f <> Some (Text t)) ->
  dir_ok fs0 (fset fs f c) k p.
Proof.
  intros fs0 fs k p f c D O T.
  (* Try, Failed: nothing to keep; Found, ToRead: no file is ever removed; a created file is
     another file than f; Done _ false: its file holds a text, f does not *)
  destruct p as [j|j|j|j|j|j|j [|]|j]; cbn [dir_ok written] in *;
    try exact I; try (apply lookup_fset_exists; exact D);
    try (rewrite lookup_fset_other by (apply O; reflexivity); exact D).
  rewrite lookup_fset_other; [exact D | intros ->; exact (T _ D)].
Qed.

(* Run [a] moves to r' and the directory becomes fs'. *)
Lemma inv_step : forall fs0 ks sch st a fs' r',
  Inv fs0 ks sch st ->
  r_kern r' = ks a -> local_ok sch r' -> dir_ok fs0 fs' (ks a) (r_pc r') ->
  (forall f c, lookup fs0 f = Some c -> lookup fs' f = Some c) ->
  (forall i, i <> a -> dir_ok fs0 fs' (ks i) (r_pc (st_runs st i))) ->
  (forall i idx idx', i <> a ->
     own_idx (r_pc r') = Some idx -> own_idx (r_pc (st_runs st i)) = Some idx' ->
     (k_base (ks a), idx) <> (k_base (ks i), idx')) ->
  Inv fs0 ks sch {| st_fs := fs'; st_runs := upd (st_runs st) a r' |}.
Proof.
  intros fs0 ks sch st a fs' r' [IK IL IP IO ID] Hk Hl Hd Hp Ho Hx.
  constructor; cbn [st_fs st_runs].
  - apply (upd_all (fun i r => r_kern r = ks i)); auto.
  - apply (upd_all (fun _ r => local_ok sch r)); auto.
  - exact Hp.
  - apply (upd_all (fun i r => dir_ok fs0 fs' (ks i) (r_pc r))); auto.
  - intros i j idx idx' Hij.
    destruct (Nat.eq_dec i a) as [->|Ni], (Nat.eq_dec j a) as [->|Nj];
      rewrite ?upd_same, ?upd_other by assumption.
    + contradiction.
    + apply Hx; exact Nj.
    + intros Oi Oa E. symmetry in E. revert E. apply (Hx i idx' idx); assumption.
    + apply ID; exact Hij.
Qed.

(* the step leaves the directory as it is and the ownership of run [a] as well *)
Lemma inv_move : forall fs0 ks sch st a r',
  Inv fs0 ks sch st ->
  r_kern r' = ks a -> local_ok sch r' -> dir_ok fs0 (st_fs st) (ks a) (r_pc r') ->
  own_idx (r_pc r') = own_idx (r_pc (st_runs st a)) ->
  Inv fs0 ks sch {| st_fs := st_fs st; st_runs := upd (st_runs st) a r' |}.
Proof.
  intros fs0 ks sch st a r' I Hk Hl Hd Ho. apply inv_step; auto.
  - apply (inv_pre _ _ _ _ I).
  - intros i _. apply (inv_dir _ _ _ _ I).
  - intros i idx idx' N. rewrite Ho. apply (inv_distinct _ _ _ _ I); auto.
Qed.

(* the step writes c to a file f that run [a] owns afterwards and that no other run relies on *)
Lemma inv_write : forall fs0 ks sch st a r' idx c,
  Inv fs0 ks sch st ->
  r_kern r' = ks a -> local_ok sch r' -> own_idx (r_pc r') = Some idx ->
  c = (if written (r_pc r') then Text (render (ks a) idx) else Empty) ->
  lookup fs0 (k_base (ks a), idx) = None ->
  (forall t, lookup (st_fs st) (k_base (ks a), idx) <> Some (Text t)) ->
  (forall i idx', i <> a -> own_idx (r_pc (st_runs st i)) = Some idx' ->
     (k_base (ks a), idx) <> (k_base (ks i), idx')) ->
  Inv fs0 ks sch {| st_fs := fset (st_fs st) (k_base (ks a), idx) c;
                    st_runs := upd (st_runs st) a r' |}.
Proof.
  intros fs0 ks sch st a r' idx c I Hk Hl Ho -> H0 HT Hx. apply inv_step; auto.
  - destruct (r_pc r') as [j|j|j|j|j|j|j [|]|j]; try discriminate Ho; injection Ho as ->;
      (split; [exact H0 | apply lookup_fset_same]).
  - intros f c' Hf. rewrite lookup_fset_other; [apply (inv_pre _ _ _ _ I), Hf | congruence].
  - intros i N. apply dir_ok_fset; [apply (inv_dir _ _ _ _ I) | | exact HT].
    intros idx' Oi. apply Hx; assumption.
  - intros i j idx' N Oa. rewrite Ho in Oa. injection Oa as <-. apply Hx; exact N.
Qed.

Lemma step_inv : forall fs0 ks sch st a, Inv fs0 ks sch st -> Inv fs0 ks sch (step sch st a).
Proof.
  intros fs0 ks sch st a I.
  pose proof (inv_kern _ _ _ _ I a) as Hk.
  pose proof (inv_local _ _ _ _ I a) as [Hpsy [Hsing Hmult]].
  pose proof (inv_dir _ _ _ _ I a) as Hd.
  unfold step. rewrite Hk.
  destruct (r_pc (st_runs st a)) as [idx|idx|idx|idx|idx|idx|idx w|idx] eqn:Epc;
    cbn in Hpsy, Hsing, Hmult, Hd.
  - (* Try idx *)
    destruct (lookup (st_fs st) (k_base (ks a), idx)) as [c|] eqn:El.
    + (* the name exists: next index (multiple) or leave the loop (single) *)
      destruct sch; apply inv_move; cbn; rewrite ?Epc, ?El; auto; try discriminate;
        (repeat split; cbn; auto; discriminate).
    + (* O_CREAT|O_EXCL succeeds: the file is created, empty; no run relies on an absent file *)
      apply (inv_write _ _ _ _ _ _ idx); cbn; auto.
      * repeat split; cbn; auto.
      * destruct (lookup fs0 (k_base (ks a), idx)) eqn:E0; [|reflexivity].
        apply (inv_pre _ _ _ _ I) in E0. congruence.
      * rewrite El. discriminate.
      * intros i idx' _ Oi E. apply (own_exists _ _ _ _ _ (inv_dir _ _ _ _ I i) Oi). congruence.
  - (* Created idx: _rename_psyir *)
    apply inv_move; cbn; rewrite ?Epc; auto. repeat split; cbn; auto.
  - (* Found idx: _rename_psyir *)
    apply inv_move; cbn; rewrite ?Epc; auto. repeat split; cbn; auto.
  - (* ToWrite idx: os.write through the descriptor of the file this run created, still empty *)
    destruct Hd as [H0 HE].
    apply (inv_write _ _ _ _ _ _ idx); cbn; auto.
    + repeat split; cbn; auto.
    + rewrite HE. discriminate.
    + intros i idx' N. apply (inv_distinct _ _ _ _ I); [auto | rewrite Epc; reflexivity].
  - (* ToRead idx: read back and compare *)
    assert (F : Inv fs0 ks sch {| st_fs := st_fs st;
                  st_runs := upd (st_runs st) a (set_pc (st_runs st a) (Failed idx)) |}).
    { apply inv_move; cbn; rewrite ?Epc; auto. repeat split; cbn; auto. }
    destruct (lookup (st_fs st) (k_base (ks a), idx)) as [[|c|n]|] eqn:El; try exact F.
    destruct (code_eqb c (render (ks a) idx)) eqn:Ec; [|exact F].
    apply code_eqb_eq in Ec. subst c.
    apply inv_move; cbn; rewrite ?Epc; auto. repeat split; cbn; auto.
  - (* ToClose idx *)
    apply inv_move; cbn; rewrite ?Epc; auto. repeat split; cbn; auto.
  - exact I.
  - exact I.
Qed.

Lemma exec_inv_from : forall fs0 ks sch s st, Inv fs0 ks sch st -> Inv fs0 ks sch (exec sch st s).
Proof.
  intros fs0 ks sch s; induction s as [|a s IH]; intros st I; cbn; [assumption|].
  apply IH. apply step_inv. assumption.
Qed.

Lemma exec_inv : forall fs0 ks sch s, Inv fs0 ks sch (exec sch (init fs0 ks) s).
Proof. intros. apply exec_inv_from. apply init_inv. Qed.

Lemma exec_app : forall sch s s' st, exec sch st (s ++ s') = exec sch (exec sch st s) s'.
Proof. intros; unfold exec; apply fold_left_app. Qed.

Lemma step_done_stable : forall sch st a i idx w,
  r_pc (st_runs st i) = Done idx w -> r_pc (st_runs (step sch st a) i) = Done idx w.
Proof.
  intros sch st a i idx w H. destruct (Nat.eq_dec i a) as [->|N].
  - unfold step. rewrite H. exact H.
  - rewrite step_other by exact N. exact H.
Qed.

Lemma exec_done_stable : forall sch s st i idx w,
  r_pc (st_runs st i) = Done idx w -> r_pc (st_runs (exec sch st s) i) = Done idx w.
Proof.
  intros sch s; induction s as [|a s IH]; intros st i idx w H; cbn; [assumption|].
  apply IH. apply step_done_stable. assumption.
Qed.

(* a finished run's file holds its kernel, whichever way it finished *)
Lemma done_file : forall fs0 ks sch st i idx w, Inv fs0 ks sch st ->
  r_pc (st_runs st i) = Done idx w ->
  lookup (st_fs st) (k_base (ks i), idx) = Some (Text (render (ks i) idx)).
Proof.
  intros fs0 ks sch st i idx w I H. pose proof (inv_dir _ _ _ _ I i) as D. rewrite H in D.
  destruct w; [apply D | exact D].
Qed.

Lemma multiple_pc_ok : forall fs0 ks s i,
  multiple_pc (r_pc (st_runs (exec Multiple (init fs0 ks) s) i)).
Proof.
  intros fs0 ks s i. destruct (inv_local _ _ _ _ (exec_inv fs0 ks Multiple s) i) as [_ [_ M]].
  exact (M eq_refl).
Qed.

Lemma single_uses_identical_ : forall fs0 ks s i idx w,
  let st := exec Single (init fs0 ks) s in
  r_pc (st_runs st i) = Done idx w ->
  idx = 0 /\ r_psy (st_runs st i) = Some 0 /\
  lookup (st_fs st) (k_base (ks i), 0) = Some (Text (render (ks i) 0)).
Proof.
  intros fs0 ks s i idx w st H.
  pose proof (exec_inv fs0 ks Single s) as I. fold st in I.
  destruct (inv_local _ _ _ _ I i) as [P [S0 _]]. specialize (S0 eq_refl).
  rewrite H in S0, P; cbn in S0, P. subst idx.
  split; [reflexivity|]. split; [assumption | exact (done_file _ _ _ _ _ _ _ I H)].
Qed.

Lemma render_inj : forall k k' i, k_base k = k_base k' -> render k i = render k' i -> k = k'.
Proof.
  intros [b r d] [b' r' d'] i; unfold render; cbn. intros -> E. inversion E; reflexivity.
Qed.

(* FULL STATEMENT (false of the faithful model, see C29_identical_share_refuted):
     forall fs0 ks s, same_base_same_kernel ks -> dir_compatible fs0 ks ->
       forall i idx, r_pc (st_runs (exec Single (init fs0 ks) s) i) <> Failed idx.           *)
Definition same_base_same_kernel (ks : nat -> kernel) : Prop :=
  forall i j, k_base (ks i) = k_base (ks j) -> ks i = ks j.
Definition dir_compatible (fs0 : fsys) (ks : nat -> kernel) : Prop :=
  forall i, lookup fs0 (k_base (ks i), 0) = None \/
            lookup fs0 (k_base (ks i), 0) = Some (Text (render (ks i) 0)).

Definition share_ok (ks : nat -> kernel) (st : state) : Prop :=
  (forall i, lookup (st_fs st) (k_base (ks i), 0) = None \/
             lookup (st_fs st) (k_base (ks i), 0) = Some Empty \/
             lookup (st_fs st) (k_base (ks i), 0) = Some (Text (render (ks i) 0))) /\
  (forall i idx, r_pc (st_runs st i) <> Failed idx).

(* run [a] moves to a position other than Failed; the directory stays *)
Lemma share_move : forall ks st a r', share_ok ks st -> (forall idx, r_pc r' <> Failed idx) ->
  share_ok ks {| st_fs := st_fs st; st_runs := upd (st_runs st) a r' |}.
Proof.
  intros ks st a r' [F NF] H. split; [exact F|].
  apply (upd_all (fun _ r => forall idx, r_pc r <> Failed idx)); auto.
Qed.

(* ... and file (base of run a, 0) receives nothing, or the text every kernel of that base has *)
Lemma share_write : forall ks st a r' c, same_base_same_kernel ks ->
  share_ok ks st -> (forall idx, r_pc r' <> Failed idx) ->
  c = Empty \/ c = Text (render (ks a) 0) ->
  share_ok ks {| st_fs := fset (st_fs st) (k_base (ks a), 0) c; st_runs := upd (st_runs st) a r' |}.
Proof.
  intros ks st a r' c SB [F NF] H Hc. split.
  - intro i. cbn [st_fs]. destruct (Nat.eq_dec (k_base (ks a)) (k_base (ks i))) as [E|N].
    + rewrite <- (SB a i E), lookup_fset_same. destruct Hc as [->| ->]; auto.
    + rewrite lookup_fset_other by congruence. apply F.
  - apply (upd_all (fun _ r => forall idx, r_pc r <> Failed idx)); auto.
Qed.

Lemma share_step : forall fs0 ks st a,
  same_base_same_kernel ks -> Inv fs0 ks Single st -> share_ok ks st ->
  read_safe Single st [a] = true -> share_ok ks (step Single st a).
Proof.
  intros fs0 ks st a SB I SO RS.
  pose proof (inv_kern _ _ _ _ I a) as Hk.
  destruct (inv_local _ _ _ _ I a) as [_ [S0 _]]. specialize (S0 eq_refl).
  pose proof (inv_dir _ _ _ _ I a) as D.
  cbn in RS. rewrite andb_true_r in RS. rewrite Hk in RS.
  unfold step. rewrite Hk.
  destruct (r_pc (st_runs st a)) as [idx|idx|idx|idx|idx|idx|idx w|idx] eqn:Epc;
    cbn in S0, D; try subst idx.
  - destruct (lookup (st_fs st) (k_base (ks a), 0));
      [apply share_move | apply share_write]; auto; discriminate.
  - apply share_move; [exact SO | discriminate].
  - apply share_move; [exact SO | discriminate].
  - apply share_write; auto; discriminate.
  - (* read back: the file exists, is not empty, hence holds this very kernel *)
    destruct (proj1 SO a) as [H|[H|H]]; rewrite H in *; try congruence.
    rewrite (proj2 (code_eqb_eq _ _) eq_refl). apply share_move; [exact SO | discriminate].
  - apply share_move; [exact SO | discriminate].
  - exact SO.
  - exact SO.
Qed.

Lemma share_exec : forall fs0 ks s st,
  same_base_same_kernel ks -> Inv fs0 ks Single st -> share_ok ks st ->
  read_safe Single st s = true -> share_ok ks (exec Single st s).
Proof.
  intros fs0 ks s; induction s as [|a s IH]; intros st SB I SO RS; cbn; [assumption|].
  cbn in RS. apply andb_true_iff in RS as [R1 R2].
  apply IH; auto.
  - apply step_inv; assumption.
  - apply (share_step fs0 ks st a SB I SO). cbn. rewrite R1. reflexivity.
Qed.

(* The kernel of both runs of C29_identical_share_refuted (schedule [0; 1; 1; 1]): A creates the
   (still empty) file, B's O_EXCL open fails, B renames, B reads the empty file and compares ->
   GenerationError although both kernels are identical and the directory was empty. *)
Definition k_wit : kernel := {| k_base := 7; k_rout := 7; k_body := 1 |}.

Definition k_a : kernel := {| k_base := 1; k_rout := 1; k_body := 10 |}.
Definition k_b : kernel := {| k_base := 1; k_rout := 1; k_body := 11 |}.
Definition k_c : kernel := {| k_base := 2; k_rout := 3; k_body := 10 |}.

(* three runs (two of them on the same module name) racing in an arbitrary order in a directory
   that already holds <base1>_0_mod.f90: all finish, on files 1_2, 1_1 and 2_0 *)
Example multiple_nonvacuous :
  let fs0 := [((1, 0), Other 5)] in
  let st := exec Multiple (init fs0 (ks_of [k_a; k_b; k_c]))
                 [0; 1; 2; 1; 1; 0; 2; 0; 1; 2; 0; 1; 1; 2; 0; 0] in
  r_pc (st_runs st 0) = Done 2 true /\ r_pc (st_runs st 1) = Done 1 true /\
  r_pc (st_runs st 2) = Done 0 true /\
  lookup (st_fs st) (1, 2) = Some (Text (render k_a 2)) /\
  lookup (st_fs st) (1, 1) = Some (Text (render k_b 1)) /\
  lookup (st_fs st) (1, 0) = Some (Other 5).
Proof. vm_compute. repeat split. Qed.

(* single: identical kernels, one after the other (a read_safe schedule): one file, shared;
   a third run with a different kernel fails *)
Example single_nonvacuous :
  let s := [0; 0; 0; 0; 1; 1; 1; 2; 2; 2] in
  let st := exec Single (init [] (ks_of [k_a; k_a; k_b])) s in
  read_safe Single (init [] (ks_of [k_a; k_a; k_b])) s = true /\
  r_pc (st_runs st 0) = Done 0 true /\ r_pc (st_runs st 1) = Done 0 false /\
  r_pc (st_runs st 2) = Failed 0 /\
  lookup (st_fs st) (1, 0) = Some (Text (render k_a 0)).
Proof. vm_compute. repeat split. Qed.

Example share_partial_nonvacuous :
  let ks := fun _ : nat => k_a in
  let s := [0; 0; 1; 0; 2; 0; 1; 1; 2; 2] in
  same_base_same_kernel ks /\ dir_compatible [] ks /\
  read_safe Single (init [] ks) s = true /\
  r_pc (st_runs (exec Single (init [] ks) s) 1) = Done 0 false /\
  r_pc (st_runs (exec Single (init [] ks) s) 2) = Done 0 false.
Proof.
  split; [intros i j _; reflexivity|]. split; [intro i; left; reflexivity|].
  vm_compute. repeat split.
Qed.
