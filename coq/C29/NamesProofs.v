(* C29 -- the index tag and the fixed endings of the names inside the written file. *)
From Coq Require Import List Arith Bool Ascii String.
Import ListNotations.
Local Open Scope string_scope.
Local Open Scope list_scope.
From PV Require Import C29.NamesModel.

(* whatever the spelling, module and routine names carry the index tag of the file and end in
   "_mod" / "_code" *)
Lemma module_tagged_ : forall ci modname tag,
  exists p, module_name ci modname tag = p ++ tag ++ S_ "_mod".
Proof.
  intros ci m tag. unfold module_name, new_name. destruct (has_suffix ci m (S_ "_mod")); eauto.
Qed.
Lemma routine_tagged_ : forall ci kname tag,
  exists p, routine_name ci kname tag = p ++ tag ++ S_ "_code".
Proof.
  intros ci k tag. unfold routine_name, new_name. destruct (has_suffix ci k (S_ "_code")); eauto.
Qed.
Lemma file_tagged_ : forall modname tag, exists p, file_name modname tag = p ++ tag ++ S_ "_mod.f90".
Proof.
  intros m tag. exists (old_base m). unfold file_name, file_stem.
  rewrite <- !app_assoc. reflexivity.
Qed.

Example names_nonvacuous :
  suffix_case_ok (S_ "testkern_mod") = true /\ suffix_case_ok (S_ "TESTKERN_mod") = true /\
  suffix_case_ok (S_ "testkern") = true /\ suffix_case_ok (S_ "testkern_MOD") = false /\
  file_name (S_ "testkern_mod") (S_ "_3") = S_ "testkern_3_mod.f90" /\
  module_name false (S_ "testkern_mod") (S_ "_3") = S_ "testkern_3_mod" /\
  routine_name false (S_ "testkern_code") (S_ "_3") = S_ "testkern_3_code" /\
  module_name false (S_ "testkern") (S_ "_0") = S_ "testkern_0_mod" /\
  module_name false (S_ "testkern_MOD") (S_ "_0") = S_ "testkern_MOD_0_mod" /\
  module_name true (S_ "testkern_MOD") (S_ "_0") = S_ "testkern_0_mod" /\
  file_name (S_ "testkern_MOD") (S_ "_0") = S_ "testkern_0_mod.f90".
Proof. vm_compute. repeat split. Qed.
