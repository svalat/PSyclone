(* C11 — structure (derived-type) accesses: grid(ii)%cells(jj)%vals(j).

   A structure access is a component path with a subscript list per component.  Faithful to
   StructureReference/ArrayOfStructuresReference.get_signature_and_indices + Reference.reference_accesses
   (reference.py:155-179): every subscript expression of EVERY component is visited (READ) in component order, then
   the signature built from the component names is accessed; Assignment turns the target's access into WRITE;
   Call.reference_accesses (call.py:277-318) gives the signature the default access and visits the subscripts of
   every component (`for indices in indices_list`).

   The signature (list of component names) is mapped to a variable name by [enc] (any function: all theorems
   quantify over it; the harness passes a table).  The semantics flattens the access to the location
   (enc signature, all evaluated subscripts).  Subscripts are core expressions; structure accesses occur as leaves
   of unary/binary operations, as assignment targets, call arguments and IF/WHILE conditions. *)
From Coq Require Import List ZArith Bool.
Import ListNotations.
From PV Require Import Fort.Syntax Fort.Sem Fort.Facts C11.Access C11.Proofs C11.Ext.
Local Open Scope nat_scope.

Definition path := list (name * list expr).
Definition psig (p : path) : list name := map fst p.
Definition psubs (p : path) : list expr := flat_map snd p.

Inductive sexpr :=
| SCore (e : expr)
| SRef (p : path)
| SUn (o : unop) (e : sexpr)
| SBin (o : binop) (l r : sexpr).

Inductive target := TVar (x : name) (ix : list expr) | TRef (p : path).

Inductive sstmt :=
| SAsg (t : target) (e : sexpr)
| SCallS (k : cform) (its : list intent) (args : list sexpr)
| SIfS (c : sexpr) (th el : list stmt)
| SWhileS (c : sexpr) (body : list stmt).

Section Enc.
Variable enc : list name -> name.

Fixpoint sexpr_reads (e : sexpr) : list name :=
  match e with
  | SCore e0 => expr_reads e0
  | SRef p => flat_map expr_reads (psubs p) ++ [enc (psig p)]
  | SUn _ e1 => sexpr_reads e1
  | SBin _ l r => sexpr_reads l ++ sexpr_reads r
  end.

Definition target_sig (t : target) : name := match t with TVar x _ => x | TRef p => enc (psig p) end.
Definition target_subs (t : target) : list expr := match t with TVar _ ix => ix | TRef p => psubs p end.

Definition scall_arg (loc : nat) (k : akind) (a : sexpr) : list access :=
  match a with
  | SCore (EVar x) => [mkAcc x k loc]
  | SCore (EIdx a0 ix) => mkAcc a0 k loc :: reads_at loc (flat_map expr_reads ix)
  | SRef p => mkAcc (enc (psig p)) k loc :: reads_at loc (flat_map expr_reads (psubs p))
  | _ => reads_at loc (sexpr_reads a)
  end.

Definition default_access (k : cform) : akind :=
  match k with CUser true => READ | _ => READWRITE end.

Definition sacc_stmt (s : sstmt) (loc : nat) : list access * nat :=
  match s with
  | SAsg t e =>
      (reads_at loc (sexpr_reads e) ++ reads_at loc (flat_map expr_reads (target_subs t)) ++ [mkAcc (target_sig t) WRITE loc], S loc)
  | SCallS k _ args => (flat_map (scall_arg loc (default_access k)) args, S loc)
  | SIfS c th el =>
      let (a1, l1) := acc_block th (S loc) in
      match el with
      | [] => (reads_at loc (sexpr_reads c) ++ a1, S l1)
      | _ => let (a2, l2) := acc_block el (S l1) in (reads_at loc (sexpr_reads c) ++ a1 ++ a2, S l2)
      end
  | SWhileS c body =>
      let (a1, l1) := acc_block body (S loc) in (reads_at loc (sexpr_reads c) ++ a1, S l1)
  end.

Fixpoint seval (s : store) (e : sexpr) : option Z :=
  match e with
  | SCore e0 => eval s e0
  | SRef p => match opt_all (map (eval s) (psubs p)) with Some vs => Some (val s (enc (psig p), vs)) | None => None end
  | SUn o e1 => option_map (eval_un o) (seval s e1)
  | SBin o l r => match seval s l, seval s r with Some a, Some b => eval_bin o a b | _, _ => None end
  end.

Fixpoint sereads (s : store) (e : sexpr) : list loc :=
  match e with
  | SCore e0 => ereads s e0
  | SRef p => flat_map (ereads s) (psubs p) ++
              match opt_all (map (eval s) (psubs p)) with Some vs => [(enc (psig p), vs)] | None => [] end
  | SUn _ e1 => sereads s e1
  | SBin _ l r => sereads s l ++ sereads s r
  end.

(* by-reference arguments: plain variables, array elements and structure accesses *)
Definition sarg_pre (s : store) (a : sexpr) : list loc :=
  match a with
  | SCore (EVar _) => []
  | SCore (EIdx _ ix) => flat_map (ereads s) ix
  | SRef p => flat_map (ereads s) (psubs p)
  | _ => sereads s a
  end.

Definition sarg_loc (s : store) (a : sexpr) : option (option loc) :=
  match a with
  | SCore (EVar x) => Some (Some (x, []))
  | SCore (EIdx a0 ix) => match opt_all (map (eval s) ix) with Some vs => Some (Some (a0, vs)) | None => None end
  | SRef p => match opt_all (map (eval s) (psubs p)) with Some vs => Some (Some (enc (psig p), vs)) | None => None end
  | _ => match seval s a with Some _ => Some None | None => None end
  end.

Fixpoint scallee (s : store) (its : list intent) (args : list sexpr) : option (list loc * list loc) :=
  match its, args with
  | [], [] => Some ([], [])
  | i :: its', e :: args' =>
      match sarg_loc s e, scallee s its' args' with
      | Some (Some l), Some (R, W) =>
          Some ((if reads_of_intent i then [l] else []) ++ R, (if writes_of_intent i then [l] else []) ++ W)
      | Some None, Some (R, W) => if writes_of_intent i then None else Some (R, W)
      | _, _ => None
      end
  | _, _ => None
  end.

Definition sstep (fuel : nat) (outs : nat -> Z) (x : sstmt) (s : store) : outcome :=
  match x with
  | SAsg t e =>
      match opt_all (map (eval s) (target_subs t)), seval s e with
      | Some vs, Some v =>
          Ok (upd s (target_sig t, vs) v)
             (rds (sereads s e ++ flat_map (ereads s) (target_subs t)) ++ [Wr (target_sig t, vs)]) CNormal
      | _, _ => Fault
      end
  | SCallS _ its args =>
      match scallee s its args with
      | Some (R, W) => Ok (store_outs s W outs 0) (rds (flat_map (sarg_pre s) args) ++ rds R ++ wrs W) CNormal
      | None => Fault
      end
  | SIfS c th el =>
      match seval s c with
      | Some v => prepend (rds (sereads s c)) (exec fuel (if (v =? 0)%Z then el else th) s)
      | None => Fault
      end
  | SWhileS c body =>
      (fix loop (n : nat) (s : store) : outcome :=
         match n with
         | O => OutOfFuel
         | S n' =>
             match seval s c with
             | None => Fault
             | Some v =>
                 if (v =? 0)%Z then Ok s (rds (sereads s c)) CNormal
                 else match exec fuel body s with
                      | Ok s2 tr ctl =>
                          match ctl with
                          | CNormal | CCycle => prepend (rds (sereads s c) ++ tr) (loop n' s2)
                          | CExit => Ok s2 (rds (sereads s c) ++ tr) CNormal
                          | CReturn => Ok s2 (rds (sereads s c) ++ tr) CReturn
                          end
                      | other => other
                      end
             end
         end) fuel s
  end.

Definition ssafe (x : sstmt) : bool :=
  match x with
  | SAsg _ _ => true
  | SCallS (CUser true) its _ => forallb (fun i => negb (writes_of_intent i)) its
  | SCallS _ _ _ => true
  | SIfS _ th el => forallb noprint th && forallb noprint el
  | SWhileS _ body => forallb noprint body
  end.

Lemma sereads_sub s e : forall l, In l (sereads s e) -> In (fst l) (sexpr_reads e).
Proof.
  induction e as [e0|p|o e1 IH|o l1 IH1 r1 IH2]; intros l Hl; cbn [sereads sexpr_reads] in *.
  - apply (ereads_sub s), Hl.
  - apply in_app_iff in Hl as [Hl|Hl]; apply in_app_iff.
    + left. apply (ereads_flat_sub s), Hl.
    + right. destruct (opt_all (map (eval s) (psubs p))); [|destruct Hl]. destruct Hl as [<-|[]]. left. reflexivity.
  - auto.
  - apply in_app_iff in Hl as [Hl|Hl]; apply in_app_iff; auto.
Qed.

Lemma sarg_pre_read s loc k a l : In l (sarg_pre s a) -> is_read (fst l) (scall_arg loc k a) = true.
Proof.
  intro H. destruct a as [e0|p|o e1|o l1 r1]; cbn [sarg_pre scall_arg] in *.
  - destruct e0; cbn [sexpr_reads] in *; try (apply is_read_reads_at, (ereads_sub s), H).
    + destruct H.
    + apply is_read_cons_reads_at, (ereads_flat_sub s), H.
  - apply is_read_cons_reads_at, (ereads_flat_sub s), H.
  - apply is_read_reads_at, (sereads_sub s), H.
  - apply is_read_reads_at, (sereads_sub s (SBin o l1 r1)), H.
Qed.

Lemma sarg_head s loc k a l : sarg_loc s a = Some (Some l) ->
  exists rest, scall_arg loc k a = mkAcc (fst l) k loc :: rest.
Proof.
  destruct a as [e0|p|o e1|o l1 r1]; cbn [sarg_loc scall_arg]; intro H.
  - destruct e0; try (destruct (seval s (SCore _)); discriminate).
    + inversion H; subst. eexists. reflexivity.
    + destruct (opt_all (map (eval s) ix)); [|discriminate]. inversion H; subst. eexists. reflexivity.
  - destruct (opt_all (map (eval s) (psubs p))); [|discriminate]. inversion H; subst. eexists. reflexivity.
  - destruct (seval s (SUn o e1)); discriminate.
  - destruct (seval s (SBin o l1 r1)); discriminate.
Qed.

Lemma scallee_eq s : forall its args, scallee s its args = callee (sarg_loc s) its args.
Proof. induction its as [|i its IH]; intros [|e args]; cbn [scallee callee]; try rewrite IH; reflexivity. Qed.

Lemma scall_covers s loc k its args R W :
  kind_reads k = true ->
  (kind_writes k = true \/ forallb (fun i => negb (writes_of_intent i)) its = true) ->
  scallee s its args = Some (R, W) ->
  bcovers (rds (flat_map (sarg_pre s) args) ++ rds R ++ wrs W) (flat_map (scall_arg loc k) args).
Proof.
  rewrite scallee_eq.
  exact (call_covers (sarg_loc s) (sarg_pre s) (scall_arg loc k) k loc
           (sarg_pre_read s loc k) (sarg_head s loc k) its args R W).
Qed.

Theorem sstep_covers_ : forall fuel outs x loc s s' tr c,
  ssafe x = true -> sstep fuel outs x s = Ok s' tr c -> bcovers tr (fst (sacc_stmt x loc)).
Proof.
  intros fuel outs x loc s s' tr c Hs H. destruct x as [t e|k its args|cnd th el|cnd body]; cbn [sstep sacc_stmt ssafe] in *.
  - destruct (opt_all (map (eval s) (target_subs t))) as [vs|]; [|discriminate].
    destruct (seval s e) as [v|]; [|discriminate]. inversion H; subst. cbn [fst].
    rewrite rds_app, <- !app_assoc.
    apply covers_app; [apply covers_rds, sereads_sub|].
    apply covers_app; [apply covers_rds, ereads_flat_sub | apply covers_wr].
  - destruct (scallee s its args) as [[R W]|] eqn:E; [|discriminate]. inversion H; subst. cbn [fst].
    destruct k as [[|]|]; cbn [default_access].
    + eapply scall_covers; [reflexivity | right; exact Hs | exact E].
    + eapply scall_covers; [reflexivity | left; reflexivity | exact E].
    + eapply scall_covers; [reflexivity | left; reflexivity | exact E].
  - apply andb_true_iff in Hs as [N1 N2].
    destruct (seval s cnd) as [v|]; [|discriminate]. apply prepend_ok_inv in H as [tr' [H ->]].
    rewrite if_report_fst. apply (covers_if _ _ _ _ v); [apply sereads_sub|].
    destruct (v =? 0)%Z; [exact (access_covers_ fuel el _ s s' tr' c N2 H) | exact (access_covers_ fuel th _ s s' tr' c N1 H)].
  - (* while: the anonymous loop of [sstep] unfolds as Ext.while_loop does *)
    pose proof (fun st st' t0 c0 => access_covers_ fuel body (S loc) st st' t0 c0 Hs) as Hb.
    destruct (acc_block body (S loc)) as [a1 l1]. cbn [fst] in *.
    eapply (while_covers (fun s => seval s cnd) (fun s => sereads s cnd) (exec fuel body));
      [| | intro; apply sereads_sub | exact Hb | exact H]; reflexivity.
Qed.

End Enc.

(* for the harness: [enc] given as a table, and the executable comparison with the implementation's report *)
Fixpoint names_eqb (a b : list name) : bool :=
  match a, b with [], [] => true | x :: a', y :: b' => Nat.eqb x y && names_eqb a' b' | _, _ => false end.
Definition enc_tbl (tbl : list (list name * name)) (p : list name) : name :=
  match find (fun q => names_eqb (fst q) p) tbl with Some q => snd q | None => 0 end.

Definition sobs_agrees (tbl : list (list name * name)) (x : sstmt) (o : obs) (final : nat) : bool :=
  obs_agrees (fst (sacc_stmt (enc_tbl tbl) x 0)) o && Nat.eqb (snd (sacc_stmt (enc_tbl tbl) x 0)) final.

(* grid(ii)%cells(jj)%vals(j): names grid=10 cells=11 vals=12, ii=1 jj=2 j=3, signature encoded as 20 *)
Definition ex_tbl : list (list name * name) := [([10; 11; 12], 20)].
Definition ex_gcv : path := [(10, [EVar 1]); (11, [EVar 2]); (12, [EVar 3])].
Definition ex_sstore : store := store_of [((1, []), 2%Z); ((2, []), 3%Z); ((3, []), 4%Z); ((20, [2; 3; 4]%Z), 7%Z)] [].

Example struct_nonvacuous :
  (* x = grid(ii)%cells(jj)%vals(j) + 1   reads ii, jj, j and the element; *)
  (match sstep (enc_tbl ex_tbl) 5 (fun _ => 0%Z) (SAsg (TVar 5 []) (SBin Add (SRef ex_gcv) (SCore (ELit 1)))) ex_sstore with
   | Ok s' tr _ => reads tr = [(1, []); (2, []); (3, []); (20, [2; 3; 4]%Z)] /\ val s' (5, []) = 8%Z
   | _ => False end) /\
  (* call sub(grid(ii)%cells(jj)%vals(j)) with an intent(inout) dummy reads ii, jj, j, reads and writes the element *)
  (match sstep (enc_tbl ex_tbl) 5 (fun _ => 0%Z) (SCallS (CUser false) [IInOut] [SRef ex_gcv]) ex_sstore with
   | Ok _ tr _ => reads tr = [(1, []); (2, []); (3, []); (20, [2; 3; 4]%Z)] /\ writes tr = [(20, [2; 3; 4]%Z)]
   | _ => False end) /\
  map (fun a => (a_sig a, a_kind a)) (fst (sacc_stmt (enc_tbl ex_tbl) (SCallS (CUser false) [IInOut] [SRef ex_gcv]) 0))
    = [(20, READWRITE); (1, READ); (2, READ); (3, READ)] /\
  map (fun a => (a_sig a, a_kind a)) (fst (sacc_stmt (enc_tbl ex_tbl) (SAsg (TRef ex_gcv) (SCore (EVar 1))) 0))
    = [(1, READ); (1, READ); (2, READ); (3, READ); (20, WRITE)].
Proof. vm_compute. repeat split. Qed.
