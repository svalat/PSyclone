(* C11 — statements outside Fort.Syntax: routine calls, IntrinsicCall statements (ALLOCATE, DEALLOCATE,
   intrinsic subroutines built through IntrinsicCall.create) and WHILE loops.

   A wrapper [xstmt] over the core statements, its access function (faithful to Call.reference_accesses
   call.py:277-318, IntrinsicCall.reference_accesses intrinsic_call.py:906-925, WhileLoop.reference_accesses
   while_loop.py:144-157) and a by-reference semantics: an actual argument that is a variable or an array
   element designates a location; the callee reads the locations of its intent(in)/(inout) dummies and
   writes those of its intent(out)/(inout) dummies with arbitrary values.  The analysis does not see the
   intents; the semantics does.

   Theorems: coverage holds for impure user calls and (since the IntrinsicCall fix) statement-level
   intrinsics (every by-reference argument READWRITE), for pure calls only when no dummy is
   intent(out/inout) (`xsafe`); the witness that refutes it for a pure subroutine with an intent(out)
   dummy is in Properties/C11.v. *)
From Coq Require Import List ZArith Bool.
Import ListNotations.
From PV Require Import Fort.Syntax Fort.Sem Fort.Facts C11.Access C11.Proofs.

Inductive intent := IIn | IOut | IInOut.
Inductive cform :=
| CUser (pure : bool)      (* a Call node; pure = RoutineSymbol.is_pure *)
| CIntrinsic.              (* an IntrinsicCall node used as a statement (not an inquiry function) *)

Inductive xstmt :=
| XCore (s : stmt)
| XCall (k : cform) (its : list intent) (args : list expr)    (* its: the callee's dummy intents, invisible to the analysis *)
| XWhile (c : expr) (body : list stmt).

(* Call: a Reference argument is added with the default access BEFORE its index expressions are
   visited (READ); any other argument is walked as an expression *)
Definition call_arg (loc : nat) (k : akind) (e : expr) : list access :=
  match e with
  | EVar x => [mkAcc x k loc]
  | EIdx a ix => mkAcc a k loc :: reads_at loc (flat_map expr_reads ix)
  | _ => reads_at loc (expr_reads e)
  end.

Definition xacc_stmt (x : xstmt) (loc : nat) : list access * nat :=
  match x with
  | XCore s => acc_stmt s loc
  | XCall (CUser pure) _ args =>
      (flat_map (call_arg loc (if pure then READ else READWRITE)) args, S loc)     (* + next_location *)
  | XCall CIntrinsic _ args =>
      (* since the fix of IntrinsicCall.reference_accesses (statement-level intrinsic = parent is a Schedule):
         treated like an impure call; before it was (reads_at loc (flat_map expr_reads args), loc) *)
      (flat_map (call_arg loc READWRITE) args, S loc)
  | XWhile c body =>
      let (a1, l1) := acc_block body (S loc) in (reads_at loc (expr_reads c) ++ a1, S l1)
  end.

Fixpoint xacc_block (xs : list xstmt) (loc : nat) : list access * nat :=
  match xs with
  | [] => ([], loc)
  | x :: r => let (a1, l1) := xacc_stmt x loc in let (a2, l2) := xacc_block r l1 in (a1 ++ a2, l2)
  end.
Definition xaccesses (xs : list xstmt) : list access := fst (xacc_block xs 0).

(* what evaluating the actual arguments reads before the callee runs *)
Definition arg_pre_reads (s : store) (e : expr) : list loc :=
  match e with EVar _ => [] | EIdx _ ix => flat_map (ereads s) ix | _ => ereads s e end.

(* Some (Some l): by reference to l; Some None: a value; None: fault *)
Definition arg_loc (s : store) (e : expr) : option (option loc) :=
  match e with
  | EVar x => Some (Some (x, []))
  | EIdx a ix => match opt_all (map (eval s) ix) with Some vs => Some (Some (a, vs)) | None => None end
  | _ => match eval s e with Some _ => Some None | None => None end
  end.

Definition reads_of_intent (i : intent) : bool := match i with IIn | IInOut => true | IOut => false end.
Definition writes_of_intent (i : intent) : bool := match i with IOut | IInOut => true | IIn => false end.

(* callee-side accesses: (locations read, locations written); None = fault (bad argument, or a value
   passed to an intent(out/inout) dummy, or arity mismatch) *)
Fixpoint callee_accesses (s : store) (its : list intent) (args : list expr) : option (list loc * list loc) :=
  match its, args with
  | [], [] => Some ([], [])
  | i :: its', e :: args' =>
      match arg_loc s e, callee_accesses s its' args' with
      | Some (Some l), Some (R, W) =>
          Some ((if reads_of_intent i then [l] else []) ++ R, (if writes_of_intent i then [l] else []) ++ W)
      | Some None, Some (R, W) => if writes_of_intent i then None else Some (R, W)
      | _, _ => None
      end
  | _, _ => None
  end.

Definition wrs (ls : list loc) : list event := map Wr ls.

(* the callee stores [outs k] into its k-th written location (any function: the theorems quantify over it) *)
Fixpoint store_outs (s : store) (W : list loc) (outs : nat -> Z) (k : nat) : store :=
  match W with [] => s | l :: r => store_outs (upd s l (outs k)) r outs (S k) end.

Definition call_step (outs : nat -> Z) (its : list intent) (args : list expr) (s : store) : outcome :=
  match callee_accesses s its args with
  | Some (R, W) => Ok (store_outs s W outs 0) (rds (flat_map (arg_pre_reads s) args) ++ rds R ++ wrs W) CNormal
  | None => Fault
  end.

Fixpoint while_loop (n : nat) (c : expr) (run : store -> outcome) (s : store) : outcome :=
  match n with
  | O => OutOfFuel
  | S n' =>
      match eval s c with
      | None => Fault
      | Some v =>
          if (v =? 0)%Z then Ok s (rds (ereads s c)) CNormal
          else match run s with
               | Ok s2 tr ctl =>
                   match ctl with
                   | CNormal | CCycle => prepend (rds (ereads s c) ++ tr) (while_loop n' c run s2)
                   | CExit => Ok s2 (rds (ereads s c) ++ tr) CNormal
                   | CReturn => Ok s2 (rds (ereads s c) ++ tr) CReturn
                   end
               | other => other
               end
      end
  end.

Definition xstep (fuel : nat) (outs : nat -> Z) (x : xstmt) (s : store) : outcome :=
  match x with
  | XCore st => exec fuel [st] s
  | XCall _ its args => call_step outs its args s
  | XWhile c body => while_loop fuel c (exec fuel body) s
  end.

Fixpoint xexec (fuel : nat) (outs : nat -> Z) (xs : list xstmt) (s : store) : outcome :=
  match xs with
  | [] => Ok s [] CNormal
  | x :: r =>
      match xstep fuel outs x s with
      | Ok s1 tr1 CNormal => prepend tr1 (xexec fuel outs r s1)
      | other => other
      end
  end.

Definition xsafe (x : xstmt) : bool :=
  match x with
  | XCore s => noprint s
  | XCall (CUser false) _ _ => true
  | XCall CIntrinsic _ _ => true
  | XCall (CUser true) its _ => forallb (fun i => negb (writes_of_intent i)) its
  | XWhile _ body => forallb noprint body
  end.

(* reason code of an unsafe statement (used by the harness to key findings) *)
Inductive reason := RNone | RCodeBlock | RPureCallOut.
Definition xreason (x : xstmt) : reason :=
  if xsafe x then RNone else
  match x with
  | XCore _ | XWhile _ _ => RCodeBlock
  | XCall _ _ _ => RPureCallOut
  end.

(* [Proofs.covers] under the name the property statements use: the rules of [covers] apply as they are *)
Definition bcovers (tr : list event) (A : list access) : Prop :=
  (forall l, In l (reads tr) -> is_read (fst l) A = true) /\
  (forall l, In l (writes tr) -> is_written (fst l) A = true).

Lemma reads_wrs W : reads (wrs W) = [].
Proof. induction W as [|l r IH]; [reflexivity | exact IH]. Qed.
Lemma writes_wrs W : writes (wrs W) = W.
Proof. induction W as [|l r IH]; [reflexivity|]. cbn [wrs map writes]. unfold wrs in IH. rewrite IH. reflexivity. Qed.

(* Calls, whatever the type of the actual arguments: [aloc] says where an argument lives, [apre] what
   evaluating it reads beforehand, [aacc] is its report with default access [k] at location [lc] *)
Section Call.
  Context {A : Type} (aloc : A -> option (option loc)) (apre : A -> list loc) (aacc : A -> list access).
  Variables (k : akind) (lc : nat).
  Hypothesis pre_read : forall a l, In l (apre a) -> is_read (fst l) (aacc a) = true.
  Hypothesis head : forall a l, aloc a = Some (Some l) -> exists rest, aacc a = mkAcc (fst l) k lc :: rest.

  Fixpoint callee (its : list intent) (args : list A) : option (list loc * list loc) :=
    match its, args with
    | [], [] => Some ([], [])
    | i :: its', e :: args' =>
        match aloc e, callee its' args' with
        | Some (Some l), Some (R, W) =>
            Some ((if reads_of_intent i then [l] else []) ++ R, (if writes_of_intent i then [l] else []) ++ W)
        | Some None, Some (R, W) => if writes_of_intent i then None else Some (R, W)
        | _, _ => None
        end
    | _, _ => None
    end.

  (* the callee reads and writes only by-reference arguments, and writes only through an intent(out/inout) dummy *)
  Lemma callee_spec : forall its args R W, callee its args = Some (R, W) ->
    (forall l, In l R -> exists a, In a args /\ aloc a = Some (Some l)) /\
    (forall l, In l W -> exists i a, In i its /\ writes_of_intent i = true /\ In a args /\ aloc a = Some (Some l)).
  Proof.
    induction its as [|i its IH]; intros [|e args] R W H; cbn [callee] in H; try discriminate.
    - inversion H; subst. split; intros l [].
    - destruct (aloc e) as [[l0|]|] eqn:El; try discriminate;
        destruct (callee its args) as [[R' W']|] eqn:Ec; try discriminate;
        destruct (IH args R' W' Ec) as [GR GW].
      + (* by reference *)
        inversion H; subst; clear H. split; intros l Hl; apply in_app_iff in Hl as [Hl|Hl].
        * destruct (reads_of_intent i); [|destruct Hl]. destruct Hl as [<-|[]]. exists e. split; [left; reflexivity | exact El].
        * destruct (GR l Hl) as (a & Ha & E). exists a. split; [right; exact Ha | exact E].
        * destruct (writes_of_intent i) eqn:Ei; [|destruct Hl]. destruct Hl as [<-|[]].
          exists i, e. repeat split; [left; reflexivity | exact Ei | left; reflexivity | exact El].
        * destruct (GW l Hl) as (j & a & Hj & Ej & Ha & E). exists j, a. repeat split; auto; right; assumption.
      + (* by value *)
        destruct (writes_of_intent i); [discriminate|]. inversion H; subst; clear H. split; intros l Hl.
        * destruct (GR l Hl) as (a & Ha & E). exists a. split; [right; exact Ha | exact E].
        * destruct (GW l Hl) as (j & a & Hj & Ej & Ha & E). exists j, a. repeat split; auto; right; assumption.
  Qed.

  Lemma is_read_arg x a args : In a args -> is_read x (aacc a) = true -> is_read x (flat_map aacc args) = true.
  Proof.
    intros Ha H. apply existsb_exists in H as [b [Hb H]]. apply existsb_exists. exists b. split; [|exact H].
    apply in_flat_map. exists a. split; assumption.
  Qed.
  Lemma is_written_arg x a args : In a args -> is_written x (aacc a) = true -> is_written x (flat_map aacc args) = true.
  Proof.
    intros Ha H. apply existsb_exists in H as [b [Hb H]]. apply existsb_exists. exists b. split; [|exact H].
    apply in_flat_map. exists a. split; assumption.
  Qed.

  (* the pre-reads are covered; the callee's reads are covered when k reads; its writes when k writes, or
     when no dummy is intent(out/inout) *)
  Lemma call_covers its args R W :
    kind_reads k = true ->
    (kind_writes k = true \/ forallb (fun i => negb (writes_of_intent i)) its = true) ->
    callee its args = Some (R, W) ->
    bcovers (rds (flat_map apre args) ++ rds R ++ wrs W) (flat_map aacc args).
  Proof.
    intros Hk Hw H. destruct (callee_spec its args R W H) as [GR GW]. split; intros l Hl.
    - rewrite !reads_app, !reads_rds, reads_wrs, app_nil_r in Hl. apply in_app_iff in Hl as [Hl|Hl].
      + apply in_flat_map in Hl as (a & Ha & Hl). exact (is_read_arg _ a args Ha (pre_read a l Hl)).
      + destruct (GR l Hl) as (a & Ha & E). destruct (head a l E) as [rest Hh].
        apply (is_read_arg _ a args Ha). rewrite Hh. apply is_read_head, Hk.
    - rewrite !writes_app, !writes_rds, writes_wrs in Hl. cbn [app] in Hl.
      destruct (GW l Hl) as (i & a & Hi & Ei & Ha & E). destruct (head a l E) as [rest Hh].
      apply (is_written_arg _ a args Ha). rewrite Hh. apply is_written_head.
      destruct Hw as [Hw|Hw]; [exact Hw|]. rewrite forallb_forall in Hw. apply Hw in Hi. rewrite Ei in Hi. discriminate.
  Qed.
End Call.

Lemma callee_accesses_eq s : forall its args, callee_accesses s its args = callee (arg_loc s) its args.
Proof. induction its as [|i its IH]; intros [|e args]; cbn [callee_accesses callee]; try rewrite IH; reflexivity. Qed.

Lemma arg_pre_reads_sub s e l : In l (arg_pre_reads s e) ->
  match e with EVar _ => False | EIdx _ ix => In (fst l) (flat_map expr_reads ix) | _ => In (fst l) (expr_reads e) end.
Proof.
  destruct e; cbn [arg_pre_reads]; intro H; try (apply (ereads_sub s) in H; exact H).
  - destruct H.
  - apply (ereads_flat_sub s), H.
Qed.

Lemma call_arg_reads_pre s loc k e l : In l (arg_pre_reads s e) -> is_read (fst l) (call_arg loc k e) = true.
Proof.
  intro H. apply arg_pre_reads_sub in H. destruct e; cbn [call_arg]; try (apply is_read_reads_at; exact H).
  - destruct H.
  - apply is_read_cons_reads_at, H.
Qed.

(* the head access of a by-reference argument *)
Lemma call_arg_head s loc k e l : arg_loc s e = Some (Some l) ->
  exists rest, call_arg loc k e = mkAcc (fst l) k loc :: rest.
Proof.
  destruct e; cbn [arg_loc call_arg]; intro H; try discriminate.
  - inversion H; subst. eexists. reflexivity.
  - destruct (opt_all (map (eval s) ix)); [|discriminate]. inversion H; subst. eexists. reflexivity.
  - destruct (eval s (EUn o e)); discriminate.
  - destruct (eval s (EBin o e1 e2)); discriminate.
  - destruct (eval s (EIntr f args)); discriminate.
Qed.

Lemma user_call_covers s loc k its args R W :
  kind_reads k = true ->
  (kind_writes k = true \/ forallb (fun i => negb (writes_of_intent i)) its = true) ->
  callee_accesses s its args = Some (R, W) ->
  bcovers (rds (flat_map (arg_pre_reads s) args) ++ rds R ++ wrs W) (flat_map (call_arg loc k) args).
Proof.
  rewrite callee_accesses_eq.
  exact (call_covers (arg_loc s) (arg_pre_reads s) (call_arg loc k) k loc
           (call_arg_reads_pre s loc k) (call_arg_head s loc k) its args R W).
Qed.

(* WHILE, for any loop function that unfolds as [while_loop] does: [ev] evaluates the condition,
   [rd] are the reads of that evaluation, [run] executes the body once *)
Section While.
  Variables (ev : store -> option Z) (rd : store -> list loc) (run : store -> outcome) (loop : nat -> store -> outcome).
  Hypothesis loop_0 : forall s, loop 0 s = OutOfFuel.
  Hypothesis loop_S : forall n s, loop (S n) s =
    match ev s with
    | None => Fault
    | Some v =>
        if (v =? 0)%Z then Ok s (rds (rd s)) CNormal
        else match run s with
             | Ok s2 tr ctl =>
                 match ctl with
                 | CNormal | CCycle => prepend (rds (rd s) ++ tr) (loop n s2)
                 | CExit => Ok s2 (rds (rd s) ++ tr) CNormal
                 | CReturn => Ok s2 (rds (rd s) ++ tr) CReturn
                 end
             | other => other
             end
    end.

  Lemma while_covers xs A loc :
    (forall s l, In l (rd s) -> In (fst l) xs) ->
    (forall s s' tr ctl, run s = Ok s' tr ctl -> bcovers tr A) ->
    forall n s s' tr ctl, loop n s = Ok s' tr ctl -> bcovers tr (reads_at loc xs ++ A).
  Proof.
    intros Hrd Hrun. induction n as [|n IH]; intros s s' tr ctl H; [rewrite loop_0 in H; discriminate|].
    rewrite loop_S in H. destruct (ev s) as [v|]; [|discriminate].
    assert (Hc : bcovers (rds (rd s)) (reads_at loc xs ++ A)) by apply covers_l, covers_rds, Hrd.
    destruct (v =? 0)%Z.
    - inversion H; subst. exact Hc.
    - destruct (run s) as [s2 tr2 c2| |] eqn:E; try discriminate. apply Hrun in E.
      assert (Hh : bcovers (rds (rd s) ++ tr2) (reads_at loc xs ++ A))
        by (apply covers_app_same; [exact Hc | apply covers_r, E]).
      destruct c2.
      + apply prepend_ok_inv in H as [tr' [H ->]]. apply covers_app_same; [exact Hh | eapply IH, H].
      + inversion H; subst. exact Hh.
      + apply prepend_ok_inv in H as [tr' [H ->]]. apply covers_app_same; [exact Hh | eapply IH, H].
      + inversion H; subst. exact Hh.
  Qed.
End While.

Lemma xstep_covers fuel outs x loc s s' tr c :
  xsafe x = true -> xstep fuel outs x s = Ok s' tr c -> bcovers tr (fst (xacc_stmt x loc)).
Proof.
  intros Hs H. destruct x as [st|k its args|cnd body]; cbn [xstep xacc_stmt xsafe] in *.
  - eapply access_covers_stmt_; eassumption.
  - unfold call_step in H. destruct (callee_accesses s its args) as [[R W]|] eqn:E; [|discriminate].
    inversion H; subst. destruct k as [[|]|]; cbn [fst].
    + eapply user_call_covers; [reflexivity | right; exact Hs | exact E].
    + eapply user_call_covers; [reflexivity | left; reflexivity | exact E].
    + eapply user_call_covers; [reflexivity | left; reflexivity | exact E].
  - pose proof (fun s s' tr ctl => access_covers_ fuel body (S loc) s s' tr ctl Hs) as Hb.
    destruct (acc_block body (S loc)) as [a1 l1]. cbn [fst] in *.
    eapply (while_covers (fun s => eval s cnd) (fun s => ereads s cnd) (exec fuel body)
              (fun n => while_loop n cnd (exec fuel body)));
      [reflexivity | reflexivity | intro; apply ereads_sub | exact Hb | exact H].
Qed.

Lemma xexec_cons fuel outs x r s :
  xexec fuel outs (x :: r) s = then_run (xstep fuel outs x s) (xexec fuel outs r).
Proof. cbn [xexec]. destruct (xstep fuel outs x s) as [s1 tr1 []| |]; reflexivity. Qed.

Theorem xaccess_covers_ : forall fuel outs xs loc s s' tr c,
  forallb xsafe xs = true -> xexec fuel outs xs s = Ok s' tr c -> bcovers tr (fst (xacc_block xs loc)).
Proof.
  intros fuel outs xs. induction xs as [|x r IH]; intros loc s s' tr c Hs H.
  - inversion H; subst. apply covers_nil.
  - rewrite xexec_cons in H. cbn [forallb] in Hs. apply andb_true_iff in Hs as [Hx Hr]. cbn [xacc_block].
    pose proof (fun s1 tr1 c1 => xstep_covers fuel outs x loc s s1 tr1 c1 Hx) as H1.
    destruct (xacc_stmt x loc) as [a1 l1].
    pose proof (fun s1 s2 tr2 c2 => IH l1 s1 s2 tr2 c2 Hr) as H2. destruct (xacc_block r l1) as [a2 l2].
    exact (covers_then_run _ _ _ _ _ _ _ H1 H2 H).
Qed.

Local Open Scope nat_scope.

(* non-vacuity: call sub(a(i), n+1, m) with intents (inout, in, out); a WHILE; then an assignment *)
Definition xex_prog : list xstmt :=
  [XCall (CUser false) [IInOut; IIn; IOut] [EIdx 2 [EVar 0]; EBin Add (EVar 1) (ELit 1); EVar 3];
   XWhile (EBin Lt (EVar 0) (EVar 1)) [SAssign 0 [] (EBin Add (EVar 0) (ELit 1)); SAssign 2 [EVar 0] (EVar 3)];
   XCall (CUser true) [IIn] [EVar 3];
   XCall CIntrinsic [IIn; IIn] [EVar 1; EIdx 2 [ELit 1]]].
Definition xex_store : store := store_of [((0, []), 1%Z); ((1, []), 3%Z)] [].

Example xcovers_nonvacuous :
  forallb xsafe xex_prog = true /\
  match xexec 20 (fun k => Z.of_nat k) xex_prog xex_store with
  | Ok _ tr c => length (reads tr) = 18 /\ length (writes tr) = 6 /\ c = CNormal
  | _ => False
  end.
Proof. vm_compute. repeat split. Qed.

(* IntrinsicCall statements (ALLOCATE(a(n), STAT=i), DEALLOCATE, RANDOM_NUMBER(x) ...): since the fix every
   by-reference argument is READWRITE, so coverage holds in full whatever the intents ([xsafe] is true of
   them; before the fix this was refuted: the arguments were READ only) *)
Example allocate_reported_written :
  let x := XCall CIntrinsic [IOut; IOut] [EIdx 2 [EVar 1]; EVar 4] in
  is_written 4 (fst (xacc_stmt x 0)) = true /\ is_written 2 (fst (xacc_stmt x 0)) = true /\
  is_read 1 (fst (xacc_stmt x 0)) = true /\ snd (xacc_stmt x 0) = 1.
Proof. vm_compute. repeat split. Qed.

(* executable comparison with the implementation's report (harness) *)
Definition xobs_agrees (xs : list xstmt) (o : obs) (final : nat) : bool :=
  obs_agrees (xaccesses xs) o && Nat.eqb (snd (xacc_block xs 0)) final.
