(* C11 — the location counter orders the report: along the access list of any statement/block the
   locations never decrease, every access of a statement lies between the counter before and after it,
   hence every access of a later statement of a block has a location >= every access of an earlier one
   (what `is_written_before`-style clients rely on).  [good_stmt] / [good_list] say this of a statement / of a
   Schedule or Loop body; C11_locations_monotone and C11_later_statement_later_location are read off them. *)
From Coq Require Import List ZArith Bool Lia.
Import ListNotations.
From PV Require Import Fort.Syntax Fort.Sem C11.Access C11.Proofs.
Local Open Scope nat_scope.

Definition between (lo hi : nat) (l : list access) : Prop :=
  Forall (fun a => lo <= a_loc a /\ a_loc a <= hi) l.

Fixpoint mono (l : list access) : Prop :=
  match l with
  | [] => True
  | a :: r => Forall (fun b => a_loc a <= a_loc b) r /\ mono r
  end.

Definition good (loc : nat) (r : list access * nat) : Prop :=
  loc <= snd r /\ between loc (snd r) (fst r) /\ mono (fst r).

Lemma between_weaken lo hi lo' hi' A : lo' <= lo -> hi <= hi' -> between lo hi A -> between lo' hi' A.
Proof. intros H1 H2 H. eapply Forall_impl; [|exact H]. cbn. intros a [Ha Hb]. lia. Qed.

Lemma between_app lo hi A B : between lo hi A -> between lo hi B -> between lo hi (A ++ B).
Proof. intros HA HB. apply Forall_app. split; assumption. Qed.

Lemma mono_app lo mid hi A B :
  mono A -> mono B -> between lo mid A -> between mid hi B -> mono (A ++ B).
Proof.
  intros HA HB BA BB. induction A as [|a A IH]; [exact HB|].
  cbn [app mono] in *. destruct HA as [Ha HA]. inversion BA as [|? ? [_ Ham] BA']; subst.
  split; [|apply IH; assumption].
  apply Forall_app. split; [exact Ha|]. eapply Forall_impl; [|exact BB]. cbn. intros b [Hb _]. lia.
Qed.

Lemma between_reads_at loc xs : between loc loc (reads_at loc xs).
Proof. unfold reads_at. apply Forall_forall. intros a Ha. apply in_map_iff in Ha as [x [<- _]]. cbn. lia. Qed.

Lemma mono_same loc A : between loc loc A -> mono A.
Proof.
  induction A as [|a A IH]; intro H; [exact I|]. inversion H as [|? ? [Ha1 Ha2] H']; subst.
  split; [|apply IH, H']. eapply Forall_impl; [|exact H']. cbn. intros b [Hb _]. lia.
Qed.

(* the three ways reports are put together: everything at one location; one report after another; a later
   final counter *)
Lemma good_at loc A : between loc loc A -> good loc (A, loc).
Proof. intro B. unfold good. cbn [fst snd]. split; [lia|]. split; [exact B | eapply mono_same, B]. Qed.

Lemma good_seq loc A l1 l1' B l2 : good loc (A, l1) -> l1 <= l1' -> good l1' (B, l2) -> good loc (A ++ B, l2).
Proof.
  unfold good. cbn [fst snd]. intros [H1 [B1 M1]] Hl [H2 [B2 M2]]. split; [lia|]. split.
  - apply between_app; [eapply between_weaken; [| |exact B1] | eapply between_weaken; [| |exact B2]]; lia.
  - eapply (mono_app loc l1 l2); [assumption | assumption | assumption |].
    eapply between_weaken; [| |exact B2]; lia.
Qed.

Lemma good_later loc A l l' : l <= l' -> good loc (A, l) -> good loc (A, l').
Proof.
  unfold good. cbn [fst snd]. intros Hl [H1 [B1 M1]]. split; [lia|]. split; [|exact M1].
  eapply between_weaken; [| |exact B1]; lia.
Qed.

Lemma good_list bump ss :
  Forall (fun s => forall loc, good loc (acc_stmt s loc)) ss -> forall loc, good loc (acc_list bump ss loc).
Proof.
  induction 1 as [|s r Hs _ IH]; intro loc.
  - destruct bump; apply good_at; constructor.
  - rewrite acc_list_cons. specialize (Hs loc). destruct (acc_stmt s loc) as [a1 l1].
    specialize (IH (if bump then S l1 else l1)). destruct (acc_list bump r _) as [a2 l2].
    eapply good_seq; [exact Hs | | exact IH]. destruct bump; lia.
Qed.

Lemma good_stmt s : forall loc, good loc (acc_stmt s loc).
Proof.
  induction s using stmt_ind'; intro loc; try (apply good_at; constructor).
  - (* assignment: everything at loc, counter S loc *)
    cbn [acc_stmt]. apply (good_later loc _ loc); [lia|]. apply good_at.
    apply between_app; [apply between_reads_at|]. apply between_app; [apply between_reads_at|].
    constructor; [cbn; lia | constructor].
  - rewrite acc_stmt_if. pose proof (good_list false th H (S loc)) as Gt. cbn [acc_list] in Gt.
    destruct (acc_block th (S loc)) as [a1 l1].
    pose proof (good_list false el H0 (S l1)) as Ge. cbn [acc_list] in Ge.
    destruct el as [|e0 el'].
    + apply (good_later loc _ l1); [lia|].
      eapply good_seq; [apply good_at, between_reads_at | | exact Gt]; lia.
    + destruct (acc_block (e0 :: el') (S l1)) as [a2 l2]. apply (good_later loc _ l2); [lia|].
      eapply good_seq; [apply good_at, between_reads_at | | eapply good_seq; [exact Gt | | exact Ge]]; lia.
  - rewrite acc_stmt_do. pose proof (good_list true body H (S loc)) as Gb. cbn [acc_list] in Gb.
    destruct (acc_loop_body body (S loc)) as [a1 l1].
    apply (good_seq loc [_; _] loc loc (_ ++ a1)); [apply good_at | lia |].
    + constructor; [cbn; lia|]. constructor; [cbn; lia | constructor].
    + eapply good_seq; [apply good_at, between_reads_at | | exact Gb]. lia.
  - rewrite acc_stmt_region. apply (good_list false), H.
  - rewrite acc_stmt_dir. apply (good_list false), H.
Qed.
