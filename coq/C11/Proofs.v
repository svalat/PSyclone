(* C11 — proofs about the access model of coq/C11/Access.v against the semantics Fort.Sem:
   every location read (written) by ANY execution of a block is reported READ (WRITE) by `accesses`,
   for all stores and fuels, provided the block contains no CodeBlock that touches data (PRINT);
   the access list of an assignment is exactly the sequence of its dynamic accesses (RHS reads, LHS
   index reads, then the write).

   [covers] and its rules (concatenation, the shapes of IfBlock and Loop reports, sequencing by
   [then_run], the DO-loop invariant) are what Ext.v, Struct.v and StructX.v reuse for their statements. *)
From Coq Require Import List ZArith Bool.
Import ListNotations.
From PV Require Import Fort.Syntax Fort.Sem Fort.Facts C11.Access.

Definition sk (a : access) : name * akind := (a_sig a, a_kind a).
Definition rdk (x : name) : name * akind := (x, READ).

Lemma sk_reads_at loc xs : map sk (reads_at loc xs) = map rdk xs.
Proof. unfold reads_at. rewrite map_map. reflexivity. Qed.

(* the boolean queries only depend on the location-free view *)
Lemma is_read_in_kind x k l : kind_reads k = true -> In (x, k) (map sk l) -> is_read x l = true.
Proof.
  intros Hk H. apply in_map_iff in H as [a [E Ha]]. apply existsb_exists. exists a. split; [exact Ha|].
  inversion E as [[E1 E2]]. rewrite E2, Nat.eqb_refl. exact Hk.
Qed.
Lemma is_written_in_kind x k l : kind_writes k = true -> In (x, k) (map sk l) -> is_written x l = true.
Proof.
  intros Hk H. apply in_map_iff in H as [a [E Ha]]. apply existsb_exists. exists a. split; [exact Ha|].
  inversion E as [[E1 E2]]. rewrite E2, Nat.eqb_refl. exact Hk.
Qed.

Lemma is_read_in_rw x l : In (x, READWRITE) (map sk l) -> is_read x l = true /\ is_written x l = true.
Proof. intro H. split; [eapply is_read_in_kind | eapply is_written_in_kind]; try exact H; reflexivity. Qed.

Lemma is_read_head x k loc rest : kind_reads k = true -> is_read x (mkAcc x k loc :: rest) = true.
Proof. intro H. eapply is_read_in_kind; [exact H | left; reflexivity]. Qed.
Lemma is_written_head x k loc rest : kind_writes k = true -> is_written x (mkAcc x k loc :: rest) = true.
Proof. intro H. eapply is_written_in_kind; [exact H | left; reflexivity]. Qed.

Lemma is_read_reads_at x loc xs : In x xs -> is_read x (reads_at loc xs) = true.
Proof. intro H. apply (is_read_in_kind x READ); [reflexivity|]. rewrite sk_reads_at. exact (in_map rdk _ _ H). Qed.

Lemma is_read_app x A B : is_read x (A ++ B) = is_read x A || is_read x B.
Proof. apply existsb_app. Qed.
Lemma is_written_app x A B : is_written x (A ++ B) = is_written x A || is_written x B.
Proof. apply existsb_app. Qed.

Lemma is_read_cons_reads_at x a loc xs : In x xs -> is_read x (a :: reads_at loc xs) = true.
Proof.
  intro H. change (is_read x ([a] ++ reads_at loc xs) = true).
  rewrite is_read_app. apply orb_true_iff. right. apply is_read_reads_at, H.
Qed.

Lemma acc_stmt_if c th el loc :
  acc_stmt (SIf c th el) loc =
  let (a1, l1) := acc_block th (S loc) in
  match el with
  | [] => (reads_at loc (expr_reads c) ++ a1, S l1)
  | _ => let (a2, l2) := acc_block el (S l1) in (reads_at loc (expr_reads c) ++ a1 ++ a2, S l2)
  end.
Proof. reflexivity. Qed.

(* the list part of an IfBlock-shaped report (also Struct.sacc_stmt's), whether or not there is an ELSE body *)
Lemma if_report_fst R th el loc :
  fst (let (a1, l1) := acc_block th (S loc) in
       match el with
       | [] => (R ++ a1, S l1)
       | _ => let (a2, l2) := acc_block el (S l1) in (R ++ a1 ++ a2, S l2)
       end) =
  R ++ fst (acc_block th (S loc)) ++ fst (acc_block el (S (snd (acc_block th (S loc))))).
Proof.
  destruct (acc_block th (S loc)) as [a1 l1]. destruct el as [|e0 el']; [cbn; rewrite app_nil_r; reflexivity|].
  cbn [fst snd]. destruct (acc_block (e0 :: el') (S l1)). reflexivity.
Qed.

Lemma acc_stmt_do x lo hi st body loc :
  acc_stmt (SDo x lo hi st body) loc =
  let (a1, l1) := acc_loop_body body (S loc) in
  (mkAcc x WRITE loc :: mkAcc x READ loc :: reads_at loc (expr_reads lo ++ expr_reads hi ++ expr_reads st) ++ a1, l1).
Proof. reflexivity. Qed.

Lemma acc_stmt_region r body loc : acc_stmt (SRegion r body) loc = acc_block body loc.
Proof. reflexivity. Qed.
Lemma acc_stmt_dir d body loc : acc_stmt (SDir d body) loc = acc_block body loc.
Proof. reflexivity. Qed.

(* a Schedule (bump = false) and a Loop body (bump = true: one more next_location after every child)
   are walked alike; facts about both are proved once about [acc_list] *)
Definition acc_list (bump : bool) : list stmt -> nat -> list access * nat :=
  if bump then acc_loop_body else acc_block.

Lemma acc_list_cons bump s r loc :
  acc_list bump (s :: r) loc =
  let (a1, l1) := acc_stmt s loc in
  let (a2, l2) := acc_list bump r (if bump then S l1 else l1) in (a1 ++ a2, l2).
Proof. destruct bump; reflexivity. Qed.

Definition covers (tr : list event) (A : list access) : Prop :=
  (forall l, In l (reads tr) -> is_read (fst l) A = true) /\
  (forall l, In l (writes tr) -> is_written (fst l) A = true).

Lemma covers_nil A : covers [] A.
Proof. split; intros l []. Qed.

Lemma covers_incl tr A B : incl A B -> covers tr A -> covers tr B.
Proof.
  intros HI [R W]. split; intros l Hl; [apply R in Hl | apply W in Hl];
    apply existsb_exists in Hl as [a [Ha Hk]]; apply existsb_exists; exists a; auto.
Qed.
Lemma covers_l t A B : covers t A -> covers t (A ++ B).
Proof. apply covers_incl, incl_appl, incl_refl. Qed.
Lemma covers_r t A B : covers t B -> covers t (A ++ B).
Proof. apply covers_incl, incl_appr, incl_refl. Qed.

Lemma covers_app_same t1 t2 A : covers t1 A -> covers t2 A -> covers (t1 ++ t2) A.
Proof.
  intros [R1 W1] [R2 W2]. split; intros l Hl.
  - rewrite reads_app in Hl. apply in_app_iff in Hl as [Hl|Hl]; auto.
  - rewrite writes_app in Hl. apply in_app_iff in Hl as [Hl|Hl]; auto.
Qed.

Lemma covers_app t1 t2 A1 A2 : covers t1 A1 -> covers t2 A2 -> covers (t1 ++ t2) (A1 ++ A2).
Proof. intros H1 H2. apply covers_app_same; [apply covers_l, H1 | apply covers_r, H2]. Qed.

Lemma covers_rds R loc xs : (forall l, In l R -> In (fst l) xs) -> covers (rds R) (reads_at loc xs).
Proof.
  intro H. split; intros l Hl.
  - rewrite reads_rds in Hl. apply is_read_reads_at, H, Hl.
  - rewrite writes_rds in Hl. destruct Hl.
Qed.

Lemma covers_wr x vs loc : covers [Wr (x, vs)] [mkAcc x WRITE loc].
Proof.
  split; intros l Hl; cbn in Hl; [destruct Hl|]. destruct Hl as [<-|[]]. apply is_written_head. reflexivity.
Qed.

(* a statement followed by the rest of its block, as every executor of this directory sequences them *)
Lemma covers_then_run o K A1 A2 s' tr c :
  (forall s1 tr1 c1, o = Ok s1 tr1 c1 -> covers tr1 A1) ->
  (forall s1 s2 tr2 c2, K s1 = Ok s2 tr2 c2 -> covers tr2 A2) ->
  then_run o K = Ok s' tr c -> covers tr (A1 ++ A2).
Proof.
  intros H1 H2 H. apply then_run_ok_inv in H as [(s1 & tr1 & tr2 & Ho & HK & ->) | [_ Ho]].
  - apply covers_app; [eapply H1, Ho | eapply H2, HK].
  - apply covers_l. eapply H1, Ho.
Qed.

(* IfBlock: the reads of the condition, then one of the two bodies *)
Lemma covers_if R xs loc tr (v : Z) A1 A2 :
  (forall l, In l R -> In (fst l) xs) -> covers tr (if (v =? 0)%Z then A2 else A1) ->
  covers (rds R ++ tr) (reads_at loc xs ++ A1 ++ A2).
Proof.
  intros HR H. apply covers_app; [apply covers_rds, HR|].
  destruct (v =? 0)%Z; [apply covers_r | apply covers_l]; exact H.
Qed.

(* Loop: whatever the body's executions are covered by, the iterations add the write of the variable *)
Lemma do_loop_covers (run : store -> outcome) A x loc :
  (forall s s' tr c, run s = Ok s' tr c -> covers tr A) ->
  forall l t n k s s' tr c, do_loop run x l t n k s = Ok s' tr c -> covers tr (mkAcc x WRITE loc :: A).
Proof.
  intros Hrun l t. induction n as [|n IH]; intros k s s' tr c H; cbn [do_loop] in H.
  - inversion H; subst. apply (covers_l _ [_]), covers_wr.
  - destruct (run (upd s (x, []) (l + k * t)%Z)) as [s2 tr2 c2| |] eqn:E; try discriminate. apply Hrun in E.
    assert (Hh : covers (Wr (x, []) :: tr2) (mkAcc x WRITE loc :: A)) by exact (covers_app [_] _ [_] _ (covers_wr _ _ _) E).
    destruct c2.
    + apply prepend_ok_inv in H as [tr' [H ->]]. apply covers_app_same; [exact Hh | eapply IH, H].
    + inversion H; subst. exact Hh.
    + apply prepend_ok_inv in H as [tr' [H ->]]. apply covers_app_same; [exact Hh | eapply IH, H].
    + inversion H; subst. exact Hh.
Qed.

Lemma covers_do R xs x loc tr A :
  (forall l, In l R -> In (fst l) xs) -> covers tr (mkAcc x WRITE loc :: A) ->
  covers (rds R ++ tr) (mkAcc x WRITE loc :: mkAcc x READ loc :: reads_at loc xs ++ A).
Proof.
  intros HR H. apply covers_app_same.
  - apply (covers_r _ [_; _]), covers_l, covers_rds, HR.
  - eapply covers_incl; [|exact H]. intros a [<-|Ha]; [left; reflexivity|].
    right. right. apply in_app_iff. right. exact Ha.
Qed.

Lemma covers_region r tr (c : ctl) A : covers tr A ->
  covers (Enter r :: tr ++ (match c with CNormal => [Leave r] | _ => [] end)) A.
Proof.
  intro H. apply (covers_app_same [_]); [split; intros l []|]. apply covers_app_same; [exact H|].
  destruct c; split; intros l [].
Qed.

Lemma in_app_sub {A B} (h : A -> B) l1 l2 m1 m2 :
  (forall a, In a l1 -> In (h a) m1) -> (forall a, In a l2 -> In (h a) m2) ->
  forall a, In a (l1 ++ l2) -> In (h a) (m1 ++ m2).
Proof. intros H1 H2 a Ha. apply in_app_iff in Ha as [Ha|Ha]; apply in_app_iff; auto. Qed.

Lemma in_flat_map_sub {A B C} (f : A -> list B) (g : A -> list C) (h : B -> C) (l : list A) :
  Forall (fun a => forall b, In b (f a) -> In (h b) (g a)) l ->
  forall b, In b (flat_map f l) -> In (h b) (flat_map g l).
Proof.
  induction 1 as [|a r Ha _ IH]; [intros b []|]. cbn [flat_map]. apply in_app_sub; assumption.
Qed.

Lemma ereads_sub s e : forall l, In l (ereads s e) -> In (fst l) (expr_reads e).
Proof.
  induction e using expr_ind'; cbn [ereads expr_reads].
  - intros l [].
  - intros l [<-|[]]. left. reflexivity.
  - apply in_app_sub; [exact (in_flat_map_sub (ereads s) expr_reads fst ix H)|].
    intros l Hl. destruct (opt_all (map (eval s) ix)); [|destruct Hl]. destruct Hl as [<-|[]]. left. reflexivity.
  - exact IHe.
  - apply in_app_sub; assumption.
  - destruct (is_inquiry f).
    + destruct args as [|a0 r]; [intros l []|]. inversion H as [|? ? _ Hr]; subst.
      exact (in_flat_map_sub (ereads s) expr_reads fst r Hr).
    + exact (in_flat_map_sub (ereads s) expr_reads fst args H).
Qed.

Lemma ereads_flat_sub s es : forall l, In l (flat_map (ereads s) es) -> In (fst l) (flat_map expr_reads es).
Proof.
  apply (in_flat_map_sub (ereads s) expr_reads fst). apply Forall_forall. intros e _. apply ereads_sub.
Qed.

(* no CodeBlock that touches data: PRINT is the one statement of the subset that is a CodeBlock and reads *)
Fixpoint noprint (s : stmt) : bool :=
  match s with
  | SPrint _ => false
  | SIf _ th el => forallb noprint th && forallb noprint el
  | SDo _ _ _ _ body => forallb noprint body
  | SRegion _ body | SDir _ body => forallb noprint body
  | _ => true
  end.

Lemma stmt_covers (run : list stmt -> store -> outcome)
  (IH : forall bump ss loc s s' tr c,
      forallb noprint ss = true -> run ss s = Ok s' tr c -> covers tr (fst (acc_list bump ss loc))) :
  forall st loc s s' tr c,
    noprint st = true -> exec_stmt run st s = Ok s' tr c -> covers tr (fst (acc_stmt st loc)).
Proof.
  intros st loc s s' tr c NP H. destruct st; cbn [exec_stmt noprint] in *.
  - destruct (opt_all (map (eval s) ix)) as [vs|]; [|discriminate]. destruct (eval s e) as [v|]; [|discriminate].
    inversion H; subst. cbn [acc_stmt fst]. rewrite rds_app, <- app_assoc.
    apply covers_app; [apply covers_rds, ereads_sub|].
    apply covers_app; [apply covers_rds, ereads_flat_sub | apply covers_wr].
  - apply andb_true_iff in NP as [N1 N2].
    destruct (eval s c0) as [v|]; [|discriminate]. apply prepend_ok_inv in H as [tr' [H ->]].
    rewrite acc_stmt_if, if_report_fst. apply (covers_if _ _ _ _ v); [apply ereads_sub|].
    destruct (v =? 0)%Z; [exact (IH false el _ s s' tr' c N2 H) | exact (IH false th _ s s' tr' c N1 H)].
  - destruct (eval s lo) as [l|]; [|discriminate]. destruct (eval s hi) as [h|]; [|discriminate].
    destruct (eval s st) as [t|]; [|discriminate]. destruct (t =? 0)%Z; [discriminate|].
    apply prepend_ok_inv in H as [tr' [H ->]]. rewrite acc_stmt_do.
    pose proof (fun s0 s0' t0 c0 => IH true body (S loc) s0 s0' t0 c0 NP) as Hb. cbn [acc_list] in Hb.
    destruct (acc_loop_body body (S loc)) as [a1 l1]. cbn [fst] in *.
    apply covers_do; [|exact (do_loop_covers _ _ _ _ Hb _ _ _ _ _ _ _ _ H)].
    repeat apply in_app_sub; apply ereads_sub.
  - inversion H; subst. apply covers_nil.
  - inversion H; subst. apply covers_nil.
  - inversion H; subst. apply covers_nil.
  - discriminate.
  - destruct (run body s) as [s1 tr1 c1| |] eqn:E; try discriminate. inversion H; subst.
    rewrite acc_stmt_region. apply covers_region. exact (IH false _ _ _ _ _ _ NP E).
  - rewrite acc_stmt_dir. exact (IH false _ _ _ _ _ _ NP H).
Qed.

Lemma exec_covers f : forall bump ss loc s s' tr c,
  forallb noprint ss = true -> exec f ss s = Ok s' tr c -> covers tr (fst (acc_list bump ss loc)).
Proof.
  induction f as [|f IH]; intros bump ss loc s s' tr c NP H; [discriminate|].
  destruct ss as [|st rest]; [inversion H; subst; apply covers_nil|].
  rewrite exec_cons in H. rewrite acc_list_cons. cbn [forallb] in NP. apply andb_true_iff in NP as [NP1 NP2].
  pose proof (fun s1 tr1 c1 => stmt_covers (exec f) IH st loc s s1 tr1 c1 NP1) as H1.
  destruct (acc_stmt st loc) as [a1 l1].
  pose proof (fun s1 s2 tr2 c2 => IH bump rest (if bump then S l1 else l1) s1 s2 tr2 c2 NP2) as H2.
  destruct (acc_list bump rest (if bump then S l1 else l1)) as [a2 l2].
  exact (covers_then_run _ _ _ _ _ _ _ H1 H2 H).
Qed.

Theorem access_covers_ : forall fuel ss loc st st' tr c,
  forallb noprint ss = true -> exec fuel ss st = Ok st' tr c -> covers tr (fst (acc_block ss loc)).
Proof. intros fuel ss. exact (exec_covers fuel false ss). Qed.

(* the same for the access list of ONE statement taken at any location counter (VariablesAccessInfo(node)) *)
Theorem access_covers_stmt_ : forall fuel s loc st st' tr c,
  noprint s = true -> exec fuel [s] st = Ok st' tr c -> covers tr (fst (acc_stmt s loc)).
Proof.
  intros fuel s loc st st' tr c NP H.
  assert (NP' : forallb noprint [s] = true) by (cbn; rewrite NP; reflexivity).
  pose proof (access_covers_ fuel [s] loc st st' tr c NP' H) as G. cbn [acc_block] in G.
  destruct (acc_stmt s loc) as [a1 l1]. cbn [fst] in *. rewrite app_nil_r in G. exact G.
Qed.

(* non-vacuity: a loop nest with an IF, offsets and a zero-trip inner loop runs to completion and reads/writes *)
Local Open Scope nat_scope.
Definition ex_prog : list stmt :=
  [SDo 0 (ELit 1) (EVar 5) (ELit 1)
     [SIf (EBin Gt (EIdx 3 [EVar 0]) (ELit 0))
          [SAssign 2 [EBin Add (EVar 0) (ELit 1)] (EBin Add (EIdx 3 [EVar 0]) (EVar 6))]
          [SAssign 6 [] (EIntr IMax [EVar 6; EIntr IUbound [EVar 3; ELit 1]])];
      SDo 1 (ELit 3) (ELit 2) (ELit 1) [SAssign 4 [EVar 1] (ELit 0)]]].
Definition ex_store : store :=
  store_of [((5, []), 3%Z); ((3, [1%Z]), 2%Z); ((3, [2%Z]), (-1)%Z); ((3, [3%Z]), 4%Z); ((6, []), 7%Z)]
           [(3, [(1%Z, 3%Z)])].

Example covers_nonvacuous :
  forallb noprint ex_prog = true /\
  match exec 50 ex_prog ex_store with
  | Ok _ tr c => length (reads tr) = 16 /\ length (writes tr) = 10 /\ c = CNormal
  | _ => False
  end.
Proof. vm_compute. repeat split. Qed.

Definition lname (l : loc) : name := fst l.

Lemma opt_all_some {A B} (f : A -> option B) l vs :
  opt_all (map f l) = Some vs -> Forall (fun a => exists v, f a = Some v) l.
Proof.
  revert vs. induction l as [|a r IH]; intros vs H; [constructor|].
  cbn [map opt_all] in H. destruct (f a) as [v|] eqn:E; [|discriminate].
  destruct (opt_all (map f r)) as [vr|] eqn:Er; [|discriminate]. constructor; [eauto | eapply IH; reflexivity].
Qed.

Lemma map_flat_map_eq {A B C} (f : A -> list B) (g : A -> list C) (h : B -> C) (l : list A) :
  Forall (fun a => map h (f a) = g a) l -> map h (flat_map f l) = flat_map g l.
Proof. induction 1 as [|a r Ha _ IH]; [reflexivity|]. cbn [flat_map]. rewrite map_app, Ha, IH. reflexivity. Qed.

Lemma reads_exact_list s es vs :
  Forall (fun e => forall v, eval s e = Some v -> map lname (ereads s e) = expr_reads e) es ->
  opt_all (map (eval s) es) = Some vs -> map lname (flat_map (ereads s) es) = flat_map expr_reads es.
Proof.
  intros H E. apply map_flat_map_eq. apply opt_all_some in E. rewrite Forall_forall in *.
  intros e He. destruct (E e He) as [v Hv]. exact (H e He v Hv).
Qed.

Lemma ereads_exact s e : forall v, eval s e = Some v -> map lname (ereads s e) = expr_reads e.
Proof.
  induction e using expr_ind'; intros v Hv; cbn [eval ereads expr_reads] in *.
  - reflexivity.
  - reflexivity.
  - destruct (opt_all (map (eval s) ix)) as [vs|] eqn:E; [|discriminate].
    rewrite map_app, (reads_exact_list s ix vs H E). reflexivity.
  - destruct (eval s e) as [a|] eqn:E; [|discriminate]. eapply IHe. reflexivity.
  - destruct (eval s e1) as [a|] eqn:E1; [|discriminate]. destruct (eval s e2) as [b|] eqn:E2; [|discriminate].
    rewrite map_app. f_equal; [apply (IHe1 a eq_refl) | apply (IHe2 b eq_refl)].
  - destruct (is_inquiry f).
    + destruct args as [|a0 r]; [reflexivity|]. inversion H as [|? ? _ Hr]; subst.
      destruct (opt_all (map (eval s) r)) as [vs|] eqn:E; [|discriminate]. exact (reads_exact_list s r vs Hr E).
    + destruct (opt_all (map (eval s) args)) as [vs|] eqn:E; [|discriminate]. exact (reads_exact_list s args vs H E).
Qed.

Lemma ereads_flat_exact s es vs : opt_all (map (eval s) es) = Some vs ->
  map lname (flat_map (ereads s) es) = flat_map expr_reads es.
Proof. apply reads_exact_list. apply Forall_forall. intros e _. apply ereads_exact. Qed.

(* the (variable, kind) sequence of a trace *)
Definition ev_sk (e : event) : list (name * akind) :=
  match e with Rd l => [(lname l, READ)] | Wr l => [(lname l, WRITE)] | _ => [] end.

Lemma ev_sk_rds R : flat_map ev_sk (rds R) = map rdk (map lname R).
Proof. induction R as [|l r IH]; [reflexivity|]. cbn [rds map flat_map ev_sk app]. unfold rds in IH. rewrite IH. reflexivity. Qed.

(* the access list of an assignment IS the sequence of its dynamic accesses: RHS reads (left to right,
   subscripts before the array), then the reads of the LHS subscripts, then the write — whatever the store *)
Theorem assign_sequence_ : forall fuel x ix e loc st st' tr c,
  exec fuel [SAssign x ix e] st = Ok st' tr c ->
  flat_map ev_sk tr = map sk (fst (acc_stmt (SAssign x ix e) loc)).
Proof.
  intros fuel x ix e loc st st' tr c H. destruct fuel as [|f]; [discriminate|].
  rewrite exec_cons in H. cbn [exec_stmt] in H.
  destruct (opt_all (map (eval st) ix)) as [vs|] eqn:Ei; [|discriminate].
  destruct (eval st e) as [v|] eqn:Ee; [|discriminate].
  destruct f as [|f]; [discriminate|]. cbn in H. inversion H; subst.
  rewrite app_nil_r. rewrite flat_map_app, ev_sk_rds. cbn [flat_map ev_sk app lname fst].
  rewrite map_app, (ereads_exact st e v Ee), (ereads_flat_exact st ix vs Ei).
  cbn [acc_stmt fst]. rewrite !map_app, !sk_reads_at, <- app_assoc. reflexivity.
Qed.

Lemma first_access_reads_at x loc xs rest : In x xs -> first_access x (reads_at loc xs ++ rest) = Some (rd loc x).
Proof.
  unfold first_access, var_accesses. induction xs as [|y r IH]; [intros []|]. intros [->|H]; cbn [reads_at map app filter rd a_sig].
  - rewrite Nat.eqb_refl. reflexivity.
  - destruct (Nat.eqb y x) eqn:E; [apply Nat.eqb_eq in E; subst; reflexivity | exact (IH H)].
Qed.
