(* C11 — structure accesses as a FIRST-CLASS expression form.

   [fexpr] = the MiniFortran expressions plus [FRef path]: a structure access may occur wherever an expression may
   (array subscripts, intrinsic arguments, DO bounds/step, IF conditions, call arguments, nested inside the subscripts
   of another structure access).  [fstmt]/[fblock] = assignments (to a variable, an array element or a structure
   element), IF, DO and calls, arbitrarily nested.  Mutual inductives (no nested lists) so that `Scheme` provides the
   induction principles.  The access function is the one of Access.v/Ext.v/Struct.v (same location discipline); the
   semantics is built on Fort.Sem (store, events, do_loop, eval_bin/eval_un/eval_intr), a structure element being the
   location (enc signature, evaluated subscripts of all components). *)
From Coq Require Import List ZArith Bool.
Import ListNotations.
From PV Require Import Fort.Syntax Fort.Sem Fort.Facts C11.Access C11.Proofs C11.Ext.
Local Open Scope nat_scope.

Inductive fexpr :=
| FLit (z : Z) | FVar (x : name) | FIdx (a : name) (ix : fexprs)
| FUn (o : unop) (e : fexpr) | FBin (o : binop) (l r : fexpr)
| FIntr (f : intr) (args : fexprs)
| FRef (p : fpath)
with fexprs := ENil | ECons (e : fexpr) (r : fexprs)
with fpath := PNil | PCons (c : name) (ix : fexprs) (r : fpath).

Scheme fexpr_mut := Induction for fexpr Sort Prop
  with fexprs_mut := Induction for fexprs Sort Prop
  with fpath_mut := Induction for fpath Sort Prop.
Combined Scheme fexpr_all_ind from fexpr_mut, fexprs_mut, fpath_mut.

Inductive ftarget := FTVar (x : name) (ix : fexprs) | FTRef (p : fpath).

Inductive fstmt :=
| FAssign (t : ftarget) (e : fexpr)
| FIf (c : fexpr) (th el : fblock)
| FDo (x : name) (lo hi st : fexpr) (body : fblock)
| FCall (k : cform) (its : list intent) (args : fexprs)
with fblock := BNil | BCons (s : fstmt) (r : fblock).

Fixpoint psig (p : fpath) : list name := match p with PNil => [] | PCons c _ r => c :: psig r end.

Section Enc.
Variable enc : list name -> name.

Fixpoint fexpr_reads (e : fexpr) : list name :=
  match e with
  | FLit _ => []
  | FVar x => [x]
  | FIdx a ix => fexprs_reads ix ++ [a]
  | FUn _ e1 => fexpr_reads e1
  | FBin _ l r => fexpr_reads l ++ fexpr_reads r
  | FIntr f args => if is_inquiry f then match args with ENil => [] | ECons _ r => fexprs_reads r end else fexprs_reads args
  | FRef p => fpath_reads p ++ [enc (psig p)]      (* every subscript of every component, THEN the signature *)
  end
with fexprs_reads (es : fexprs) : list name :=
  match es with ENil => [] | ECons e r => fexpr_reads e ++ fexprs_reads r end
with fpath_reads (p : fpath) : list name :=
  match p with PNil => [] | PCons _ ix r => fexprs_reads ix ++ fpath_reads r end.

Definition ftarget_sig (t : ftarget) : name := match t with FTVar x _ => x | FTRef p => enc (psig p) end.
Definition ftarget_reads (t : ftarget) : list name := match t with FTVar _ ix => fexprs_reads ix | FTRef p => fpath_reads p end.

Definition fcall_arg (loc : nat) (k : akind) (a : fexpr) : list access :=
  match a with
  | FVar x => [mkAcc x k loc]
  | FIdx a0 ix => mkAcc a0 k loc :: reads_at loc (fexprs_reads ix)
  | FRef p => mkAcc (enc (psig p)) k loc :: reads_at loc (fpath_reads p)
  | _ => reads_at loc (fexpr_reads a)
  end.
Fixpoint fcall_args (loc : nat) (k : akind) (es : fexprs) : list access :=
  match es with ENil => [] | ECons e r => fcall_arg loc k e ++ fcall_args loc k r end.

Definition fdefault (k : cform) : akind := match k with CUser true => READ | _ => READWRITE end.

(* [bump] = inside a Loop body every child is followed by an extra next_location *)
Fixpoint facc_stmt (s : fstmt) (loc : nat) : list access * nat :=
  match s with
  | FAssign t e =>
      (reads_at loc (fexpr_reads e) ++ reads_at loc (ftarget_reads t) ++ [mkAcc (ftarget_sig t) WRITE loc], S loc)
  | FIf c th el =>
      let (a1, l1) := facc_block false th (S loc) in
      match el with
      | BNil => (reads_at loc (fexpr_reads c) ++ a1, S l1)
      | _ => let (a2, l2) := facc_block false el (S l1) in (reads_at loc (fexpr_reads c) ++ a1 ++ a2, S l2)
      end
  | FDo x lo hi st body =>
      let (a1, l1) := facc_block true body (S loc) in
      (mkAcc x WRITE loc :: mkAcc x READ loc :: reads_at loc (fexpr_reads lo ++ fexpr_reads hi ++ fexpr_reads st) ++ a1, l1)
  | FCall k _ args => (fcall_args loc (fdefault k) args, S loc)
  end
with facc_block (bump : bool) (b : fblock) (loc : nat) : list access * nat :=
  match b with
  | BNil => ([], loc)
  | BCons s r =>
      let (a1, l1) := facc_stmt s loc in
      let (a2, l2) := facc_block bump r (if bump then S l1 else l1) in (a1 ++ a2, l2)
  end.

Definition inq_args (args : fexprs) : list expr := match args with ECons (FVar a) _ => [EVar a] | _ => [] end.

Fixpoint feval (s : store) (e : fexpr) : option Z :=
  match e with
  | FLit z => Some z
  | FVar x => Some (val s (x, []))
  | FIdx a ix => match fevals s ix with Some vs => Some (val s (a, vs)) | None => None end
  | FUn o e1 => option_map (eval_un o) (feval s e1)
  | FBin o l r => match feval s l, feval s r with Some a, Some b => eval_bin o a b | _, _ => None end
  | FIntr f args =>
      let ovs := if is_inquiry f then match args with ENil => None | ECons _ r => fevals s r end else fevals s args in
      match ovs with Some vs => eval_intr s f (inq_args args) vs | None => None end
  | FRef p => match fpevals s p with Some vs => Some (val s (enc (psig p), vs)) | None => None end
  end
with fevals (s : store) (es : fexprs) : option (list Z) :=
  match es with
  | ENil => Some []
  | ECons e r => match feval s e, fevals s r with Some v, Some vs => Some (v :: vs) | _, _ => None end
  end
with fpevals (s : store) (p : fpath) : option (list Z) :=
  match p with
  | PNil => Some []
  | PCons _ ix r => match fevals s ix, fpevals s r with Some v1, Some v2 => Some (v1 ++ v2) | _, _ => None end
  end.

Fixpoint fereads (s : store) (e : fexpr) : list loc :=
  match e with
  | FLit _ => []
  | FVar x => [(x, [])]
  | FIdx a ix => fereadss s ix ++ match fevals s ix with Some vs => [(a, vs)] | None => [] end
  | FUn _ e1 => fereads s e1
  | FBin _ l r => fereads s l ++ fereads s r
  | FIntr f args => if is_inquiry f then match args with ENil => [] | ECons _ r => fereadss s r end else fereadss s args
  | FRef p => fpreads s p ++ match fpevals s p with Some vs => [(enc (psig p), vs)] | None => [] end
  end
with fereadss (s : store) (es : fexprs) : list loc :=
  match es with ENil => [] | ECons e r => fereads s e ++ fereadss s r end
with fpreads (s : store) (p : fpath) : list loc :=
  match p with PNil => [] | PCons _ ix r => fereadss s ix ++ fpreads s r end.

Definition ftarget_evals (s : store) (t : ftarget) : option (list Z) :=
  match t with FTVar _ ix => fevals s ix | FTRef p => fpevals s p end.
Definition ftarget_dreads (s : store) (t : ftarget) : list loc :=
  match t with FTVar _ ix => fereadss s ix | FTRef p => fpreads s p end.

Definition farg_pre (s : store) (a : fexpr) : list loc :=
  match a with FVar _ => [] | FIdx _ ix => fereadss s ix | FRef p => fpreads s p | _ => fereads s a end.
Definition farg_loc (s : store) (a : fexpr) : option (option loc) :=
  match a with
  | FVar x => Some (Some (x, []))
  | FIdx a0 ix => match fevals s ix with Some vs => Some (Some (a0, vs)) | None => None end
  | FRef p => match fpevals s p with Some vs => Some (Some (enc (psig p), vs)) | None => None end
  | _ => match feval s a with Some _ => Some None | None => None end
  end.
Fixpoint fargs_pre (s : store) (es : fexprs) : list loc :=
  match es with ENil => [] | ECons e r => farg_pre s e ++ fargs_pre s r end.

Fixpoint fcallee (s : store) (its : list intent) (args : fexprs) : option (list loc * list loc) :=
  match its, args with
  | [], ENil => Some ([], [])
  | i :: its', ECons e args' =>
      match farg_loc s e, fcallee s its' args' with
      | Some (Some l), Some (R, W) =>
          Some ((if reads_of_intent i then [l] else []) ++ R, (if writes_of_intent i then [l] else []) ++ W)
      | Some None, Some (R, W) => if writes_of_intent i then None else Some (R, W)
      | _, _ => None
      end
  | _, _ => None
  end.

Variable outs : nat -> Z.

Fixpoint fexec (fuel : nat) (b : fblock) (s : store) : outcome :=
  match fuel with
  | O => OutOfFuel
  | S f =>
    match b with
    | BNil => Ok s [] CNormal
    | BCons st rest =>
      let r1 :=
        match st with
        | FAssign t e =>
            match ftarget_evals s t, feval s e with
            | Some vs, Some v =>
                Ok (upd s (ftarget_sig t, vs) v) (rds (fereads s e ++ ftarget_dreads s t) ++ [Wr (ftarget_sig t, vs)]) CNormal
            | _, _ => Fault
            end
        | FIf c th el =>
            match feval s c with
            | Some v => prepend (rds (fereads s c)) (fexec f (if (v =? 0)%Z then el else th) s)
            | None => Fault
            end
        | FDo x lo hi st body =>
            match feval s lo, feval s hi, feval s st with
            | Some l, Some h, Some t =>
                if (t =? 0)%Z then Fault
                else prepend (rds (fereads s lo ++ fereads s hi ++ fereads s st))
                             (do_loop (fexec f body) x l t (trip_count l h t) 0 s)
            | _, _, _ => Fault
            end
        | FCall _ its args =>
            match fcallee s its args with
            | Some (R, W) => Ok (store_outs s W outs 0) (rds (fargs_pre s args) ++ rds R ++ wrs W) CNormal
            | None => Fault
            end
        end in
      match r1 with
      | Ok s1 tr1 CNormal => prepend tr1 (fexec f rest s1)
      | Ok s1 tr1 c => Ok s1 tr1 c
      | Fault => Fault
      | OutOfFuel => OutOfFuel
      end
    end
  end.

(* a pure call with an intent(out/inout) dummy is the remaining (open) gap *)
Fixpoint fsafe (s : fstmt) : bool :=
  match s with
  | FAssign _ _ => true
  | FIf _ th el => fsafe_block th && fsafe_block el
  | FDo _ _ _ _ body => fsafe_block body
  | FCall (CUser true) its _ => forallb (fun i => negb (writes_of_intent i)) its
  | FCall _ _ _ => true
  end
with fsafe_block (b : fblock) : bool := match b with BNil => true | BCons s r => fsafe s && fsafe_block r end.

(* an inquiry intrinsic skips its first argument: the list invariant also speaks about the tail *)
Definition etail (es : fexprs) : fexprs := match es with ENil => ENil | ECons _ r => r end.

Lemma fereads_sub_all s :
  (forall e l, In l (fereads s e) -> In (fst l) (fexpr_reads e)) /\
  (forall es, (forall l, In l (fereadss s es) -> In (fst l) (fexprs_reads es)) /\
              (forall l, In l (fereadss s (etail es)) -> In (fst l) (fexprs_reads (etail es)))) /\
  (forall p l, In l (fpreads s p) -> In (fst l) (fpath_reads p)).
Proof.
  apply fexpr_all_ind; cbn [fereads fereadss fpreads fexpr_reads fexprs_reads fpath_reads etail].
  - intros z l [].
  - intros x l [<-|[]]. left. reflexivity.
  - intros a ix [IH _] l Hl. apply in_app_iff in Hl as [Hl|Hl]; apply in_app_iff; [left; auto|right].
    destruct (fevals s ix); [|destruct Hl]. destruct Hl as [<-|[]]. left. reflexivity.
  - intros o e IH l Hl. auto.
  - intros o l0 IH1 r IH2 l Hl. apply in_app_iff in Hl as [Hl|Hl]; apply in_app_iff; auto.
  - intros f args [IH IHt] l Hl. destruct (is_inquiry f); [|auto].
    destruct args as [|e0 r]; [destruct Hl|]. cbn [etail] in IHt. auto.
  - intros p IH l Hl. apply in_app_iff in Hl as [Hl|Hl]; apply in_app_iff; [left; auto|right].
    destruct (fpevals s p); [|destruct Hl]. destruct Hl as [<-|[]]. left. reflexivity.
  - split; intros l [].
  - intros e IHe r [IHr _]. split; [|exact IHr].
    intros l Hl. apply in_app_iff in Hl as [Hl|Hl]; apply in_app_iff; auto.
  - intros l [].
  - intros c ix [IHi _] r IHr l Hl. apply in_app_iff in Hl as [Hl|Hl]; apply in_app_iff; auto.
Qed.

Lemma fereads_sub s e l : In l (fereads s e) -> In (fst l) (fexpr_reads e).
Proof. apply (proj1 (fereads_sub_all s)). Qed.
Lemma fereadss_sub s es l : In l (fereadss s es) -> In (fst l) (fexprs_reads es).
Proof. apply (proj1 (proj1 (proj2 (fereads_sub_all s)) es)). Qed.
Lemma fpreads_sub s p l : In l (fpreads s p) -> In (fst l) (fpath_reads p).
Proof. apply (proj2 (proj2 (fereads_sub_all s))). Qed.

Lemma ftarget_sub s t l : In l (ftarget_dreads s t) -> In (fst l) (ftarget_reads t).
Proof. destruct t; cbn; [apply fereadss_sub | apply fpreads_sub]. Qed.

Lemma farg_pre_read s loc k a l : In l (farg_pre s a) -> is_read (fst l) (fcall_arg loc k a) = true.
Proof.
  intro H. destruct a; cbn [farg_pre fcall_arg] in *;
    try (apply is_read_reads_at; eapply fereads_sub; exact H).
  - destruct H.
  - apply is_read_cons_reads_at. eapply fereadss_sub, H.
  - apply is_read_cons_reads_at. eapply fpreads_sub, H.
Qed.

Lemma farg_head s loc k a l : farg_loc s a = Some (Some l) -> exists rest, fcall_arg loc k a = mkAcc (fst l) k loc :: rest.
Proof.
  destruct a; cbn [farg_loc fcall_arg]; intro H;
    try (match type of H with match ?X with _ => _ end = _ => destruct X end; try discriminate; inversion H; subst; eexists; reflexivity).
  inversion H; subst. eexists. reflexivity.
Qed.

(* argument lists as lists, so that Ext.call_covers applies *)
Fixpoint elist (es : fexprs) : list fexpr := match es with ENil => [] | ECons e r => e :: elist r end.

Lemma fcallee_eq s : forall its args, fcallee s its args = callee (farg_loc s) its (elist args).
Proof. induction its as [|i its IH]; intros [|e args]; cbn [fcallee callee elist]; try rewrite IH; reflexivity. Qed.
Lemma fcall_args_eq loc k es : fcall_args loc k es = flat_map (fcall_arg loc k) (elist es).
Proof. induction es as [|e r IH]; cbn [fcall_args elist flat_map]; [|rewrite IH]; reflexivity. Qed.
Lemma fargs_pre_eq s es : fargs_pre s es = flat_map (farg_pre s) (elist es).
Proof. induction es as [|e r IH]; cbn [fargs_pre elist flat_map]; [|rewrite IH]; reflexivity. Qed.

Lemma fcall_covers s loc k its args R W :
  kind_reads k = true ->
  (kind_writes k = true \/ forallb (fun i => negb (writes_of_intent i)) its = true) ->
  fcallee s its args = Some (R, W) ->
  bcovers (rds (fargs_pre s args) ++ rds R ++ wrs W) (fcall_args loc k args).
Proof.
  rewrite fcallee_eq, fcall_args_eq, fargs_pre_eq.
  exact (call_covers (farg_loc s) (farg_pre s) (fcall_arg loc k) k loc
           (farg_pre_read s loc k) (farg_head s loc k) its (elist args) R W).
Qed.

(* the effect of the head statement of a block, as [fexec] computes it *)
Definition fstep (f : nat) (st : fstmt) (s : store) : outcome :=
  match st with
  | FAssign t e =>
      match ftarget_evals s t, feval s e with
      | Some vs, Some v =>
          Ok (upd s (ftarget_sig t, vs) v) (rds (fereads s e ++ ftarget_dreads s t) ++ [Wr (ftarget_sig t, vs)]) CNormal
      | _, _ => Fault
      end
  | FIf c th el =>
      match feval s c with
      | Some v => prepend (rds (fereads s c)) (fexec f (if (v =? 0)%Z then el else th) s)
      | None => Fault
      end
  | FDo x lo hi st body =>
      match feval s lo, feval s hi, feval s st with
      | Some l, Some h, Some t =>
          if (t =? 0)%Z then Fault
          else prepend (rds (fereads s lo ++ fereads s hi ++ fereads s st))
                       (do_loop (fexec f body) x l t (trip_count l h t) 0 s)
      | _, _, _ => Fault
      end
  | FCall _ its args =>
      match fcallee s its args with
      | Some (R, W) => Ok (store_outs s W outs 0) (rds (fargs_pre s args) ++ rds R ++ wrs W) CNormal
      | None => Fault
      end
  end.

Lemma fexec_cons f st rest s : fexec (S f) (BCons st rest) s = then_run (fstep f st s) (fexec f rest).
Proof.
  change (fexec (S f) (BCons st rest) s) with
    (match fstep f st s with
     | Ok s1 tr1 CNormal => prepend tr1 (fexec f rest s1)
     | Ok s1 tr1 c => Ok s1 tr1 c
     | Fault => Fault
     | OutOfFuel => OutOfFuel
     end).
  destruct (fstep f st s) as [s1 tr1 []| |]; reflexivity.
Qed.

(* as Proofs.if_report_fst, for an FIf *)
Lemma fif_report_fst R th el loc :
  fst (let (a1, l1) := facc_block false th (S loc) in
       match el with
       | BNil => (R ++ a1, S l1)
       | _ => let (a2, l2) := facc_block false el (S l1) in (R ++ a1 ++ a2, S l2)
       end) =
  R ++ fst (facc_block false th (S loc)) ++ fst (facc_block false el (S (snd (facc_block false th (S loc))))).
Proof.
  destruct (facc_block false th (S loc)) as [a1 l1]. destruct el as [|e0 el']; [cbn; rewrite app_nil_r; reflexivity|].
  cbn [fst snd]. destruct (facc_block false (BCons e0 el') (S l1)). reflexivity.
Qed.

Lemma fstep_covers f
  (IH : forall bump b loc s s' tr c, fsafe_block b = true -> fexec f b s = Ok s' tr c -> bcovers tr (fst (facc_block bump b loc))) :
  forall st loc s s' tr c, fsafe st = true -> fstep f st s = Ok s' tr c -> bcovers tr (fst (facc_stmt st loc)).
Proof.
  intros st loc s s' tr c Hst H. destruct st as [t e|c0 th el|x lo hi st0 body|k its args]; cbn [fstep facc_stmt fsafe] in *.
  - destruct (ftarget_evals s t) as [vs|]; [|discriminate]. destruct (feval s e) as [v|]; [|discriminate].
    inversion H; subst. cbn [fst]. rewrite rds_app, <- !app_assoc.
    apply covers_app; [apply covers_rds; intros l; apply fereads_sub|].
    apply covers_app; [apply covers_rds; intros l; apply ftarget_sub | apply covers_wr].
  - apply andb_true_iff in Hst as [N1 N2].
    destruct (feval s c0) as [v|]; [|discriminate]. apply prepend_ok_inv in H as [tr' [H ->]].
    rewrite fif_report_fst. apply (covers_if _ _ _ _ v); [intros l; apply fereads_sub|].
    destruct (v =? 0)%Z; [exact (IH false el _ s s' tr' c N2 H) | exact (IH false th _ s s' tr' c N1 H)].
  - destruct (feval s lo) as [l|]; [|discriminate]. destruct (feval s hi) as [h|]; [|discriminate].
    destruct (feval s st0) as [t|]; [|discriminate]. destruct (t =? 0)%Z; [discriminate|].
    apply prepend_ok_inv in H as [tr' [H ->]].
    pose proof (fun s0 s0' t0 c0 => IH true body (S loc) s0 s0' t0 c0 Hst) as Hb.
    destruct (facc_block true body (S loc)) as [a1 l1]. cbn [fst] in *.
    apply covers_do; [|exact (do_loop_covers _ _ _ _ Hb _ _ _ _ _ _ _ _ H)].
    repeat apply in_app_sub; intro; apply fereads_sub.
  - destruct (fcallee s its args) as [[R W]|] eqn:Ec; [|discriminate]. inversion H; subst. cbn [fst].
    destruct k as [[|]|]; cbn [fdefault].
    + eapply fcall_covers; [reflexivity | right; exact Hst | exact Ec].
    + eapply fcall_covers; [reflexivity | left; reflexivity | exact Ec].
    + eapply fcall_covers; [reflexivity | left; reflexivity | exact Ec].
Qed.

Theorem fexec_covers_ : forall fuel bump b loc s s' tr c,
  fsafe_block b = true -> fexec fuel b s = Ok s' tr c -> bcovers tr (fst (facc_block bump b loc)).
Proof.
  induction fuel as [|f IH]; intros bump b loc s s' tr c Hs H; [discriminate|].
  destruct b as [|st rest]; [inversion H; subst; apply covers_nil|].
  rewrite fexec_cons in H. cbn [fsafe_block] in Hs. apply andb_true_iff in Hs as [Hst Hrest]. cbn [facc_block].
  pose proof (fun s1 tr1 c1 => fstep_covers f IH st loc s s1 tr1 c1 Hst) as H1.
  destruct (facc_stmt st loc) as [a1 l1].
  pose proof (fun s1 s2 tr2 c2 => IH bump rest (if bump then S l1 else l1) s1 s2 tr2 c2 Hrest) as H2.
  destruct (facc_block bump rest (if bump then S l1 else l1)) as [a2 l2].
  exact (covers_then_run _ _ _ _ _ _ _ H1 H2 H).
Qed.

End Enc.

(* for the harness: [enc] given as a table, and the executable comparison with the implementation's report *)
Fixpoint names_eqb2 (a b : list name) : bool :=
  match a, b with [], [] => true | x :: a', y :: b' => Nat.eqb x y && names_eqb2 a' b' | _, _ => false end.
Definition enc_tbl2 (tbl : list (list name * name)) (p : list name) : name :=
  match find (fun q => names_eqb2 (fst q) p) tbl with Some q => snd q | None => 0 end.
Definition fobs_agrees (tbl : list (list name * name)) (x : fstmt) (o : obs) (final : nat) : bool :=
  obs_agrees (fst (facc_stmt (enc_tbl2 tbl) x 0)) o && Nat.eqb (snd (facc_stmt (enc_tbl2 tbl) x 0)) final.

(* do i = 1, g(k)%n ; a(s%idx(i)) = max(t(i)%v(j), 0) ; end do
   names: i=0 k=1 j=2 a=3; components g=10 n=11 s=12 idx=13 t=14 v=15; signatures g%n=20 s%idx=21 t%v=22 *)
Definition fx_tbl : list (list name * name) := [([10; 11], 20); ([12; 13], 21); ([14; 15], 22)].
Definition fx_prog : fblock :=
  BCons (FDo 0 (FLit 1) (FRef (PCons 10 (ECons (FVar 1) ENil) (PCons 11 ENil PNil))) (FLit 1)
           (BCons (FAssign (FTVar 3 (ECons (FRef (PCons 12 ENil (PCons 13 (ECons (FVar 0) ENil) PNil))) ENil))
                           (FIntr IMax (ECons (FRef (PCons 14 (ECons (FVar 0) ENil) (PCons 15 (ECons (FVar 2) ENil) PNil)))
                                              (ECons (FLit 0) ENil))))
                  BNil))
        BNil.
Definition fx_store : store :=
  store_of [((1, []), 2%Z); ((2, []), 5%Z); ((20, [2%Z]), 2%Z); ((21, [1%Z]), 4%Z); ((21, [2%Z]), 6%Z);
            ((22, [1; 5]%Z), (-3)%Z); ((22, [2; 5]%Z), 9%Z)] [].

Example fstruct_nonvacuous :
  fsafe_block fx_prog = true /\
  match fexec (enc_tbl2 fx_tbl) (fun _ => 0%Z) 10 fx_prog fx_store with
  | Ok s' tr c =>
      val s' (3, [4%Z]) = 0%Z /\ val s' (3, [6%Z]) = 9%Z /\ c = CNormal /\
      reads tr = [(1, []); (20, [2%Z]);
                  (0, []); (2, []); (22, [1; 5]%Z); (0, []); (21, [1%Z]);
                  (0, []); (2, []); (22, [2; 5]%Z); (0, []); (21, [2%Z])] /\
      writes tr = [(0, []); (3, [4%Z]); (0, []); (3, [6%Z]); (0, [])]
  | _ => False
  end /\
  map (fun a => (a_sig a, a_kind a, a_loc a)) (fst (facc_block (enc_tbl2 fx_tbl) false fx_prog 0)) =
    [(0, WRITE, 0); (0, READ, 0); (1, READ, 0); (20, READ, 0);
     (0, READ, 1); (2, READ, 1); (22, READ, 1); (0, READ, 1); (21, READ, 1); (3, WRITE, 1)].
Proof. vm_compute. repeat split. Qed.
