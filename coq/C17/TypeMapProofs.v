(* C17 — the type map binds every name of the translation, injectively; renaming keeps the value *)
From Coq Require Import List ZArith NArith QArith Bool String.
Import ListNotations.
From PV Require Import C17.Model C17.Proofs C17.TypeMap.
Open Scope list_scope.

Lemma mem_spec : forall x l, reflect (In x l) (mem x l).
Proof.
  intros x l. apply iff_reflect. unfold mem. rewrite existsb_exists. split.
  - intro I. exists x. split; [exact I | apply String.eqb_refl].
  - intros [y [Hy E]]. apply String.eqb_eq in E. subst. exact Hy.
Qed.
Lemma fresh_from_fresh : forall fuel used x k u, fresh_from fuel used x k = Some u -> ~ In u used.
Proof.
  induction fuel as [|f IH]; intros used x k u H; simpl in H; [discriminate|].
  destruct (mem_spec (cand x k) used) as [_|N].
  - exact (IH _ _ _ _ H).
  - inversion H; subst. exact N.
Qed.
Lemma new_name_fresh : forall used x u, new_name used x = Some u -> ~ In u used.
Proof.
  intros used x u H. unfold new_name in H. destruct (mem_spec x used) as [_|N].
  - exact (fresh_from_fresh _ _ _ _ _ H).
  - inversion H; subst. exact N.
Qed.

Definition inv (used : list string) (tm : tmap) : Prop :=
  (forall en, In en tm -> In (uname en) used) /\ NoDup (map uname tm) /\ NoDup (map fname tm).

Lemma has_fname_spec : forall tm x, reflect (In x (map fname tm)) (has_fname tm x).
Proof.
  intros tm x. apply iff_reflect. unfold has_fname. rewrite in_map_iff, existsb_exists.
  split; intros [en [H1 H2]]; exists en.
  - split; [exact H2 | apply String.eqb_eq; exact H1].
  - split; [apply String.eqb_eq; exact H2 | exact H1].
Qed.

Lemma NoDup_snoc {A} : forall (l : list A) x, NoDup l -> ~ In x l -> NoDup (l ++ [x]).
Proof. intros l x N H. apply (NoDup_Add (Add_app x l [])). rewrite app_nil_r. split; assumption. Qed.

Lemma build_from_spec : forall l used tm tm', inv used tm -> build_from used tm l = Some tm' ->
  (exists used', inv used' tm') /\ incl tm tm' /\
  (forall x k, In (x, k) l -> In x (map fname tm')).
Proof.
  induction l as [|[x k] r IH]; intros used tm tm' I H; simpl in H.
  - inversion H; subst. split; [exists used; exact I|]. split; [apply incl_refl | intros ? ? []].
  - destruct (has_fname_spec tm x) as [E|E].
    + destruct (IH _ _ _ I H) as [Hi [Hincl Hb]]. split; [exact Hi|]. split; [exact Hincl|].
      intros y k' [Heq|Hin]; [|exact (Hb _ _ Hin)]. inversion Heq; subst.
      apply in_map_iff in E as [en [E1 E2]].
      apply in_map_iff. exists en. split; [exact E1 | apply Hincl; exact E2].
    + destruct (new_name used x) as [u|] eqn:En; [|discriminate].
      assert (inv (u :: used) (tm ++ [mk_entry x k u])) as I'.
      { destruct I as [I1 [I2 I3]]. pose proof (new_name_fresh _ _ _ En) as F. split; [|split].
        - intros en Hin. apply in_app_iff in Hin as [Hin|[Hin|[]]]; [right; apply I1; exact Hin | subst; left; reflexivity].
        - rewrite map_app. simpl. apply NoDup_snoc; [exact I2|].
          intro Hin. apply in_map_iff in Hin as [en [E1 E2]]. apply F. rewrite <- E1. apply I1. exact E2.
        - rewrite map_app. simpl. apply NoDup_snoc; [exact I3 | exact E]. }
      destruct (IH _ _ _ I' H) as [Hi [Hincl Hb]]. split; [exact Hi|]. split.
      * intros en Hin. apply Hincl. apply in_app_iff. left. exact Hin.
      * intros y k' [Heq|Hin]; [|exact (Hb _ _ Hin)]. inversion Heq; subst.
        apply in_map_iff. exists (mk_entry y k' u). split; [reflexivity|]. apply Hincl. apply in_app_iff. right. left. reflexivity.
Qed.

Lemma inv_init : inv reserved [].
Proof. unfold inv. split; [intros ? []|]. split; constructor. Qed.

Lemma build_spec : forall es tm, build es = Some tm ->
  NoDup (map uname tm) /\ NoDup (map fname tm) /\
  (forall x k, In (x, k) (flat_map occs es) -> In x (map fname tm)).
Proof.
  intros es tm H. destruct (build_from_spec _ _ _ _ inv_init H) as [[used' [_ [N1 N2]]] [_ Hb]]. auto.
Qed.

Definition accnames (acc : option sexpr) : list string := match acc with Some c => snames c | None => [] end.

Lemma snames_wrap : forall s acc L, incl (snames s) L -> incl (snames (wrap s acc)) (L ++ accnames acc).
Proof.
  intros s [c|] L H; simpl.
  - apply incl_app_app; [exact H | apply incl_refl].
  - rewrite app_nil_r. exact H.
Qed.

Lemma snames_triple : forall l, incl (flat_map snames (triple l)) (flat_map snames l).
Proof.
  induction l as [|s l IH]; [apply incl_refl|]. unfold triple in *. simpl.
  repeat apply incl_app; [apply incl_appl, incl_refl | apply incl_appl, incl_refl | apply incl_appr, IH].
Qed.

Lemma snames_trx : forall fixed e acc, incl (snames (trx fixed e acc)) (map fst (occs e) ++ accnames acc).
Proof.
  intros fixed e.
  (* at the top of an expression no exponent stands to its right *)
  assert (forall a, (forall acc, incl (snames (trx fixed a acc)) (map fst (occs a) ++ accnames acc)) ->
                    incl (snames (trx fixed a None)) (map fst (occs a))) as Top
    by (intros a H; rewrite <- (app_nil_r (map fst (occs a))); exact (H None)).
  induction e as [z|y|a IH|o a b IHa IHb|f args IH] using expr_ind2; intro acc; cbn [trx].
  - apply (snames_wrap _ _ []), incl_refl.
  - apply (snames_wrap _ _ [y]), incl_refl.
  - apply snames_wrap. cbn [snames occs]. apply Top, IH.
  - assert (forall acc', incl (snames (wrap (SBin o (trx fixed a None) (trx fixed b None)) acc'))
                              (map fst (occs (EBin o a b)) ++ accnames acc')) as Node.
    { intro acc'. apply snames_wrap. cbn [snames occs]. rewrite map_app.
      apply incl_app_app; apply Top; assumption. }
    destruct o; try exact (Node acc). destruct fixed; [exact (Node acc)|].
    cbn [occs]. rewrite map_app, <- app_assoc.
    eapply incl_tran; [apply IHa|]. apply incl_app_app; [apply incl_refl|].
    apply snames_wrap, Top, IHb.
  - apply snames_wrap. cbn [snames occs]. rewrite map_app. apply incl_app_app.
    + destruct f; apply incl_refl.
    + apply incl_tran with (flat_map snames (map (fun a => trx fixed a None) args)).
      * destruct f; try apply incl_refl. apply snames_triple.
      * induction IH as [|a args Ha _ IHl]; simpl; [apply incl_refl|].
        rewrite map_app. apply incl_app_app; [apply Top, Ha | exact IHl].
Qed.

(* every name occurring in tr e is bound by the map of e *)
Theorem type_map_total_ : forall fixed e tm, build [e] = Some tm ->
  forall x, In x (snames (tr fixed e)) -> has_fname tm x = true.
Proof.
  intros fixed e tm H x Hx. destruct (build_spec _ _ H) as [_ [_ Hb]].
  apply (snames_trx fixed e None) in Hx. rewrite app_nil_r in Hx.
  apply in_map_iff in Hx as [[y k] [E G]]. simpl in E. subst y.
  destruct (has_fname_spec tm x) as [_|N]; [reflexivity|].
  exfalso. apply N, (Hb x k). simpl. rewrite app_nil_r. exact G.
Qed.

Lemma NoDup_map_inj {A B} (f : A -> B) : forall l a b, NoDup (map f l) -> In a l -> In b l -> f a = f b -> a = b.
Proof.
  induction l as [|y l IH]; intros a b N Ia Ib E; [destruct Ia|].
  simpl in N. inversion N as [|? ? Hn N']; subst. destruct Ia as [Ia|Ia], Ib as [Ib|Ib]; subst.
  - reflexivity.
  - exfalso. apply Hn. rewrite E. apply in_map. exact Ib.
  - exfalso. apply Hn. rewrite <- E. apply in_map. exact Ia.
  - exact (IH a b N' Ia Ib E).
Qed.

(* distinct Fortran names get distinct names in the text and distinct sympy objects *)
Theorem type_map_injective_ : forall es tm, build es = Some tm ->
  forall e1 e2, In e1 tm -> In e2 tm -> fname e1 <> fname e2 ->
  uname e1 <> uname e2 /\ (ekind e1, sname e1) <> (ekind e2, sname e2).
Proof.
  intros es tm H e1 e2 I1 I2 D. destruct (build_spec _ _ H) as [N1 _].
  assert (uname e1 <> uname e2) as U.
  { intro E. apply D. rewrite (NoDup_map_inj uname tm e1 e2 N1 I1 I2 E). reflexivity. }
  split; [exact U|]. unfold sname. intro E.
  destruct (ekind e1), (ekind e2); inversion E; congruence.
Qed.

Lemma orig_uniq : forall tm a, NoDup (map uname tm) -> has_fname tm a = true -> orig tm (uniq tm a) = a.
Proof.
  intros tm a N H. unfold uniq.
  destruct (find (fun en => String.eqb (fname en) a) tm) as [en|] eqn:F.
  - apply find_some in F as [I E]. apply String.eqb_eq in E. unfold orig.
    destruct (find (fun en0 => String.eqb (uname en0) (uname en)) tm) as [en'|] eqn:F'.
    + apply find_some in F' as [I' E']. apply String.eqb_eq in E'.
      rewrite (NoDup_map_inj uname tm en' en N I' I E'). exact E.
    + exfalso. pose proof (find_none _ _ F' en I) as X. simpl in X. rewrite String.eqb_refl in X. discriminate.
  - exfalso. unfold has_fname in H. apply existsb_exists in H as [en [I E]].
    pose proof (find_none _ _ F en I) as X. simpl in X. congruence.
Qed.

Lemma seval_obj : forall tm V s, NoDup (map uname tm) ->
  (forall x, In x (snames s) -> has_fname tm x = true) ->
  seval (renv tm V) (obj tm s) = seval V s.
Proof.
  intros tm V s N. induction s as [z|y|a IH|o a b IHa IHb|f args IH] using sexpr_ind2; intro B.
  - reflexivity.
  - reflexivity.
  - cbn [obj seval]. rewrite IH; [reflexivity | exact B].
  - cbn [obj seval]. rewrite IHa, IHb; [reflexivity | |]; intros x Hx; apply B; simpl; apply in_app_iff; auto.
  - cbn [obj seval].
    assert (map (seval (renv tm V)) (map (obj tm) args) = map (seval V) args) as M.
    { assert (forall x, In x (flat_map snames args) -> has_fname tm x = true) as B'
        by (intros x Hx; apply B; cbn [snames]; apply in_app_iff; right; exact Hx).
      clear B. induction IH as [|a args Ha _ IHl]; [reflexivity|]. simpl.
      rewrite Ha, IHl; [reflexivity | |]; intros x Hx; apply B'; simpl; apply in_app_iff; auto. }
    rewrite M. destruct (sequence (map (seval V) args)) as [qs|]; [|reflexivity].
    destruct f; try reflexivity. cbn [qscall renv qfun].
    rewrite orig_uniq; [reflexivity | exact N | apply B; simpl; left; reflexivity].
Qed.

(* tr_exact_ composed with the renaming *)
Theorem renaming_preserves_value_ : forall fixed e tm, in_frag fixed e = true -> build [e] = Some tm ->
  forall E, oeq (seval (renv tm (qenv_of E)) (obj tm (tr fixed e))) (option_map inject_Z (feval E e)).
Proof.
  intros fixed e tm F H E. destruct (build_spec _ _ H) as [N _].
  rewrite (seval_obj tm (qenv_of E) (tr fixed e) N (type_map_total_ fixed e tm H)).
  exact (proj2 (tr_exact_ fixed e F E)).
Qed.

Open Scope string_scope.
Open Scope Z_scope.
(* lambda + MAX(pi - 3, 1) * re(lambda) *)
Definition tm_ex : expr :=
  EBin Add (EVar "lambda")
       (EBin Mul (ECall FMax [EBin Sub (EVar "pi") (ELit 3); ELit 1]) (ECall (FArr "re") [EVar "lambda"])).
Definition tm_ex_map : tmap :=
  [mk_entry "lambda" KSym "lambda_1"; mk_entry "pi" KSym "pi"; mk_entry "re" KFun "re"].
Example type_map_nonvacuous :
  build [tm_ex] = Some tm_ex_map /\ in_frag false tm_ex = true /\
  build [ECall (FArr "while") [EVar "lambda_1"; EVar "lambda"]]
  = Some [mk_entry "while" KFun "while_1"; mk_entry "lambda_1" KSym "lambda_1"; mk_entry "lambda" KSym "lambda_2"] /\
  feval (mk_env 0 [("pi", 5); ("lambda", 2)]) tm_ex = Some (2 + 2 * std_arr 0 "re" [2]) /\
  oeqb (seval (renv tm_ex_map (qenv_of (mk_env 0 [("pi", 5); ("lambda", 2)]))) (obj tm_ex_map (tr false tm_ex)))
       (Some (inject_Z (2 + 2 * std_arr 0 "re" [2]))) = true.
Proof. vm_compute. repeat split; reflexivity. Qed.
