(* C17 — proofs about the safe fragment: the translation is exact there, hence every verdict of a
   SOUND sympy (Section hypotheses) is a fact of Fortran integer arithmetic.  Then the closed
   instances of those hypotheses: the polynomial normaliser, its expansion, the structural reader. *)
From Coq Require Import List ZArith QArith Qround Qpower Bool String Lia Setoid.
Import ListNotations.
From PV Require Import C17.Model.
Open Scope Z_scope.

Section ExprInd.
  Variable P : expr -> Prop.
  Hypothesis HLit : forall z, P (ELit z).
  Hypothesis HVar : forall x, P (EVar x).
  Hypothesis HNeg : forall a, P a -> P (ENeg a).
  Hypothesis HBin : forall o a b, P a -> P b -> P (EBin o a b).
  Hypothesis HCall : forall f args, Forall P args -> P (ECall f args).
  Fixpoint expr_ind2 (e : expr) : P e :=
    match e with
    | ELit z => HLit z
    | EVar x => HVar x
    | ENeg a => HNeg a (expr_ind2 a)
    | EBin o a b => HBin o a b (expr_ind2 a) (expr_ind2 b)
    | ECall f args =>
        HCall f args ((fix go (l : list expr) : Forall P l :=
                         match l with
                         | [] => Forall_nil P
                         | x :: r => Forall_cons x (expr_ind2 x) (go r)
                         end) args)
    end.
End ExprInd.

Section SexprInd.
  Variable P : sexpr -> Prop.
  Hypothesis HInt : forall z, P (SInt z).
  Hypothesis HVar : forall x, P (SVar x).
  Hypothesis HNeg : forall a, P a -> P (SNeg a).
  Hypothesis HBin : forall o a b, P a -> P b -> P (SBin o a b).
  Hypothesis HCall : forall f args, Forall P args -> P (SCall f args).
  Fixpoint sexpr_ind2 (e : sexpr) : P e :=
    match e with
    | SInt z => HInt z
    | SVar x => HVar x
    | SNeg a => HNeg a (sexpr_ind2 a)
    | SBin o a b => HBin o a b (sexpr_ind2 a) (sexpr_ind2 b)
    | SCall f args =>
        HCall f args ((fix go (l : list sexpr) : Forall P l :=
                         match l with
                         | [] => Forall_nil P
                         | x :: r => Forall_cons x (sexpr_ind2 x) (go r)
                         end) args)
    end.
End SexprInd.

Lemma oeq_refl : forall a, oeq a a.
Proof. intros [q|]; simpl; [reflexivity | exact I]. Qed.
Lemma oeq_sym : forall a b, oeq a b -> oeq b a.
Proof. intros [x|] [y|]; simpl; intro H; try exact H; symmetry; exact H. Qed.
Lemma oeq_trans : forall a b c, oeq a b -> oeq b c -> oeq a c.
Proof.
  intros [x|] [y|] [z|]; simpl; intros H1 H2; try contradiction; try exact I.
  rewrite H1; exact H2.
Qed.

Lemma sequence_map_some {A B} (f : A -> option B) (g : A -> B) (l : list A) :
  Forall (fun a => f a = Some (g a)) l -> sequence (map f l) = Some (map g l).
Proof.
  induction 1 as [|a l Ha _ IH]; simpl; [reflexivity|]. rewrite Ha, IH. reflexivity.
Qed.

Lemma sequence_some_inv {A B} (f : A -> option B) (l : list A) (r : list B) :
  sequence (map f l) = Some r -> Forall2 (fun a b => f a = Some b) l r.
Proof.
  revert r; induction l as [|a l IH]; simpl; intros r H.
  - inversion H; constructor.
  - destruct (f a) as [b|] eqn:Ea; [|discriminate].
    destruct (sequence (map f l)) as [r'|] eqn:Er; [|discriminate].
    inversion H; subst. constructor; [exact Ea | apply IH; reflexivity].
Qed.

Lemma destride_triple : forall zs, destride (flat_map (fun z => [z; z; 1]) zs) = zs.
Proof. induction zs as [|z zs IH]; simpl; [reflexivity | rewrite IH; reflexivity]. Qed.

(* the rational [q] is the integer [z]: on such rationals sympy's operations are the integer ones *)
Definition qz (q : Q) (z : Z) : Prop := (q == inject_Z z)%Q.

Lemma qz_Z z : qz (inject_Z z) z.
Proof. unfold qz. reflexivity. Qed.
Lemma qz_inj q x y : qz q x -> qz q y -> x = y.
Proof. unfold qz. intros Hx Hy. rewrite Hx in Hy. exact (proj1 (inject_Z_injective x y) Hy). Qed.
Lemma qz_same q1 q2 z : qz q1 z -> qz q2 z -> (q1 == q2)%Q.
Proof. unfold qz. intros H1 H2. rewrite H1, H2. reflexivity. Qed.
Lemma qz_opp q x : qz q x -> qz (- q)%Q (- x).
Proof. unfold qz. intros H. rewrite inject_Z_opp, H. reflexivity. Qed.
Lemma qz_add q1 q2 x y : qz q1 x -> qz q2 y -> qz (q1 + q2)%Q (x + y).
Proof. unfold qz. intros H1 H2. rewrite inject_Z_plus, H1, H2. reflexivity. Qed.
Lemma qz_sub q1 q2 x y : qz q1 x -> qz q2 y -> qz (q1 - q2)%Q (x - y).
Proof. intros H1 H2. exact (qz_add _ _ _ _ H1 (qz_opp _ _ H2)). Qed.
Lemma qz_mul q1 q2 x y : qz q1 x -> qz q2 y -> qz (q1 * q2)%Q (x * y).
Proof. unfold qz. intros H1 H2. rewrite inject_Z_mult, H1, H2. reflexivity. Qed.
Lemma qz_pow q x k : qz q x -> 0 <= k -> qz (Qpower q k) (x ^ k).
Proof.
  unfold qz. intros Hq Hk. destruct k as [|p|p]; [reflexivity | | lia].
  cbn [Qpower]. induction p as [|p IH] using Pos.peano_ind.
  - change (Qpower_positive q 1) with q. rewrite Z.pow_1_r. exact Hq.
  - rewrite Pos2Z.inj_succ, Z.pow_succ_r by lia.
    replace (Pos.succ p) with (1 + p)%positive by lia.
    rewrite Qpower_plus_positive, inject_Z_mult, IH by lia. change (Qpower_positive q 1) with q. rewrite Hq. reflexivity.
Qed.
Lemma qz_floor q z : qz q z -> q_is_int q = true /\ Qfloor q = z.
Proof.
  unfold qz. intros H. assert (Qfloor q = z) as F by (rewrite (Qfloor_comp _ _ H); apply Qfloor_Z).
  split; [|exact F]. unfold q_is_int. rewrite F. apply Qeq_bool_iff. symmetry; exact H.
Qed.
Lemma qz_floors qs zs : Forall2 qz qs zs -> map Qfloor qs = zs.
Proof.
  induction 1 as [|q z qs zs Hq _ IH]; simpl; [reflexivity|].
  rewrite IH, (proj2 (qz_floor q z Hq)). reflexivity.
Qed.

Lemma qz_le q1 q2 x y : qz q1 x -> qz q2 y -> Qle_bool q1 q2 = (x <=? y).
Proof.
  unfold qz. intros H1 H2. apply eq_true_iff_eq.
  rewrite Qle_bool_iff, Z.leb_le, H1, H2, <- Zle_Qle. reflexivity.
Qed.
Lemma qz_min q1 q2 x y : qz q1 x -> qz q2 y -> qz (qmin q1 q2) (Z.min x y).
Proof.
  intros H1 H2. unfold qmin. rewrite (qz_le _ _ _ _ H1 H2).
  destruct (Z.leb_spec x y); [rewrite Z.min_l by lia; exact H1 | rewrite Z.min_r by lia; exact H2].
Qed.
Lemma qz_max q1 q2 x y : qz q1 x -> qz q2 y -> qz (qmax q1 q2) (Z.max x y).
Proof.
  intros H1 H2. unfold qmax. rewrite (qz_le _ _ _ _ H1 H2).
  destruct (Z.leb_spec x y); [rewrite Z.max_r by lia; exact H2 | rewrite Z.max_l by lia; exact H1].
Qed.
Lemma qfold_zfold (fq : Q -> Q -> Q) (fz : Z -> Z -> Z) :
  (forall q1 q2 x y, qz q1 x -> qz q2 y -> qz (fq q1 q2) (fz x y)) ->
  forall qs zs z, Forall2 qz qs zs -> zfold fz zs = Some z -> exists q, qfold fq qs = Some q /\ qz q z.
Proof.
  intros Hf qs zs z [|q0 z0 qs' zs' H0 HF] H; simpl in H; [discriminate|]. inversion H; subst.
  eexists; split; [reflexivity|]. clear H. revert q0 z0 H0.
  induction HF as [|q' z' qs' zs' Hh _ IH]; simpl; intros q0 z0 H0; [exact H0|].
  apply IH, Hf; assumption.
Qed.

Lemma qsbin_zsbin o qa qb za zb z : qz qa za -> qz qb zb -> zsbin o za zb = Some z ->
  exists q, qsbin o qa qb = Some q /\ qz q z.
Proof.
  intros Ha Hb H. destruct o; cbn [zsbin] in H; cbn [qsbin].
  - inversion H; subst. eexists; split; [reflexivity | apply qz_add; assumption].
  - inversion H; subst. eexists; split; [reflexivity | apply qz_sub; assumption].
  - inversion H; subst. eexists; split; [reflexivity | apply qz_mul; assumption].
  - discriminate.
  - destruct (0 <=? zb) eqn:Ez; [|discriminate]. inversion H; subst.
    destruct (qz_floor qb zb Hb) as [Hi Hf]. unfold qpow. rewrite Hi, Hf.
    apply Z.leb_le in Ez. replace (zb <? 0) with false by (symmetry; apply Z.ltb_ge; exact Ez). cbn [andb].
    eexists; split; [reflexivity | apply qz_pow; assumption].
Qed.

Lemma qscall_zscall E f qs zs z : Forall2 qz qs zs -> zscall E f zs = Some z ->
  exists q, qscall (liftQ E) f qs = Some q /\ qz q z.
Proof.
  intros HF H. destruct f; cbn [zscall] in H; cbn [qscall].
  - exact (qfold_zfold qmin Z.min qz_min qs zs z HF H).
  - exact (qfold_zfold qmax Z.max qz_max qs zs z HF H).
  - discriminate.
  - inversion H; subst. eexists; split; [reflexivity|].
    cbn [liftQ qfun]. rewrite (qz_floors _ _ HF). apply qz_Z.
Qed.

(* where the integer semantics is defined, the rational one is, with the same value *)
Definition zq_agree (E : fenv) (s : sexpr) : Prop :=
  forall z, zseval E s = Some z -> exists q, seval (liftQ E) s = Some q /\ qz q z.

Lemma zq_agree_args E args : Forall (zq_agree E) args ->
  forall zs, sequence (map (zseval E) args) = Some zs ->
  exists qs, sequence (map (seval (liftQ E)) args) = Some qs /\ Forall2 qz qs zs.
Proof.
  induction 1 as [|a args Ha _ IHl]; intros zs Es; simpl in Es.
  - inversion Es; subst. exists []. split; [reflexivity | constructor].
  - destruct (zseval E a) as [za|] eqn:Ea; [|discriminate].
    destruct (sequence (map (zseval E) args)) as [zs'|] eqn:Es'; [|discriminate].
    inversion Es; subst. destruct (Ha za Ea) as [q [Hs Hq]].
    destruct (IHl zs' eq_refl) as [qs [Hqs HF]].
    exists (q :: qs). split; [simpl; rewrite Hs, Hqs; reflexivity | constructor; assumption].
Qed.

Lemma zseval_seval : forall E s, zq_agree E s.
Proof.
  intros E s. induction s as [k|x|a IH|o a b IHa IHb|f args IH] using sexpr_ind2; intros z H.
  - inversion H; subst. exists (inject_Z z). split; [reflexivity | apply qz_Z].
  - inversion H; subst. exists (inject_Z (fvar E x)). split; [reflexivity | apply qz_Z].
  - cbn [zseval] in H. destruct (zseval E a) as [za|] eqn:Ea; [|discriminate].
    inversion H; subst. destruct (IH za Ea) as [q [Hs Hq]].
    exists (- q)%Q. split; [cbn [seval]; rewrite Hs; reflexivity | apply qz_opp, Hq].
  - cbn [zseval] in H. destruct (zseval E a) as [za|] eqn:Ea; [|discriminate].
    destruct (zseval E b) as [zb|] eqn:Eb; [|discriminate].
    destruct (IHa za Ea) as [qa [Hsa Hqa]]. destruct (IHb zb Eb) as [qb [Hsb Hqb]].
    cbn [seval]. rewrite Hsa, Hsb. exact (qsbin_zsbin o qa qb za zb z Hqa Hqb H).
  - cbn [zseval] in H. destruct (sequence (map (zseval E) args)) as [zs|] eqn:Es; [|discriminate].
    destruct (zq_agree_args E args IH zs Es) as [qs [Hqs HF]].
    cbn [seval]. rewrite Hqs. exact (qscall_zscall E f qs zs z HF H).
Qed.

Definition powacc (E : fenv) (z : Z) (acc : option sexpr) : option Z :=
  match acc with
  | None => Some z
  | Some c => match zseval E c with Some k => zsbin Pow z k | None => None end
  end.

Lemma zseval_wrap : forall E s z acc, zseval E s = Some z -> zseval E (wrap s acc) = powacc E z acc.
Proof. intros E s z [c|] H; simpl; [rewrite H; reflexivity | exact H]. Qed.

Lemma zseval_triple : forall E ss zs, sequence (map (zseval E) ss) = Some zs ->
  sequence (map (zseval E) (triple ss)) = Some (flat_map (fun z => [z; z; 1]) zs).
Proof.
  intros E ss. induction ss as [|s ss IH]; intros zs H; cbn [map sequence] in H.
  - inversion H. reflexivity.
  - destruct (zseval E s) as [z|] eqn:Es; [|discriminate].
    destruct (sequence (map (zseval E) ss)) as [zs'|]; [|discriminate]. inversion H; subst.
    unfold triple in *. cbn [flat_map app map sequence zseval]. rewrite Es, (IH zs' eq_refl). reflexivity.
Qed.

(* [e] has the Fortran value [z], and so has its translation, also as the base of a chain of "**" with
   exponent [acc] (for the unchanged writer: unless [e] is itself a power) *)
Definition exact_val (fixed : bool) (E : fenv) (e : expr) (z : Z) : Prop :=
  feval E e = Some z /\
  forall acc, acc = None \/ fixed = true \/ is_pow e = false ->
              zseval (senv_of E) (trx fixed e acc) = powacc (senv_of E) z acc.

Lemma exact_val_top : forall fixed E e z, exact_val fixed E e z ->
  zseval (senv_of E) (trx fixed e None) = Some z.
Proof. intros fixed E e z [_ H]. exact (H None (or_introl eq_refl)). Qed.

(* a node that is written as itself, [s], whatever stands to its right *)
Lemma exact_val_node : forall fixed E e s z, (forall acc, trx fixed e acc = wrap s acc) ->
  feval E e = Some z -> zseval (senv_of E) s = Some z -> exact_val fixed E e z.
Proof. intros fixed E e s z T Hf Hs. split; [exact Hf|]. intros acc _. rewrite T. apply zseval_wrap, Hs. Qed.

Lemma exact_val_args : forall fixed E l,
  Forall (fun e => in_frag fixed e = true -> exists z, exact_val fixed E e z) l ->
  forallb (in_frag fixed) l = true ->
  exists zs, sequence (map (feval E) l) = Some zs /\
             sequence (map (zseval (senv_of E)) (map (fun a => trx fixed a None) l)) = Some zs /\
             List.length zs = List.length l.
Proof.
  intros fixed E l. induction 1 as [|a l Ha _ IHl]; intro Fl.
  - exists []. repeat split; reflexivity.
  - cbn [forallb] in Fl. apply andb_true_iff in Fl as [Fa Fl].
    destruct (Ha Fa) as [za Hza]. destruct (IHl Fl) as [zs [H1 [H2 H3]]].
    exists (za :: zs). cbn [map sequence]. rewrite (proj1 Hza), H1, (exact_val_top _ _ _ _ Hza), H2.
    repeat split; try reflexivity. simpl; rewrite H3; reflexivity.
Qed.

(* "**" with a non-negative literal exponent.  The unchanged writer makes the exponent join the
   chain to the right of the base, which is no power; a power node itself is never the base of a chain *)
Lemma exact_val_pow fixed E a k za : exact_val fixed E a za -> (0 <=? k) = true ->
  fixed || negb (is_pow a) = true -> exact_val fixed E (EBin Pow a (ELit k)) (za ^ k).
Proof.
  intros [Hfa Hza] Fl Fq.
  assert (feval E (EBin Pow a (ELit k)) = Some (za ^ k)) as Hf
    by (cbn [feval]; rewrite Hfa; cbn [fbin]; unfold fpow; rewrite Fl; reflexivity).
  destruct fixed.
  - apply exact_val_node with (SBin Pow (trx true a None) (SInt k)); [reflexivity | exact Hf |].
    cbn [zseval]. rewrite (Hza None (or_introl eq_refl)). cbn [zsbin]. rewrite Fl. reflexivity.
  - cbn [orb negb] in Fq. apply negb_true_iff in Fq. split; [exact Hf|].
    intros acc [-> | [Hacc | Hacc]]; [| discriminate | discriminate].
    cbn [trx wrap]. rewrite (Hza (Some (SInt k)) (or_intror (or_intror Fq))).
    cbn [powacc zseval zsbin]. rewrite Fl. reflexivity.
Qed.

Lemma trx_exact : forall fixed E e, in_frag fixed e = true -> exists z, exact_val fixed E e z.
Proof.
  intros fixed E e. induction e as [k|x|a IH|o a b IHa IHb|f args IH] using expr_ind2; intro F.
  - exists k. apply exact_val_node with (SInt k); reflexivity.
  - exists (fvar E x). apply exact_val_node with (SVar x); reflexivity.
  - cbn [in_frag] in F. destruct (IH F) as [za Ha]. exists (- za).
    apply exact_val_node with (SNeg (trx fixed a None)); [reflexivity | |].
    + cbn [feval]. rewrite (proj1 Ha). reflexivity.
    + cbn [zseval]. rewrite (exact_val_top _ _ _ _ Ha). reflexivity.
  - destruct o; cbn [in_frag] in F; [| | | discriminate |].
    (* + - * : the same operator, with the same meaning, on both sides *)
    1-3: apply andb_true_iff in F as [Fa Fb]; destruct (IHa Fa) as [za Ha]; destruct (IHb Fb) as [zb Hb];
         eexists; eapply exact_val_node;
         [ intro acc; cbn [trx]; reflexivity
         | cbn [feval]; rewrite (proj1 Ha), (proj1 Hb); reflexivity
         | cbn [zseval]; rewrite (exact_val_top _ _ _ _ Ha), (exact_val_top _ _ _ _ Hb); reflexivity ].
    (* "**" with a literal exponent *)
    apply andb_true_iff in F as [F Fq]. apply andb_true_iff in F as [Fa Fl].
    destruct b as [k| | | |]; cbn [nonneg_lit] in Fl; try discriminate.
    destruct (IHa Fa) as [za Hza]. exists (za ^ k). exact (exact_val_pow fixed E a k za Hza Fl Fq).
  - destruct f; cbn [in_frag] in F; [| | discriminate |].
    (* MIN, MAX: the same fold on both sides, defined because there is an argument *)
    1-2: apply andb_true_iff in F as [Fn Fl];
         destruct (exact_val_args fixed E args IH Fl) as [[|z0 zs] [H1 [H2 H3]]]; [destruct args; discriminate|];
         eexists; eapply exact_val_node;
         [ intro acc; cbn [trx]; reflexivity
         | cbn [feval]; rewrite H1; reflexivity
         | cbn [zseval trf trargs]; rewrite H2; reflexivity ].
    (* array element: [senv_of] undoes the index triples *)
    destruct (exact_val_args fixed E args IH F) as [zs [H1 [H2 _]]]. exists (farr E name zs).
    eapply exact_val_node; [intro acc; cbn [trx]; reflexivity | cbn [feval]; rewrite H1; reflexivity |].
    cbn [zseval trf trargs]. rewrite (zseval_triple _ _ _ H2). cbn [zscall senv_of farr].
    rewrite destride_triple. reflexivity.
Qed.

Lemma frag_value : forall fixed e, in_frag fixed e = true -> forall E,
  exists z q, feval E e = Some z /\ seval (qenv_of E) (tr fixed e) = Some q /\ qz q z.
Proof.
  intros fixed e F E. destruct (trx_exact fixed E e F) as [z Hz].
  destruct (zseval_seval _ _ _ (exact_val_top _ _ _ _ Hz)) as [q [Hs Hq]].
  exists z, q. split; [exact (proj1 Hz) | split; assumption].
Qed.

(* on the fragment the sympy value of the translation is the injected Fortran value *)
Lemma tr_exact_ : forall fixed e, in_frag fixed e = true ->
  forall E, feval E e <> None /\
            oeq (seval (qenv_of E) (tr fixed e)) (option_map inject_Z (feval E e)).
Proof.
  intros fixed e F E. destruct (frag_value fixed e F E) as [z [q [Hf [Hs Hq]]]].
  rewrite Hf, Hs. split; [discriminate | exact Hq].
Qed.

Definition simplify_sound (orc : sexpr -> option Z) : Prop :=
  forall s k, orc s = Some k ->
  forall E q, seval (liftQ E) s = Some q -> (q == inject_Z k)%Q.

Definition solveset_sound (osolve : sexpr -> string -> option (list sexpr)) : Prop :=
  forall s x sols, osolve s x = Some sols -> forall sol, In sol sols ->
  forall E z, oeq (seval (liftQ E) sol) (Some (inject_Z z)) ->
  forall q, seval (liftQ (upd E x z)) s = Some q -> (q == 0)%Q.

Definition expand_sound (oexpand : sexpr -> sexpr) : Prop :=
  forall s E q, seval (liftQ E) s = Some q -> oeq (seval (liftQ E) (oexpand s)) (Some q).

(* reading the printed sympy expression back gives a PSyIR expression which, written for sympy
   again, has the value of the printed expression *)
Definition reader_faithful (fixed : bool) (reader : sexpr -> option expr) : Prop :=
  forall s e', reader s = Some e' ->
  forall E, oeq (seval (qenv_of E) (tr fixed e')) (seval (qenv_of E) s).

Section Oracle.
  Variable fixed : bool.
  Variable oracle_const : sexpr -> option Z.
  Hypothesis sympy_simplify_sound : simplify_sound oracle_const.
  Variable oracle_solve : sexpr -> string -> option (list sexpr).
  Hypothesis sympy_solveset_sound : solveset_sound oracle_solve.
  Variable oracle_expand : sexpr -> sexpr.
  Hypothesis sympy_expand_sound : expand_sound oracle_expand.
  Variable reader : sexpr -> option expr.
  Hypothesis sympy_reader_faithful : reader_faithful fixed reader.

  Lemma diff_value : forall a b, in_frag fixed a = true -> in_frag fixed b = true -> forall E,
    exists za zb q, feval E a = Some za /\ feval E b = Some zb /\
                    seval (qenv_of E) (sdiff fixed a b) = Some q /\ qz q (za - zb).
  Proof.
    intros a b Fa Fb E.
    destruct (frag_value fixed a Fa E) as [za [qa [Ha [Hsa Hqa]]]].
    destruct (frag_value fixed b Fb E) as [zb [qb [Hb [Hsb Hqb]]]].
    exists za, zb, (qa - qb)%Q. repeat split; try assumption.
    - unfold sdiff. cbn [seval]. rewrite Hsa, Hsb. reflexivity.
    - apply qz_sub; assumption.
  Qed.

  (* a constant answer of simplify is the difference of the Fortran values *)
  Lemma diff_const : forall a b k, in_frag fixed a = true -> in_frag fixed b = true ->
    oracle_const (sdiff fixed a b) = Some k ->
    forall E, exists za zb, feval E a = Some za /\ feval E b = Some zb /\ za - zb = k.
  Proof.
    intros a b k Fa Fb Ek E.
    destruct (diff_value a b Fa Fb E) as [za [zb [q [Ha [Hb [Hs Hq]]]]]]. exists za, zb.
    split; [exact Ha|]. split; [exact Hb|].
    exact (qz_inj q _ _ Hq (sympy_simplify_sound _ _ Ek (senv_of E) q Hs)).
  Qed.

  Theorem equal_sound_partial_ : forall a b, in_frag fixed a = true -> in_frag fixed b = true ->
    equal_m oracle_const fixed a b = true -> forall E, feval E a = feval E b.
  Proof.
    intros a b Fa Fb H E. unfold equal_m in H.
    destruct (oracle_const (sdiff fixed a b)) as [k|] eqn:Ek; [|discriminate]. apply Z.eqb_eq in H.
    destruct (diff_const a b k Fa Fb Ek E) as [za [zb [Ha [Hb D]]]]. rewrite Ha, Hb. f_equal. lia.
  Qed.

  Theorem never_equal_sound_partial_ : forall a b, in_frag fixed a = true -> in_frag fixed b = true ->
    never_equal_m oracle_const fixed a b = true -> forall E, feval E a <> feval E b.
  Proof.
    intros a b Fa Fb H E. unfold never_equal_m in H.
    destruct (oracle_const (sdiff fixed a b)) as [k|] eqn:Ek; [|discriminate].
    apply negb_true_iff, Z.eqb_neq in H.
    destruct (diff_const a b k Fa Fb Ek E) as [za [zb [Ha [Hb D]]]]. rewrite Ha, Hb. intro C. inversion C. lia.
  Qed.

  Theorem solutions_are_solutions_partial_ : forall a b x sols sol z,
    in_frag fixed a = true -> in_frag fixed b = true ->
    solve_m oracle_solve fixed a b x = Some sols -> In sol sols ->
    forall E, oeq (seval (qenv_of E) sol) (Some (inject_Z z)) ->
    feval (upd E x z) a = feval (upd E x z) b.
  Proof.
    intros a b x sols sol z Fa Fb Hs Hin E Hv. unfold solve_m in Hs.
    destruct (diff_value a b Fa Fb (upd E x z)) as [za [zb [q [Ha [Hb [Hq1 Hq2]]]]]].
    pose proof (qz_inj q _ 0 Hq2 (sympy_solveset_sound _ _ _ Hs sol Hin (senv_of E) z Hv q Hq1)) as D.
    rewrite Ha, Hb. f_equal. lia.
  Qed.

  Theorem expand_preserves_partial_ : forall e e', in_frag fixed e = true ->
    expand_m oracle_expand reader fixed e = Some e' -> in_frag fixed e' = true ->
    forall E, feval E e' = feval E e.
  Proof.
    intros e e' Fe H Fe' E. unfold expand_m in H.
    destruct (frag_value fixed e Fe E) as [z [q [Hz [Hs Hq]]]].
    destruct (frag_value fixed e' Fe' E) as [z' [q' [Hz' [Hs' Hq']]]].
    pose proof (sympy_expand_sound _ _ _ Hs) as X.
    pose proof (sympy_reader_faithful _ _ H E) as R.
    unfold qenv_of in *. rewrite Hs' in R.
    pose proof (oeq_trans _ _ _ R X) as T. simpl in T.
    rewrite Hz, Hz'. f_equal. apply (qz_inj q' z' z Hq'). unfold qz. rewrite T. exact Hq.
  Qed.
End Oracle.

Lemma meval_sinsert : forall E x m, meval E (sinsert x m) = fvar E x * meval E m.
Proof.
  intros E x m. induction m as [|y r IH]; simpl; [reflexivity|].
  destruct (String.leb x y); simpl; [reflexivity|]. fold (meval E (sinsert x r)). rewrite IH.
  fold (meval E r). ring.
Qed.
Lemma meval_mmul : forall E a b, meval E (mmul a b) = meval E a * meval E b.
Proof.
  intros E a b. induction a as [|x a IH]; simpl.
  - destruct (meval E b); reflexivity.
  - fold (mmul a b). rewrite meval_sinsert, IH. fold (meval E a). ring.
Qed.
Lemma mono_eqb_eq : forall a b, mono_eqb a b = true -> a = b.
Proof.
  induction a as [|x a IH]; intros [|y b] H; simpl in H; try discriminate; [reflexivity|].
  apply andb_true_iff in H as [H1 H2]. apply String.eqb_eq in H1. rewrite (IH b H2), H1. reflexivity.
Qed.

Lemma peval_cons : forall E m c p, peval E ((m, c) :: p) = c * meval E m + peval E p.
Proof. reflexivity. Qed.

Lemma peval_pinsert : forall E m c p, peval E (pinsert m c p) = c * meval E m + peval E p.
Proof.
  intros E m c p. induction p as [|[m' c'] r IH]; cbn [pinsert].
  - destruct (c =? 0) eqn:Ec; [apply Z.eqb_eq in Ec; subst; simpl; ring | simpl; ring].
  - destruct (mono_eqb m m') eqn:Em.
    + apply mono_eqb_eq in Em; subst m'. destruct (c + c' =? 0) eqn:Es.
      * apply Z.eqb_eq in Es. rewrite peval_cons.
        replace (c * meval E m + (c' * meval E m + peval E r))
          with ((c + c') * meval E m + peval E r) by ring. rewrite Es. ring.
      * rewrite !peval_cons. ring.
    + destruct (mono_le m m').
      * destruct (c =? 0) eqn:Ec; [apply Z.eqb_eq in Ec; subst; ring | rewrite !peval_cons; ring].
      * rewrite !peval_cons, IH. ring.
Qed.
Lemma peval_padd : forall E p q, peval E (padd p q) = peval E p + peval E q.
Proof.
  intros E p q. induction p as [|[m c] r IH]; cbn [padd fold_right]; [simpl; ring|].
  fold (padd r q). cbn [fst snd]. rewrite peval_pinsert, IH, peval_cons. ring.
Qed.
Lemma peval_pneg : forall E p, peval E (pneg p) = - peval E p.
Proof.
  intros E p. induction p as [|[m c] r IH]; [reflexivity|].
  cbn [pneg map fst snd]. fold (pneg r). rewrite !peval_cons, IH. ring.
Qed.
Lemma peval_pmul1 : forall E m c q acc,
  peval E (pmul1 m c q acc) = c * meval E m * peval E q + peval E acc.
Proof.
  intros E m c q acc. induction q as [|[m' c'] r IH]; cbn [pmul1 fold_right]; [simpl; ring|].
  fold (pmul1 m c r acc). cbn [fst snd]. rewrite peval_pinsert, IH, meval_mmul, peval_cons. ring.
Qed.
Lemma peval_pmul : forall E p q, peval E (pmul p q) = peval E p * peval E q.
Proof.
  intros E p q. induction p as [|[m c] r IH]; cbn [pmul fold_right]; [simpl; ring|].
  fold (pmul r q). cbn [fst snd]. rewrite peval_pmul1, IH, peval_cons. ring.
Qed.
Lemma peval_pconst : forall E z, peval E (pconst z) = z.
Proof.
  intros E z. unfold pconst. destruct (z =? 0) eqn:Ez; [apply Z.eqb_eq in Ez; subst; reflexivity|].
  unfold peval, meval. cbn [fold_right fst snd]. ring.
Qed.
Lemma peval_pvar : forall E x, peval E (pvar x) = fvar E x.
Proof. intros E x. unfold pvar, peval, meval. cbn [fold_right fst snd]. ring. Qed.
Lemma peval_ppow : forall E p n, peval E (ppow p n) = peval E p ^ Z.of_nat n.
Proof.
  intros E p n. induction n as [|n IH].
  - cbn [ppow]. rewrite peval_pconst. reflexivity.
  - cbn [ppow]. rewrite peval_pmul, IH, Nat2Z.inj_succ, Z.pow_succ_r by lia. reflexivity.
Qed.
Lemma is_const_sound : forall E p k, is_const p = Some k -> peval E p = k.
Proof.
  intros E [|[[|x m] c] [|t r]] k H; simpl in H; try discriminate; inversion H; subst; simpl; ring.
Qed.

Lemma norm_sound : forall E s p, norm s = Some p -> zseval E s = Some (peval E p).
Proof.
  intros E s. induction s as [k|x|a IH|o a b IHa IHb|f args _] using sexpr_ind2; intros p H.
  - inversion H; subst. cbn [zseval]. rewrite peval_pconst. reflexivity.
  - inversion H; subst. cbn [zseval]. rewrite peval_pvar. reflexivity.
  - cbn [norm] in H. destruct (norm a) as [pa|]; [|discriminate]. inversion H; subst.
    cbn [zseval]. rewrite (IH pa eq_refl), peval_pneg. reflexivity.
  - cbn [norm] in H. destruct (norm a) as [pa|]; [|discriminate].
    destruct (norm b) as [pb|]; [|discriminate].
    cbn [zseval]. rewrite (IHa pa eq_refl), (IHb pb eq_refl).
    destruct o; cbn [zsbin].
    + inversion H; subst. rewrite peval_padd. reflexivity.
    + inversion H; subst. rewrite peval_padd, peval_pneg. reflexivity.
    + inversion H; subst. rewrite peval_pmul. reflexivity.
    + discriminate.
    + destruct (is_const pb) as [k|] eqn:Ek; [|discriminate].
      destruct ((0 <=? k) && (k <=? 64)) eqn:E01; [|discriminate]. inversion H; subst.
      apply andb_true_iff in E01 as [E0 _].
      rewrite (is_const_sound E pb k Ek), E0, peval_ppow, Z2Nat.id by (apply Z.leb_le; exact E0).
      reflexivity.
  - discriminate.
Qed.

Lemma zseval_reify_mono : forall E m, zseval E (reify_mono m) = Some (meval E m).
Proof.
  intros E m. induction m as [|x r IH]; [reflexivity|].
  destruct r as [|y r'].
  - simpl. f_equal. ring.
  - change (reify_mono (x :: y :: r')) with (SBin Mul (SVar x) (reify_mono (y :: r'))).
    cbn [zseval]. rewrite IH. reflexivity.
Qed.
Lemma zseval_reify_term : forall E m c, zseval E (reify_term m c) = Some (c * meval E m).
Proof.
  intros E [|x r] c.
  - simpl. f_equal. ring.
  - unfold reify_term. cbn [zseval]. rewrite zseval_reify_mono. reflexivity.
Qed.
Lemma zseval_reify : forall E p, zseval E (reify p) = Some (peval E p).
Proof.
  intros E p. induction p as [|[m c] r IH]; [reflexivity|].
  destruct r as [|t r'].
  - cbn [reify]. rewrite zseval_reify_term. simpl. f_equal. ring.
  - change (reify ((m, c) :: t :: r')) with (SBin Add (reify_term m c) (reify (t :: r'))).
    cbn [zseval]. rewrite zseval_reify_term, IH. reflexivity.
Qed.

Theorem poly_expand_sound_ : expand_sound poly_expand.
Proof.
  intros s E q Hs. unfold poly_expand. destruct (norm s) as [p|] eqn:En.
  - pose proof (norm_sound E s p En) as Hz.
    destruct (zseval_seval _ _ _ Hz) as [q1 [Hs1 Hq1]]. rewrite Hs in Hs1. inversion Hs1; subst q1.
    destruct (zseval_seval _ _ _ (zseval_reify E p)) as [q2 [Hs2 Hq2]].
    rewrite Hs2. exact (qz_same q2 q _ Hq2 Hq1).
  - rewrite Hs. simpl. reflexivity.
Qed.

Lemma untr_frag : forall fixed s e, untr s = Some e -> in_frag fixed e = true.
Proof.
  intros fixed s. induction s as [k|x|a IH|o a b IHa IHb|f args _] using sexpr_ind2; intros e H.
  - inversion H; subst. destruct (0 <=? k) eqn:E0; cbn [in_frag]; [exact E0 | apply Z.leb_le; apply Z.leb_gt in E0; lia].
  - inversion H; subst. reflexivity.
  - cbn [untr] in H. destruct (untr a) as [x|]; [|discriminate]. inversion H; subst. cbn [in_frag]. auto.
  - cbn [untr] in H. destruct o; try discriminate;
      destruct (untr a) as [x|]; try discriminate; destruct (untr b) as [y|]; try discriminate;
      inversion H; subst; cbn [in_frag]; rewrite (IHa x eq_refl), (IHb y eq_refl); reflexivity.
  - discriminate.
Qed.

(* what [untr] reads has, as a Fortran expression, the integer value of what it read *)
Lemma untr_value : forall E s e, untr s = Some e -> feval E e = zseval (senv_of E) s.
Proof.
  intros E s. induction s as [k|x|a IH|o a b IHa IHb|f args _] using sexpr_ind2; intros e H; cbn [untr] in H.
  - inversion H; subst. destruct (0 <=? k); [reflexivity|]. cbn. rewrite Z.opp_involutive. reflexivity.
  - inversion H; subst. reflexivity.
  - destruct (untr a) as [x|]; [|discriminate]. inversion H; subst. cbn [feval zseval]. rewrite (IH x eq_refl). reflexivity.
  - destruct o; try discriminate;
      destruct (untr a) as [x|]; try discriminate; destruct (untr b) as [y|]; try discriminate;
      inversion H; subst; cbn [feval zseval]; rewrite (IHa x eq_refl), (IHb y eq_refl); reflexivity.
  - discriminate.
Qed.

Lemma untr_faithful_ : forall fixed, reader_faithful fixed untr.
Proof.
  intros fixed s e H E. destruct (frag_value fixed e (untr_frag fixed s e H) E) as [z [q [Hf [Hs Hq]]]].
  pose proof (untr_value E s e H) as Hz. rewrite Hf in Hz. symmetry in Hz.
  destruct (zseval_seval _ _ _ Hz) as [q' [Hs' Hq']].
  unfold qenv_of in *. rewrite Hs, Hs'. exact (qz_same q q' z Hq Hq').
Qed.
