(* C17 — the unique-name search always succeeds (pigeonhole), so the type map is total: [build] succeeds on
   expressions with < 968 name occurrences (fuel 1000 of the model minus the 32 reserved Python keywords). *)
From Coq Require Import List NArith String Ascii Lia FinFun.
Import ListNotations.
From PV Require Import C17.Model C17.Proofs C17.TypeMap C17.TypeMapProofs.
Local Open Scope nat_scope.
Local Open Scope list_scope.

Fixpoint nrange (fuel : nat) (k : N) : list N :=
  match fuel with O => [] | S f => k :: nrange f (N.succ k) end.

Lemma fresh_none_incl : forall fuel used x k, fresh_from fuel used x k = None ->
  incl (map (cand x) (nrange fuel k)) used.
Proof.
  induction fuel as [|f IH]; intros used x k H; simpl; [intros ? []|].
  simpl in H. destruct (mem_spec (cand x k) used) as [I|_]; [|discriminate].
  intros y [<-|Hy]; [exact I | exact (IH _ _ _ H y Hy)].
Qed.

Lemma nrange_length : forall fuel k, List.length (nrange fuel k) = fuel.
Proof. induction fuel as [|f IH]; intro k; simpl; [|rewrite IH]; reflexivity. Qed.
Lemma nrange_bounds : forall fuel k x, In x (nrange fuel k) -> (k <= x < k + N.of_nat fuel)%N.
Proof.
  induction fuel as [|f IH]; intros k x H; [destruct H|].
  destruct H as [<-|H]; [|apply IH in H]; lia.
Qed.
Lemma nrange_NoDup : forall fuel k, NoDup (nrange fuel k).
Proof.
  induction fuel as [|f IH]; intro k; constructor; [|apply IH].
  intro H. apply nrange_bounds in H. lia.
Qed.

(* [dec] has a left inverse, the reader of decimal numerals: [val_from s a] reads the digits of [s]
   after a numeral of value [a] *)
Fixpoint val_from (s : string) (a : N) : N :=
  match s with
  | EmptyString => a
  | String c r => val_from r (10 * a + (N_of_ascii c - 48))
  end.

Lemma val_digit : forall d, (d < 10)%N -> (N_of_ascii (digit d) - 48)%N = d.
Proof. intros d L. unfold digit. rewrite N_ascii_embedding; lia. Qed.

Lemma val_dec_fuel : forall fuel n acc, (n < 10 ^ N.of_nat fuel)%N ->
  val_from (dec_fuel fuel n acc) 0 = val_from acc n.
Proof.
  induction fuel as [|f IH]; intros n acc L.
  - replace n with 0%N by (simpl in L; lia). reflexivity.
  - pose proof (N.mod_lt n 10) as M. pose proof (N.div_mod n 10) as D.
    cbn [dec_fuel]. destruct (N.ltb_spec n 10) as [S|S].
    + cbn [val_from]. rewrite val_digit, N.mod_small by lia. reflexivity.
    + rewrite IH.
      * cbn [val_from]. rewrite val_digit by lia. f_equal. lia.
      * apply N.div_lt_upper_bound; [lia|]. rewrite Nat2N.inj_succ, N.pow_succ_r' in L. exact L.
Qed.

(* decimal numerals of distinct numbers are distinct: reading them gives the numbers back *)
Lemma dec_distinct : forall fuel k, (k + N.of_nat fuel <= 10 ^ 20)%N -> NoDup (map dec (nrange fuel k)).
Proof.
  intros fuel k B. apply (NoDup_map_inv (fun s => val_from s 0)). rewrite map_map.
  rewrite (map_ext_in _ (fun n => n)), map_id; [apply nrange_NoDup|].
  intros n H. apply nrange_bounds in H. apply (val_dec_fuel 20).
  apply N.lt_le_trans with (k + N.of_nat fuel)%N; [apply H | exact B].
Qed.

Lemma append_cancel_l : forall p s t, (p ++ s)%string = (p ++ t)%string -> s = t.
Proof. induction p as [|c p IH]; intros s t H; simpl in H; [exact H | inversion H; auto]. Qed.

Lemma cands_distinct : forall x fuel k, (k + N.of_nat fuel <= 10 ^ 20)%N -> NoDup (map (cand x) (nrange fuel k)).
Proof.
  intros x fuel k B. rewrite <- (map_map dec (fun s => (x ++ "_" ++ s)%string)).
  apply Injective_map_NoDup; [|exact (dec_distinct fuel k B)].
  intros s t H. apply append_cancel_l in H. simpl in H. inversion H. reflexivity.
Qed.

(* pigeonhole: with fewer names in use than candidates x_k, x_k+1, ... one of them is free, and the search finds it *)
Lemma fresh_from_succeeds : forall fuel used x k, List.length used < fuel ->
  (k + N.of_nat fuel <= 10 ^ 20)%N -> exists u, fresh_from fuel used x k = Some u.
Proof.
  intros fuel used x k L B. destruct (fresh_from fuel used x k) as [u|] eqn:E; [exists u; reflexivity|].
  pose proof (NoDup_incl_length (cands_distinct x fuel k B) (fresh_none_incl _ _ _ _ E)) as Len.
  rewrite map_length, nrange_length in Len. lia.
Qed.

Theorem unique_name_terminates_ : forall used base, List.length used < 1000 ->
  exists u, new_name used base = Some u /\ ~ In u used.
Proof.
  intros used base L. unfold new_name. destruct (mem_spec base used) as [_|N].
  - destruct (fresh_from_succeeds 1000 used base 1 L) as [u E]; [apply N.leb_le; reflexivity|].
    exists u. split; [exact E | exact (fresh_from_fresh _ _ _ _ _ E)].
  - exists base. split; [reflexivity | exact N].
Qed.

Lemma build_from_succeeds : forall l used tm, List.length used + List.length l < 1000 ->
  exists tm', build_from used tm l = Some tm'.
Proof.
  induction l as [|[x k] r IH]; intros used tm L; simpl; [eexists; reflexivity|].
  simpl in L. destruct (has_fname tm x); [apply IH; lia|].
  destruct (unique_name_terminates_ used x) as [u [E _]]; [lia|]. rewrite E. apply IH. simpl. lia.
Qed.

Theorem build_total_ : forall es, List.length (flat_map occs es) < 968 -> exists tm, build es = Some tm.
Proof.
  intros es L. unfold build. apply build_from_succeeds.
  assert (List.length reserved = 32) as R by reflexivity. lia.
Qed.

Lemma build_total1 : forall e, List.length (occs e) < 968 -> exists tm, build [e] = Some tm.
Proof. intros e L. apply build_total_. simpl. rewrite app_nil_r. exact L. Qed.
