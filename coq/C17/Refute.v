(* C17 — the full property is FALSE of the faithful model: concrete witnesses (replayed on the real
   implementation by props/C17/check.py), and non-vacuity examples for the partial theorems.

   Full statement (what properties.jsonl asks for, for `equal`):
     forall orc, simplify_sound orc -> forall a b, equal_m orc fixed a b = true ->
       forall E za zb, feval E a = Some za -> feval E b = Some zb -> za = zb.
   Each witness below comes with a SOUND oracle (its answer on the witness is a theorem of rational
   arithmetic, and it is the answer the real sympy gives) for which the conclusion fails: the
   [*_refuted] theorems of Properties/C17.v. *)
From Coq Require Import List ZArith QArith Qround Qfield Bool String.
Import ListNotations.
From PV Require Import C17.Model C17.Proofs.
Open Scope Z_scope.
Open Scope string_scope.

Lemma binop_eqb_eq : forall a b, binop_eqb a b = true -> a = b.
Proof. intros [] []; simpl; congruence. Qed.
Lemma sfn_eqb_eq : forall a b, sfn_eqb a b = true -> a = b.
Proof.
  intros [] []; simpl; try congruence. intro H. apply String.eqb_eq in H. congruence.
Qed.
Lemma sexpr_eqb_eq : forall a b, sexpr_eqb a b = true -> a = b.
Proof.
  induction a as [k|x|a IH|o a1 a2 IH1 IH2|f args IH] using sexpr_ind2; intros [k'|x'|b|o' b1 b2|g args'] H;
    cbn [sexpr_eqb] in H; try discriminate.
  - apply Z.eqb_eq in H. congruence.
  - apply String.eqb_eq in H. congruence.
  - rewrite (IH b H). reflexivity.
  - apply andb_true_iff in H as [H H2]. apply andb_true_iff in H as [Ho H1].
    rewrite (binop_eqb_eq _ _ Ho), (IH1 _ H1), (IH2 _ H2). reflexivity.
  - apply andb_true_iff in H as [Hf Hl]. rewrite (sfn_eqb_eq _ _ Hf). f_equal.
    clear Hf. revert args' Hl. induction IH as [|a args Ha _ IHl]; intros [|b args'] Hl; try discriminate.
    + reflexivity.
    + apply andb_true_iff in Hl as [H1 H2]. rewrite (Ha _ H1), (IHl _ H2). reflexivity.
Qed.
Lemma sexpr_eqb_refl : forall a, sexpr_eqb a a = true.
Proof.
  induction a as [k|x|a IH|o a1 a2 IH1 IH2|f args IH] using sexpr_ind2; cbn [sexpr_eqb].
  - apply Z.eqb_refl.
  - apply String.eqb_refl.
  - exact IH.
  - rewrite IH1, IH2. destruct o; reflexivity.
  - apply andb_true_iff. split; [destruct f; simpl; auto using String.eqb_refl|].
    induction IH as [|a args Ha _ IHl]; [reflexivity | rewrite Ha, IHl; reflexivity].
Qed.

Definition valid_const (w : sexpr) (k : Z) : Prop :=
  forall V q, seval V w = Some q -> (q == inject_Z k)%Q.
(* the oracle that only knows one (true) fact *)
Definition pt_oracle (w : sexpr) (k : Z) (s : sexpr) : option Z :=
  if sexpr_eqb s w then Some k else None.
Lemma pt_oracle_sound : forall w k, valid_const w k -> simplify_sound (pt_oracle w k).
Proof.
  intros w k Hv s k' H E q Hs. unfold pt_oracle in H.
  destruct (sexpr_eqb s w) eqn:Es; [|discriminate]. inversion H; subst k'.
  apply sexpr_eqb_eq in Es; subst s. exact (Hv _ _ Hs).
Qed.
Lemma pt_oracle_hit : forall w k, pt_oracle w k w = Some k.
Proof. intros; unfold pt_oracle; rewrite sexpr_eqb_refl; reflexivity. Qed.

Definition env1 (x : string) (z : Z) : fenv := mk_env 0 [(x, z)].
Definition vn := EVar "n".

(* n/2*2 against n.  Over Q the difference is 0 (sympy is right); Fortran: 1/2*2 = 0 <> 1. *)
Definition w_div_a := EBin Mul (EBin Div vn (ELit 2)) (ELit 2).
Definition w_div_b := vn.

Lemma w_div_valid : forall fixed, valid_const (sdiff fixed w_div_a w_div_b) 0.
Proof.
  intros fixed V q H.
  assert (seval V (sdiff fixed w_div_a w_div_b) = Some ((qvar V "n" / inject_Z 2) * inject_Z 2 - qvar V "n")%Q) as X
    by (destruct fixed; reflexivity).
  rewrite X in H. inversion H; subst q. change (inject_Z 0) with 0%Q. change (inject_Z 2) with 2%Q. field.
Qed.

(* n/2*2 + 1 against n: sympy's difference is the Integer 1, so never_equal; but at n = 1 both are 1 *)
Definition w_ndiv_a := EBin Add w_div_a (ELit 1).
Lemma w_ndiv_valid : forall fixed, valid_const (sdiff fixed w_ndiv_a w_div_b) 1.
Proof.
  intros fixed V q H.
  assert (seval V (sdiff fixed w_ndiv_a w_div_b)
          = Some ((qvar V "n" / inject_Z 2) * inject_Z 2 + inject_Z 1 - qvar V "n")%Q) as X
    by (destruct fixed; reflexivity).
  rewrite X in H. inversion H; subst q. change (inject_Z 1) with 1%Q. change (inject_Z 2) with 2%Q. field.
Qed.

(* MOD(-7,2): sympy's Mod(-7,2) = 1 (sign of the divisor), Fortran gives -1 (sign of the dividend) *)
Definition w_mod_a := ECall FMod [ENeg (ELit 7); ELit 2].
Definition w_mod_b := ELit 1.
Lemma w_mod_valid : forall fixed, valid_const (sdiff fixed w_mod_a w_mod_b) 0.
Proof.
  intros fixed V q H.
  destruct fixed; vm_compute in H; inversion H; reflexivity.
Qed.

(* (n**2)**3 is written "n ** 2 ** 3" = n**(2**3): equal to n**(2**3) for sympy, 64 <> 256 at n = 2 *)
Definition w_pow_a := EBin Pow (EBin Pow vn (ELit 2)) (ELit 3).
Definition w_pow_b := EBin Pow vn (EBin Pow (ELit 2) (ELit 3)).
Lemma w_pow_same : tr false w_pow_a = tr false w_pow_b.
Proof. reflexivity. Qed.
Lemma w_pow_valid : valid_const (sdiff false w_pow_a w_pow_b) 0.
Proof.
  intros V q H. unfold sdiff in H. rewrite w_pow_same in H. cbn [seval] in H.
  destruct (seval V (tr false w_pow_b)) as [x|]; [|discriminate].
  cbn [qsbin] in H. inversion H; subst q. change (inject_Z 0) with 0%Q. ring.
Qed.
(* a writer that brackets the left operand does not have the defect of w_pow_a: tr_exact_ covers it *)
Example pow_assoc_fixed_in_fragment : in_frag true w_pow_a = true /\ in_frag false w_pow_a = false.
Proof. split; reflexivity. Qed.

(* i/2*2 = 3 solved for i: over Q the solution is 3, but in Fortran 3/2*2 = 2 *)
Definition vi := EVar "i".
Definition w_sol_a := EBin Mul (EBin Div vi (ELit 2)) (ELit 2).
Definition w_sol_b := ELit 3.
Definition pt_solve (w : sexpr) (x : string) (sols : list sexpr) (s : sexpr) (y : string) :=
  if sexpr_eqb s w && String.eqb y x then Some sols else None.
Lemma pt_solve_sound : forall w x sols,
  (forall sol, In sol sols -> forall E z, oeq (seval (liftQ E) sol) (Some (inject_Z z)) ->
   forall q, seval (liftQ (upd E x z)) w = Some q -> (q == 0)%Q) ->
  solveset_sound (pt_solve w x sols).
Proof.
  intros w x sols Hv s y sols' H. unfold pt_solve in H.
  destruct (sexpr_eqb s w) eqn:Es; [|discriminate]. destruct (String.eqb y x) eqn:Ey; [|discriminate].
  apply sexpr_eqb_eq in Es. apply String.eqb_eq in Ey. inversion H; subst. exact Hv.
Qed.
Lemma w_sol_valid : forall fixed, solveset_sound (pt_solve (sdiff fixed w_sol_a w_sol_b) "i" [SInt 3]).
Proof.
  intro fixed. apply pt_solve_sound. intros sol [<-|[]] E z Hv q Hq.
  cbn [seval oeq] in Hv. apply (proj1 (inject_Z_injective _ _)) in Hv. subst z.
  destruct fixed; vm_compute in Hq; inversion Hq; reflexivity.
Qed.

(* MOD(-7,2)*(n+1) expands to n+1 (sympy evaluates Mod(-7,2) to 1); Fortran: -(n+1) *)
Definition w_exp := EBin Mul w_mod_a (EBin Add vn (ELit 1)).
Definition w_exp' := EBin Add vn (ELit 1).
Definition pt_expand (w w' : sexpr) (s : sexpr) : sexpr := if sexpr_eqb s w then w' else s.
Lemma w_exp_valid : forall fixed, expand_sound (pt_expand (tr fixed w_exp) (tr fixed w_exp')).
Proof.
  intros fixed s E q Hs. unfold pt_expand. destruct (sexpr_eqb s (tr fixed w_exp)) eqn:Es.
  - apply sexpr_eqb_eq in Es; subst s.
    assert (seval (liftQ E) (tr fixed w_exp) = Some (inject_Z 1 * (qvar (liftQ E) "n" + inject_Z 1))%Q) as X.
    { destruct fixed; unfold tr, w_exp, w_mod_a; cbn [trx wrap map trf trargs seval sequence option_map qscall].
      all: change (qmod (- inject_Z 7) (inject_Z 2)) with (Some (inject_Z 1)); reflexivity. }
    rewrite X in Hs. inversion Hs; subst q.
    assert (seval (liftQ E) (tr fixed w_exp') = Some (qvar (liftQ E) "n" + inject_Z 1)%Q) as Y
      by (destruct fixed; reflexivity).
    rewrite Y. simpl. change (inject_Z 1) with 1%Q. ring.
  - rewrite Hs. apply oeq_refl.
Qed.
Definition pt_reader (w' : sexpr) (e' : expr) (s : sexpr) : option expr :=
  if sexpr_eqb s w' then Some e' else None.
Lemma w_exp_reader : forall fixed, reader_faithful fixed (pt_reader (tr fixed w_exp') w_exp').
Proof.
  intros fixed s e' H E. unfold pt_reader in H.
  destruct (sexpr_eqb s (tr fixed w_exp')) eqn:Es; [|discriminate]. inversion H; subst e'.
  apply sexpr_eqb_eq in Es; subst s. apply oeq_refl.
Qed.

Definition vm := EVar "m".
Definition ex_a := EBin Mul (EBin Add vn vm) (EBin Sub vn vm).              (* (n+m)*(n-m) *)
Definition ex_b := EBin Sub (EBin Pow vn (ELit 2)) (EBin Mul vm vm).        (* n**2 - m*m *)
(* MAX(a(i+1), -n) - MIN(b(i, 2*j), m)**2 : every construct of the fragment *)
Definition ex_frag :=
  EBin Sub (ECall FMax [ECall (FArr "a") [EBin Add vi (ELit 1)]; ENeg vn])
           (EBin Pow (ECall FMin [ECall (FArr "b") [vi; EBin Mul (ELit 2) (EVar "j")]; vm]) (ELit 2)).

Example frag_nonvacuous :
  in_frag false ex_frag = true /\
  feval (mk_env 1 [("i", 2); ("j", -1); ("n", -4); ("m", 3)]) ex_frag = Some 3 /\
  oeqb (seval (qenv_of (mk_env 1 [("i", 2); ("j", -1); ("n", -4); ("m", 3)])) (tr false ex_frag))
       (Some (inject_Z 3)) = true.
Proof. vm_compute. repeat split; reflexivity. Qed.

Example equal_nonvacuous :
  in_frag false ex_a = true /\ in_frag false ex_b = true /\
  equal_m poly_const false ex_a ex_b = true /\
  never_equal_m poly_const false (EBin Add ex_a (ELit 1)) ex_b = true /\
  never_equal_m poly_const false ex_a vn = false.
Proof. vm_compute. repeat split; reflexivity. Qed.

Example expand_nonvacuous :
  expand_m poly_expand untr false ex_a
  = Some (EBin Add (EBin Mul (ENeg (ELit 1)) (EBin Mul vm vm)) (EBin Mul (ELit 1) (EBin Mul vn vn))).
Proof. vm_compute. reflexivity. Qed.

(* a sound solve oracle with a non-trivial answer inside the fragment: i*i = 4 has solutions 2, -2 *)
Definition ex_sq := EBin Mul vi vi.
Lemma ex_solve_valid : forall fixed, solveset_sound (pt_solve (sdiff fixed ex_sq (ELit 4)) "i" [SInt 2; SInt (-2)]).
Proof.
  intro fixed. apply pt_solve_sound. intros sol [<-|[<-|[]]] E z Hv q Hq;
    cbn [seval oeq] in Hv; apply (proj1 (inject_Z_injective _ _)) in Hv; subst z.
  - destruct fixed; vm_compute in Hq; inversion Hq; reflexivity.
  - destruct fixed; vm_compute in Hq; inversion Hq; reflexivity.
Qed.
Example solve_nonvacuous : forall fixed,
  in_frag fixed ex_sq = true /\
  solve_m (pt_solve (sdiff fixed ex_sq (ELit 4)) "i" [SInt 2; SInt (-2)]) fixed ex_sq (ELit 4) "i"
  = Some [SInt 2; SInt (-2)].
Proof.
  intro fixed. split; [destruct fixed; reflexivity|].
  unfold solve_m, pt_solve. rewrite sexpr_eqb_refl. reflexivity.
Qed.
