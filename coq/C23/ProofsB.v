(* C23 part B: loops over colours never end up below a directive -- proved for the histories
   whose accepted steps also pass the guard `safeB` (the code does not check it: see the
   theorems C23_colours_refuted_* of Properties/C23.v). *)
From Coq Require Import List Bool.
Import ListNotations.
From PV Require Import C23.Model C23.Lemmas.

Definition chkB (under : bool) (lt : ltype) (_ _ : bool) : bool := negb (under && ltype_eqb lt LColours).
Definition clB (c : bool) (_ : ltype) : bool := c.
Definition cdB (c : bool) (d : dir) : bool := c || dir_parallel d.
Definition ginvB : bool -> node -> bool := ginv chkB (fun _ => true) clB cdB.

Lemma ginvB_eq : forall n under, ginvB under n = invB under n.
Proof.
  apply (node_ind2 (fun n => forall under, ginvB under n = invB under n)).
  - intros lt disc body IH under. cbn. unfold chkB, clB.
    rewrite (forallb_ext_Forall (ginvB under) (invB under) body); [reflexivity|].
    exact (Forall_inst _ _ IH under).
  - reflexivity.
  - intros d body IH under. cbn. unfold cdB.
    apply forallb_ext_Forall. exact (Forall_inst _ _ IH _).
  - reflexivity.
  - reflexivity.
Qed.

Lemma ginvB_list : forall l under, forallb (ginvB under) l = forallb (invB under) l.
Proof.
  intros l under. apply forallb_ext_Forall. apply Forall_forall. intros n _. apply ginvB_eq.
Qed.

Lemma ctxB_eq : forall ancs, ctx clB cdB ancs = existsb anc_is_dir ancs.
Proof.
  induction ancs as [|a ancs IH]; [reflexivity|].
  change (ctx clB cdB (a :: ancs)) with (cstep clB cdB a (ctx clB cdB ancs)).
  rewrite IH. destruct a; cbn.
  - reflexivity.
  - unfold cdB. apply orb_comm.
Qed.

(* what contains no loop over colours may stand below any directive *)
Lemma nocolours_invB : forall n u, contains is_colours_loop n = false -> invB u n = true.
Proof.
  apply (node_ind2 (fun n => forall u, contains is_colours_loop n = false -> invB u n = true));
    try reflexivity.
  - intros lt disc body IH u Hc. cbn in *.
    apply orb_false_iff in Hc. destruct Hc as [Hlt Hc].
    rewrite (existsb_false_Forall (contains is_colours_loop) (invB u) body).
    + destruct lt; try discriminate; rewrite andb_false_r; reflexivity.
    + exact (Forall_inst _ _ IH u).
    + exact Hc.
  - intros d body IH u Hc. cbn in *.
    exact (existsb_false_Forall _ _ _ (Forall_inst _ _ IH _) Hc).
Qed.

Lemma nocolours_list : forall l u,
  existsb (contains is_colours_loop) l = false -> forallb (invB u) l = true.
Proof.
  intros l u. apply existsb_false_Forall. apply Forall_forall. intros n _. apply nocolours_invB.
Qed.

Section B.
  Variable incs : list acc.
  Variable sc : bool.

  Lemma siteB : forall o,
    keeps (ginv_at chkB (fun _ => true) clB cdB) (both (snd (op_fun incs sc o)) (safeB_f o)).
  Proof.
    intros o ancs m m' H Hm. unfold ginv_at in *. unfold both, safeB_f in H.
    rewrite ctxB_eq in *. rewrite ginvB_list in *.
    destruct (existsb (contains is_colours_loop) (op_sel o m)) eqn:Esel; try discriminate.
    destruct o as [p i|p i|p i|p i da sq gg vv c2|p i n|p i n].
    1: { (* colouring happens outside every directive *)
      destruct (existsb anc_is_dir ancs); try discriminate.
      destruct (colour_shape _ _ _ _ H) as (body & En & _ & ->). apply forallb_splice; [exact Hm|].
      pose proof (forallb_nth _ _ _ _ Hm En) as Hn. cbn in Hn. cbn. rewrite Hn. reflexivity. }
    all: destruct (enclose_shape _ _ _ _ _ _ H) as (i' & n' & d & _ & ->);
         apply forallb_splice; [exact Hm|]; cbn; rewrite andb_true_r; exact (nocolours_list _ _ Esel).
  Qed.

  Lemma op_path_fst : forall o, op_path o = fst (op_fun incs sc o).
  Proof. destruct o; reflexivity. Qed.

  Lemma stepB : forall o t t',
    step incs sc o t = Some t' -> safeB incs sc o t = true -> invB_t t = true -> invB_t t' = true.
  Proof.
    intros o t t' Hs Hsafe Ht. unfold safeB in Hsafe. rewrite Hs in Hsafe.
    destruct (upd (op_path o) (safeB_f o) [] t) as [x|] eqn:Eg; try discriminate.
    unfold step in Hs. rewrite op_path_fst in Eg.
    unfold invB_t in *. rewrite <- ginvB_list in *.
    exact (upd_ginv chkB (fun _ => true) clB cdB _ (both_incr _ _ (op_incr incs sc o)) (siteB o)
             _ [] _ _ (upd_both _ _ _ _ _ _ _ Hs Eg) Ht).
  Qed.

  Theorem invB_safe_histories : forall h t0,
    invB_t t0 = true -> hist_ok (safeB incs sc) incs sc h t0 = true ->
    invB_t (run incs sc h t0) = true.
  Proof. exact (run_inv (fun t => invB_t t = true) (safeB incs sc) incs sc stepB). Qed.
End B.
