(* C23 -- infrastructure: list facts, nested induction on nodes, what an accepted local edit looks
   like, and the generic facts about the addressed update `upd` and about `run`: `upd` preserves
   "contains an incrementing kernel" and any context-passing invariant that the local edit
   preserves; `run` preserves what every accepted step of an admissible history preserves. *)
From Coq Require Import List Bool Arith.
Import ListNotations.
From PV Require Import C23.Model.

Lemma range_split {A} : forall i n (l : list A),
  l = firstn i l ++ firstn n (skipn i l) ++ skipn n (skipn i l).
Proof.
  intros i n l. rewrite (firstn_skipn n (skipn i l)). symmetry. apply firstn_skipn.
Qed.

Lemma nth_range1 {A} : forall i (l : list A) x, nth_error l i = Some x -> firstn 1 (skipn i l) = [x].
Proof.
  induction i as [|i IH]; intros l x H; destruct l as [|y l]; cbn in H; try discriminate.
  - inversion H; subst. reflexivity.
  - cbn [skipn]. apply IH. exact H.
Qed.

Lemma nth_split_skip {A} : forall i (l : list A) x,
  nth_error l i = Some x -> l = firstn i l ++ x :: skipn 1 (skipn i l).
Proof.
  intros i l x H. change (l = firstn i l ++ [x] ++ skipn 1 (skipn i l)).
  rewrite <- (nth_range1 _ _ _ H). apply range_split.
Qed.

Lemma forallb_range {A} (f : A -> bool) : forall i n (l : list A),
  forallb f l = true -> forallb f (firstn n (skipn i l)) = true.
Proof.
  intros i n l Hl. rewrite (range_split i n l), !forallb_app in Hl.
  apply andb_true_iff in Hl. destruct Hl as [_ Hl]. apply andb_true_iff in Hl. apply Hl.
Qed.

Lemma forallb_nth {A} (f : A -> bool) : forall i (l : list A) x,
  forallb f l = true -> nth_error l i = Some x -> f x = true.
Proof.
  intros i l x Hl Hn. exact (proj1 (forallb_forall f l) Hl x (nth_error_In l i Hn)).
Qed.

Lemma forallb_splice (f : node -> bool) : forall i n new (l : list node),
  forallb f l = true -> forallb f new = true -> forallb f (splice i n new l) = true.
Proof.
  intros i n new l Hl Hn. unfold splice.
  rewrite (range_split i n l), !forallb_app in Hl.
  apply andb_true_iff in Hl. destruct Hl as [H1 H2]. apply andb_true_iff in H2. destruct H2 as [_ H3].
  rewrite !forallb_app, H1, Hn, H3. reflexivity.
Qed.

Lemma existsb_splice (f : node -> bool) : forall i n new (l : list node),
  existsb f new = existsb f (firstn n (skipn i l)) -> existsb f (splice i n new l) = existsb f l.
Proof.
  intros i n new l H. unfold splice. rewrite !existsb_app, H, <- !existsb_app.
  rewrite <- range_split. reflexivity.
Qed.

Section NodeInd.
  Variable P : node -> Prop.
  Hypothesis Hloop : forall lt disc body, Forall P body -> P (NLoop lt disc body).
  Hypothesis Hkern : forall c r a, P (NKern c r a).
  Hypothesis Hdir : forall d body, Forall P body -> P (NDir d body).
  Hypothesis Hhalo : P NHalo.
  Hypothesis Hother : P NOther.
  Fixpoint node_ind2 (n : node) : P n :=
    match n with
    | NLoop lt disc body =>
        Hloop lt disc body
          ((fix go (l : list node) : Forall P l :=
              match l with [] => Forall_nil P | x :: r => Forall_cons x (node_ind2 x) (go r) end) body)
    | NKern c r a => Hkern c r a
    | NDir d body =>
        Hdir d body
          ((fix go (l : list node) : Forall P l :=
              match l with [] => Forall_nil P | x :: r => Forall_cons x (node_ind2 x) (go r) end) body)
    | NHalo => Hhalo
    | NOther => Hother
    end.
End NodeInd.

(* the list halves of an induction by node_ind2 *)
Lemma Forall_inst {A C} (P : C -> A -> Prop) : forall l,
  Forall (fun x => forall c, P c x) l -> forall c, Forall (P c) l.
Proof. intros l H c. revert H. apply Forall_impl. intros x Hx. apply Hx. Qed.

Lemma forallb_ext_Forall (f g : node -> bool) : forall l,
  Forall (fun n => f n = g n) l -> forallb f l = forallb g l.
Proof. induction 1 as [|x l Hx _ IH]; cbn; [reflexivity| rewrite Hx, IH; reflexivity]. Qed.

Lemma existsb_ext_Forall (f g : node -> bool) : forall l,
  Forall (fun n => f n = g n) l -> existsb f l = existsb g l.
Proof. induction 1 as [|x l Hx _ IH]; cbn; [reflexivity| rewrite Hx, IH; reflexivity]. Qed.

Lemma forallb_impl_Forall {A} (f g : A -> bool) : forall l,
  Forall (fun x => f x = true -> g x = true) l -> forallb f l = true -> forallb g l = true.
Proof.
  induction 1 as [|x l Hx _ IH]; cbn; intros H; [reflexivity|].
  apply andb_true_iff in H. destruct H as [H1 H2]. rewrite (Hx H1), (IH H2). reflexivity.
Qed.

Lemma existsb_false_Forall {A} (f g : A -> bool) : forall l,
  Forall (fun x => f x = false -> g x = true) l -> existsb f l = false -> forallb g l = true.
Proof.
  induction 1 as [|x l Hx _ IH]; cbn; intros H; [reflexivity|].
  apply orb_false_iff in H. destruct H as [H1 H2]. rewrite (Hx H1), (IH H2). reflexivity.
Qed.

Lemma colour_shape : forall i ancs m m', colour_f i ancs m = Some m' ->
  exists body, nth_error m i = Some (NLoop LCells false body) /\ existsb anc_is_omp ancs = false /\
               m' = splice i 1 [NLoop LColours false [NLoop LColour false body]] m.
Proof.
  intros i ancs m m' H. unfold colour_f in H.
  destruct (nth_error m i) as [[lt disc body|? ? ?|? ?| |]|]; try discriminate.
  destruct lt, disc; cbn in H; try discriminate.
  destruct (existsb anc_is_omp ancs); try discriminate.
  exists body. inversion H. auto.
Qed.

Lemma wrap_shape : forall d ok i ancs m m', wrap_loop_f d ok i ancs m = Some m' ->
  exists lt disc body, nth_error m i = Some (NLoop lt disc body) /\
                       ok lt disc (NLoop lt disc body) = true /\
                       m' = splice i 1 [NDir d (firstn 1 (skipn i m))] m.
Proof.
  intros d ok i ancs m m' H. unfold wrap_loop_f in H.
  destruct (nth_error m i) as [[lt disc body|? ? ?|? ?| |]|] eqn:En; try discriminate.
  destruct (ok lt disc (NLoop lt disc body)) eqn:Eok; try discriminate.
  exists lt, disc, body. rewrite (nth_range1 _ _ _ En). inversion H. auto.
Qed.

Lemma region_shape : forall d i n ancs m m',
  region_f d i n ancs m = Some m' -> m' = splice i n [NDir d (firstn n (skipn i m))] m.
Proof.
  intros d i n ancs m m' H. unfold region_f in H.
  destruct ((1 <=? n) && (i + n <=? length m)); try discriminate.
  destruct (existsb (contains is_halo) (firstn n (skipn i m))); try discriminate.
  destruct (is_omp d && existsb (contains is_acc_dir) (firstn n (skipn i m))); try discriminate.
  destruct (is_omp d && existsb anc_is_omp ancs); try discriminate.
  inversion H. reflexivity.
Qed.

(* the six operations are of two kinds: colouring splits a loop over cells into colours and colour
   (colour_shape), the other five put `op_sel o m` below a directive *)
Lemma enclose_shape incs sc : forall o ancs m m', snd (op_fun incs sc o) ancs m = Some m' ->
  match o with
  | OColour _ _ => True
  | _ => exists i n d, op_sel o m = firstn n (skipn i m) /\ m' = splice i n [NDir d (op_sel o m)] m
  end.
Proof.
  intros o ancs m m' H.
  destruct o as [p i|p i|p i|p i da sq gg vv c2|p i n|p i n]; cbn [op_fun snd op_sel] in *.
  1: exact I.
  1-3: apply wrap_shape in H; destruct H as (_ & _ & _ & _ & _ & E);
       exists i, 1; eexists; split; [reflexivity|exact E].
  all: exists i, n; eexists; split; [reflexivity|exact (region_shape _ _ _ _ _ _ H)].
Qed.

Definition edit := list anc -> list node -> option (list node).

Definition keeps (I : list anc -> list node -> bool) (f : edit) : Prop :=
  forall ancs m m', f ancs m = Some m' -> I ancs m = true -> I ancs m' = true.
Definition keeps_incr (f : edit) : Prop :=
  forall ancs m m', f ancs m = Some m' -> existsb has_incr m' = existsb has_incr m.

Lemma op_incr incs sc : forall o, keeps_incr (snd (op_fun incs sc o)).
Proof.
  intros o ancs m m' H. pose proof (enclose_shape _ _ _ _ _ _ H) as Hs. destruct o.
  1: destruct (colour_shape _ _ _ _ H) as (body & En & _ & ->); apply existsb_splice;
     rewrite (nth_range1 _ _ _ En); cbn; rewrite !orb_false_r; reflexivity.
  all: destruct Hs as (i' & n' & d & Esel & ->); apply existsb_splice; rewrite <- Esel; cbn;
       apply orb_false_r.
Qed.

(* an edit paired with a guard *)
Definition both (f g : edit) : edit :=
  fun ancs m => match g ancs m with Some _ => f ancs m | None => None end.

Lemma both_incr f g : keeps_incr f -> keeps_incr (both f g).
Proof.
  intros Hf ancs m m' H. unfold both in H. destruct (g ancs m); try discriminate. exact (Hf _ _ _ H).
Qed.

(* In the three lemmas on `upd` below, a loop body and a directive body are entered alike. *)
Lemma upd_both f g : forall p ancs l l' l'',
  upd p f ancs l = Some l' -> upd p g ancs l = Some l'' -> upd p (both f g) ancs l = Some l'.
Proof.
  induction p as [|i p IH]; intros ancs l l' l'' Hf Hg; cbn in *.
  - unfold both. rewrite Hg. exact Hf.
  - destruct (nth_error l i) as [[lt disc body|? ? ?|d body| |]|]; try discriminate;
      (destruct (upd p f _ body) eqn:E1; try discriminate);
      (destruct (upd p g _ body) eqn:E2; try discriminate);
      rewrite (IH _ _ _ _ E1 E2); exact Hf.
Qed.

Lemma upd_has_incr f : keeps_incr f -> forall p, keeps_incr (upd p f).
Proof.
  intros Hf. induction p as [|i p IH]; intros ancs l l' H; cbn in H.
  - exact (Hf _ _ _ H).
  - destruct (nth_error l i) as [[lt disc body|? ? ?|d body| |]|] eqn:En; try discriminate;
      (destruct (upd p f _ body) as [b'|] eqn:E1; try discriminate);
      inversion H; subst; apply existsb_splice; rewrite (nth_range1 _ _ _ En); cbn;
      rewrite (IH _ _ _ E1); reflexivity.
Qed.

Section Scheme.
  (* local check at a loop: context, loop type, disc flag, "body contains an incrementing kernel" *)
  Variable chk : bool -> ltype -> bool -> bool -> bool.
  Variable kchk : node -> bool.
  Variable cl : bool -> ltype -> bool.
  Variable cd : bool -> dir -> bool.

  Fixpoint ginv (c : bool) (n : node) : bool :=
    match n with
    | NLoop lt disc body => chk c lt disc (existsb has_incr body) && forallb (ginv (cl c lt)) body
    | NDir d body => forallb (ginv (cd c d)) body
    | NKern _ _ _ => kchk n
    | _ => true
    end.

  Definition cstep (a : anc) (c : bool) : bool :=
    match a with ALoop lt => cl c lt | ADir d => cd c d end.
  Definition ctx (ancs : list anc) : bool := fold_right cstep false ancs.

  Definition ginv_at (ancs : list anc) : list node -> bool := forallb (ginv (ctx ancs)).

  Lemma upd_ginv f : keeps_incr f -> keeps ginv_at f -> forall p, keeps ginv_at (upd p f).
  Proof.
    intros Hi Hf. induction p as [|i p IH]; intros ancs l l' H Hl; cbn in H.
    - exact (Hf _ _ _ H Hl).
    - destruct (nth_error l i) as [[lt disc body|? ? ?|d body| |]|] eqn:En; try discriminate;
        (destruct (upd p f _ body) as [b'|] eqn:E1; try discriminate);
        inversion H; subst; apply forallb_splice; try exact Hl;
        pose proof (forallb_nth _ _ _ _ Hl En) as Hn; cbn in Hn; cbn; rewrite andb_true_r.
      + apply andb_true_iff in Hn. destruct Hn as [Hc Hb].
        rewrite (upd_has_incr f Hi _ _ _ _ E1), Hc. exact (IH _ _ _ E1 Hb).
      + exact (IH _ _ _ E1 Hn).
  Qed.
End Scheme.

Lemma run_inv (P : tree -> Prop) (ok : op -> tree -> bool) incs sc :
  (forall o t t', step incs sc o t = Some t' -> ok o t = true -> P t -> P t') ->
  forall h t, P t -> hist_ok ok incs sc h t = true -> P (run incs sc h t).
Proof.
  intros Hstep. induction h as [|o h IH]; intros t Ht Hh; cbn in *; [exact Ht|].
  apply andb_true_iff in Hh. destruct Hh as [Hok Hh].
  apply IH; [|exact Hh]. unfold step_total.
  destruct (step incs sc o t) as [t'|] eqn:Es; [|exact Ht].
  exact (Hstep _ _ _ Es Hok Ht).
Qed.
