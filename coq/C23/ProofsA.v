(* C23 part A: over all histories, a loop over cells that is the child of an OpenMP/OpenACC loop
   directive never contains an incrementing kernel -- under the premises `premises` on the
   initial schedule and `da_ok` on the dependency-analysis oracle. *)
From Coq Require Import List Bool Btauto.
Import ListNotations.
From PV Require Import C23.Model C23.Lemmas.

Section A.
  Variable incs : list acc.
  Variable sc : bool.

  (* invA, cov and (with the shortcut) wf as ONE context-passing invariant: the edit site, deep in
     the tree, needs all three of the loop it touches *)
  Definition chkA (par : bool) (lt : ltype) (disc hi : bool) : bool :=
    negb (par && ltype_eqb lt LCells && hi) && (negb sc || negb (disc && hi)).
  Definition clA (_ : bool) (_ : ltype) : bool := false.
  Definition cdA (_ : bool) (d : dir) : bool := is_loop_dir d.
  Definition inv3 : bool -> node -> bool := ginv chkA (cov incs) clA cdA.

  Lemma forallb3 (f g h k : node -> bool) : forall l,
    Forall (fun n => f n = g n && h n && (negb sc || k n)) l ->
    forallb f l = forallb g l && forallb h l && (negb sc || forallb k l).
  Proof.
    induction 1 as [|x l Hx _ IH]; cbn.
    - destruct sc; reflexivity.
    - rewrite Hx, IH. btauto.
  Qed.

  Lemma inv3_split : forall n par,
    inv3 par n = invA par n && cov incs n && (negb sc || wf n).
  Proof.
    apply (node_ind2 (fun n => forall par, inv3 par n = invA par n && cov incs n && (negb sc || wf n))).
    - intros lt disc body IH par. cbn.
      rewrite (forallb3 (inv3 false) (invA false) (cov incs) wf).
      + unfold chkA. btauto.
      + exact (Forall_inst _ _ IH false).
    - intros c r a par. cbn. btauto.
    - intros d body IH par. cbn.
      rewrite (forallb3 (inv3 (is_loop_dir d)) (invA (is_loop_dir d)) (cov incs) wf).
      + reflexivity.
      + exact (Forall_inst _ _ IH (is_loop_dir d)).
    - intros par. cbn. btauto.
    - intros par. cbn. btauto.
  Qed.

  Lemma inv3_tree : forall t,
    forallb (inv3 false) t = invA_t t && premises incs sc t.
  Proof.
    intros t. unfold invA_t, premises.
    rewrite (forallb3 (inv3 false) (invA false) (cov incs) wf).
    - btauto.
    - apply Forall_forall. intros n _. apply inv3_split.
  Qed.

  (* has_inc_arg finds every incrementing argument of a covered tree *)
  Lemma cov_args : forall coded (args : list karg),
    forallb (fun a => negb (incrementing a) || (coded && mem_acc (fst a) incs)) args = true ->
    coded && existsb (fun a => mem_acc (fst a) incs) args = false ->
    existsb incrementing args = false.
  Proof.
    intros coded args. induction args as [|a args IH]; cbn; intros Hc Hh; [reflexivity|].
    apply andb_true_iff in Hc. destruct Hc as [Ha Hc].
    rewrite andb_orb_distrib_r in Hh. apply orb_false_iff in Hh. destruct Hh as [Hm Hh].
    rewrite Hm, orb_false_r in Ha. apply negb_true_iff in Ha. rewrite Ha. exact (IH Hc Hh).
  Qed.

  Lemma cov_list (l : list node) :
    Forall (fun n => cov incs n = true -> has_inc_arg incs n = false -> has_incr n = false) l ->
    forallb (cov incs) l = true -> existsb (has_inc_arg incs) l = false -> existsb has_incr l = false.
  Proof.
    induction 1 as [|x l Hx _ IH]; cbn; intros Hc Hh; [reflexivity|].
    apply andb_true_iff in Hc. destruct Hc as [Hc1 Hc2].
    apply orb_false_iff in Hh. destruct Hh as [Hh1 Hh2].
    rewrite (Hx Hc1 Hh1), (IH Hc2 Hh2). reflexivity.
  Qed.

  Lemma cov_has_inc : forall n,
    cov incs n = true -> has_inc_arg incs n = false -> has_incr n = false.
  Proof.
    apply (node_ind2 (fun n => cov incs n = true -> has_inc_arg incs n = false -> has_incr n = false)).
    - intros lt disc body IH. cbn. apply cov_list. exact IH.
    - intros c r a. cbn. apply cov_args.
    - intros d body IH. cbn. apply cov_list. exact IH.
    - reflexivity.
    - reflexivity.
  Qed.

  (* an uncoloured loop over cells that contains an incrementing kernel: what must not become the
     child of a loop directive *)
  Definition hot (n : node) : bool :=
    match n with NLoop LCells _ body => existsb has_incr body | _ => false end.

  Lemma inv3_par : forall c n, inv3 c n = negb (c && hot n) && inv3 false n.
  Proof.
    intros c [lt disc body| | | |]; try (destruct c; reflexivity).
    cbn. unfold chkA. destruct c; [|reflexivity].
    destruct lt; try reflexivity. symmetry. apply andb_assoc.
  Qed.

  Lemma inv3_ctx : forall c c' l,
    forallb (inv3 c) l = true -> c' && existsb hot l = false -> forallb (inv3 c') l = true.
  Proof.
    intros c c' l. induction l as [|x l IH]; cbn; intros H Hh; [reflexivity|].
    apply andb_true_iff in H. destruct H as [H1 H2].
    rewrite inv3_par in H1. apply andb_true_iff in H1. destruct H1 as [_ H1].
    rewrite andb_orb_distrib_r in Hh. apply orb_false_iff in Hh. destruct Hh as [Hx Hl].
    rewrite inv3_par, Hx, H1. exact (IH H2 Hl).
  Qed.

  (* in a tree that satisfies the invariant, a loop in which has_inc_arg finds nothing is not hot,
     nor (with the shortcut) is a loop on a discontinuous space *)
  Lemma quiet_not_hot : forall c n, inv3 c n = true -> has_inc_arg incs n = false -> hot n = false.
  Proof.
    intros c n Hn Hh. rewrite inv3_split in Hn.
    apply andb_true_iff in Hn. destruct Hn as [Hn _]. apply andb_true_iff in Hn. destruct Hn as [_ Hcov].
    pose proof (cov_has_inc n Hcov Hh) as Hi.
    destruct n as [[] ? ?| | | |]; try reflexivity. exact Hi.
  Qed.

  Lemma disc_not_hot : forall c lt body,
    sc = true -> inv3 c (NLoop lt true body) = true -> hot (NLoop lt true body) = false.
  Proof.
    intros c lt body Hsc Hn. cbn in Hn. unfold chkA in Hn. rewrite Hsc in Hn.
    apply andb_true_iff in Hn. destruct Hn as [Hn _]. apply andb_true_iff in Hn. destruct Hn as [_ Hn].
    apply negb_true_iff in Hn. destruct lt; try reflexivity. exact Hn.
  Qed.

  Lemma colour_inv3 : forall c i, keeps (fun _ => forallb (inv3 c)) (colour_f i).
  Proof.
    intros c i ancs m m' H Hm. destruct (colour_shape _ _ _ _ H) as (body & En & _ & ->).
    apply forallb_splice; [exact Hm|].
    pose proof (forallb_nth _ _ _ _ Hm En) as Hn. cbn in Hn. cbn.
    apply andb_true_iff in Hn. destruct Hn as [_ Hb]. unfold clA in *. rewrite Hb.
    unfold chkA. cbn. rewrite !andb_false_r. cbn. destruct sc; reflexivity.
  Qed.

  (* a loop directive may enclose what contains no hot loop, another directive anything *)
  Lemma enclose_inv3 : forall c d i n m,
    forallb (inv3 c) m = true -> is_loop_dir d && existsb hot (firstn n (skipn i m)) = false ->
    forallb (inv3 c) (splice i n [NDir d (firstn n (skipn i m))] m) = true.
  Proof.
    intros c d i n m Hm Hh. apply forallb_splice; [exact Hm|]. cbn. rewrite andb_true_r.
    exact (inv3_ctx c _ _ (forallb_range _ i n m Hm) Hh).
  Qed.

  Lemma region_inv3 : forall c d i n,
    is_loop_dir d = false -> keeps (fun _ => forallb (inv3 c)) (region_f d i n).
  Proof.
    intros c d i n Hd ancs m m' H Hm. rewrite (region_shape _ _ _ _ _ _ H).
    apply enclose_inv3; [exact Hm|]. rewrite Hd. reflexivity.
  Qed.

  Lemma wrap_inv3 : forall c d ok i ancs m m',
    wrap_loop_f d ok i ancs m = Some m' -> forallb (inv3 c) m = true ->
    (forall lt disc body, nth_error m i = Some (NLoop lt disc body) ->
       ok lt disc (NLoop lt disc body) = true -> inv3 c (NLoop lt disc body) = true ->
       is_loop_dir d && hot (NLoop lt disc body) = false) ->
    forallb (inv3 c) m' = true.
  Proof.
    intros c d ok i ancs m m' H Hm Hok.
    destruct (wrap_shape _ _ _ _ _ _ H) as (lt & disc & body & En & Eok & ->).
    apply enclose_inv3; [exact Hm|].
    rewrite (nth_range1 _ _ _ En). cbn [existsb]. rewrite orb_false_r.
    exact (Hok _ _ _ En Eok (forallb_nth _ _ _ _ Hm En)).
  Qed.

  Lemma ompparloop_sound : forall c lt disc body,
    ompparloop_ok incs sc lt disc (NLoop lt disc body) = true -> inv3 c (NLoop lt disc body) = true ->
    hot (NLoop lt disc body) = false.
  Proof.
    intros c lt disc body Hok Hn. unfold ompparloop_ok in Hok.
    destruct lt; try reflexivity. cbn [ltype_eqb negb] in Hok. rewrite !andb_true_r in Hok.
    apply andb_true_iff in Hok. destruct Hok as [Hok _]. apply negb_true_iff in Hok.
    destruct (sc && disc) eqn:Esd.
    - apply andb_true_iff in Esd. destruct Esd as [Es ->]. exact (disc_not_hot c _ _ Es Hn).
    - exact (quiet_not_hot c _ Hn Hok).
  Qed.

  Lemma omploop_sound : forall c lt disc body,
    omploop_ok incs lt (NLoop lt disc body) = true -> inv3 c (NLoop lt disc body) = true ->
    hot (NLoop lt disc body) = false.
  Proof.
    intros c lt disc body Hok Hn. unfold omploop_ok in Hok.
    destruct lt; try reflexivity. cbn [ltype_eqb negb andb] in Hok.
    apply andb_true_iff in Hok. destruct Hok as [_ Hok]. apply negb_true_iff in Hok.
    exact (quiet_not_hot c _ Hn Hok).
  Qed.

  (* the dependence oracle says "independent", or raises an exception that is caught *)
  Definition claims (da : daout) : bool := match da with DaTrue | DaCaught => true | _ => false end.

  Lemma accloop_sound : forall c da col2 lt disc body,
    accloop_ok incs lt (NLoop lt disc body) da false col2 = true -> inv3 c (NLoop lt disc body) = true ->
    claims da && hot (NLoop lt disc body) = false -> hot (NLoop lt disc body) = false.
  Proof.
    intros c da col2 lt disc body Hok Hn Hda. unfold accloop_ok in Hok.
    destruct lt; try reflexivity. cbn [ltype_eqb negb andb orb independent_iterations] in Hok.
    apply andb_true_iff in Hok. destruct Hok as [_ Hok].
    destruct da; try exact Hda; try discriminate.
    apply negb_true_iff in Hok. exact (quiet_not_hot c _ Hn Hok).
  Qed.

  Lemma da_guard : forall da i ancs m x n,
    da_ok_f da i ancs m = Some x -> nth_error m i = Some n -> claims da && hot n = false.
  Proof.
    intros da i ancs m x n H En. unfold da_ok_f in H. rewrite En in H.
    destruct da; try reflexivity; destruct n as [[] ? body| | | |]; try reflexivity;
      cbn; destruct (existsb has_incr body); try reflexivity; discriminate.
  Qed.

  Lemma ctxA_nil : ctx clA cdA [] = false.
  Proof. reflexivity. Qed.

  Lemma upd_inv3 f : keeps_incr f -> (forall c, keeps (fun _ => forallb (inv3 c)) f) ->
    forall p t t', upd p f [] t = Some t' ->
                   forallb (inv3 false) t = true -> forallb (inv3 false) t' = true.
  Proof.
    intros Hi Hf p. exact (upd_ginv chkA (cov incs) clA cdA f Hi (fun ancs => Hf _ ancs) p []).
  Qed.

  Lemma stepA : forall o t t',
    step incs sc o t = Some t' -> da_ok o t = true ->
    forallb (inv3 false) t = true -> forallb (inv3 false) t' = true.
  Proof.
    intros o t t' Hs Hda. unfold step in Hs. pose proof (op_incr incs sc o) as Hi.
    destruct o as [p i|p i|p i|p i da sq gg vv c2|p i n|p i n]; cbn [op_fun fst snd] in Hs, Hi.
    - exact (upd_inv3 _ Hi (fun c => colour_inv3 c i) _ _ _ Hs).
    - refine (upd_inv3 _ Hi _ _ _ _ Hs). intros c ancs m m' H Hm.
      apply (wrap_inv3 _ _ _ _ _ _ _ H Hm). intros lt disc body _. exact (ompparloop_sound c lt disc body).
    - refine (upd_inv3 _ Hi _ _ _ _ Hs). intros c ancs m m' H Hm.
      apply (wrap_inv3 _ _ _ _ _ _ _ H Hm). intros lt disc body _. exact (omploop_sound c lt disc body).
    - (* the oracle's guard is run alongside the edit, so that both see the same loop *)
      unfold da_ok in Hda. destruct (upd p (da_ok_f da i) [] t) as [x|] eqn:Eg; try discriminate.
      refine (upd_inv3 _ (both_incr _ _ Hi) _ _ _ _ (upd_both _ _ _ _ _ _ _ Hs Eg)).
      intros c ancs m m' H Hm. unfold both in H.
      destruct (da_ok_f da i ancs m) as [y|] eqn:Ey; try discriminate.
      apply (wrap_inv3 _ _ _ _ _ _ _ H Hm). intros lt disc body En Hok Hn.
      destruct sq; [reflexivity|].
      exact (accloop_sound c da c2 lt disc body Hok Hn (da_guard _ _ _ _ _ _ Ey En)).
    - exact (upd_inv3 _ Hi (fun c => region_inv3 c DOmpParallel i n eq_refl) _ _ _ Hs).
    - exact (upd_inv3 _ Hi (fun c => region_inv3 c DAccParallel i n eq_refl) _ _ _ Hs).
  Qed.

  (* the theorem of part A, in terms of the definitions of Model.v only *)
  Theorem invA_all_histories : forall t0 h,
    premises incs sc t0 = true -> invA_t t0 = true -> hist_ok da_ok incs sc h t0 = true ->
    invA_t (run incs sc h t0) = true /\ premises incs sc (run incs sc h t0) = true.
  Proof.
    intros t0 h Hp Ha Hh. apply andb_true_iff. rewrite <- inv3_tree.
    apply (run_inv (fun t => forallb (inv3 false) t = true) da_ok incs sc stepA); [|exact Hh].
    rewrite inv3_tree, Ha, Hp. reflexivity.
  Qed.
End A.
