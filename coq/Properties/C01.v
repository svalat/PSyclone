(* C01 -- Reading and re-writing Fortran preserves program behaviour.  Property theorems only. *)
From Coq Require Import List ZArith Bool.
Import ListNotations.
From PV Require Import Fort.Syntax Fort.Sem Fort.Facts C01.Model C01.SelectProofs C01.WhereLocal
  C01.WhereExec C01.Refuted C01.Corr    (* Corr: the executable correspondence check, no theorem *)
  C01.Compose C01.Compose2 C01.Compose3.
From PV Require C01.Stride C01.Corr3. (* not imported: Model2 / Model3 re-use the names of C01.Model; Corr3 = correspondence check *)
Open Scope Z_scope.

(* SELECT CASE -> IF chain: for ALL selector expressions, clause lists (value lists, ranges, open
   ranges, CASE DEFAULT anywhere) and stores, the chain ends in the same store, control state and
   trace of writes / outputs / region events as the construct run by the Fortran rules (selector
   evaluated once, the matching block only).  Expressions of the model have no side effects. *)
Theorem C01_lower_select_sound :
  forall f sel (cls : list (sclause (list stmt))) s s' tr c,
    select_sem (fun b st => exec f b st) [] sel cls s = Ok s' tr c ->
    exists f' tr', exec f' (lower_select sel cls) s = Ok s' tr' c /\ noreads tr' = noreads tr.
Proof. exact lower_select_sound_. Qed.
Print Assumptions C01_lower_select_sound.

(* the block chosen by the source semantics is "the unique matching block": if all clauses that match
   carry the same block (non-overlapping case values: at most one clause matches), it is the block of
   every matching clause, wherever that clause stands *)
Theorem C01_select_unique :
  forall (B : Type) s v (cls : list (list cval * B)) b cvs' b',
    pick s v cls = Some (Some b) ->
    (forall c1 b1 c2 b2, In (c1, b1) cls -> In (c2, b2) cls ->
                         clause_match s v c1 = Some true -> clause_match s v c2 = Some true -> b1 = b2) ->
    In (cvs', b') cls -> clause_match s v cvs' = Some true -> b' = b.
Proof. exact (@pick_unique). Qed.
Print Assumptions C01_select_unique.

Example C01_select_nonvacuous :
  let n := 0%nat in let m := 1%nat in
  let sel := EBin Add (EVar n) (ELit 1) in
  let cls : list (sclause (list stmt)) :=
      [ (None, [SAssign m [] (ELit 0)]);
        (Some [CVal (ELit 1); CBetween (ELit 3) (ELit 5); CUpto (EUn Neg (ELit 2))], [SAssign m [] (ELit 1)]);
        (Some [CFrom (ELit 7)], [SAssign m [] (ELit 2)]) ] in
  let s := store_of [((n, []), 3)] [] in
  lower_select sel cls =
    [SIf (EBin Or (EBin Eq sel (ELit 1))
                  (EBin Or (EBin And (EBin Ge sel (ELit 3)) (EBin Le sel (ELit 5)))
                           (EBin Le sel (EUn Neg (ELit 2)))))
         [SAssign m [] (ELit 1)]
         [SIf (EBin Ge sel (ELit 7)) [SAssign m [] (ELit 2)] [SAssign m [] (ELit 0)]]]
  /\ (exists s' tr, select_sem (fun b st => exec 10 b st) [] sel cls s = Ok s' tr CNormal /\ val s' (m, []) = 1)
  /\ (exists s' tr, exec 10 (lower_select sel cls) s = Ok s' tr CNormal /\ val s' (m, []) = 1).
Proof. exact select_example. Qed.
Print Assumptions C01_select_nonvacuous.

(* WHERE -> loop over 1..extent with lbound + widx - 1 indexing, mask -> IF, ELSEWHERE chain.
   FULL STATEMENT (false of the reader as it is -- see the _refuted theorems):
     forall md dc w s s' ss, where_sem w s = Some s' -> lower_where md dc w = Lowered ss -> <conclusion>.
   Proved for 1-D constructs under [safe_where] (full-range operands -- built into the syntax -- no
   nested WHERE, no reduction, elemental intrinsics, scalar sub-expressions that mention no assigned
   array and not the loop variable) and [dc_ok] (the trip count derived for the mask array is its
   extent).  Arrays may have any, different, lower bounds; an array may be assigned and read in the same
   construct: the per-element interleaving of the loop agrees with Fortran's statement-by-statement
   masked assignment (mask evaluated once, right-hand side evaluated before any store). *)
Theorem C01_lower_where_sound_partial :
  forall md dc w s s' ss,
    safe_where w = true ->
    (forall a0, wfirst (wmask w) = Some a0 -> dc_ok md dc s a0) ->
    where_sem w s = Some s' ->
    lower_where md dc w = Lowered ss ->
    exists f s'' tr,
      exec f ss s = Ok s'' tr CNormal /\ bnd s'' = bnd s' /\
      (forall c, fst c <> wx w -> val s'' c = val s' c) /\ outputs tr = [].
Proof. exact lower_where_sound_partial_. Qed.
Print Assumptions C01_lower_where_sound_partial.

Example C01_where_nonvacuous :
  safe_where ex_w = true /\
  (forall a0, wfirst (wmask ex_w) = Some a0 -> dc_ok Today (fun _ => None) ex_s a0) /\
  ex_check = true.
Proof. exact where_example. Qed.
Print Assumptions C01_where_nonvacuous.

(* the core of the WHERE theorem: statement-major (Fortran) and element-major (the loop) execution of
   the clauses give the same store, up to the loop variable *)
Theorem C01_where_statement_major_is_element_major :
  forall W x n, ~ In x W -> forall cls, safe_clauses W x cls = true -> forall s t',
    wclauses_rows s n (fun _ => true) cls = Some t' ->
    exists p, pm x n cls s 0 n = Some p /\ bnd p = bnd t' /\ forall c, fst c <> x -> val p c = val t' c.
Proof.
  intros W x n Hx cls Hs s t' H. rewrite <- safe_clauses_inj in Hs.
  rewrite <- (wclauses_rows_inj n cls s _ _ (fun _ => eq_refl)) in H. rewrite <- pm_inj.
  exact (PV.C01.WhereLocal2.rows_pm W x n Hx _ Hs s t' H).
Qed.
Print Assumptions C01_where_statement_major_is_element_major.

(* REFUTED (finding where/upper-bound-as-extent): declared bounds 0:4, the loop runs 1..4 *)
Theorem C01_lower_where_refuted_upper_bound :
  safe_where wA = true /\
  (forall a lb ub, dcA a = Some (lb, ub) -> bnd sA a = [(lb, ub)]) /\
  fst (nB, [4]) <> wx wA /\
  (exists s' ss, where_sem wA sA = Some s' /\ lower_where Today dcA wA = Lowered ss /\
     ~ (exists f s'' tr ctl, exec f ss sA = Ok s'' tr ctl /\ val s'' (nB, [4]) = val s' (nB, [4]))) /\
  differs Fixed dcA wA sA (nB, [4]) 100 = false.
Proof.
  split; [vm_compute; reflexivity|]. split.
  { intros a lb ub H. destruct a as [|[|[|a]]]; cbn in H; inversion H; subst; reflexivity. }
  split; [cbn; discriminate|]. split.
  - apply (differs_spec Today dcA wA sA (nB, [4]) 100). vm_compute. reflexivity.
  - vm_compute. reflexivity.
Qed.
Print Assumptions C01_lower_where_refuted_upper_bound.

(* REFUTED (finding where/nested-where-independent-loop) *)
Theorem C01_lower_where_refuted_nested :
  fst (nC, [2]) <> wx wB /\
  exists s' ss, where_sem wB sB = Some s' /\ lower_where Today (fun _ => None) wB = Lowered ss /\
    val s' (nC, [2]) = 0 /\
    ~ (exists f s'' tr ctl, exec f ss sB = Ok s'' tr ctl /\ val s'' (nC, [2]) = val s' (nC, [2])).
Proof.
  split; [cbn; discriminate|].
  assert (D : differs Today (fun _ => None) wB sB (nC, [2]) 200 = true) by (vm_compute; reflexivity).
  destruct (differs_spec _ _ _ _ _ _ D) as [s' [ss [H1 [H2 H3]]]].
  exists s', ss. split; [exact H1|]. split; [exact H2|]. split; [|exact H3].
  (* [s'] is known through H1 only: written as a match on [Some s'], the goal becomes closed, hence
     computable, once H1 is rewritten backwards *)
  change (val s' (nC, [2])) with (match Some s' with Some t => val t (nC, [2]) | None => 1 end).
  rewrite <- H1. vm_compute. reflexivity.
Qed.
Print Assumptions C01_lower_where_refuted_nested.

(* REFUTED (finding where/reduction-argument-indexed) *)
Theorem C01_lower_where_refuted_reduction :
  wrank maskC = Some 1%nat /\
  (exists s', where_sem wC sC = Some s' /\ val s' (nB, [2]) = 0 /\ val s' (nB, [1]) = 1) /\
  lower_where Today (fun _ => None) wC <> Refused /\
  wrank (index_w nX maskC) = None /\
  lower_where Today (fun _ => None) wC = NotExpressible /\
  lower_where Fixed (fun _ => None) wC = NotExpressible.
Proof.
  split; [reflexivity|]. split.
  { destruct (where_sem wC sC) as [s'|] eqn:E; [|vm_compute in E; discriminate].
    exists s'. split; [reflexivity|]. split.
    - change (val s' (nB, [2])) with (match Some s' with Some t => val t (nB, [2]) | None => 1 end).
      rewrite <- E. vm_compute. reflexivity.
    - change (val s' (nB, [1])) with (match Some s' with Some t => val t (nB, [1]) | None => 0 end).
      rewrite <- E. vm_compute. reflexivity. }
  split; [vm_compute; discriminate|]. repeat split; vm_compute; reflexivity.
Qed.
Print Assumptions C01_lower_where_refuted_reduction.

(* programs without SELECT CASE / WHERE (assignments, IF, DO with or without step, EXIT / CYCLE / RETURN,
   nested) are lowered to themselves -- a missing DO step becomes the literal 1 -- and the source
   semantics of such a program IS the MiniFortran semantics of the result (same outcome for every fuel
   and store: store, trace, control state, faults) *)
Theorem C01_lower_do_if_identity :
  forall md dc p, forallb plain p = true ->
    lower md dc p = Some (map embed p) /\ forall f s, sexec f p s = exec f (map embed p) s.
Proof.
  intros md dc p Hp. split; [apply lower_do_if_identity_syntax, Hp|intros f s; apply sexec_plain, Hp].
Qed.
Print Assumptions C01_lower_do_if_identity.

(* COMPOSITIONAL: the whole reader.  For every nested source program p (assignments, IF, DO incl.
   zero-trip / negative / missing step, EXIT / CYCLE / RETURN, SELECT CASE anywhere, 1-D WHERE) that is
   well formed w.r.t. the set X of loop variables the reader creates ([wf X]: no statement mentions a
   name of X; every WHERE satisfies [safe_where], its loop variable is in X) and every store s on which
   the reader's knowledge of declared bounds is right ([dcb_ok], incl. lower bound 1 unless the repaired
   trip count is used): if p, run by the Fortran rules ([sexec]: SELECT CASE by [select_sem], WHERE by
   [where_sem]), ends in store s' with control state c, then the lowered program [lower md dc p], run by
   the MiniFortran semantics from the same store, ends with the same control state in a store that equals
   s' on every location whose name is not in X.  (The source language has no output statements; traces
   differ by the reads of selectors and by the order of the element stores of a WHERE.)
   PARTIAL in the same sense as C01_lower_where_sound_partial (side condition on the WHERE constructs). *)
Theorem C01_lower_program_sound_partial :
  forall X md dc p q f s s' tr c,
    lower md dc p = Some q -> forallb (wf X) p = true -> dcb_ok md dc s ->
    sexec f p s = Ok s' tr c ->
    exists f' t' tr', exec f' q s = Ok t' tr' c /\ bnd t' = bnd s' /\
                      forall l, ~ In (fst l) X -> val t' l = val s' l.
Proof.
  intros X md dc p q f s s' tr c Hl Hw Hd H.
  destruct (sim_exec X md dc f p q s s s' tr c Hl Hw (nsim_refl X s) Hd H) as [f' [t' [tr' [E [[Hb Hv] _]]]]].
  exists f', t', tr'. auto.
Qed.
Print Assumptions C01_lower_program_sound_partial.

(* a SELECT CASE inside a DO inside an IF, then a WHERE / ELSEWHERE: hypotheses hold, both runs computed *)
Example C01_program_nonvacuous :
  forallb (wf [pe_x]) pe_prog = true /\ dcb_ok Today (fun _ => None) pe_store /\ pe_check = true.
Proof. exact program_example. Qed.
Print Assumptions C01_program_nonvacuous.

(* strided read-only sections a(lo:hi:st) in a 1-D WHERE (coq/C01/Model2.v, WhereLocal2.v, WhereExec2.v:
   the 1-D development over an expression type with the extra operand).  [Stride.strided_sound_stmt] is the
   statement of C01_lower_where_sound_partial read with the definitions of C01.Model2, where [safe_where]
   additionally demands of a strided operand: not assigned in the construct, and the repaired index
   lower + (widx - 1) * stride (or stride 1). *)
Theorem C01_lower_where_strided_sound_partial : PV.C01.Stride.strided_sound_stmt.
Proof. exact PV.C01.WhereExec2.lower_where_sound_partial_. Qed.
Print Assumptions C01_lower_where_strided_sound_partial.

(* REFUTED for the pre-fix index (stride dropped; finding where/strided-section-step-dropped, repaired in
   /repo by b189692): WHERE (b(:) >= 0) b(:) = a(2:10:2) *)
Theorem C01_lower_where_strided_refuted :
  fst (PV.C01.Stride.sB, [2]) <> PV.C01.Model2.wx (PV.C01.Stride.wS false) /\
  (exists s' ss,
     PV.C01.Model2.where_sem (PV.C01.Stride.wS false) PV.C01.Stride.sS = Some s' /\
     PV.C01.Model2.lower_where PV.C01.Model2.Today (fun _ => None) (PV.C01.Stride.wS false) = PV.C01.Model2.Lowered ss /\
     ~ (exists f s'' tr ctl, exec f ss PV.C01.Stride.sS = Ok s'' tr ctl /\
                             val s'' (PV.C01.Stride.sB, [2]) = val s' (PV.C01.Stride.sB, [2]))) /\
  PV.C01.WhereExec2.safe_where (PV.C01.Stride.wS false) = false /\
  PV.C01.Stride.differs PV.C01.Model2.Today (fun _ => None) (PV.C01.Stride.wS true) PV.C01.Stride.sS (PV.C01.Stride.sB, [2]) 100 = false.
Proof.
  split; [cbn; discriminate|]. split.
  - apply PV.C01.Stride.differs_spec with (fuel := 100%nat). vm_compute. reflexivity.
  - split; vm_compute; reflexivity.
Qed.
Print Assumptions C01_lower_where_strided_refuted.

Example C01_strided_nonvacuous :
  PV.C01.WhereExec2.safe_where (PV.C01.Stride.wS true) = true /\ PV.C01.Stride.strided_check = true.
Proof. split; [exact (proj1 PV.C01.Stride.strided_example)|exact (proj2 (proj2 (proj2 PV.C01.Stride.strided_example)))]. Qed.
Print Assumptions C01_strided_nonvacuous.
