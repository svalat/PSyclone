(* C29 -- Transformed-kernel output never clobbers other kernels.  Property theorems only.
   Model: C29/Model.v (protocol of CodedKern.rename_and_write as a step function over any number
   of concurrent runs), C29/NamesModel.v (the strings computed by _new_name / rename_and_write).
   [exec sch (init fs0 ks) s]: directory initially fs0, run i transforms kernel [ks i] (i ranges
   over ALL naturals: any number of runs), s is ANY schedule of atomic actions. *)
From Coq Require Import List.
From Coq Require Import String.
Local Open Scope list_scope.
Import ListNotations.
From PV Require Import C29.Model C29.Proofs C29.Live C29.NamesModel C29.NamesProofs.

(* ---------------- 'multiple' scheme: all interleavings, any number of runs ---------------- *)

(* files created by different runs are different files, at every moment *)
Theorem C29_multiple_files_distinct : forall fs0 ks s i j idx idx',
  let st := exec Multiple (init fs0 ks) s in
  i <> j -> own_idx (r_pc (st_runs st i)) = Some idx -> own_idx (r_pc (st_runs st j)) = Some idx' ->
  (k_base (ks i), idx) <> (k_base (ks j), idx').
Proof. intros fs0 ks s. exact (inv_distinct _ _ _ _ (exec_inv fs0 ks Multiple s)). Qed.
Print Assumptions C29_multiple_files_distinct.

(* a finished run wrote a file that did not exist before the runs, and it holds its own kernel *)
Theorem C29_multiple_content_is_own : forall fs0 ks s i idx w,
  let st := exec Multiple (init fs0 ks) s in
  r_pc (st_runs st i) = Done idx w ->
  lookup fs0 (k_base (ks i), idx) = None /\
  lookup (st_fs st) (k_base (ks i), idx) = Some (Text (render (ks i) idx)).
Proof.
  intros fs0 ks s i idx w st H.
  pose proof (multiple_pc_ok fs0 ks s i) as M. pose proof (inv_dir _ _ _ _ (exec_inv fs0 ks Multiple s) i) as D.
  fold st in M, D. rewrite H in M, D. destruct w; [exact D | contradiction].
Qed.
Print Assumptions C29_multiple_content_is_own.

(* ... and no continuation of the schedule, by any run, ever changes that file *)
Theorem C29_multiple_never_overwritten : forall fs0 ks s s' i idx w,
  r_pc (st_runs (exec Multiple (init fs0 ks) s) i) = Done idx w ->
  lookup (st_fs (exec Multiple (init fs0 ks) (s ++ s'))) (k_base (ks i), idx)
    = Some (Text (render (ks i) idx)).
Proof.
  intros fs0 ks s s' i idx w H.
  apply (done_file _ _ _ _ _ _ w (exec_inv fs0 ks Multiple (s ++ s'))).
  rewrite exec_app. apply exec_done_stable. exact H.
Qed.
Print Assumptions C29_multiple_never_overwritten.

(* files that were in the directory beforehand are never changed (either scheme) *)
Theorem C29_preexisting_untouched : forall sch fs0 ks s f c,
  lookup fs0 f = Some c -> lookup (st_fs (exec sch (init fs0 ks) s)) f = Some c.
Proof. intros sch fs0 ks s. exact (inv_pre _ _ _ _ (exec_inv fs0 ks sch s)). Qed.
Print Assumptions C29_preexisting_untouched.

(* module and routine names in the file carry the file's (base, index); the PSy layer of the run
   names exactly that module and routine, and the body is the run's own *)
Theorem C29_multiple_names_and_psy : forall fs0 ks s i idx w,
  let st := exec Multiple (init fs0 ks) s in
  r_pc (st_runs st i) = Done idx w ->
  r_psy (st_runs st i) = Some idx /\
  exists c, lookup (st_fs st) (k_base (ks i), idx) = Some (Text c) /\
            c_mod c = (k_base (ks i), idx) /\ c_rout c = (k_rout (ks i), idx) /\
            c_body c = k_body (ks i).
Proof.
  intros fs0 ks s i idx w st H. pose proof (exec_inv fs0 ks Multiple s) as I. fold st in I. split.
  - destruct (inv_local _ _ _ _ I i) as [P _]. rewrite H in P. exact P.
  - exists (render (ks i) idx). split; [exact (done_file _ _ _ _ _ _ _ I H) | repeat split].
Qed.
Print Assumptions C29_multiple_names_and_psy.

Theorem C29_multiple_never_fails : forall fs0 ks s i idx,
  r_pc (st_runs (exec Multiple (init fs0 ks) s) i) <> Failed idx.
Proof.
  intros fs0 ks s i idx H. pose proof (multiple_pc_ok fs0 ks s i) as M. rewrite H in M. exact M.
Qed.
Print Assumptions C29_multiple_never_fails.

(* from any reachable state, a run that gets enough steps completes with its own fresh file *)
Theorem C29_multiple_run_completes : forall fs0 ks s i,
  exists n idx, r_pc (st_runs (exec Multiple (init fs0 ks) (s ++ repeat i n)) i) = Done idx true.
Proof.
  intros fs0 ks s i.
  destruct (solo_completes (exec Multiple (init fs0 ks) s) i (multiple_pc_ok fs0 ks s i)) as [n [idx H]].
  exists n, idx. rewrite exec_app. exact H.
Qed.
Print Assumptions C29_multiple_run_completes.

(* ---------------- names as strings ---------------- *)
(* FULL: forall modname tag, module_name false modname tag = file_stem modname tag  -- false of
   the code as it is ([false] = case-sensitive _new_name), see C29_names_match_refuted; proved
   when "_mod" is in lower case or absent in every case, and in full for the repaired variant.
   `use testkern_MOD` in the algorithm layer is legal Fortran and gives module_name
   "testkern_MOD": the file is testkern_0_mod.f90, the module in it testkern_MOD_0_mod --
   different even when compared case-insensitively. *)
Theorem C29_names_match_partial : forall modname tag,
  suffix_case_ok modname = true -> module_name false modname tag = file_stem modname tag.
Proof.
  intros m tag H. unfold suffix_case_ok in H. apply Bool.eqb_prop in H.
  unfold module_name, file_stem, new_name, old_base, has_suffix. rewrite <- H.
  destruct (endswith m (S_ "_mod"%string)); reflexivity.
Qed.
Print Assumptions C29_names_match_partial.

Theorem C29_names_match_refuted :
  exists modname tag, lower (module_name false modname tag) <> lower (file_stem modname tag).
Proof. exists (S_ "testkern_MOD"%string), (S_ "_0"%string). vm_compute. discriminate. Qed.
Print Assumptions C29_names_match_refuted.

Theorem C29_names_match_fixed : forall modname tag,
  module_name true modname tag = file_stem modname tag.
Proof.
  intros m tag. unfold module_name, file_stem, new_name, old_base, has_suffix.
  change (lower (S_ "_mod"%string)) with (S_ "_mod"%string).
  destruct (endswith (lower m) (S_ "_mod"%string)); reflexivity.
Qed.
Print Assumptions C29_names_match_fixed.

Theorem C29_names_tagged : forall ci modname kname tag,
  (exists p, file_name modname tag = p ++ tag ++ S_ "_mod.f90"%string) /\
  (exists p, module_name ci modname tag = p ++ tag ++ S_ "_mod"%string) /\
  (exists p, routine_name ci kname tag = p ++ tag ++ S_ "_code"%string).
Proof.
  intros ci m k t.
  exact (conj (file_tagged_ m t) (conj (module_tagged_ ci m t) (routine_tagged_ ci k t))).
Qed.
Print Assumptions C29_names_tagged.

(* ---------------- 'single' scheme ---------------- *)
(* a run that finishes uses file <base>_0 and that file holds exactly its own kernel: it never
   uses another version *)
Theorem C29_single_uses_identical : forall fs0 ks s i idx w,
  let st := exec Single (init fs0 ks) s in
  r_pc (st_runs st i) = Done idx w ->
  idx = 0 /\ r_psy (st_runs st i) = Some 0 /\
  lookup (st_fs st) (k_base (ks i), 0) = Some (Text (render (ks i) 0)).
Proof. exact single_uses_identical_. Qed.
Print Assumptions C29_single_uses_identical.

(* two runs on one module name whose kernels differ never both succeed *)
Theorem C29_single_different_kernel_fails : forall fs0 ks s i j idx idx' w w',
  let st := exec Single (init fs0 ks) s in
  k_base (ks i) = k_base (ks j) -> ks i <> ks j ->
  r_pc (st_runs st i) = Done idx w -> r_pc (st_runs st j) = Done idx' w' -> False.
Proof.
  intros fs0 ks s i j idx idx' w w' st Hb Hne Hi Hj.
  destruct (single_uses_identical_ fs0 ks s i idx w Hi) as [_ [_ Li]].
  destruct (single_uses_identical_ fs0 ks s j idx' w' Hj) as [_ [_ Lj]].
  fold st in Li, Lj. rewrite Hb, Lj in Li.
  assert (E : render (ks j) 0 = render (ks i) 0) by congruence.
  exact (Hne (eq_sym (render_inj (ks j) (ks i) 0 (eq_sym Hb) E))).
Qed.
Print Assumptions C29_single_different_kernel_fails.

Theorem C29_single_differing_file_fails : forall st a idx,
  r_pc (st_runs st a) = ToRead idx ->
  lookup (st_fs st) (k_base (r_kern (st_runs st a)), idx)
    <> Some (Text (render (r_kern (st_runs st a)) idx)) ->
  r_pc (st_runs (step Single st a) a) = Failed idx.
Proof.
  intros st a idx H N. unfold step. rewrite H.
  destruct (lookup (st_fs st) (k_base (r_kern (st_runs st a)), idx)) as [[|c|n]|] eqn:El;
    cbn; rewrite ?upd_same; try reflexivity.
  destruct (code_eqb c (render (r_kern (st_runs st a)) idx)) eqn:Ec; cbn; rewrite upd_same; cbn.
  - apply code_eqb_eq in Ec. subst c. contradiction.
  - reflexivity.
Qed.
Print Assumptions C29_single_differing_file_fails.

(* FULL ("runs that produce identical kernels share one file"):
     forall fs0 ks s, same_base_same_kernel ks -> dir_compatible fs0 ks ->
       forall i idx, r_pc (st_runs (exec Single (init fs0 ks) s) i) <> Failed idx
   is FALSE of the code: the read-back can see the file between its creation and its writing. *)
Theorem C29_identical_share_refuted :
  exists (fs0 : fsys) (ks : nat -> kernel) (s : list nat) (i idx : nat),
    same_base_same_kernel ks /\ dir_compatible fs0 ks /\
    r_pc (st_runs (exec Single (init fs0 ks) s) i) = Failed idx.
Proof.
  exists [], (fun _ => k_wit), [0; 1; 1; 1], 1, 0. split; [|split].
  - intros i j _. reflexivity.
  - intro i. left. reflexivity.
  - vm_compute. reflexivity.
Qed.
Print Assumptions C29_identical_share_refuted.

(* proved under read_safe (no read-back of a created-but-unwritten file; sequential runs are so) *)
Theorem C29_identical_share_partial : forall fs0 ks s,
  same_base_same_kernel ks -> dir_compatible fs0 ks ->
  read_safe Single (init fs0 ks) s = true ->
  let st := exec Single (init fs0 ks) s in
  forall i, (forall idx, r_pc (st_runs st i) <> Failed idx) /\
            (forall idx w, r_pc (st_runs st i) = Done idx w ->
               idx = 0 /\ r_psy (st_runs st i) = Some 0 /\
               lookup (st_fs st) (k_base (ks i), 0) = Some (Text (render (ks i) 0))).
Proof.
  intros fs0 ks s SB DC RS st i. split.
  - assert (SO : share_ok ks st).
    { apply (share_exec fs0); auto; [apply init_inv|]. split; cbn.
      - intro j. destruct (DC j) as [H|H]; auto.
      - intros; discriminate. }
    destruct SO as [_ NF]. apply NF.
  - intros idx w. apply single_uses_identical_.
Qed.
Print Assumptions C29_identical_share_partial.

(* ---------------- non-vacuity ---------------- *)
Example C29_multiple_nonvacuous :
  let fs0 := [((1, 0), Other 5)] in
  let st := exec Multiple (init fs0 (ks_of [k_a; k_b; k_c]))
                 [0; 1; 2; 1; 1; 0; 2; 0; 1; 2; 0; 1; 1; 2; 0; 0] in
  r_pc (st_runs st 0) = Done 2 true /\ r_pc (st_runs st 1) = Done 1 true /\
  r_pc (st_runs st 2) = Done 0 true /\
  lookup (st_fs st) (1, 2) = Some (Text (render k_a 2)) /\
  lookup (st_fs st) (1, 1) = Some (Text (render k_b 1)) /\
  lookup (st_fs st) (1, 0) = Some (Other 5).
Proof. exact multiple_nonvacuous. Qed.
Print Assumptions C29_multiple_nonvacuous.

Example C29_single_nonvacuous :
  let s := [0; 0; 0; 0; 1; 1; 1; 2; 2; 2] in
  let st := exec Single (init [] (ks_of [k_a; k_a; k_b])) s in
  read_safe Single (init [] (ks_of [k_a; k_a; k_b])) s = true /\
  r_pc (st_runs st 0) = Done 0 true /\ r_pc (st_runs st 1) = Done 0 false /\
  r_pc (st_runs st 2) = Failed 0 /\
  lookup (st_fs st) (1, 0) = Some (Text (render k_a 0)).
Proof. exact single_nonvacuous. Qed.
Print Assumptions C29_single_nonvacuous.

Example C29_share_partial_nonvacuous :
  let ks := fun _ : nat => k_a in
  let s := [0; 0; 1; 0; 2; 0; 1; 1; 2; 2] in
  same_base_same_kernel ks /\ dir_compatible [] ks /\
  read_safe Single (init [] ks) s = true /\
  r_pc (st_runs (exec Single (init [] ks) s) 1) = Done 0 false /\
  r_pc (st_runs (exec Single (init [] ks) s) 2) = Done 0 false.
Proof. exact share_partial_nonvacuous. Qed.
Print Assumptions C29_share_partial_nonvacuous.

Example C29_names_nonvacuous :
  suffix_case_ok (S_ "testkern_mod"%string) = true /\ suffix_case_ok (S_ "TESTKERN_mod"%string) = true /\
  suffix_case_ok (S_ "testkern"%string) = true /\ suffix_case_ok (S_ "testkern_MOD"%string) = false /\
  file_name (S_ "testkern_mod"%string) (S_ "_3"%string) = S_ "testkern_3_mod.f90"%string /\
  module_name false (S_ "testkern_mod"%string) (S_ "_3"%string) = S_ "testkern_3_mod"%string /\
  routine_name false (S_ "testkern_code"%string) (S_ "_3"%string) = S_ "testkern_3_code"%string /\
  module_name false (S_ "testkern"%string) (S_ "_0"%string) = S_ "testkern_0_mod"%string /\
  module_name false (S_ "testkern_MOD"%string) (S_ "_0"%string) = S_ "testkern_MOD_0_mod"%string /\
  module_name true (S_ "testkern_MOD"%string) (S_ "_0"%string) = S_ "testkern_0_mod"%string /\
  file_name (S_ "testkern_MOD"%string) (S_ "_0"%string) = S_ "testkern_0_mod.f90"%string.
Proof. exact names_nonvacuous. Qed.
Print Assumptions C29_names_nonvacuous.
