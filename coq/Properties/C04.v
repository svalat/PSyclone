(* C04 -- Generated code declares every entity it uses, in a valid order.  Property theorems only.
   Model: coq/C03/Decls.v (shared with C03); spec [decl_valid]: every declared symbol is declared
   once and every locally declared symbol a declaration mentions is declared before it.

   FULL STATEMENT (false of the faithful model, three refutations below):
     forall t l, NoDup (ids t) -> decl_valid-arrangeable t -> gen_decls t = Some l -> decl_valid l = true
   PROVED (_partial): under the sufficient condition [safe t] (C04/Valid.v). *)
From Coq Require Import List Permutation String.
Import ListNotations.
From PV Require Import C03.Names C03.Decls C03.OrderProofs C03.DeclProofs C03.FlattenProofs C03.RoundTrip C04.Valid C04.CodeBlocks.
Open Scope list_scope.

(* decls_complete: every declarable symbol of the table is emitted exactly once ... *)
Theorem C04_decls_complete : forall t l, gen_decls t = Some l -> Permutation l (filter declarable t).
Proof. exact gen_decls_perm. Qed.
Print Assumptions C04_decls_complete.

(* ... and, for a routine written after merging its scopes, under pairwise different names *)
Theorem C04_written_names_unique : forall outer routine inners l,
    write_decls outer routine inners = Some l -> NoDup (nnames l).
Proof. exact written_names_unique_. Qed.
Print Assumptions C04_written_names_unique.

(* decls_ordered, provable part *)
Theorem C04_decls_ordered_partial : forall t l,
    NoDup (ids t) -> gen_decls t = Some l -> safe t -> decl_valid l = true.
Proof. exact decls_ordered_partial_. Qed.
Print Assumptions C04_decls_ordered_partial.

(* acyclic dependencies among the constants (some valid arrangement exists): the writer does not
   raise, whatever the table order *)
Theorem C04_sort_succeeds_when_satisfiable : forall cs v,
    Permutation v cs -> cvalid (ids cs) [] v = true -> exists o, order_consts cs = Some o.
Proof. exact order_consts_complete. Qed.
Print Assumptions C04_sort_succeeds_when_satisfiable.

Theorem C04_decls_ordered_acyclic_partial : forall t v,
    NoDup (ids t) -> Permutation v (sect CConst t) -> cvalid (ids (sect CConst t)) [] v = true -> safe t ->
    exists l, gen_decls t = Some l /\ decl_valid l = true.
Proof.
  intros t v Hn Pv Hv Hs. destruct (order_consts_complete _ _ Pv Hv) as [cs Ec].
  assert (H : gen_decls t = Some (sect CRoutine t ++ cs ++ sect CArg t ++ sect CType t ++ sect CVar t)).
  { unfold gen_decls. rewrite Ec. reflexivity. }
  eexists. split; [exact H|]. eapply decls_ordered_partial_; eauto.
Qed.
Print Assumptions C04_decls_ordered_acyclic_partial.

(* decls_ordered is false of the faithful model; all three witnesses are replayed on the
   implementation + gfortran by props/C04/check.py *)
Theorem C04_decls_ordered_refuted_const_var :
  exists t l, NoDup (ids t) /\ decl_valid t = true /\ gen_decls t = Some l /\ decl_valid l = false.
Proof.
  (* integer :: b ; integer, parameter :: k = kind(b): the constant is written first *)
  exists [mkSym 0 "b" CVar [] []; mkSym 1 "k" CConst [0] [0]]. eexists.
  split; [exact (seq_NoDup 2 0)|].
  split; [vm_compute; reflexivity|]. split; vm_compute; reflexivity.
Qed.
Print Assumptions C04_decls_ordered_refuted_const_var.

Theorem C04_decls_ordered_refuted_arg_type :
  exists t l, NoDup (ids t) /\ decl_valid t = true /\ gen_decls t = Some l /\ decl_valid l = false.
Proof.
  (* type :: tt ... ; type(tt), intent(inout) :: x: the argument is written before the type *)
  exists [mkSym 0 "tt" CType [] []; mkSym 1 "x" CArg [] [0]]. eexists.
  split; [exact (seq_NoDup 2 0)|].
  split; [vm_compute; reflexivity|]. split; vm_compute; reflexivity.
Qed.
Print Assumptions C04_decls_ordered_refuted_arg_type.

Theorem C04_decls_ordered_refuted_shape :
  exists t l, NoDup (ids t) /\ gen_decls t = Some l /\ decl_valid l = false /\ ids l = [1; 2; 0]
              /\ exists v, Permutation v t /\ decl_valid v = true.
Proof.
  (* array bounds of a constant are not among the inputs _gen_parameter_decls computes: with the
     table order [a = y; arr(a) = 0; y = 2] the sort emits arr before a *)
  exists [mkSym 0 "a" CConst [2] [2]; mkSym 1 "arr" CConst [] [0]; mkSym 2 "y" CConst [] []]. eexists.
  split; [exact (seq_NoDup 3 0)|].
  split; [vm_compute; reflexivity|]. split; [vm_compute; reflexivity|]. split; [vm_compute; reflexivity|].
  exists [mkSym 2 "y" CConst [] []; mkSym 0 "a" CConst [2] [2]; mkSym 1 "arr" CConst [] [0]].
  split; [|vm_compute; reflexivity].
  apply (Permutation_cons_app [_; _] []). apply Permutation_refl.
Qed.
Print Assumptions C04_decls_ordered_refuted_shape.

(* merge_no_capture: merging keeps every symbol (identity, order, category, dependencies); a clashing
   symbol gets a name different from its old one and from every name of the enclosing scopes, and
   afterwards all names are pairwise different -- a reference, which points at a symbol object and
   is written with that object's final name, resolves to that object only *)
Theorem C04_merge_no_capture : forall outer routine inners,
    Forall2 (renamed outer) (routine ++ List.concat inners) (flatten outer routine inners)
    /\ NoDup (nnames (flatten outer routine inners)).
Proof. intros. split; [apply flatten_spec_ | apply flatten_names_unique_]. Qed.
Print Assumptions C04_merge_no_capture.

(* merge_no_capture for references that are TEXT (names inside CodeBlocks): scopes carry the normalised
   names their CodeBlocks mention; rename_symbol refuses to rename such a symbol (the merge then raises:
   flatten_cb = None).  When the merge succeeds: routine-scope symbols are untouched, a symbol named in a
   CodeBlock of its scope keeps its name, and all names of the flat table differ. *)
Theorem C04_merge_no_capture_codeblocks : forall outer routine inners f,
    NoDup (nnames routine) ->
    flatten_cb outer routine inners = Some f ->
    exists xs, f = routine ++ List.concat xs /\
               Forall2 (fun ct x => Forall2 (keeps outer (fst ct)) (snd ct) x) inners xs /\
               NoDup (nnames f).
Proof.
  intros outer routine inners f Hn H. unfold flatten_cb in H.
  destruct (flatten_cb_go_spec _ _ _ _ H) as [xs [E1 E2]].
  exists xs. split; [exact E1|]. split; [exact E2|]. eapply flatten_cb_go_nodup; eauto.
Qed.
Print Assumptions C04_merge_no_capture_codeblocks.

(* ... hence a name denotes exactly one symbol of the flat routine *)
Theorem C04_unique_resolution : forall f s s', NoDup (nnames f) -> In s f -> In s' f ->
    normalize (s_name s) = normalize (s_name s') -> s = s'.
Proof.
  induction f as [|a f IH]; intros s s' Hn Hs Hs' E; [destruct Hs|].
  simpl in Hn. inversion Hn as [|? ? Ha Hf]; subst.
  destruct Hs as [Hs|Hs], Hs' as [Hs'|Hs'].
  - congruence.
  - subst. exfalso. apply Ha. rewrite E. unfold nnames. apply (in_map (fun x => normalize (s_name x))). exact Hs'.
  - subst. exfalso. apply Ha. rewrite <- E. unfold nnames. apply (in_map (fun x => normalize (s_name x))). exact Hs.
  - eapply IH; eauto.
Qed.
Print Assumptions C04_unique_resolution.

Open Scope string_scope.
(* the guard is what prevents capture: the guarded merge refuses, the unguarded one renames the inner
   tmp that the CodeBlock of its scope spells TMP, leaving the text to the routine-scope tmp *)
Example C04_codeblock_guard_refuses :
  flatten_cb [] [mkSym 0 "tmp" CVar [] []] [(["tmp"], [mkSym 1 "tmp" CVar [] []])] = None
  /\ map s_name (flatten [] [mkSym 0 "tmp" CVar [] []] [[mkSym 1 "tmp" CVar [] []]]) = ["tmp"; "tmp_1"].
Proof. exact guard_refuses. Qed.
Print Assumptions C04_codeblock_guard_refuses.

Example C04_codeblock_guard_nonvacuous :
  option_map (map s_name)
    (flatten_cb ["m"] [mkSym 0 "tmp" CVar [] []; mkSym 1 "val" CVar [] []]
                [(["acc"], [mkSym 2 "VAL" CVar [] []; mkSym 3 "acc" CVar [] []]); (["val"], [mkSym 4 "Tmp" CVar [] []])])
  = Some ["tmp"; "val"; "VAL_1"; "acc"; "Tmp_1"].
Proof. exact guard_nonvacuous. Qed.
Print Assumptions C04_codeblock_guard_nonvacuous.

Example C04_safe_nonvacuous :
  let t := [ mkSym 0 "x" CVar [] [3; 5]; mkSym 1 "n2" CConst [3] [3]; mkSym 2 "arg" CArg [] [3];
             mkSym 3 "n" CConst [4] [4]; mkSym 4 "wp" CConst [] []; mkSym 5 "tt" CType [] [4];
             mkSym 6 "mod1" CSkip [] []; mkSym 7 "y" CVar [] [1; 0]; mkSym 8 "m" CArg [] []; mkSym 9 "b" CArg [] [8] ] in
  NoDup (ids t) /\ safe t /\ exists l, gen_decls t = Some l /\ ids l = [4; 3; 1; 2; 8; 9; 5; 0; 7] /\ decl_valid l = true.
Proof. exact safe_nonvacuous. Qed.
Print Assumptions C04_safe_nonvacuous.

Example C04_merge_nonvacuous :
  map s_name (flatten ["modvar"; "i_2"]
                      [mkSym 0 "i" CVar [] []; mkSym 1 "i_1" CVar [] []]
                      [[mkSym 2 "I" CVar [] []; mkSym 3 "j" CVar [] []]; [mkSym 4 "i" CVar [] []; mkSym 5 "modvar" CVar [] []]])
  = ["i"; "i_1"; "I_3"; "j"; "i_4"; "modvar"].
Proof. exact flatten_nonvacuous. Qed.
Print Assumptions C04_merge_nonvacuous.

(* ---- inputs of a constant spelled out per feature (coq/C04/ArrayKind.v): the kind of an ARRAY-valued
   parameter is an input of the dependency sort (its bounds and inquiry arguments are not) *)
From PV Require Import C04.ArrayKind.
Open Scope list_scope.
Theorem C04_const_after_inputs : forall t l c d,
    gen_decls t = Some l -> In c (sect CConst t) -> In d (s_deps c) -> In d (ids (sect CConst t)) ->
    exists l1 l2, l = l1 ++ c :: l2 /\ In d (ids l1).
Proof. exact const_after_inputs_. Qed.
Print Assumptions C04_const_after_inputs.

Theorem C04_array_constant_after_kind : forall t l id name c k,
    gen_decls t = Some l -> ci_array c = true -> ci_kind c = Some k ->
    In (mk_const id name c) t -> In k (ids (sect CConst t)) ->
    exists l1 l2, l = l1 ++ mk_const id name c :: l2 /\ In k (ids l1).
Proof. exact array_constant_after_kind_. Qed.
Print Assumptions C04_array_constant_after_kind.

Example C04_array_kind_nonvacuous :
  let arr := mk_const 0 "arr" (mkCinfo true (Some 2) [] [] [2] []) in
  let t := [arr; mkSym 1 "x" CVar [] [2]; mkSym 2 "wp" CConst [] []] in
  In arr t /\ In 2 (ids (sect CConst t)) /\ option_map ids (gen_decls t) = Some [2; 0; 1].
Proof. exact array_kind_nonvacuous. Qed.
Print Assumptions C04_array_kind_nonvacuous.
