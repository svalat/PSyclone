(* C02 — Written expressions keep the operation order of the PSyIR tree.  Property theorems only.

   FULL STATEMENT (properties.jsonl): for every PSyIR expression tree e, the text written by
   FortranWriter is in the Fortran grammar and is read back as e:
       forall e, wf e = true -> parse (write impl_rules e) = Some e.
   It is FALSE of the faithful model of the unchanged writer (theorems C02_write_refuted_...).  Proved
   instead: the statement under the syntactic side condition shape_ok (three excluded shapes),
   for every rule set; and the full statement for any writer making the three left-operand
   decisions (`complete`).  props/C02/fix.patch makes two of them plus the left-spine sign rule
   (rules_patch); the third contradicts PSyclone's own test-suite.  C02_impl_status says which
   situation the writer read by translate.py is in.  Literals whose written form loses information (wf
   requires lit_ok) are refuted separately and are not repaired by the patch. *)
From Coq Require Import List NArith Bool String.
Import ListNotations.
From PV Require Import C02.Syntax C02.Gen C02.Model C02.Facts C02.ParseProof C02.Shape C02.Witness C02.Head.

(* sharpest form: the local, computable condition `safe` (= ok at the top position) *)
Theorem C02_parse_write_safe_partial : forall R e, safe R e = true -> parse (write R e) = Some e.
Proof. exact parse_write_safe. Qed.
Print Assumptions C02_parse_write_safe_partial.

(* partial theorem: well-formed trees without the three shapes are read back, for any rule set *)
Theorem C02_parse_write_partial :
  forall R e, wf e = true -> shape_ok R e = true -> parse (write R e) = Some e.
Proof. exact parse_write_shape. Qed.
Print Assumptions C02_parse_write_partial.

(* ... in particular for the writer as translate.py found it in the working tree *)
Theorem C02_parse_write_impl_partial :
  forall e, wf e = true -> shape_ok impl_rules e = true -> parse (write impl_rules e) = Some e.
Proof. exact (parse_write_shape impl_rules). Qed.
Print Assumptions C02_parse_write_impl_partial.

(* full statement for any writer that makes the three left-operand decisions (the complete repair) *)
Theorem C02_parse_write_complete :
  forall R e, complete R = true -> wf e = true -> parse (write R e) = Some e.
Proof. exact parse_write_complete. Qed.
Print Assumptions C02_parse_write_complete.

(* what props/C02/fix.patch achieves and what it leaves: the sign shapes that were not Fortran are
   now read back; (-a)*b is still written -a * b (PSyclone's own test requires it) *)
Theorem C02_patch_witnesses :
  forallb (fun e => match parse (write rules_patch e) with Some t => expr_eqb t e | None => false end)
          [w_pow; w_rel_chain; w_sign_deep; w_plus_mul] = true /\
  refutes rules_patch w_neg_mul /\ refutes rules_patch w_not_rel.
Proof. split; [vm_compute; reflexivity | split; refute]. Qed.
Print Assumptions C02_patch_witnesses.

(* literals in the form the reader produces are read back unchanged *)
Theorem C02_literal_roundtrip : forall l, lit_ok l = true -> read_lit (write_lit l) = l.
Proof. exact lit_roundtrip. Qed.
Print Assumptions C02_literal_roundtrip.

(* the full statement is false of the model of the unchanged writer *)
(* (a**b)**c is written  a ** b ** c, which the grammar reads as a**(b**c) *)
Theorem C02_write_refuted_pow : refutes rules_orig w_pow /\
  parse (write rules_orig w_pow) = Some (Bin Pow (v "a") (Bin Pow (v "b") (v "c"))).
Proof. split; [refute | vm_compute; reflexivity]. Qed.
Print Assumptions C02_write_refuted_pow.
(* (-a)*b is written  -a * b, read as -(a*b) *)
Theorem C02_write_refuted_neg_mul : refutes rules_orig w_neg_mul /\
  parse (write rules_orig w_neg_mul) = Some (Un Neg (Bin Mul (v "a") (v "b"))).
Proof. split; [refute | vm_compute; reflexivity]. Qed.
Print Assumptions C02_write_refuted_neg_mul.
(* ((.NOT.a)==b).EQV.c is written  .NOT.a == b .EQV. c, read as (.NOT.(a==b)).EQV.c *)
Theorem C02_write_refuted_not_rel : refutes rules_orig w_not_rel /\
  parse (write rules_orig w_not_rel) = Some (Bin Eqv (Un Not (Bin Eq (v "a") (v "b"))) (v "c")).
Proof. split; [refute | vm_compute; reflexivity]. Qed.
Print Assumptions C02_write_refuted_not_rel.
(* (a<b)==c is written  a < b == c, which is not a Fortran expression *)
Theorem C02_write_refuted_rel_chain :
  refutes rules_orig w_rel_chain /\ parse (write rules_orig w_rel_chain) = None.
Proof. split; [refute | vm_compute; reflexivity]. Qed.
Print Assumptions C02_write_refuted_rel_chain.
(* a + ((-b)*c)*d is written  a + -b * c * d, which is not a Fortran expression *)
Theorem C02_write_refuted_sign_deep :
  refutes rules_orig w_sign_deep /\ parse (write rules_orig w_sign_deep) = None.
Proof. split; [refute | vm_compute; reflexivity]. Qed.
Print Assumptions C02_write_refuted_sign_deep.
Theorem C02_write_refuted_lit_double : lit_refutes (mkLit KReal "1.0" PDouble) /\
  read_lit (write_lit (mkLit KReal "1.0" PDouble)) = mkLit KReal "1.0" PUndef.
Proof. split; [left; vm_compute; discriminate | vm_compute; reflexivity]. Qed.
Print Assumptions C02_write_refuted_lit_double.
Theorem C02_write_refuted_lit_signed : forall R,
  parse (write R w_lit_signed) = None /\
  parse (write R (Lit (mkLit KInt "-1" PUndef))) = Some (Un Neg (Lit (mkLit KInt "1" PUndef))).
Proof. intros [[] [] [] [] []]; split; vm_compute; reflexivity. Qed.
Print Assumptions C02_write_refuted_lit_signed.

(* the writer in the working tree: repaired, or refuted by one of the witnesses (the script takes
   the branch that holds for the generated Gen.v) *)
Theorem C02_impl_status :
  (complete impl_rules = true /\ forall e, wf e = true -> parse (write impl_rules e) = Some e) \/
  exists e, In e [w_pow; w_neg_mul; w_not_rel; w_rel_chain] /\ refutes impl_rules e.
Proof.
  first
    [ left; split; [reflexivity | intros e; apply parse_write_complete; reflexivity]
    | right; exists w_pow; split; [cbn; tauto | refute]
    | right; exists w_neg_mul; split; [cbn; tauto | refute]
    | right; exists w_not_rel; split; [cbn; tauto | refute]
    | right; exists w_rel_chain; split; [cbn; tauto | refute] ].
Qed.
Print Assumptions C02_impl_status.

(* non-vacuity of the partial theorems: a tree with every operator level, both unary positions that
   are safe, right-nested and bracketed operands, an intrinsic call with a named argument, a
   structure access with a range, and literals of every kind satisfies their hypotheses for the
   unchanged rules, and is read back *)
Example C02_nonvacuous :
  wf w_good = true /\ shape_ok rules_orig w_good = true /\ safe rules_orig w_good = true /\
  parse (write rules_orig w_good) = Some w_good /\
  write_text rules_orig w_good =
  "-a + b * c ** (d ** (-x)) < MAX(a, b - (c - d), dim=1) .OR. (.NOT.(f%vals(i:n + 1_8:2,1.5d3) .AND. (.true. .EQV. ck_""it's"" /= y)))"%string.
Proof. repeat split; vm_compute; reflexivity. Qed.
Print Assumptions C02_nonvacuous.

(* ---- the writer as it is on /repo HEAD (R_head = rules_patch) ----
   Wanted: forall e, wf e = true -> (parse (write R_head e) = Some e <-> no_bad_shape_head e = true),
   with no_bad_shape_head the computable, position-aware predicate of C02/Head.v naming the
   remaining classes (unbracketed unary left operand of a tighter binary operator: sign left of
   * / **, .NOT. left of a relational/arithmetic operator).
   Proved: the <- direction for all trees of any size and every rule set; both directions on the
   finite domain of all trees with <= 2 operator levels (5472) and all operator chains of length 3
   (35937) by a vm_compute sweep; a witness per class.  The -> direction for unbounded trees
   (a bad shape anywhere always breaks the round trip) is NOT proved. *)
Theorem C02_head_roundtrip_if_partial :
  forall R e, wf e = true -> no_bad_shape R e = true -> parse (write R e) = Some e.
Proof. exact no_bad_shape_roundtrip. Qed.
Print Assumptions C02_head_roundtrip_if_partial.

Theorem C02_head_roundtrip_iff_bounded : forall e, In e (small_trees ++ chains3) ->
  (parse (write R_head e) = Some e <-> no_bad_shape_head e = true).
Proof.
  intros e Hin. apply in_app_or in Hin as [Hin|Hin].
  - apply exact_iff; [exact (wf_small e Hin) | exact (proj1 (forallb_forall _ _) sweep_small e Hin)].
  - destruct (chains3_inv e Hin) as (f1 & f2 & f3 & H1 & H2 & H3 & ->). apply exact_iff.
    + rewrite (wf_steps _ _ H1), (wf_steps _ _ H2), (wf_steps _ _ H3). reflexivity.
    + pose proof (proj1 (forallb_forall _ _) sweep_chains f1 H1) as S. cbv beta in S.
      pose proof (proj1 (forallb_forall _ _) S f2 H2) as S'. cbv beta in S'.
      exact (proj1 (forallb_forall _ _) S' f3 H3).
Qed.
Print Assumptions C02_head_roundtrip_iff_bounded.

Theorem C02_head_sweep_sizes :
  N.of_nat (List.length small_trees) = 5472%N /\ N.of_nat (List.length chains3) = 35937%N.
Proof.
  assert (L : forall x y, List.length (level1 x y) = 19) by reflexivity.
  assert (S : forall n, List.length (steps n) = 33) by reflexivity.
  split.
  - unfold small_trees.
    rewrite app_length, (flat_map_length_const _ 19), (flat_map_length_const _ (19 * 19));
      [rewrite Nat2N.inj_add, !Nat2N.inj_mul; reflexivity| |].
    + intros o. apply flat_map_length_const. intros x. rewrite map_length. apply L.
    + intros u. rewrite map_length. apply L.
  - unfold chains3. rewrite (flat_map_length_const _ (33 * 33)); [rewrite !Nat2N.inj_mul; reflexivity|].
    intros f1. rewrite (flat_map_length_const _ 33), S; [reflexivity|].
    intros f2. rewrite map_length. apply S.
Qed.
Print Assumptions C02_head_sweep_sizes.

Example C02_head_bad_classes :
  no_bad_shape_head w_neg_mul = false /\ parse (write R_head w_neg_mul) <> Some w_neg_mul /\
  no_bad_shape_head (Bin Pow (Un Pos (v "a")) (v "b")) = false /\
  no_bad_shape_head w_not_rel = false /\ parse (write R_head w_not_rel) <> Some w_not_rel /\
  no_bad_shape_head w_pow = true /\ no_bad_shape_head w_rel_chain = true /\
  no_bad_shape_head w_sign_deep = true /\ no_bad_shape_head w_plus_mul = true /\
  no_bad_shape_head (Un Neg (Bin Mul (Un Neg (v "a")) (v "b"))) = true /\
  no_bad_shape_head w_good = true.
Proof. repeat split; try (vm_compute; reflexivity); vm_compute; discriminate. Qed.
Print Assumptions C02_head_bad_classes.

(* the generated precedence() table is an order embedding into the Fortran 2008 levels of the
   grammar (same strict order, same ties), binary and unary operators together *)
Theorem C02_prec_table_order :
  (forall a b, Nat.compare (prec_bin a) (prec_bin b) = Nat.compare (lvl a) (lvl b)) /\
  (forall u o, Nat.compare (prec_un u) (prec_bin o) = Nat.compare (pre_max u) (lvl o)) /\
  (forall u w, Nat.compare (prec_un u) (prec_un w) = Nat.compare (pre_max u) (pre_max w)).
Proof. exact (conj prec_order_bin (conj prec_order_un_bin prec_order_un)). Qed.
Print Assumptions C02_prec_table_order.

Example C02_prec_order_example :
  prec_bin Eqv < prec_bin Or /\ prec_bin Or < prec_bin And /\ prec_bin And < prec_un Not /\
  prec_un Not < prec_bin Eq /\ prec_bin Ge < prec_bin Sub /\ prec_bin Add < prec_bin Div /\
  prec_bin Mul < prec_bin Pow /\ prec_bin Eqv = prec_bin Neqv /\ prec_bin Lt = prec_bin Ne /\
  prec_un Neg = prec_bin Add /\ prec_bin Mul = prec_bin Div.
Proof. exact prec_order_example. Qed.
Print Assumptions C02_prec_order_example.
