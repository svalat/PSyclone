(* C05 — Accepted loop transformations preserve serial semantics.  Property theorems only.

   FULL STATEMENT (false of the faithful model of the unchanged code, see the _refuted theorems):
     forall T in {fuse, swap, chunk, tile, hoist, hoistbound, induction, fold}, program p, target t, options o,
       T_apply o t p = Some p' -> sim X p p'
   where sim X p p' = every terminating non-faulting run of p is matched by a run of p' with the same control
   state, the same prints/PSyData events and a final store that agrees everywhere except on the scalars X
   (the DO variables of the transformed loops and the symbols the transformation introduces).

   Proved at full strength: hoistbound, fold.  Proved under a sufficient syntactic condition (_partial): chunk,
   fuse.  Refuted by concrete accepted witnesses: fuse (4), swap, chunk (negative step; the step/chunk-size and
   loop-variable-in-bounds refutations became refusals with the fix commits on /repo), tile, hoist (2), induction (3).
   Proved under computable sufficient conditions as well: hoist (hoist_safe), induction (induction_safe).
   Swap: proved for perfect 2-nests with literal bounds and a plain body under the SEMANTIC independence premise
   swap_indep (same starting store; not lifted to program contexts).  Not proved: tile; a syntactic condition for swap. *)
From Coq Require Import List ZArith Bool.
Import ListNotations.
From PV Require Import Fort.Syntax Fort.Sem Fort.Facts Fort.Facts3 C05.Model C05.Equiv C05.HoistBound C05.Fold C05.Chunk C05.Fuse C05.Refuted
  C05.HoistProofs C05.InductionProofs C05.SwapProofs C05.FusePCProofs C05.FusePC2 C05.FusePC3.
Open Scope Z_scope.

(* ---- HoistLoopBoundExprTrans: full (the three created symbols are distinct and not read in p) ---- *)
Theorem C05_hoistbound_sound : forall n1 n2 n3 path p p',
  NoDup [n1; n2; n3] -> nomention [n1; n2; n3] (rnames p) ->
  hoistbound_apply n1 n2 n3 path p = Some p' -> sim [n1; n2; n3] p p'.
Proof.
  intros n1 n2 n3 path p p' ND N H. unfold hoistbound_apply, rw1 in H.
  eapply rw_sim_fresh; [|exact H|exact N].
  intros seg seg' HF Ns. destruct seg as [|s [|s2 seg]]; try discriminate.
  apply hoistbound_local; assumption.
Qed.
Print Assumptions C05_hoistbound_sound.

Example C05_hoistbound_nonvacuous :
  NoDup [10%nat; 11%nat; 12%nat] /\ nomentionb [10%nat; 11%nat; 12%nat] (rnames hb_example) = true /\
  hoistbound_apply 10%nat 11%nat 12%nat [0%nat] hb_example =
  Some [SAssign 12%nat [] (EBin Mul (EVar 4%nat) (ELit 2));
        SAssign 11%nat [] (EIntr IMin [EVar 2%nat; EIdx 3%nat [ELit 2]]);
        SAssign 10%nat [] (EBin Add (EVar 1%nat) (ELit 1));
        SDo 0%nat (EVar 10%nat) (EVar 11%nat) (EVar 12%nat) [SAssign 3%nat [EVar 0%nat] (ELit 0)]].
Proof. exact hoistbound_nonvacuous. Qed.
Print Assumptions C05_hoistbound_nonvacuous.

(* ---- FoldConditionalReturnExpressionsTrans: full (same store, same trace; RETURN at routine level = end) ---- *)
Theorem C05_fold_return_sound : forall p f s s' tr c,
  exec f p s = Ok s' tr c ->
  exists f' c', exec f' (fold_apply p) s = Ok s' tr c' /\ ctl_top c c'.
Proof. exact fold_sound. Qed.
Print Assumptions C05_fold_return_sound.

(* ---- ChunkLoopTrans: positive step dividing the chunk size (chunk_safe, coq/C05/Chunk.v) ---- *)
Theorem C05_chunk_sound_partial : forall c x out el path p p',
  chunk_safe c x out el path p = true -> chunk_apply c out el path p = Some p' -> sim [x; out; el] p p'.
Proof. exact chunk_sound_partial. Qed.
Print Assumptions C05_chunk_sound_partial.

Example C05_chunk_nonvacuous :
  chunk_safe 4 0%nat 20%nat 21%nat [1%nat] chunk_example = true /\
  chunk_apply 4 20%nat 21%nat [1%nat] chunk_example =
  Some [SAssign 4%nat [] (ELit 0);
        SDo 20%nat (ELit 1) (EVar 2%nat) (ELit 4)
          [SAssign 21%nat [] (EIntr IMin [EBin Add (EVar 20%nat) (EBin Sub (ELit 4) (ELit 1)); EVar 2%nat]);
           SDo 0%nat (EVar 20%nat) (EVar 21%nat) (ELit 2)
             [SAssign 10%nat [EVar 0%nat] (EBin Add (EIdx 10%nat [EVar 0%nat]) (EVar 0%nat))]]].
Proof. exact chunk_nonvacuous. Qed.
Print Assumptions C05_chunk_nonvacuous.

Theorem C05_chunk_refuted_neg : exists p path p',
  chunk_apply 2 20%nat 21%nat path p = Some p' /\ ~ sim [0%nat; 20%nat; 21%nat] p p'.
Proof. exact chunk_refuted_neg. Qed.
Print Assumptions C05_chunk_refuted_neg.

(* ---- LoopFuseTrans: plain, name-independent bodies (fuse_safe, coq/C05/Fuse.v) ---- *)
Theorem C05_fuse_sound_partial : forall arrs x path p p',
  fuse_safe x path p = true -> fuse_apply expr_eqb arrs false path p = Some p' -> sim [x] p p'.
Proof. exact fuse_sound_partial. Qed.
Print Assumptions C05_fuse_sound_partial.

Example C05_fuse_nonvacuous :
  fuse_safe 0%nat [0%nat] fuse_example = true /\
  fuse_apply expr_eqb [10%nat; 11%nat; 12%nat] false [0%nat] fuse_example =
  Some [SDo 0%nat (ELit 1) (EVar 2%nat) (ELit 1)
          [SAssign 10%nat [EVar 0%nat] (EBin Add (EIdx 12%nat [EVar 0%nat]) (ELit 1));
           SAssign 11%nat [EVar 0%nat] (EBin Mul (EIdx 12%nat [EVar 0%nat]) (ELit 2))]].
Proof. exact fuse_nonvacuous. Qed.
Print Assumptions C05_fuse_nonvacuous.

(* Producer/consumer fusion (a(i) = ..; .. = a(i)): literal bounds, plain bodies, first body not writing x.
   The premise pc_commute is SEMANTIC (acceptable here, stated in full in coq/C05/FusePC2.v): for every fuel, iteration v
   of the second loop commutes, up to x, with every iteration v' <> v of the first loop.  It is discharged for a concrete
   program in the Example below; a computable syntactic check implying it is not proved. *)
Theorem C05_fuse_producer_consumer_partial : forall x l h t b1 b2,
  plain b1 = true -> plain b2 = true -> ~ In x (wnames b1) -> pc_commute x b1 b2 ->
  sim [x] [SDo x (ELit l) (ELit h) (ELit t) b1; SDo x (ELit l) (ELit h) (ELit t) b2]
          [SDo x (ELit l) (ELit h) (ELit t) (b1 ++ b2)].
Proof.
  intros x l h t b1 b2 Hp1 Hp2 Hw HC.
  apply fuse_commute_local; try assumption; cbn [enames app]; [intros []|intros ? []].
Qed.
Print Assumptions C05_fuse_producer_consumer_partial.

(* do i { a(i) = b(i) + 1 } ; do i { c(i) = a(i) * 2 } *)
Example C05_fuse_pc_nonvacuous :
  plain pc_b1 = true /\ plain pc_b2 = true /\ ~ In 0%nat (wnames pc_b1) /\ pc_commute 0%nat pc_b1 pc_b2.
Proof. exact fuse_pc_nonvacuous. Qed.
Print Assumptions C05_fuse_pc_nonvacuous.

Theorem C05_fuse_refuted : exists p path p',
  fuse_apply expr_eqb [10%nat; 11%nat; 12%nat; 13%nat] false path p = Some p' /\ ~ sim [0%nat] p p'.
Proof. exact fuse_refuted. Qed.
Print Assumptions C05_fuse_refuted.

Theorem C05_fuse_refuted_reversed : exists p path p',
  fuse_apply expr_eqb [10%nat; 11%nat; 12%nat; 13%nat] true path p = Some p' /\ ~ sim [0%nat] p p'.
Proof.
  exists fuse_p_same, [0%nat]. eexists.
  refute 50%nat (store_of [sc n_ 3; el1 a_ 1 7; el1 a_ 2 8; el1 a_ 3 9] []) (b_, [1]).
Qed.
Print Assumptions C05_fuse_refuted_reversed.

Theorem C05_fuse_refuted_exit : exists p path p',
  fuse_apply expr_eqb [10%nat; 11%nat; 12%nat; 13%nat] false path p = Some p' /\ ~ sim [0%nat] p p'.
Proof.
  exists fuse_p_exit, [0%nat]. eexists.
  refute 50%nat (store_of [sc n_ 3; el1 a_ 2 1] []) (c_, [3]).
Qed.
Print Assumptions C05_fuse_refuted_exit.

Theorem C05_fuse_refuted_conditional_scalar : exists p path p',
  fuse_apply expr_eqb [10%nat; 11%nat; 12%nat; 13%nat] false path p = Some p' /\ ~ sim [0%nat] p p'.
Proof.
  exists fuse_p_scalar, [0%nat]. eexists.
  refute 50%nat (store_of [sc n_ 3; el1 a_ 1 (-1); el1 a_ 2 (-2); el1 a_ 3 (-3)] []) (c_, [1]).
Qed.
Print Assumptions C05_fuse_refuted_conditional_scalar.

(* ---- LoopSwapTrans / LoopTiling2DTrans: no dependence test ---- *)
(* perfect 2-nest, literal bounds, plain body not writing the DO variables; swap_indep = the iterations, each run
   from the store the nest starts from, succeed, no iteration writes what another reads upward-exposed, only the DO
   variables are written by several iterations (premise of Fort/Facts2.seq_runs_perm).  coq/C05/SwapProofs.v *)
Theorem C05_swap_sound_partial : forall x1 x2 l1 h1 t1 l2 h2 t2 body gq seg' f st s' tr c,
  x1 <> x2 -> ~ In x1 (wnames body) -> ~ In x2 (wnames body) -> plain body = true -> t2 <> 0 ->
  swap_at (SDo x1 (ELit l1) (ELit h1) (ELit t1) [SDo x2 (ELit l2) (ELit h2) (ELit t2) body]) = Some seg' ->
  swap_indep x1 x2 body gq (ivals l1 t1 0 (trip_count l1 h1 t1)) (ivals l2 t2 0 (trip_count l2 h2 t2)) st ->
  exec f [SDo x1 (ELit l1) (ELit h1) (ELit t1) [SDo x2 (ELit l2) (ELit h2) (ELit t2) body]] st = Ok s' tr c ->
  exists f' s'' tr', exec f' seg' st = Ok s'' tr' c /\ agree [x1; x2] s' s'' /\ vis tr' = vis tr.
Proof. exact swap_sound_partial. Qed.
Print Assumptions C05_swap_sound_partial.

Example C05_swap_nonvacuous :
  swap_at (SDo 1%nat (ELit 1) (ELit 2) (ELit 1) [SDo 0%nat (ELit 1) (ELit 2) (ELit 1) swap_ex_body]) =
    Some [SDo 0%nat (ELit 1) (ELit 2) (ELit 1) [SDo 1%nat (ELit 1) (ELit 2) (ELit 1) swap_ex_body]] /\
  plain swap_ex_body = true /\
  swap_indep 1%nat 0%nat swap_ex_body 1 (ivals 1 1 0 (trip_count 1 2 1)) (ivals 1 1 0 (trip_count 1 2 1)) swap_ex_store.
Proof. exact swap_nonvacuous. Qed.
Print Assumptions C05_swap_nonvacuous.

Theorem C05_swap_refuted : exists p path p', swap_apply path p = Some p' /\ ~ sim [1%nat; 0%nat] p p'.
Proof. exact swap_refuted. Qed.
Print Assumptions C05_swap_refuted.

Theorem C05_tile_refuted : exists p path p',
  tile_apply 2 20%nat 21%nat 22%nat 23%nat path p = Some p' /\
  ~ sim [1%nat; 0%nat; 20%nat; 21%nat; 22%nat; 23%nat] p p'.
Proof.
  exists swap_p, [0%nat]. eexists.
  refute 200%nat (store_of [sc n_ 4; sc m_ 4; el2 d_ 2 0 5; el2 d_ 3 1 6; el2 d_ 2 1 7; el2 d_ 3 0 4; el2 d_ 4 0 9; el2 d_ 5 2 3] []) (d_, [2; 2]).
Qed.
Print Assumptions C05_tile_refuted.

(* ---- HoistTrans ---- *)
(* literal bounds with trip count >= 1, scalar x = e with e invariant by the name-level frame, plain statements
   before it that do not read x, x written nowhere else (hoist_safe, coq/C05/HoistProofs.v) *)
Theorem C05_hoist_sound_partial : forall path p p',
  hoist_safe path p = true -> hoist_apply path p = Some p' -> sim [] p p'.
Proof. exact hoist_sound_partial. Qed.
Print Assumptions C05_hoist_sound_partial.

Example C05_hoist_nonvacuous :
  hoist_safe [0%nat; 1%nat] hoist_example = true /\
  hoist_apply [0%nat; 1%nat] hoist_example =
  Some [SAssign 4%nat [] (EBin Add (EVar 2%nat) (ELit 1));
        SDo 0%nat (ELit 1) (ELit 3) (ELit 1)
          [SAssign 11%nat [EVar 0%nat] (ELit 2); SAssign 10%nat [EVar 0%nat] (EVar 4%nat)]].
Proof. exact hoist_nonvacuous. Qed.
Print Assumptions C05_hoist_nonvacuous.

Theorem C05_hoist_refuted_zero_trip : exists p path p', hoist_apply path p = Some p' /\ ~ sim [] p p'.
Proof. exact hoist_refuted_zero_trip. Qed.
Print Assumptions C05_hoist_refuted_zero_trip.

Theorem C05_hoist_refuted_early_exit : exists p path p', hoist_apply path p = Some p' /\ ~ sim [] p p'.
Proof.
  exists hoist_p_exit, [0%nat; 1%nat]. eexists.
  refute 50%nat (store_of [sc n_ 3; el1 a_ 1 1; sc s_ 1] []) (s_, @nil Z).
Qed.
Print Assumptions C05_hoist_refuted_early_exit.

(* ---- ReplaceInductionVariablesTrans ---- *)
(* literal bounds with trip count >= 1, body = induction assignment followed by assignments only, variable not in
   the bounds, not rewritten, rhs invariant except for the loop variable (induction_safe, coq/C05/InductionProofs.v) *)
Theorem C05_induction_sound_partial : forall path p p',
  induction_safe path p = true -> induction_apply path p = Some p' -> sim [] p p'.
Proof. exact induction_sound_partial. Qed.
Print Assumptions C05_induction_sound_partial.

Example C05_induction_nonvacuous :
  induction_safe [0%nat] induction_example = true /\
  induction_apply [0%nat] induction_example =
  Some [SDo 0%nat (ELit 1) (ELit 4) (ELit 1)
          [SAssign 10%nat [EVar 0%nat] (EBin Sub (EVar 0%nat) (ELit 1));
           SAssign 11%nat [EBin Sub (EVar 0%nat) (ELit 1)]
                   (EBin Add (EIdx 10%nat [EVar 0%nat]) (EBin Sub (EVar 0%nat) (ELit 1)))];
        SAssign 3%nat [] (EBin Sub (EBin Sub (EVar 0%nat) (ELit 1)) (ELit 1))].
Proof. exact induction_nonvacuous. Qed.
Print Assumptions C05_induction_nonvacuous.

Theorem C05_induction_refuted_zero_trip : exists p path p', induction_apply path p = Some p' /\ ~ sim [] p p'.
Proof. exact induction_refuted_zero_trip. Qed.
Print Assumptions C05_induction_refuted_zero_trip.

Theorem C05_induction_refuted_bounds : exists p path p', induction_apply path p = Some p' /\ ~ sim [] p p'.
Proof.
  exists (ind_p (EVar m_)), [0%nat]. eexists.
  refute 50%nat (store_of [sc m_ 3; sc i_ 0] []) (a_, [2]).
Qed.
Print Assumptions C05_induction_refuted_bounds.

Theorem C05_induction_refuted_exit : exists p path p', induction_apply path p = Some p' /\ ~ sim [] p p'.
Proof.
  exists ind_p_exit, [0%nat]. eexists.
  refute 50%nat (store_of [sc n_ 3; el1 a_ 2 1] []) (m_, @nil Z).
Qed.
Print Assumptions C05_induction_refuted_exit.
