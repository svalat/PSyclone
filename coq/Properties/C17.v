(* C17 — Symbolic comparisons agree with Fortran integer arithmetic.  Property theorems only.

   FULL STATEMENT (properties.jsonl): for all integer expressions a b over plus, minus, times, "/",
   power, unary minus, MOD, MIN, MAX and array accesses, with sympy sound (simplify_sound orc etc.):
       equal_m orc fixed a b = true        -> forall E, feval E a = feval E b
       never_equal_m orc fixed a b = true  -> forall E, feval E a <> feval E b
       every reported solution is a solution;  expansion keeps the value.
   This is FALSE of the faithful model of the unchanged tree (theorems [*_refuted] below: "/" is
   translated to rational division, MOD to sympy's Mod (sign of the divisor), and a power whose base
   is a power is written without brackets).  What is proved is the statement restricted to the
   fragment [in_frag] (plus, minus, times, power with a non-negative literal exponent, unary minus,
   MIN/MAX, arrays): the [*_partial] theorems.  What is missing is exactly "/", MOD, general exponents
   (and, on the unchanged tree, a power whose base is a power).
   [fixed] = whether the writer brackets a power that is the base of a power;
   C17.Gen.pow_left_bracketed is what the tree under test does (props/C17/translate.py). *)
From Coq Require Import List ZArith QArith String.
Import ListNotations.
From PV Require Import C17.Model C17.Proofs C17.Refute C17.Gen.

(* on the fragment the sympy value of the translation is the (injected) Fortran value *)
Theorem C17_tr_exact : forall fixed e, in_frag fixed e = true ->
  forall E, feval E e <> None /\
            oeq (seval (qenv_of E) (tr fixed e)) (option_map inject_Z (feval E e)).
Proof. exact tr_exact_. Qed.
Print Assumptions C17_tr_exact.

(* ... in particular for the writer of the tree under test *)
Theorem C17_tr_exact_current_tree : forall e, in_frag pow_left_bracketed e = true ->
  forall E, oeq (seval (qenv_of E) (tr pow_left_bracketed e)) (option_map inject_Z (feval E e)).
Proof. intros e F E. exact (proj2 (C17_tr_exact pow_left_bracketed e F E)). Qed.
Print Assumptions C17_tr_exact_current_tree.

Theorem C17_equal_sound_partial : forall fixed orc, simplify_sound orc ->
  forall a b, in_frag fixed a = true -> in_frag fixed b = true ->
  equal_m orc fixed a b = true -> forall E, feval E a = feval E b.
Proof. exact equal_sound_partial_. Qed.
Print Assumptions C17_equal_sound_partial.

Theorem C17_never_equal_sound_partial : forall fixed orc, simplify_sound orc ->
  forall a b, in_frag fixed a = true -> in_frag fixed b = true ->
  never_equal_m orc fixed a b = true -> forall E, feval E a <> feval E b.
Proof. exact never_equal_sound_partial_. Qed.
Print Assumptions C17_never_equal_sound_partial.

Theorem C17_solutions_are_solutions_partial : forall fixed osolve, solveset_sound osolve ->
  forall a b x sols sol z, in_frag fixed a = true -> in_frag fixed b = true ->
  solve_m osolve fixed a b x = Some sols -> In sol sols ->
  forall E, oeq (seval (qenv_of E) sol) (Some (inject_Z z)) ->
  feval (upd E x z) a = feval (upd E x z) b.
Proof. exact solutions_are_solutions_partial_. Qed.
Print Assumptions C17_solutions_are_solutions_partial.

Theorem C17_expand_preserves_partial : forall fixed oexpand, expand_sound oexpand ->
  forall reader, reader_faithful fixed reader ->
  forall e e', in_frag fixed e = true -> expand_m oexpand reader fixed e = Some e' ->
  in_frag fixed e' = true -> forall E, feval E e' = feval E e.
Proof. exact expand_preserves_partial_. Qed.
Print Assumptions C17_expand_preserves_partial.

(* closed instance: a proved-sound polynomial normaliser satisfies the oracle premise, so on the
   polynomial fragment the verdicts are decided inside Coq with no premise at all *)
Theorem C17_poly_const_sound : simplify_sound poly_const.
Proof.
  intros s k H E q Hs. unfold poly_const in H.
  destruct (norm s) as [p|] eqn:En; [|discriminate].
  pose proof (norm_sound E s p En) as Hz. rewrite (is_const_sound E p k H) in Hz.
  destruct (zseval_seval _ _ _ Hz) as [q' [Hs' Hq']]. rewrite Hs in Hs'. inversion Hs'; subst. exact Hq'.
Qed.
Print Assumptions C17_poly_const_sound.

Theorem C17_normalise_sound : forall E s p, norm s = Some p -> zseval E s = Some (peval E p).
Proof. exact norm_sound. Qed.
Print Assumptions C17_normalise_sound.

Theorem C17_equal_poly_sound : forall fixed a b, in_frag fixed a = true -> in_frag fixed b = true ->
  equal_m poly_const fixed a b = true -> forall E, feval E a = feval E b.
Proof. intro fixed. exact (C17_equal_sound_partial fixed poly_const C17_poly_const_sound). Qed.
Print Assumptions C17_equal_poly_sound.

Theorem C17_never_equal_poly_sound : forall fixed a b, in_frag fixed a = true -> in_frag fixed b = true ->
  never_equal_m poly_const fixed a b = true -> forall E, feval E a <> feval E b.
Proof. intro fixed. exact (C17_never_equal_sound_partial fixed poly_const C17_poly_const_sound). Qed.
Print Assumptions C17_never_equal_poly_sound.

Theorem C17_expand_poly_preserves : forall fixed e e', in_frag fixed e = true ->
  expand_m poly_expand untr fixed e = Some e' -> forall E, feval E e' = feval E e.
Proof.
  intros fixed e e' Fe H E.
  apply (C17_expand_preserves_partial fixed poly_expand poly_expand_sound_ untr (untr_faithful_ fixed) e e' Fe H).
  exact (untr_frag fixed _ _ H).
Qed.
Print Assumptions C17_expand_poly_preserves.

(* n/2*2 against n at n = 1 *)
Theorem C17_equal_refuted_div : forall fixed,
  exists orc, simplify_sound orc /\
  exists a b E za zb, equal_m orc fixed a b = true /\
                      feval E a = Some za /\ feval E b = Some zb /\ za <> zb.
Proof.
  intro fixed. exists (pt_oracle (sdiff fixed w_div_a w_div_b) 0). split.
  - apply pt_oracle_sound, w_div_valid.
  - exists w_div_a, w_div_b, (env1 "n" 1), 0, 1.
    split; [unfold equal_m; rewrite pt_oracle_hit; reflexivity|].
    split; [reflexivity|]. split; [reflexivity | discriminate].
Qed.
Print Assumptions C17_equal_refuted_div.

(* MOD(-7,2) against 1 *)
Theorem C17_equal_refuted_mod : forall fixed,
  exists orc, simplify_sound orc /\
  exists a b E za zb, equal_m orc fixed a b = true /\
                      feval E a = Some za /\ feval E b = Some zb /\ za <> zb.
Proof.
  intro fixed. exists (pt_oracle (sdiff fixed w_mod_a w_mod_b) 0). split.
  - apply pt_oracle_sound, w_mod_valid.
  - exists w_mod_a, w_mod_b, (env1 "n" 0), (-1), 1.
    split; [unfold equal_m; rewrite pt_oracle_hit; reflexivity|].
    split; [reflexivity|]. split; [reflexivity | discriminate].
Qed.
Print Assumptions C17_equal_refuted_mod.

(* n^2^3 bracketed to the left against bracketed to the right, at n = 2 (64 against 256); unchanged
   writer only; the input is in the fragment of a writer that brackets *)
Theorem C17_equal_refuted_pow_assoc :
  exists orc, simplify_sound orc /\
  exists a b E za zb, in_frag true a = true /\ equal_m orc false a b = true /\
                      feval E a = Some za /\ feval E b = Some zb /\ za <> zb.
Proof.
  exists (pt_oracle (sdiff false w_pow_a w_pow_b) 0). split.
  - apply pt_oracle_sound, w_pow_valid.
  - exists w_pow_a, w_pow_b, (env1 "n" 2), 64, 256.
    split; [reflexivity|].
    split; [unfold equal_m; rewrite pt_oracle_hit; reflexivity|].
    split; [reflexivity|]. split; [reflexivity | discriminate].
Qed.
Print Assumptions C17_equal_refuted_pow_assoc.

(* n/2*2+1 against n at n = 1 *)
Theorem C17_never_equal_refuted_div : forall fixed,
  exists orc, simplify_sound orc /\
  exists a b E z, never_equal_m orc fixed a b = true /\ feval E a = Some z /\ feval E b = Some z.
Proof.
  intro fixed. exists (pt_oracle (sdiff fixed w_ndiv_a w_div_b) 1). split.
  - apply pt_oracle_sound, w_ndiv_valid.
  - exists w_ndiv_a, w_div_b, (env1 "n" 1), 1.
    split; [unfold never_equal_m; rewrite pt_oracle_hit; reflexivity|].
    split; reflexivity.
Qed.
Print Assumptions C17_never_equal_refuted_div.

(* i/2*2 = 3 solved for i: the reported solution 3 is none (3/2*2 = 2) *)
Theorem C17_solutions_refuted_div : forall fixed,
  exists osolve, solveset_sound osolve /\
  exists a b x sols sol z E za zb,
    solve_m osolve fixed a b x = Some sols /\ In sol sols /\
    oeq (seval (qenv_of E) sol) (Some (inject_Z z)) /\
    feval (upd E x z) a = Some za /\ feval (upd E x z) b = Some zb /\ za <> zb.
Proof.
  intro fixed. exists (pt_solve (sdiff fixed w_sol_a w_sol_b) "i" [SInt 3]). split.
  - apply w_sol_valid.
  - exists w_sol_a, w_sol_b, "i", [SInt 3], (SInt 3), 3, (env1 "i" 0), 2, 3.
    split; [unfold solve_m, pt_solve; rewrite sexpr_eqb_refl; reflexivity|].
    split; [left; reflexivity|].
    split; [simpl; reflexivity|].
    split; [reflexivity|]. split; [reflexivity | discriminate].
Qed.
Print Assumptions C17_solutions_refuted_div.

(* MOD(-7,2)*(n+1) expands to n+1 *)
Theorem C17_expand_refuted_mod : forall fixed,
  exists oexpand reader, expand_sound oexpand /\ reader_faithful fixed reader /\
  exists e e' E z z', expand_m oexpand reader fixed e = Some e' /\
                      feval E e = Some z /\ feval E e' = Some z' /\ z <> z'.
Proof.
  intro fixed.
  exists (pt_expand (tr fixed w_exp) (tr fixed w_exp')), (pt_reader (tr fixed w_exp') w_exp').
  split; [apply w_exp_valid|]. split; [apply w_exp_reader|].
  exists w_exp, w_exp', (env1 "n" 0), (-1), 1.
  split; [unfold expand_m, pt_expand, pt_reader; rewrite !sexpr_eqb_refl; reflexivity|].
  split; [reflexivity|]. split; [reflexivity | discriminate].
Qed.
Print Assumptions C17_expand_refuted_mod.

Example C17_frag_nonvacuous :
  in_frag false ex_frag = true /\
  feval (mk_env 1 [("i", 2); ("j", -1); ("n", -4); ("m", 3)]%string%Z) ex_frag = Some 3%Z /\
  oeqb (seval (qenv_of (mk_env 1 [("i", 2); ("j", -1); ("n", -4); ("m", 3)]%string%Z)) (tr false ex_frag))
       (Some (inject_Z 3)) = true.
Proof. exact frag_nonvacuous. Qed.
Print Assumptions C17_frag_nonvacuous.

Example C17_equal_nonvacuous :
  in_frag false ex_a = true /\ in_frag false ex_b = true /\
  equal_m poly_const false ex_a ex_b = true /\
  never_equal_m poly_const false (EBin Add ex_a (ELit 1)) ex_b = true /\
  never_equal_m poly_const false ex_a vn = false.
Proof. exact equal_nonvacuous. Qed.
Print Assumptions C17_equal_nonvacuous.

Example C17_solve_nonvacuous : forall fixed,
  solveset_sound (pt_solve (sdiff fixed ex_sq (ELit 4)) "i" [SInt 2; SInt (-2)]) /\
  in_frag fixed ex_sq = true /\
  solve_m (pt_solve (sdiff fixed ex_sq (ELit 4)) "i" [SInt 2; SInt (-2)]) fixed ex_sq (ELit 4) "i"
  = Some [SInt 2; SInt (-2)].
Proof. intro fixed. split; [apply ex_solve_valid | apply solve_nonvacuous]. Qed.
Print Assumptions C17_solve_nonvacuous.

Example C17_expand_nonvacuous :
  expand_m poly_expand untr false ex_a
  = Some (EBin Add (EBin Mul (ENeg (ELit 1)) (EBin Mul vm vm)) (EBin Mul (ELit 1) (EBin Mul vn vn))).
Proof. exact expand_nonvacuous. Qed.
Print Assumptions C17_expand_nonvacuous.

(* type map and reserved-name renaming (C17/TypeMap.v) *)
From PV Require Import C17.TypeMap C17.TypeMapProofs C17.TypeMapTotal.

(* the unique-name search terminates with a fresh name (pigeonhole over base_1 .. base_1000, whose decimal
   suffixes are pairwise distinct): no "build succeeds" hypothesis below, only a size bound
   (968 = fuel 1000 of the model - 32 reserved keywords) *)
Theorem C17_unique_name_terminates : forall used base, (List.length used < 1000)%nat ->
  exists u, new_name used base = Some u /\ ~ In u used.
Proof. exact unique_name_terminates_. Qed.
Print Assumptions C17_unique_name_terminates.

(* every name occurring in the translation (any operand position, inside intrinsic / array arguments, nested)
   is bound by the type map built from the expression *)
Theorem C17_type_map_total : forall fixed e, (List.length (occs e) < 968)%nat ->
  exists tm, build [e] = Some tm /\ forall x, In x (snames (tr fixed e)) -> has_fname tm x = true.
Proof.
  intros fixed e L. destruct (build_total1 e L) as [tm H].
  exists tm. split; [exact H | exact (type_map_total_ fixed e tm H)].
Qed.
Print Assumptions C17_type_map_total.

(* distinct Fortran names (reserved or not) get distinct names in the text and distinct sympy objects *)
Theorem C17_type_map_injective : forall es, (List.length (flat_map occs es) < 968)%nat ->
  exists tm, build es = Some tm /\
  forall e1 e2, In e1 tm -> In e2 tm -> fname e1 <> fname e2 ->
  uname e1 <> uname e2 /\ (ekind e1, sname e1) <> (ekind e2, sname e2).
Proof.
  intros es L. destruct (build_total_ es L) as [tm H].
  exists tm. split; [exact H | exact (type_map_injective_ es tm H)].
Qed.
Print Assumptions C17_type_map_injective.

(* tr_exact composed with the renaming: the sympy object built under the type map, evaluated under the renamed
   valuation, has the Fortran value on the fragment *)
Theorem C17_renaming_preserves_value : forall fixed e, in_frag fixed e = true ->
  (List.length (occs e) < 968)%nat ->
  exists tm, build [e] = Some tm /\
  forall E, oeq (seval (renv tm (qenv_of E)) (obj tm (tr fixed e))) (option_map inject_Z (feval E e)).
Proof.
  intros fixed e F L. destruct (build_total1 e L) as [tm H].
  exists tm. split; [exact H | exact (renaming_preserves_value_ fixed e tm F H)].
Qed.
Print Assumptions C17_renaming_preserves_value.

Example C17_type_map_nonvacuous :
  build [tm_ex] = Some tm_ex_map /\ in_frag false tm_ex = true /\
  build [ECall (FArr "while") [EVar "lambda_1"; EVar "lambda"]]
  = Some [mk_entry "while" KFun "while_1"; mk_entry "lambda_1" KSym "lambda_1"; mk_entry "lambda" KSym "lambda_2"] /\
  feval (mk_env 0 [("pi", 5); ("lambda", 2)]%Z) tm_ex = Some (2 + 2 * std_arr 0 "re" [2])%Z /\
  oeqb (seval (renv tm_ex_map (qenv_of (mk_env 0 [("pi", 5); ("lambda", 2)]%Z))) (obj tm_ex_map (tr false tm_ex)))
       (Some (inject_Z (2 + 2 * std_arr 0 "re" [2]))) = true.
Proof. exact type_map_nonvacuous. Qed.
Print Assumptions C17_type_map_nonvacuous.
