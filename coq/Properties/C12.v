(* C12 — Extraction regions record every input and output they need.  Property theorems only.

   FULL PROPERTY (false of the faithful model of get_in_out_parameters; see the _refuted theorems):
     forall sh r f s1 s1' tr s2, bnd s2 = bnd s1 -> agree_on (inputs sh r) s1 s2 ->
       exec f r s1 = Ok s1' tr CNormal ->
       exists s2', exec f r s2 = Ok s2' tr CNormal /\ forall x, In x (outputs r) -> var_agree r x s1' s2'
     and every location modified by r belongs to a variable of outputs r.
   The second half is proved without side condition (C12_outputs_cover_modified); the first half is
   proved under the static condition [safe] (C12_replay_sound_partial) and, for any single run, under
   the run-time condition "no upward-exposed read outside the inputs" (C12_replay_sound_dyn).
   Array extents: the theorems C12_replay_sound_dyn / _partial ask the two stores to have the same bounds for
   every array; the _ext versions weaken this to the bounds of the RECORDED variables (reported inputs and
   outputs) and therefore need [inq_ok]: every array whose LBOUND/UBOUND/SIZE the region can read is
   recorded (true under ExtractTrans' option COLLECT-ARRAY-SHAPE-READS; false by design for an array that
   is only inquired when the option is off).
   What is missing for the full statement: regions outside [safe] — arrays whose first access is a
   write (sound only if the run overwrites every element), scalars first written under a condition,
   DO variables read by their own bounds. *)
From Coq Require Import List ZArith Bool.
Import ListNotations.
From PV Require Import Fort.Syntax Fort.Sem C11.Access C12.InOut C12.Proofs C12.LinkC11 C12.Bounds.

Theorem C12_outputs_cover_modified : forall sh f r s s' tr c,
  exec f r s = Ok s' tr c ->
  (forall l, In l (writes tr) -> In (fst l) (outputs_of (accs sh r))) /\
  (forall l, val s' l <> val s l -> In (fst l) (outputs_of (accs sh r))).
Proof.
  intros sh f r s s' tr c H.
  assert (W : forall l, In l (writes tr) -> In (fst l) (outputs_of (accs sh r))).
  { intros l Hl. apply in_outputs_iff. exists WRITE.
    split; [apply (exec_writes_covered sh _ _ _ _ _ _ H l Hl) | reflexivity]. }
  split; [exact W|].
  intros l Hl. destruct (in_dec loc_eq_dec l (writes tr)) as [I|N]; [exact (W l I)|].
  exfalso. apply Hl. apply (Facts.exec_unchanged _ _ _ _ _ _ l H N).
Qed.
Print Assumptions C12_outputs_cover_modified.

Theorem C12_replay_sound_dyn : forall sh f r s1 s1' tr c s2,
  exec f r s1 = Ok s1' tr c ->
  (forall l, In l (exposed tr) -> In (fst l) (inputs sh r)) ->
  bnd s2 = bnd s1 -> agree_on (inputs sh r) s1 s2 ->
  exists s2', exec f r s2 = Ok s2' tr c /\ bnd s2' = bnd s1' /\
    (forall l, In (fst l) (inputs sh r) \/ In l (writes tr) -> val s2' l = val s1' l).
Proof. intros sh f r. exact (replay_sound_any (inputs sh r) f r). Qed.
Print Assumptions C12_replay_sound_dyn.

Theorem C12_replay_sound_partial : forall sh f r s1 s1' tr c s2,
  safe sh r = true ->
  exec f r s1 = Ok s1' tr c ->
  bnd s2 = bnd s1 -> agree_on (inputs sh r) s1 s2 ->
  exists s2', exec f r s2 = Ok s2' tr c /\ bnd s2' = bnd s1' /\
    agree_on (inputs sh r) s1' s2' /\
    (forall l, In l (writes tr) -> val s2' l = val s1' l) /\
    (c = CNormal -> forall x, In x (outputs r) -> var_agree r x s1' s2').
Proof. exact replay_sound_partial. Qed.
Print Assumptions C12_replay_sound_partial.

(* the static condition implies the run-time one: no upward-exposed read outside V *)
Theorem C12_flow_sound : forall V f r s s' tr c D',
  exec f r s = Ok s' tr c -> flow_block V r [] = Some D' ->
  (forall l, In l (exposed tr) -> In (fst l) V) /\
  (c = CNormal -> forall x, In x D' -> In (x, []) (writes tr)).
Proof. exact flow_sound. Qed.
Print Assumptions C12_flow_sound.

Example C12_safe_nonvacuous :
  safe false r_ok = true /\ safe true r_ok = true /\
  inputs false r_ok = [vb; vn; vs] /\ outputs r_ok = [vb; vt; vi; vs] /\
  exists s' tr, exec 20 r_ok (st_of [((vn, []), 3); ((vb, [1%Z]), 5)])%Z = Ok s' tr CNormal /\
                val s' (vb, [1%Z]) = 15%Z /\ val s' (vs, []) = 6%Z.
Proof. exact safe_nonvacuous. Qed.
Print Assumptions C12_safe_nonvacuous.

(* a(1) = 0 ; s = a(2) *)
Theorem C12_inputs_refuted_partial_array :
  inputs false r_partial = [] /\ inputs true r_partial = [] /\ safe false r_partial = false /\
  refutes false r_partial (st_of [((va, [2%Z]), 7%Z)]) (st_of [((va, [2%Z]), 9%Z)]) vs.
Proof. exact inputs_refuted_partial_array. Qed.
Print Assumptions C12_inputs_refuted_partial_array.

(* if (t > 0) m = 1 ; n = m *)
Theorem C12_inputs_refuted_conditional :
  inputs false r_cond = [vt] /\ safe false r_cond = false /\
  refutes false r_cond (st_of [((vm, []), 7%Z)]) (st_of [((vm, []), 9%Z)]) vn.
Proof. exact inputs_refuted_conditional. Qed.
Print Assumptions C12_inputs_refuted_conditional.

(* do i = i, 5 : s = s + 1 *)
Theorem C12_inputs_refuted_do_bounds :
  inputs false r_dovar = [vs] /\ safe false r_dovar = false /\
  refutes false r_dovar (st_of [((vi, []), 1%Z)]) (st_of [((vi, []), 4%Z)]) vs.
Proof.
  split; [vm_compute; reflexivity|]. split; [vm_compute; reflexivity|].
  split; [reflexivity|]. split.
  { change (inputs false r_dovar) with [vs]. apply agree_single. intro idx. reflexivity. }
  split; [vm_compute; auto|].
  apply BigStep.normal_runs. vm_compute. discriminate.
Qed.
Print Assumptions C12_inputs_refuted_do_bounds.

(* a(1) = 0 : output `a` recorded whole, a(2:) not reproducible from the inputs *)
Theorem C12_outputs_refuted_partial_write :
  inputs false r_wonly = [] /\ outputs r_wonly = [va] /\ reads_safe false r_wonly = true /\
  safe false r_wonly = false /\
  let s1 := st_of [((va, [2%Z]), 7%Z)] in let s2 := st_of [((va, [2%Z]), 9%Z)] in
  agree_on (inputs false r_wonly) s1 s2 /\
  exists s1' tr1 s2' tr2, exec 20 r_wonly s1 = Ok s1' tr1 CNormal /\ exec 20 r_wonly s2 = Ok s2' tr2 CNormal /\
                          ~ var_agree r_wonly va s1' s2'.
Proof.
  split; [vm_compute; reflexivity|]. split; [vm_compute; reflexivity|]. split; [vm_compute; reflexivity|].
  split; [vm_compute; reflexivity|]. intros s1 s2. split; [apply agree_nil|].
  destruct (BigStep.normal_runs (exec 20 r_wonly s1) (exec 20 r_wonly s2)
              (fun s1' _ s2' _ => val s2' (va, [2%Z]) <> val s1' (va, [2%Z])))
    as [s1' [tr1 [s2' [tr2 [E1 [E2 N]]]]]]; [vm_compute; discriminate|].
  exists s1', tr1, s2', tr2. split; [exact E1|]. split; [exact E2|].
  unfold var_agree. change (mem va (arrays_of r_wonly)) with true. cbv iota.
  intro H. exact (N (H [2%Z])).
Qed.
Print Assumptions C12_outputs_refuted_partial_write.

(* the access list used here is the C11 model of VariablesAccessInfo, projected *)
Theorem C12_accs_is_C11_projection : forall r, accs false r = map sk (accesses r).
Proof. exact accs_proj. Qed.
Print Assumptions C12_accs_is_C11_projection.

(* the bounds of arrays the region never inquires are irrelevant to its execution *)
Theorem C12_exec_bounds_irrelevant : forall b f ss s,
  (forall a, In a (inq_of ss) -> b a = bnd s a) ->
  exec f ss (setb s b) = omapb b (exec f ss s).
Proof. exact exec_setb. Qed.
Print Assumptions C12_exec_bounds_irrelevant.

Theorem C12_replay_sound_dyn_ext : forall sh f r s1 s1' tr c s2,
  exec f r s1 = Ok s1' tr c ->
  (forall l, In l (exposed tr) -> In (fst l) (inputs sh r)) ->
  inq_ok sh r = true ->
  bnd_agree_on (recorded sh r) s1 s2 -> agree_on (inputs sh r) s1 s2 ->
  exists s2', exec f r s2 = Ok s2' tr c /\ bnd s2' = bnd s2 /\
    (forall l, In (fst l) (inputs sh r) \/ In l (writes tr) -> val s2' l = val s1' l).
Proof.
  intros sh f r s1 s1' tr c s2 H Hex Hq Hb Hag.
  (* replay s2 under the bounds of s1; [val (setb s b)] is [val s] *)
  destruct (replay_sound_any (inputs sh r) f r s1 s1' tr c (setb s2 (bnd s1)) H Hex eq_refl Hag)
    as [s2b' [R1 [_ R3]]].
  exists (setb s2b' (bnd s2)). split; [exact (exec_own_bounds f r s1 s2 _ tr c (inq_recorded sh r s1 s2 Hq Hb) R1)|].
  split; [reflexivity | exact R3].
Qed.
Print Assumptions C12_replay_sound_dyn_ext.

Theorem C12_replay_sound_partial_ext : forall sh f r s1 s1' tr c s2,
  safe_ext sh r = true ->
  exec f r s1 = Ok s1' tr c ->
  bnd_agree_on (recorded sh r) s1 s2 -> agree_on (inputs sh r) s1 s2 ->
  exists s2', exec f r s2 = Ok s2' tr c /\ bnd s2' = bnd s2 /\
    agree_on (inputs sh r) s1' s2' /\
    (forall l, In l (writes tr) -> val s2' l = val s1' l) /\
    (c = CNormal -> forall x, In x (outputs r) -> var_agree r x s1' s2').
Proof.
  intros sh f r s1 s1' tr c s2 Hs H Hb Hag. unfold safe_ext in Hs. apply andb_true_iff in Hs as [Hs Hq].
  destruct (replay_sound_partial sh f r s1 s1' tr c (setb s2 (bnd s1)) Hs H eq_refl Hag)
    as [s2b' [R1 [_ R]]].
  exists (setb s2b' (bnd s2)). split; [exact (exec_own_bounds f r s1 s2 _ tr c (inq_recorded sh r s1 s2 Hq Hb) R1)|].
  split; [reflexivity | exact R].
Qed.
Print Assumptions C12_replay_sound_partial_ext.

(* hist(size(active,1)) = hist(1) + 1 *)
Example C12_ext_nonvacuous :
  safe_ext true r_hist = true /\ inputs true r_hist = [0%nat; 1%nat] /\
  inq_of r_hist = [1%nat] /\ inq_ok false r_hist = false /\ inputs false r_hist = [0%nat] /\
  exists s' tr, exec 5 r_hist (store_of [((0%nat, [1%Z]), 4%Z)] [(0%nat, [(1%Z, 6%Z)]); (1%nat, [(1%Z, 3%Z)])]) = Ok s' tr CNormal /\
                val s' (0%nat, [3%Z]) = 5%Z.
Proof. exact ext_nonvacuous. Qed.
Print Assumptions C12_ext_nonvacuous.

(* any list V of recorded inputs, any statement list as the region's semantics (calls expanded) *)
Theorem C12_replay_sound_any : forall (V : list name) f r s1 s1' tr c s2,
  exec f r s1 = Ok s1' tr c ->
  (forall l, In l (exposed tr) -> In (fst l) V) ->
  bnd s2 = bnd s1 -> agree_on V s1 s2 ->
  exists s2', exec f r s2 = Ok s2' tr c /\ bnd s2' = bnd s1' /\
    (forall l, In (fst l) V \/ In l (writes tr) -> val s2' l = val s1' l).
Proof. exact replay_sound_any. Qed.
Print Assumptions C12_replay_sound_any.

(* a by-reference argument of a non-pure call (READWRITE access) is an output, and an input unless written first *)
Theorem C12_readwrite_in_out : forall x l,
  In (x, READWRITE) l -> (wfirst x l = false -> In x (inputs_of l)) /\ In x (outputs_of l).
Proof.
  intros x l H. split.
  - intro W. apply in_inputs_iff. split; [exact (in_map fst l (x, READWRITE) H) | exact W].
  - apply in_outputs_iff. exists READWRITE. split; [exact H | reflexivity].
Qed.
Print Assumptions C12_readwrite_in_out.

(* regenerated obligation (props/C12/translate.py -> coq/C12/GenTables.v): every intrinsic of the tree under test is known to the
   frozen table of the Fortran standard's inquiry functions, and none is flagged `is_inquiry` (first argument skipped by
   IntrinsicCall.reference_accesses) unless the standard classifies it as an inquiry function *)
From PV Require Import C12.IntrTable C12.GenTables C12.IntrOblig.
Theorem C12_inquiry_flags_sound : forallb flag_ok gen_intrinsics = true.
Proof. exact inquiry_flags_sound. Qed.
Print Assumptions C12_inquiry_flags_sound.

(* ---- the extraction protocol as PSyDataNode.lower_to_language_level emits it (model C12/Protocol.v; compared with the calls
   read from the generated code on every run) *)
From PV Require Import C12.Protocol.
Theorem C12_protocol_records_reported : forall ins outs,
  provided_before (lower_extract ins outs) = ins /\
  provided_after (lower_extract ins outs) = outs /\
  declared (lower_extract ins outs) = ins ++ outs /\
  announced (lower_extract ins outs) = Some (length ins, length outs).
Proof. exact protocol_records_reported. Qed.
Print Assumptions C12_protocol_records_reported.

(* a region without inputs still declares and provides every output *)
Theorem C12_outputs_provided_without_inputs : forall outs,
  provided_after (lower_extract [] outs) = outs /\ declared (lower_extract [] outs) = outs /\
  announced (lower_extract [] outs) = Some (0%nat, length outs).
Proof. intro outs. destruct (protocol_records_reported [] outs) as [_ [H2 [H3 H4]]]. auto. Qed.
Print Assumptions C12_outputs_provided_without_inputs.

(* ---- regions containing DO WHILE directly (fuelled semantics C12/While.v: wexec / wloop; OutOfFuel distinct) *)
From PV Require Import C12.While.
(* like C12_replay_sound_any an instance of [frame_replay]; the traces being equal, every loop iterates equally often *)
Theorem C12_replay_sound_any_while : forall (V : list name) f ws s1 s1' tr c s2,
  wexec f ws s1 = Ok s1' tr c ->
  (forall l, In l (exposed tr) -> In (fst l) V) ->
  bnd s2 = bnd s1 -> agree_on V s1 s2 ->
  exists s2', wexec f ws s2 = Ok s2' tr c /\ bnd s2' = bnd s1' /\
    (forall l, In (fst l) V \/ In l (writes tr) -> val s2' l = val s1' l).
Proof. intros V f ws. exact (fun s1 s1' tr c s2 => frame_replay (wexec f ws) V s1 s1' tr c s2 (frame_wexec f ws)). Qed.
Print Assumptions C12_replay_sound_any_while.

Theorem C12_while_same_iterations : forall (V : list name) n c body s1 s1' tr c0 s2,
  wloop n c body s1 = Ok s1' tr c0 ->
  (forall l, In l (exposed tr) -> In (fst l) V) ->
  bnd s2 = bnd s1 -> agree_on V s1 s2 ->
  witers n c body s2 = witers n c body s1.
Proof.
  intros V n c body s1 s1' tr c0 s2 H Hex Hb Hag. apply (witers_frame c body n s1 s1' tr c0 s2 H Hb).
  intros [x idx] Hl. apply Hag. apply (Hex (x, idx) Hl).
Qed.
Print Assumptions C12_while_same_iterations.

Example C12_while_runs :
  let c := EBin And (EBin Gt (EIdx 0%nat [ELit 1%Z]) (ELit 1%Z)) (EBin Lt (EVar 1%nat) (ELit 3%Z)) in
  let body := [SAssign 0%nat [ELit 1%Z] (EBin Sub (EIdx 0%nat [ELit 1%Z]) (ELit 1%Z)); SAssign 1%nat [] (EBin Add (EVar 1%nat) (ELit 1%Z))] in
  let st := store_of [((0%nat, [1%Z]), 3%Z)] [] in
  witers 10 c body st = 2%nat /\
  exists s' tr, wexec 10 [WWhile c body] st = Ok s' tr CNormal /\ val s' (0%nat, [1%Z]) = 1%Z /\ val s' (1%nat, []) = 2%Z /\
  wexec 1 [WWhile c body] st = OutOfFuel.
Proof. exact while_runs. Qed.
Print Assumptions C12_while_runs.

(* ---- call-tree resolution of module variables (model C12/CallTree.v, proofs C12/CallTreeProofs.v) *)
From Coq Require Import Permutation.
From PV Require Import C12.CallTree C12.CallTreeProofs.

(* any processing order of the routines gives the same lists (the r2 seed made the first-processed routine decide) *)
Theorem C12_calltree_order_independent : forall rs rs' globals,
  Permutation rs rs' ->
  ct_inputs rs' globals = ct_inputs rs globals /\ ct_outputs rs' globals = ct_outputs rs globals.
Proof.
  intros rs rs' globals P. unfold ct_inputs, ct_outputs.
  split; apply filter_ext; intro v; symmetry; apply existsb_perm; exact P.
Qed.
Print Assumptions C12_calltree_order_independent.

(* PARTIAL. Fragment: a table p of routines whose bodies are core statements and top-level calls without arguments to routines
   of the table; meaning of a call = the callee inlined (to depth n); entry = any body.  "Incoming value read before being
   written" is taken, as in the implementation, as "first access in the inlined access list is not a WRITE"; with the must-
   define data-flow succeeding this covers every upward-exposed read (C12_calltree_exposed_reads_covered). Missing for the full
   statement: the is_written_first gaps (partial array write, conditional write) of the inlined code. *)
Theorem C12_calltree_covers_partial : forall n p entry globals,
  let rs := map to_x (reached n p entry) in
  (forall v, In v globals -> In v (inputs false (inline n p entry)) -> In v (ct_inputs rs globals)) /\
  (forall f st st' tr c, exec f (inline n p entry) st = Ok st' tr c ->
     forall l, In l (writes tr) -> In (fst l) globals -> In (fst l) (ct_outputs rs globals)).
Proof. exact calltree_covers_partial. Qed.
Print Assumptions C12_calltree_covers_partial.

Theorem C12_calltree_exposed_reads_covered : forall n p entry globals f st st' tr c D',
  exec f (inline n p entry) st = Ok st' tr c ->
  flow_block (inputs false (inline n p entry)) (inline n p entry) [] = Some D' ->
  forall l, In l (exposed tr) -> In (fst l) globals ->
  In (fst l) (ct_inputs (map to_x (reached n p entry)) globals).
Proof.
  intros n p entry globals f st st' tr c D' H F l Hl Hg. destruct (flow_sound _ _ _ _ _ _ _ _ H F) as [A _].
  apply (proj1 (calltree_covers_partial n p entry globals)); [exact Hg | apply A, Hl].
Qed.
Print Assumptions C12_calltree_exposed_reads_covered.

(* entry: g2 = g1 + 1; call h1     h1: call h2; g3 = g2     h2: g1 = 5 *)
Example C12_calltree_nonvacuous :
  let entry := nth 0 prog3 [] in
  let rs := map to_x (reached 2 prog3 entry) in
  inline 2 prog3 entry = [SAssign g2 [] (EBin Add (EVar g1) (ELit 1%Z)); SAssign g1 [] (ELit 5%Z); SAssign g3 [] (EVar g2)] /\
  length rs = 3%nat /\
  ct_inputs rs [g1; g2; g3] = [g1; g2] /\ ct_outputs rs [g1; g2; g3] = [g1; g2; g3] /\
  ct_inputs (rev rs) [g1; g2; g3] = [g1; g2] /\
  ct_inputs [to_x (nth 2 prog3 [])] [g1; g2; g3] = [] /\
  exists st' tr, exec 10 (inline 2 prog3 entry) (store_of [((g1, []), 7%Z)] []) = Ok st' tr CNormal /\
                 val st' (g3, []) = 8%Z /\ val st' (g1, []) = 5%Z.
Proof. exact calltree_nonvacuous. Qed.
Print Assumptions C12_calltree_nonvacuous.
