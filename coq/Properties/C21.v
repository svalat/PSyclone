(* C21 — LFRic kernel calls match the kernel interface for all metadata.  Property theorems only.

   Vocabulary (coq/C21/Model.v): [walk m] = the hook invocations of ArgOrdering.generate on metadata m;
   [call_args v e] / [stub_args v e] = what KernCallArgList / KernStubArgList (+ the stub's declarations)
   append for hook invocation e, as lists of (role, (intrinsic type, kind, rank, intent));
   [call_list v m] = flat_map (call_args v) (walk m) = the actual arguments of the kernel call in the PSy
   layer, [stub_list v m] = the dummy arguments of the generated kernel stub.  [v : variant] says which of
   the two repaired defects are present in the tree; the tree under test has [gen_variant]
   (coq/C21/GenHooks.v, regenerated on every run).

   FULL STATEMENT of the property (FALSE of the unchanged code, see the _refuted theorems):
     forall m, md_valid m = true -> stub_supported m = true -> all_default m = true ->
               call_list v_unchanged m = stub_list v_unchanged m
     and  erase_list (doc_list m) = erase_list (stub_list v_unchanged m)   (the documented rules).
   Proved: the statement under the sufficient condition [safe] (all metadata, no size bound), the exact
   characterisation of the gap (two reasons), the full statement for the repaired variant [v_fixed],
   and agreement with the user guide's numbered rules under [rules_safe]; the places where the guide
   read literally differs from the code are refuted by concrete valid metadata. *)
From Coq Require Import List Bool.
Import ListNotations.
From PV Require Import C21.Model C21.Safe C21.Proofs C21.Rules C21.RulesProofs C21.RulesRefuted
                       C21.GenHooks C21.Hooks.

(* ---- per hook: both classes append the same arguments (role, type, kind, rank, intent) *)
Theorem C21_event_agree : forall v e, ev_ok v true e = true -> call_args v e = stub_args v e.
Proof. exact event_agree_. Qed.
Print Assumptions C21_event_agree.

(* ---- per hook, mixed precision in the algorithm layer: everything but the kind *)
Theorem C21_event_agree_mixed_precision : forall v e, ev_ok v false e = true ->
  map erase_kind (call_args v e) = map erase_kind (stub_args v e).
Proof. exact event_agree_modkind_. Qed.
Print Assumptions C21_event_agree_mixed_precision.

(* ---- for ALL safe metadata the call matches the stub (by flat_map congruence over the walk).
   _partial: [safe] excludes (for the unchanged variant) gh_evaluator listed before a quadrature shape and
   cross2d stencils mixed with other stencil types; the full statement is refuted below. *)
Theorem C21_call_matches_stub_partial : forall v m, safe v true m = true -> call_list v m = stub_list v m.
Proof.
  intros v m H. unfold call_list, stub_list.
  apply (flat_map_ext_forallb (ev_ok v true)); [apply event_agree_ | apply walk_ok; exact H].
Qed.
Print Assumptions C21_call_matches_stub_partial.

(* the same in the words of the property: same count, and position by position the same role,
   intrinsic type, kind, rank and intent *)
Theorem C21_positions_agree_partial : forall v m, safe v true m = true ->
  length (call_list v m) = length (stub_list v m) /\
  forall n, nth_error (call_list v m) n = nth_error (stub_list v m) n.
Proof. intros v m H. rewrite (C21_call_matches_stub_partial v m H). split; reflexivity. Qed.
Print Assumptions C21_positions_agree_partial.

Theorem C21_call_matches_stub_mixed_precision_partial : forall v m, safe v false m = true ->
  map erase_kind (call_list v m) = map erase_kind (stub_list v m).
Proof.
  intros v m H. unfold call_list, stub_list.
  apply (flat_map_map_ext_forallb (ev_ok v false)); [apply event_agree_modkind_ | apply walk_ok; exact H].
Qed.
Print Assumptions C21_call_matches_stub_mixed_precision_partial.

(* ---- the gap between "a stub exists, default precisions" and [safe] is exactly two reasons *)
Theorem C21_gap_characterised : forall v m,
  stub_supported m = true -> all_default m = true ->
  v_basis_in_shape_order v || quad_then_eval [] (eval_shapes m) = true ->
  v_sizes_per_arg v || forallb (stencil_consistent (sizes_declared_as_arrays m)) (m_args m) = true ->
  safe v true m = true.
Proof.
  intros v m Hs Hd Hq Hst. apply stub_supported_inv in Hs. apply safe_iff. tauto.
Qed.
Print Assumptions C21_gap_characterised.

(* ---- with both repairs (props/C21/fix.patch) the full statement holds *)
Theorem C21_call_matches_stub_fixed : forall m,
  stub_supported m = true -> all_default m = true -> call_list v_fixed m = stub_list v_fixed m.
Proof. intros m Hs Hd. apply C21_call_matches_stub_partial, C21_gap_characterised; auto. Qed.
Print Assumptions C21_call_matches_stub_fixed.

(* ---- the unchanged code violates the full statement: valid metadata, a stub exists, default
   precisions, same count, but at some position the ranks differ *)
Theorem C21_call_matches_stub_refuted_shapes : exists m,
  md_valid m = true /\ stub_supported m = true /\ all_default m = true /\ rank_differs v_unchanged m.
Proof.
  exists witness_shapes. repeat split; try (vm_compute; reflexivity).
  exists 8, (real_in 4), (real_in 3). repeat split; try (vm_compute; reflexivity).
  vm_compute; discriminate.
Qed.
Print Assumptions C21_call_matches_stub_refuted_shapes.

Theorem C21_call_matches_stub_refuted_stencil : exists m,
  md_valid m = true /\ stub_supported m = true /\ all_default m = true /\ rank_differs v_unchanged m.
Proof.
  exists witness_stencil. repeat split; try (vm_compute; reflexivity).
  exists 6, (int_in 1), (int_in 0). repeat split; try (vm_compute; reflexivity).
  vm_compute; discriminate.
Qed.
Print Assumptions C21_call_matches_stub_refuted_stencil.

(* ---- both follow the documented rules.  _partial: [rules_safe] excludes the places where the user
   guide read literally differs from the code (refuted below) or is silent (boundary-condition
   kernels, basis functions / mesh properties of CMA and inter-grid kernels, DoF kernels). *)
Theorem C21_walk_matches_rules_partial : forall v m, rules_safe v m = true ->
  erase_list (doc_list m) = erase_list (call_list v m).
Proof. exact walk_matches_rules_. Qed.
Print Assumptions C21_walk_matches_rules_partial.

Theorem C21_stub_matches_rules_partial : forall v m, rules_safe v m = true -> safe v false m = true ->
  erase_list (doc_list m) = erase_list (stub_list v m).
Proof.
  intros v m Hr Hs. rewrite (walk_matches_rules_ v m Hr). exact (C21_call_matches_stub_mixed_precision_partial v m Hs).
Qed.
Print Assumptions C21_stub_matches_rules_partial.

Theorem C21_rules_refuted_xory1d_direction : doc_differs w_xory1d.
Proof. differs. Qed.
Print Assumptions C21_rules_refuted_xory1d_direction.
Theorem C21_rules_refuted_cma_apply_indirection : doc_differs w_apply.
Proof. differs. Qed.
Print Assumptions C21_rules_refuted_cma_apply_indirection.
Theorem C21_rules_refuted_cma_assembly_ncell3d : doc_differs w_assembly.
Proof. differs. Qed.
Print Assumptions C21_rules_refuted_cma_assembly_ncell3d.
Theorem C21_rules_refuted_basis_operation_order : doc_differs w_basis_order.
Proof. differs. Qed.
Print Assumptions C21_rules_refuted_basis_operation_order.
Theorem C21_rules_refuted_refelem_normals_type : doc_differs w_refelem.
Proof. differs. Qed.
Print Assumptions C21_rules_refuted_refelem_normals_type.
Theorem C21_rules_refuted_domain_dofmap_rank : md_valid w_domain = true /\
  forall v, erase_list (doc_list w_domain) <> erase_list (call_list v w_domain).
Proof. split; [vm_compute; reflexivity|]. intros [b1 b2]; destruct b1, b2; vm_compute; discriminate. Qed.
Print Assumptions C21_rules_refuted_domain_dofmap_rank.

(* ---- obligations against the tables regenerated from the tree under test *)
Theorem C21_hook_order_as_modelled : gen_hook_order = model_hook_order.
Proof. reflexivity. Qed.
Print Assumptions C21_hook_order_as_modelled.
Theorem C21_hook_overrides_as_modelled : gen_overrides = model_overrides.
Proof. reflexivity. Qed.
Print Assumptions C21_hook_overrides_as_modelled.
Theorem C21_call_matches_stub_this_tree_partial : forall m, safe gen_variant true m = true ->
  call_list gen_variant m = stub_list gen_variant m.
Proof. exact (C21_call_matches_stub_partial gen_variant). Qed.
Print Assumptions C21_call_matches_stub_this_tree_partial.
Theorem C21_walk_matches_rules_this_tree_partial : forall m, rules_safe gen_variant m = true ->
  erase_list (doc_list m) = erase_list (call_list gen_variant m).
Proof. exact (walk_matches_rules_ gen_variant). Qed.
Print Assumptions C21_walk_matches_rules_this_tree_partial.

(* ---- non-vacuity: the hypotheses hold of concrete non-trivial metadata *)
Example C21_nonvacuous_safe :
  md_valid example_safe = true /\ safe v_unchanged true example_safe = true /\
  length (stub_list v_unchanged example_safe) = 47 /\
  call_list v_unchanged example_safe = stub_list v_unchanged example_safe.
Proof. repeat split; vm_compute; reflexivity. Qed.
Print Assumptions C21_nonvacuous_safe.
Example C21_nonvacuous_cma :
  md_valid example_cma = true /\ safe v_unchanged true example_cma = true /\
  cma_operation example_cma = Some Assembly /\ length (call_list v_unchanged example_cma) = 18.
Proof. repeat split; vm_compute; reflexivity. Qed.
Print Assumptions C21_nonvacuous_cma.
Example C21_nonvacuous_mixed_precision :
  md_valid example_mixed = true /\ safe v_unchanged false example_mixed = true /\
  safe v_unchanged true example_mixed = false /\
  map snd (call_list v_unchanged example_mixed) <> map snd (stub_list v_unchanged example_mixed).
Proof. repeat split; try (vm_compute; reflexivity). vm_compute; discriminate. Qed.
Print Assumptions C21_nonvacuous_mixed_precision.
Example C21_nonvacuous_rules :
  forallb (fun m => md_valid m && rules_safe v_unchanged m) [r_general; r_intergrid; r_assembly; r_apply; r_mm] = true /\
  length (doc_list r_general) = 40 /\ length (doc_list r_intergrid) = 14.
Proof. repeat split; vm_compute; reflexivity. Qed.
Print Assumptions C21_nonvacuous_rules.
Example C21_witnesses_repaired :
  call_list v_fixed witness_shapes = stub_list v_fixed witness_shapes /\
  call_list v_fixed witness_stencil = stub_list v_fixed witness_stencil.
Proof. split; vm_compute; reflexivity. Qed.
Print Assumptions C21_witnesses_repaired.
