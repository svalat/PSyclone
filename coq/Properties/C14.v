(* C14 — The PSyIR tree stays well-formed under any sequence of edits.  Property theorems only.

   FULL STATEMENT (what the property asks of the code):
     forall E fuel s ops, Inv E s ->
       Inv E (run P_src E fuel s ops) /\ failed_unchanged P_src E fuel s ops
   i.e. after any history of append / insert / __setitem__ / __delitem__ / remove / pop / extend /
   clear / reverse / sort / addchild / detach / replace_with / pop_all_children / children-setter
   operations with arbitrary integer indices, every child's parent pointer is its container, every
   node's parent lists it, no node is listed twice, every child is valid at its position, and an
   operation that raised left the forest unchanged.
   It is FALSE of the code as found (theorems C14_refuted_*: nine concrete histories, replayed on the
   implementation by props/C14/check.py).  What is proved instead:
     - C14_*_safe_partial : the statement for every operation/history inside a computable safe
       fragment [op_safe]/[hist_safe] (what is missing: the operations classified by reason codes
       1-9 of Model.reason, i.e. exactly the nine defects), for ANY parameter value;
     - C14_*_full_when_repaired : the full statement, with the sole side condition that no
       container is deeper than the interpreter's recursion limit (update_signal is recursive),
       for every parameter value recognised by [P_okb] (the code with props/C14/fix.patch applied
       translates to such a value; then C14_source_history_full_if_repaired applies to P_src). *)
From Coq Require Import List ZArith.
Import ListNotations.
From PV Require Import C14.Model C14.Gen C14.Proofs C14.GenProofs C14.Witness.

Theorem C14_step_safe_partial : forall P E fuel s o,
  Inv E s -> op_safe P E fuel s o = true ->
  Inv E (fst (step P E fuel s o)) /\
  (snd (step P E fuel s o) <> None -> state_eq (fst (step P E fuel s o)) s).
Proof. exact step_safe_. Qed.
Print Assumptions C14_step_safe_partial.

Theorem C14_history_safe_partial : forall P E fuel ops s,
  Inv E s -> hist_safe P E fuel s ops = true ->
  Inv E (run P E fuel s ops) /\ failed_unchanged P E fuel s ops.
Proof.
  intros P E fuel. induction ops as [|o r IH]; intros s HI HS; [split; [exact HI | exact I]|].
  cbn [hist_safe] in HS. apply Bool.andb_true_iff in HS. destruct HS as [H1 H2].
  destruct (step_safe_ P E fuel s o HI H1) as [A B].
  destruct (IH _ A H2) as [C D]. split; [exact C | split; assumption].
Qed.
Print Assumptions C14_history_safe_partial.

Theorem C14_step_full_when_repaired : forall P E fuel s o,
  P_okb P = true -> Inv E s -> depth_ok fuel s o = true ->
  Inv E (fst (step P E fuel s o)) /\
  (snd (step P E fuel s o) <> None -> state_eq (fst (step P E fuel s o)) s).
Proof.
  intros P E fuel s o HP HI HD. apply P_okb_fixed in HP. subst P. apply step_safe_; [exact HI|].
  unfold op_safe. rewrite fixed_reason by exact HD. reflexivity.
Qed.
Print Assumptions C14_step_full_when_repaired.

Theorem C14_history_full_when_repaired : forall P E fuel, P_okb P = true -> forall ops s,
  Inv E s -> hist_depth_ok P E fuel s ops = true ->
  Inv E (run P E fuel s ops) /\ failed_unchanged P E fuel s ops.
Proof.
  intros P E fuel HP. induction ops as [|o r IH]; intros s HI HS; [split; [exact HI | exact I]|].
  cbn [hist_depth_ok] in HS. apply Bool.andb_true_iff in HS. destruct HS as [H1 H2].
  destruct (C14_step_full_when_repaired P E fuel s o HP HI H1) as [A B].
  destruct (IH _ A H2) as [C D]. split; [exact C | split; assumption].
Qed.
Print Assumptions C14_history_full_when_repaired.

(* the parameters and validity rules translated from the source under test *)
Theorem C14_source_history_safe_partial : forall Kf Af fuel ops s,
  let E := mkEnv Kf Af valid_child argn_src in
  Inv E s -> hist_safe P_src E fuel s ops = true ->
  Inv (mkEnv Kf Af valid_ref argn_src) (run P_src E fuel s ops) /\ failed_unchanged P_src E fuel s ops.
Proof.
  intros Kf Af fuel ops s E HI HS. destruct (C14_history_safe_partial P_src E fuel ops s HI HS) as [A B].
  split; [apply inv_reference_; exact A | exact B].
Qed.
Print Assumptions C14_source_history_safe_partial.

Theorem C14_source_history_full_if_repaired : P_okb P_src = true -> forall Kf Af fuel ops s,
  let E := mkEnv Kf Af valid_child argn_src in
  Inv E s -> hist_depth_ok P_src E fuel s ops = true ->
  Inv (mkEnv Kf Af valid_ref argn_src) (run P_src E fuel s ops) /\ failed_unchanged P_src E fuel s ops.
Proof.
  intros HP Kf Af fuel ops s E HI HS. destruct (C14_history_full_when_repaired P_src E fuel HP ops s HI HS) as [A B].
  split; [apply inv_reference_; exact A | exact B].
Qed.
Print Assumptions C14_source_history_full_if_repaired.

(* every _validate_child rule accepts only what the frozen reference table accepts *)
Theorem C14_valid_child_refines_reference :
  forall ck pos xk, (0 <= pos)%Z -> valid_child ck pos xk = true -> valid_ref ck pos xk = true.
Proof. exact valid_child_refines_reference_. Qed.
Print Assumptions C14_valid_child_refines_reference.

(* --- the full statement is false of the code as found: concrete histories from the forest of orphans *)
(* Loop [Literal, Literal, Literal, Schedule], children.pop(-2): the Schedule becomes child 2 *)
Theorem C14_refuted_pop_negative_index :
  exists E ops, Inv E s0 /\ ~ Inv E (run P_found E FUEL s0 ops).
Proof.
  exists (env_of w_pop_kinds), w_pop_ops. split; [apply inv_s0|].
  intros [_ [_ [_ P4]]]. specialize (P4 0%nat 2%nat 4%nat). vm_compute in P4.
  discriminate (P4 eq_refl).
Qed.
Print Assumptions C14_refuted_pop_negative_index.

(* the same with `del children[-2]` *)
Theorem C14_refuted_delitem_negative_index :
  exists E ops, Inv E s0 /\ ~ Inv E (run P_found E FUEL s0 ops).
Proof.
  exists (env_of w_pop_kinds), w_del_ops. split; [apply inv_s0|].
  intros [_ [_ [_ P4]]]. specialize (P4 0%nat 2%nat 4%nat). vm_compute in P4.
  discriminate (P4 eq_refl).
Qed.
Print Assumptions C14_refuted_delitem_negative_index.

(* extend([x, x]) *)
Theorem C14_refuted_extend_duplicate :
  exists E ops, Inv E s0 /\ ~ Inv E (run P_found E FUEL s0 ops).
Proof.
  exists (env_of [KSchedule; KReturn]), [OExtend 0 [1; 1]%nat]. split; [apply inv_s0|].
  intros [_ [P2 _]]. specialize (P2 0%nat). vm_compute in P2.
  inversion P2 as [|a l Hnot Hnd]; subst. apply Hnot. left. reflexivity.
Qed.
Print Assumptions C14_refuted_extend_duplicate.

(* Call [Reference, Literal, Literal], children[-3] = Literal *)
Theorem C14_refuted_setitem_negative_index :
  exists E ops, Inv E s0 /\ ~ Inv E (run P_found E FUEL s0 ops).
Proof.
  exists (env_of [KCall; KReference; KLiteral; KLiteral; KLiteral]),
    [OExtend 0 [1; 2; 3]%nat; OSetItem 0 (-3) 4]. split; [apply inv_s0|].
  intros [_ [_ [_ P4]]]. specialize (P4 0%nat 0%nat 4%nat). vm_compute in P4.
  discriminate (P4 eq_refl).
Qed.
Print Assumptions C14_refuted_setitem_negative_index.

(* empty Loop, insert(3, Schedule): list.insert clamps the index *)
Theorem C14_refuted_insert_beyond_end :
  exists E ops, Inv E s0 /\ ~ Inv E (run P_found E FUEL s0 ops).
Proof.
  exists (env_of [KLoop; KSchedule]), [OInsert 0 3 1]. split; [apply inv_s0|].
  intros [_ [_ [_ P4]]]. specialize (P4 0%nat 0%nat 1%nat). vm_compute in P4.
  discriminate (P4 eq_refl).
Qed.
Print Assumptions C14_refuted_insert_beyond_end.

(* Call [Reference, Literal], insert(-2, Literal) *)
Theorem C14_refuted_insert_negative_index :
  exists E ops, Inv E s0 /\ ~ Inv E (run P_found E FUEL s0 ops).
Proof.
  exists (env_of [KCall; KReference; KLiteral; KLiteral]), [OExtend 0 [1; 2]%nat; OInsert 0 (-2) 3].
  split; [apply inv_s0|].
  intros [_ [_ [_ P4]]]. specialize (P4 0%nat 0%nat 3%nat). vm_compute in P4.
  discriminate (P4 eq_refl).
Qed.
Print Assumptions C14_refuted_insert_negative_index.

(* remove(x) when an equal node precedes x: the equal node leaves the list, x is unlinked *)
Theorem C14_refuted_remove_equal_node :
  exists E ops, Inv E s0 /\ ~ Inv E (run P_found E FUEL s0 ops).
Proof.
  exists (env_of [KSchedule; KReturn; KReturn]), [OExtend 0 [1; 2]%nat; ORemove 0 2]. split; [apply inv_s0|].
  intros [P1 _]. specialize (P1 0%nat 2%nat). vm_compute in P1.
  discriminate (P1 (or_introl eq_refl)).
Qed.
Print Assumptions C14_refuted_remove_equal_node.

(* the children setter raises after having removed the old children *)
Theorem C14_refuted_setter_not_atomic :
  exists E ops, Inv E s0 /\ ~ failed_unchanged P_found E FUEL s0 ops.
Proof.
  exists (env_of [KSchedule; KReturn; KLiteral]), [OAppend 0 1; OSetChildren 0 [2]%nat]. split; [apply inv_s0|].
  intros [_ [H _]]. destruct H as [Hk _]; [vm_compute; discriminate|].
  specialize (Hk 0%nat). vm_compute in Hk. discriminate.
Qed.
Print Assumptions C14_refuted_setter_not_atomic.

(* an orphan ancestor is accepted as a child: cycle, RecursionError after the change *)
Theorem C14_refuted_ancestor_accepted :
  exists E ops, Inv E s0 /\ ~ failed_unchanged P_found E FUEL s0 ops.
Proof.
  exists (env_of [KIfBlock; KLiteral; KSchedule]), [OExtend 0 [1; 2]%nat; OAppend 2 0]. split; [apply inv_s0|].
  intros [_ [H _]]. destruct H as [Hk _]; [vm_compute; discriminate|].
  specialize (Hk 2%nat). vm_compute in Hk. discriminate.
Qed.
Print Assumptions C14_refuted_ancestor_accepted.

(* --- non-vacuity of the hypotheses *)
Example C14_safe_history_nonvacuous :
  let E := env_of nv_kinds in
  Inv E s0 /\ hist_safe P_found E FUEL s0 nv_ops = true /\
  kids (run P_found E FUEL s0 nv_ops) 0 = [1; 2; 3; 4] /\
  kids (run P_found E FUEL s0 nv_ops) 4 = [8] /\
  snd (step P_found E FUEL (run P_found E FUEL s0 (firstn 4 nv_ops)) (OPop 0 2)) = Some EGen.
Proof. split; [apply inv_s0|]. vm_compute. repeat split. Qed.
Print Assumptions C14_safe_history_nonvacuous.

Example C14_repaired_nonvacuous :
  P_okb P_fixed = true /\ P_okb P_found = false /\
  hist_depth_ok P_fixed (env_of w_pop_kinds) FUEL s0 w_pop_ops = true /\
  snd (step P_fixed (env_of w_pop_kinds) FUEL
         (run P_fixed (env_of w_pop_kinds) FUEL s0 [OExtend 0 [1; 2; 3; 4]]) (OPop 0 (-2))) = Some EGen /\
  snd (step P_fixed (env_of [KSchedule; KReturn]) FUEL s0 (OExtend 0 [1; 1])) = Some EGen /\
  kids (run P_fixed (env_of [KLoop; KSchedule]) FUEL s0 [OInsert 0 3 1]) 0 = [] /\
  kids (run P_fixed (env_of [KSchedule; KReturn; KReturn]) FUEL s0 [OExtend 0 [1; 2]; ORemove 0 2]) 0 = [2] /\
  par (run P_fixed (env_of [KSchedule; KReturn; KReturn]) FUEL s0 [OExtend 0 [1; 2]; ORemove 0 2]) 1 = None /\
  kids (run P_fixed (env_of [KSchedule; KReturn; KLiteral]) FUEL s0 [OAppend 0 1; OSetChildren 0 [2]]) 0 = [1] /\
  snd (step P_fixed (env_of [KIfBlock; KLiteral; KSchedule]) FUEL
         (run P_fixed (env_of [KIfBlock; KLiteral; KSchedule]) FUEL s0 [OExtend 0 [1; 2]]) (OAppend 2 0)) = Some EGen.
Proof. vm_compute. repeat split. Qed.
Print Assumptions C14_repaired_nonvacuous.

(* ---------------------------------------------------------------------------------------------
   Extended operation set (coq/C14/Model2.v): in-place operators `+=` / `*=` on the children list
   (NOT overridden by ChildrenList: plain list semantics) and slice get / set / delete (refused).
   Full statement: as above over op2.  False of /repo HEAD (P2_head) because of `+=` and `*=`
   (C14_refuted_iadd / _imul / _imul_zero); slices are refused without any change for every parameter
   value (C14_slices_refused); full for parameters recognised by P2_okb (fix2.patch). *)
From PV Require Import C14.Model2.

Theorem C14_history2_safe_partial : forall P E fuel ops s,
  Inv E s -> hist_safe2 P E fuel s ops = true ->
  Inv E (run2 P E fuel s ops) /\ failed_unchanged2 P E fuel s ops.
Proof.
  intros P E fuel. induction ops as [|o r IH]; intros s HI HS; [split; [exact HI | exact I]|].
  cbn [hist_safe2] in HS. apply Bool.andb_true_iff in HS. destruct HS as [H1 H2].
  destruct (step2_safe_ P E fuel s o HI H1) as [A B].
  destruct (IH _ A H2) as [C D]. split; [exact C | split; assumption].
Qed.
Print Assumptions C14_history2_safe_partial.

Theorem C14_history2_full_when_repaired : forall P E fuel, P2_okb P = true -> forall ops s,
  Inv E s -> hist_depth_ok2 P E fuel s ops = true ->
  Inv E (run2 P E fuel s ops) /\ failed_unchanged2 P E fuel s ops.
Proof.
  intros P E fuel HP. induction ops as [|o r IH]; intros s HI HS; [split; [exact HI | exact I]|].
  cbn [hist_depth_ok2] in HS. apply Bool.andb_true_iff in HS. destruct HS as [H1 H2].
  assert (HS1 : op_safe2 P E fuel s o = true).
  { unfold op_safe2. rewrite (okb2_reason P E fuel s o HP H1). reflexivity. }
  destruct (step2_safe_ P E fuel s o HI HS1) as [A B].
  destruct (IH _ A H2) as [C D]. split; [exact C | split; assumption].
Qed.
Print Assumptions C14_history2_full_when_repaired.

Theorem C14_slices_refused : forall P E fuel s c xs,
  step2 P E fuel s (OGetSlice c) = (s, None) /\
  fst (step2 P E fuel s (OSetSlice c xs)) = s /\ snd (step2 P E fuel s (OSetSlice c xs)) <> None /\
  step2 P E fuel s (ODelSlice c) = (s, Some EType).
Proof. repeat split. simpl. discriminate. Qed.
Print Assumptions C14_slices_refused.

Theorem C14_refuted_iadd : exists E ops, Inv E s0 /\ ~ Inv E (run2 P2_head E FUEL s0 ops).
Proof.
  exists (env_of [KSchedule; KReturn]), [OIAdd 0 [1%nat]]. split; [apply inv_s0|].
  intros [P1 _]. specialize (P1 0%nat 1%nat). vm_compute in P1. discriminate (P1 (or_introl eq_refl)).
Qed.
Print Assumptions C14_refuted_iadd.

Theorem C14_refuted_imul : exists E ops, Inv E s0 /\ ~ Inv E (run2 P2_head E FUEL s0 ops).
Proof.
  exists (env_of [KSchedule; KReturn]), [OBase (OAppend 0 1); OIMul 0 2]. split; [apply inv_s0|].
  intros [_ [P2 _]]. specialize (P2 0%nat). vm_compute in P2.
  inversion P2 as [|a l Hnot Hnd]; subst. apply Hnot. left. reflexivity.
Qed.
Print Assumptions C14_refuted_imul.

Theorem C14_refuted_imul_zero : exists E ops, Inv E s0 /\ ~ Inv E (run2 P2_head E FUEL s0 ops).
Proof.
  exists (env_of [KSchedule; KReturn]), [OBase (OAppend 0 1); OIMul 0 0]. split; [apply inv_s0|].
  intros [_ [_ [P3 _]]]. specialize (P3 1%nat 0%nat). vm_compute in P3. destruct (P3 eq_refl).
Qed.
Print Assumptions C14_refuted_imul_zero.

Example C14_repaired2_nonvacuous :
  P2_okb P2_fixed = true /\ P2_okb P2_head = false /\
  kids (run2 P2_fixed (env_of [KSchedule; KReturn]) FUEL s0 [OIAdd 0 [1]]) 0 = [1] /\
  par (run2 P2_fixed (env_of [KSchedule; KReturn]) FUEL s0 [OIAdd 0 [1]]) 1 = Some 0 /\
  snd (step2 P2_fixed (env_of [KSchedule; KLiteral]) FUEL s0 (OIAdd 0 [1])) = Some EGen /\
  snd (step2 P2_fixed (env_of [KSchedule; KReturn]) FUEL s0 (OIMul 0 2)) = Some ENotImpl /\
  hist_depth_ok2 P2_fixed (env_of [KSchedule; KReturn]) FUEL s0 [OIAdd 0 [1]; OIMul 0 2; ODelSlice 0] = true.
Proof. vm_compute. repeat split. Qed.
Print Assumptions C14_repaired2_nonvacuous.
