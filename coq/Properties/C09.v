(* C09 — OpenMP-parallelised loops compute the serial result on any schedule.  Property theorems only.

   FULL STATEMENT (what the property asks of the code):
     forall loop, accept loop = Some true ->                      (ParallelLoopTrans.validate, no force)
       forall f s s' tr c junk sched,
         exec (S (S f)) [loop] s = Ok s' tr c -> sched_ok loop s sched ->
         exists so, omp_exec (S f) (infer_loop loop) loop junk sched s = Some so /\
                    shared_eq (privatised (loopvar loop) (infer_loop loop)) so s'.
   It is FALSE of the faithful model and of the unchanged code: C09_omp_refuted_* below give accepted
   loops, a store and a schedule on which a non-privatised location differs from the serial run.
   What is proved instead: the statement with `accept` replaced by the sufficient syntactic condition
   `safe` (C09_omp_sound_partial), for ANY clause lists (C09_omp_sound_with_clauses: this is the form the
   harness instantiates with the clauses the implementation really wrote).  Missing for the full
   statement: accept -> safe, which does not hold.

   Scope of omp_exec: iterations are atomic and run in an arbitrary order on an arbitrary assignment to
   threads (every thread count, every schedule kind at iteration granularity); private copies hold
   arbitrary junk per thread at region entry, firstprivate copies the entry value, and both persist
   between the iterations of one thread.  Sub-iteration interleavings and the OpenMP memory model are
   NOT modelled.  The values of privatised scalars after the region are excluded (shared_eq). *)
From Coq Require Import List ZArith Bool Permutation.
Import ListNotations.
From PV Require Import Fort.Syntax Fort.Sem C09.Model C09.Footprint C09.Proofs.
Open Scope Z_scope.

(* any loop in the safe class w.r.t. ANY clauses: every schedule, every junk, same shared part *)
Theorem C09_omp_sound_with_clauses :
  forall f cl loop s s' tr c (junk : nat -> store) (sched : list (nat * nat)),
    safe_with cl loop = true ->
    exec (S (S f)) [loop] s = Ok s' tr c ->
    sched_ok loop s sched ->
    exists so, omp_exec (S f) cl loop junk sched s = Some so /\
               shared_eq (privatised (loopvar loop) cl) so s'.
Proof. exact omp_sound_with. Qed.
Print Assumptions C09_omp_sound_with_clauses.

(* with the clauses infer_sharing_attributes computes for `!$omp parallel do` around the loop *)
Theorem C09_omp_sound_partial :
  forall f loop s s' tr c (junk : nat -> store) (sched : list (nat * nat)),
    safe loop = true ->
    exec (S (S f)) [loop] s = Ok s' tr c ->
    sched_ok loop s sched ->
    exists so, omp_exec (S f) (infer_loop loop) loop junk sched s = Some so /\
               shared_eq (privatised (loopvar loop) (infer_loop loop)) so s'.
Proof. intros f loop s s' tr c junk sched. apply omp_sound_with. Qed.
Print Assumptions C09_omp_sound_partial.

(* the footprint fact behind it: in a checked body every write of iteration v goes to a privatised
   scalar or to v's slice of a written array, every upward-exposed read is of the loop variable,
   loop-invariant data or v's slice, and the body completes normally *)
Theorem C09_iteration_footprint :
  forall P x SL v, memn x P = true ->
  forall f body D' s s' tr c,
    chks P x SL [x] body = Some D' -> exec f body s = Ok s' tr c -> val s (x, []) = v ->
    c = CNormal /\ (forall l, In l (writes tr) -> allowedW P x SL v l) /\
    (forall l, In l (exposed tr) -> allowedR P SL v [x] l).
Proof. exact iter_fp. Qed.
Print Assumptions C09_iteration_footprint.

(* do i = 1, 3; last = a(i); end do : accepted (WARN_SCALAR_WRITTEN_ONCE ignored), `last` shared,
   order 3, 2, 1 leaves last = a(1) = 1 instead of a(3) = 3 *)
Theorem C09_omp_refuted_written_once :
  exists s junk sched l vs vo,
    accept w_once = Some true /\ sched_ok w_once s sched /\
    memn (fst l) (privatised (loopvar w_once) (infer_loop w_once)) = false /\
    final_val (exec 50 [w_once] s) l = Some vs /\
    omp_val (omp_exec 49 (infer_loop w_once) w_once junk sched s) l = Some vo /\ vs <> vo.
Proof.
  exists st0, junk0, [(0%nat, 2%nat); (1%nat, 1%nat); (2%nat, 0%nat)], (nlast, []), 3, 1.
  split; [vm_compute; reflexivity|]. split; [exact perm_210|].
  split; [vm_compute; reflexivity|]. split; [vm_compute; reflexivity|].
  split; [vm_compute; reflexivity|]. discriminate.
Qed.
Print Assumptions C09_omp_refuted_written_once.

(* do i = 1, 3; if (a(i) > 0) t = a(i); b(i) = t; end do : accepted, firstprivate(t); the value of t
   must flow from iteration 1 to iteration 2 but a second thread starts from the entry value *)
Theorem C09_omp_refuted_cond_firstprivate :
  exists s junk sched l vs vo,
    accept w_cond = Some true /\ sched_ok w_cond s sched /\
    memn (fst l) (privatised (loopvar w_cond) (infer_loop w_cond)) = false /\
    final_val (exec 50 [w_cond] s) l = Some vs /\
    omp_val (omp_exec 49 (infer_loop w_cond) w_cond junk sched s) l = Some vo /\ vs <> vo.
Proof.
  exists st1, junk0, [(0%nat, 0%nat); (1%nat, 1%nat); (2%nat, 2%nat)], (nb, [2]), 5, 9.
  split; [vm_compute; reflexivity|]. split; [apply Permutation_refl|].
  split; [vm_compute; reflexivity|]. split; [vm_compute; reflexivity|].
  split; [vm_compute; reflexivity|]. discriminate.
Qed.
Print Assumptions C09_omp_refuted_cond_firstprivate.

(* do i = 1, 3; do j = 1, m; t = a(j); end do; b(i) = t; end do : accepted, private(t) because the
   first write is inside a loop; with m = 0 the private copy is read uninitialised *)
Theorem C09_omp_refuted_inner_loop_private :
  exists s junk sched l vs vo,
    accept w_inner = Some true /\ sched_ok w_inner s sched /\
    memn (fst l) (privatised (loopvar w_inner) (infer_loop w_inner)) = false /\
    final_val (exec 50 [w_inner] s) l = Some vs /\
    omp_val (omp_exec 49 (infer_loop w_inner) w_inner junk sched s) l = Some vo /\ vs <> vo.
Proof.
  exists st1, junk0, [(0%nat, 0%nat); (0%nat, 1%nat); (0%nat, 2%nat)], (nb, [1]), 9, 0.
  split; [vm_compute; reflexivity|]. split; [apply Permutation_refl|].
  split; [vm_compute; reflexivity|]. split; [vm_compute; reflexivity|].
  split; [vm_compute; reflexivity|]. discriminate.
Qed.
Print Assumptions C09_omp_refuted_inner_loop_private.

(* non-vacuity: an accepted loop inside the safe class, its serial run, a 3-thread reverse schedule *)
Example C09_sound_nonvacuous :
  accept w_safe = Some true /\ safe w_safe = true /\
  (exists s' tr, exec 50 [w_safe] st0 = Ok s' tr CNormal) /\
  sched_ok w_safe st0 [(0%nat, 2%nat); (1%nat, 1%nat); (2%nat, 0%nat)] /\
  omp_val (omp_exec 49 (infer_loop w_safe) w_safe junk0 [(0%nat, 2%nat); (1%nat, 1%nat); (2%nat, 0%nat)] st0) (nb, [3]) = Some 4.
Proof.
  split; [vm_compute; reflexivity|]. split; [vm_compute; reflexivity|].
  split; [apply ends_normally_ok; vm_compute; reflexivity|]. split; [exact perm_210|].
  vm_compute. reflexivity.
Qed.
Print Assumptions C09_sound_nonvacuous.

(* the three refutation witnesses are in the gap: accepted, outside the safe class *)
Example C09_gap_witnesses : safe w_once = false /\ safe w_cond = false /\ safe w_inner = false.
Proof. vm_compute. auto. Qed.
Print Assumptions C09_gap_witnesses.

(* regenerated obligation (props/C12/translate.py -> coq/C12/GenTables.v, run by props/C09/check.py before proving): every
   intrinsic of the tree under test is known to the frozen table of the Fortran standard's inquiry functions
   (coq/C12/IntrTable.v), and none is flagged `is_inquiry` -- IntrinsicCall.reference_accesses then records NO read of its
   first argument, so the dependence analysis and infer_sharing_attributes do not see that read -- unless the standard
   classifies it as an inquiry function.  The access-list model (Model.eaccs) relies on exactly this for ABS MIN MAX MOD SIGN
   (arguments read) and LBOUND UBOUND SIZE (first argument skipped). *)
From PV Require Import C12.IntrTable C12.GenTables C12.IntrOblig.
Theorem C09_inquiry_flags_sound : forallb flag_ok gen_intrinsics = true.
Proof. exact inquiry_flags_sound. Qed.
Print Assumptions C09_inquiry_flags_sound.

(* ---- array-section assignments (coq/C09/Sections.v): desugared into MiniFortran, no new semantics ---- *)
From PV Require Import C09.Sections.

(* the desugared block  a(ix) = rhs  (n elements, temporaries tmp 0..n-1) has the Fortran array-assignment meaning:
   its trace is an evaluation phase that writes only temporaries followed by a store phase that reads only
   temporaries (and index scalars): every right-hand-side element is read before any element is stored *)
Theorem C09_section_assign_order :
  forall tmp a ix rhs n (I : loc -> Prop) f s s' tr c,
    idx_reads_in I ix ->
    exec f (section_assign tmp a ix rhs n) s = Ok s' tr c ->
    exists tr1 tr2, tr = tr1 ++ tr2 /\
      (forall l, In l (writes tr1) -> exists k, (k < n)%nat /\ l = (tmp k, [])) /\
      (forall l, In l (reads tr2) -> (exists k, (k < n)%nat /\ l = (tmp k, [])) \/ I l).
Proof. exact section_assign_order. Qed.
Print Assumptions C09_section_assign_order.

(* loops whose bodies contain desugared section assignments, temporaries thread-local: in the safe class (identical
   loop-variable subscripts, i.e. distance 0, in one dimension of every written array; the section dimension is
   free) every schedule leaves the serial shared part *)
Theorem C09_omp_sound_sections :
  forall f cl temps loop s s' tr c (junk : nat -> store) (sched : list (nat * nat)),
    safe_with (with_temps cl temps) loop = true ->
    exec (S (S f)) [loop] s = Ok s' tr c ->
    sched_ok loop s sched ->
    exists so, omp_exec (S f) (with_temps cl temps) loop junk sched s = Some so /\
               shared_eq (privatised (loopvar loop) (with_temps cl temps)) so s'.
Proof. exact omp_sound_sections. Qed.
Print Assumptions C09_omp_sound_sections.

(* non-vacuity:  do i = 1, 3; d(2:4, i) = d(3:5, i) * 2 + e(2:4, i)  (overlap inside one column) is in the class *)
Example C09_sections_nonvacuous :
  safe_with (with_temps sec_cl sec_temps) sec_ok = true /\
  (exists s' tr, exec 60 [sec_ok] sec_store = Ok s' tr CNormal) /\
  sched_ok sec_ok sec_store [(0%nat, 2%nat); (1%nat, 1%nat); (0%nat, 0%nat)] /\
  omp_val (omp_exec 59 (with_temps sec_cl sec_temps) sec_ok junk0 [(0%nat, 2%nat); (1%nat, 1%nat); (0%nat, 0%nat)] sec_store) (nd, [2; 1]) = Some 63 /\
  final_val (exec 60 [sec_ok] sec_store) (nd, [2; 1]) = Some 63.
Proof. exact sections_nonvacuous_. Qed.
Print Assumptions C09_sections_nonvacuous.

(* the overlapping / shifted case  do i = 2, 4; d(2:4, i) = d(3:5, i-1) + 1  is outside the class and a 2-thread
   schedule (iterations in the order 3, 2, 4) leaves d(2,3) = 33 instead of the serial 43.  (The unchanged
   ParallelLoopTrans.validate refuses this loop; the witness shows that the class boundary is not an artefact.) *)
Theorem C09_omp_refuted_overlapping_sections :
  safe_with (with_temps sec_cl sec_temps) sec_bad = false /\
  exists sched l vs vo,
    sched_ok sec_bad sec_store sched /\
    memn (fst l) (privatised (loopvar sec_bad) (with_temps sec_cl sec_temps)) = false /\
    final_val (exec 60 [sec_bad] sec_store) l = Some vs /\
    omp_val (omp_exec 59 (with_temps sec_cl sec_temps) sec_bad junk0 sched sec_store) l = Some vo /\ vs <> vo.
Proof. exact sections_refuted_. Qed.
Print Assumptions C09_omp_refuted_overlapping_sections.
