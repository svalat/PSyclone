(* C27 — Module dependency sort orders dependencies first.  Property theorems only. *)
From Coq Require Import List Permutation.
Import ListNotations.
From PV Require Import C27.Model C27.Proofs.

(* every listed module exactly once — with or without cycles, with or without unknown deps *)
Theorem C27_sort_perm : forall m, NoDup (keys m) -> Permutation (sort_modules m) (keys m).
Proof.
  intros m H. unfold sort_modules. rewrite <- (keys_prune m).
  apply loop_perm; [rewrite keys_prune; exact H | rewrite length_prune; apply le_n].
Qed.
Print Assumptions C27_sort_perm.

(* no cycle among known dependencies => every module comes after all its known dependencies *)
Theorem C27_sort_respects : forall m, NoDup (keys m) -> acyclic_known m ->
  forall a ds b, In (a, ds) m -> In b ds -> In b (keys m) -> before b a (sort_modules m).
Proof. exact sort_respects_. Qed.
Print Assumptions C27_sort_respects.

(* unknown dependencies are ignored *)
Theorem C27_unknown_ignored : forall m m', prune m = prune m' -> sort_modules m = sort_modules m'.
Proof.
  intros m m' E. unfold sort_modules. rewrite <- (length_prune m), <- (length_prune m'), E. reflexivity.
Qed.
Print Assumptions C27_unknown_ignored.

Example C27_nonvacuous :
  let m := [(3, [1; 2; 9]); (1, [0]); (2, [0; 7]); (0, [])] in
  NoDup (keys m) /\ acyclic_known m /\ sort_modules m = [0; 1; 2; 3].
Proof. exact acyclic_nonvacuous. Qed.
Print Assumptions C27_nonvacuous.

(* "no cycle" stated on paths through the known dependencies (transitive closure), proved
   equivalent to the rank formulation used above (coq/C27/Acyclic.v) *)
From PV Require Import C27.Acyclic.

Theorem C27_no_cycle_iff_rank : forall m, NoDup (keys m) -> (no_cycle m <-> acyclic_known m).
Proof. intros m _. apply no_cycle_iff_acyclic_known. Qed.
Print Assumptions C27_no_cycle_iff_rank.

Theorem C27_sort_respects_no_cycle : forall m, NoDup (keys m) -> no_cycle m ->
  forall a ds b, In (a, ds) m -> In b ds -> In b (keys m) -> before b a (sort_modules m).
Proof. exact sort_respects_no_cycle. Qed.
Print Assumptions C27_sort_respects_no_cycle.
