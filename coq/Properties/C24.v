(* C24 -- Generated algorithm and PSy layers agree on invoke arguments.  Property theorems only.
   Model: C24/Model.v (argument lists of both layers, tag-based naming), C24/Order.v (the two parse-tree walks).

   FULL STATEMENT (kernel_arg_bound_to_its_actual): for all pre ks k j ra,
       In k ks -> nth_error (flat_args k) j = Some ra -> passed ra = true ->
       bound_ok (alg_args pre ks) (psy_dummies pre ks) (used_of (final pre ks) ra) (text (snd ra)).
   It is FALSE of the code as it is (C24_kernel_arg_bound_to_its_actual_refuted: stencil extents and
   directions are passed by their PSy-layer name, not by the text written).  Proved instead:
   unconditionally for kernel arguments proper and quadrature (…_main_qr), for all roles under stencil_safe
   (…_partial), and for all roles of the repaired algorithm layer alg_args_fixed (…_fixed).
   FULL STATEMENT (positions_aligned): psy_dummies pre ks = map (name_of (final pre ks)) (alg_args pre ks):
   same situation (…_partial under stencil_safe, …_fixed unconditional). *)
From Coq Require Import List String.
Import ListNotations.
From PV Require Import C24.Fresh C24.Model C24.Proofs C24.Order.

(* the parse-tree walk of parse.algorithm and the walk of Alg.gen pair every invoke statement with the
   Invoke object built from that very statement, for every parse tree *)
Theorem C24_invoke_order_aligned : forall t, Forall (fun pr => snd pr = Some (fst pr)) (alg_gen t).
Proof.
  intros t. unfold alg_gen, parse_invokes. rewrite same_invoke_sequence.
  apply (gen_pairs_aligned (walk is_call t) []).
Qed.
Print Assumptions C24_invoke_order_aligned.

Theorem C24_all_invokes_rewritten : forall t, map fst (alg_gen t) = parse_invokes t.
Proof.
  intros t. unfold alg_gen, parse_invokes. rewrite gen_pairs_fst, same_invoke_sequence. reflexivity.
Qed.
Print Assumptions C24_all_invokes_rewritten.

(* same number of actuals and dummies -- for ALL invokes, the code as it is *)
Theorem C24_alg_psy_same_length : forall pre ks,
    List.length (alg_args pre ks) = List.length (psy_dummies pre ks).
Proof.
  intros pre ks. rewrite dummies_are_names_of_fixed. unfold alg_args, alg_args_fixed.
  rewrite map_length, !app_length, !map_length. reflexivity.
Qed.
Print Assumptions C24_alg_psy_same_length.

(* the i-th dummy is the name of the i-th actual: repaired layer, all invokes *)
Theorem C24_positions_aligned_fixed : forall pre ks,
    psy_dummies pre ks = map (name_of (final pre ks)) (alg_args_fixed ks).
Proof. exact dummies_are_names_of_fixed. Qed.
Print Assumptions C24_positions_aligned_fixed.

(* ... the code as it is, when every passed stencil extent/direction is a name left unchanged *)
Theorem C24_positions_aligned_partial : forall pre ks,
    stencil_safe pre ks = true ->
    psy_dummies pre ks = map (name_of (final pre ks)) (alg_args pre ks).
Proof. intros pre ks H. rewrite (safe_alg_fixed _ _ H). apply dummies_are_names_of_fixed. Qed.
Print Assumptions C24_positions_aligned_partial.

(* every kernel argument (field, scalar, operator) and quadrature object, however repeated / spelled /
   indexed / dereferenced, is bound to the actual with its source text: the code as it is, all invokes *)
Theorem C24_kernel_arg_bound_main_qr : forall pre ks k j ra,
    In k ks -> nth_error (flat_args k) j = Some ra -> passed ra = true ->
    (fst ra = RMain \/ fst ra = RQr) ->
    bound_ok (alg_args pre ks) (psy_dummies pre ks) (used_of (final pre ks) ra) (text (snd ra)).
Proof.
  (* the two layers are  texts ++ stencil names ++ qr texts  against  names ++ the same stencil names ++ qr names *)
  intros pre ks k j ra Hk Hj Hp Hr.
  pose proof (passed_text_in _ _ _ _ Hk Hj Hp) as Hin.
  rewrite dummies_are_names_of_fixed. unfold used_of, alg_args, alg_args_fixed. rewrite Hp, !map_app.
  destruct Hr as [Hr|Hr]; rewrite Hr in Hin; apply uniq_In in Hin.
  - apply bound_ok_app_l, bound_ok_map, Hin.
  - do 3 (apply bound_ok_app_r; [now rewrite ?map_length|]). apply bound_ok_map, Hin.
Qed.
Print Assumptions C24_kernel_arg_bound_main_qr.

Theorem C24_kernel_arg_bound_to_its_actual_partial : forall pre ks k j ra,
    stencil_safe pre ks = true ->
    In k ks -> nth_error (flat_args k) j = Some ra -> passed ra = true ->
    nth_error (kernel_used (final pre ks) k) j = Some (used_of (final pre ks) ra) /\
    bound_ok (alg_args pre ks) (psy_dummies pre ks) (used_of (final pre ks) ra) (text (snd ra)).
Proof.
  intros pre ks k j ra Hs. rewrite (safe_alg_fixed _ _ Hs). apply kernel_arg_bound_fixed_.
Qed.
Print Assumptions C24_kernel_arg_bound_to_its_actual_partial.

Theorem C24_kernel_arg_bound_fixed : forall pre ks k j ra,
    In k ks -> nth_error (flat_args k) j = Some ra -> passed ra = true ->
    nth_error (kernel_used (final pre ks) k) j = Some (used_of (final pre ks) ra) /\
    bound_ok (alg_args_fixed ks) (psy_dummies pre ks) (used_of (final pre ks) ra) (text (snd ra)).
Proof. exact kernel_arg_bound_fixed_. Qed.
Print Assumptions C24_kernel_arg_bound_fixed.

(* the code as it is violates the full statement: testkern_stencil_type(f1, f2, exts(1), m1, m2) *)
Theorem C24_kernel_arg_bound_to_its_actual_refuted :
  exists pre ks k j ra,
    In k ks /\ nth_error (flat_args k) j = Some ra /\ passed ra = true /\
    ~ bound_ok (alg_args pre ks) (psy_dummies pre ks) (used_of (final pre ks) ra) (text (snd ra)).
Proof.
  exists pre0, wit_stencil, (hd {| k_builtin := true; k_slots := []; k_qr := [] |} wit_stencil), 2,
         (RExt, ix "exts" "1").
  split; [left; reflexivity|]. split; [reflexivity|]. split; [reflexivity|].
  rewrite <- bound_okb_spec. vm_compute. discriminate.
Qed.
Print Assumptions C24_kernel_arg_bound_to_its_actual_refuted.

Theorem C24_actual_is_not_source_text_refuted :
  exists pre ks, alg_args pre ks = ["f1"; "f2"; "m1"; "m2"; "exts"]%string /\
                 alg_args_fixed ks = ["f1"; "f2"; "m1"; "m2"; "exts(1)"]%string /\
                 psy_dummies pre ks = ["f1"; "f2"; "m1"; "m2"; "exts"]%string.
Proof. exists pre0, wit_stencil. vm_compute. repeat split. Qed.
Print Assumptions C24_actual_is_not_source_text_refuted.

(* distinct texts <-> distinct PSy names, for all arguments of an invoke whatever their role *)
Theorem C24_names_injective_on_texts : forall pre ks r1 r2 t1 t2,
    In t1 (texts_of r1 ks) -> In t2 (texts_of r2 ks) ->
    (name_of (final pre ks) t1 = name_of (final pre ks) t2 <-> t1 = t2).
Proof.
  intros pre ks r1 r2 t1 t2 H1 H2. split; [exact (name_of_inj_texts _ _ _ _ _ _ H1 H2) | intros ->; reflexivity].
Qed.
Print Assumptions C24_names_injective_on_texts.

(* the name search never returns a name in use (pigeonhole; no freshness premise needed) *)
Theorem C24_fresh_name_unused : forall root used, ~ In (normalize (fresh root used)) used.
Proof. exact fresh_not_used. Qed.
Print Assumptions C24_fresh_name_unused.

(* FULL STATEMENT: forall pre ks, NoDup (psy_dummies pre ks) -- FALSE of the code as it is (refuted below) *)
Theorem C24_dummies_nodup_partial : forall pre ks,
    NoDup (alg_args_fixed ks) -> NoDup (psy_dummies pre ks).
Proof.
  intros pre ks H. rewrite dummies_are_names_of_fixed. apply NoDup_map_on; [|exact H].
  intros x y Hx Hy. apply in_fixed_iff in Hx as [r1 Hx], Hy as [r2 Hy].
  exact (name_of_inj_texts _ _ _ _ _ _ Hx Hy).
Qed.
Print Assumptions C24_dummies_nodup_partial.

Theorem C24_dummies_nodup_refuted : exists pre ks, ~ NoDup (psy_dummies pre ks).
Proof.
  exists pre0, wit_dup.
  assert (E : psy_dummies pre0 wit_dup = ["f1"; "n"; "f2"; "m1"; "m2"; "n"]%string) by (vm_compute; reflexivity).
  rewrite E. intro H. inversion H as [|? ? _ H1]; subst. inversion H1 as [|? ? Hn _]; subst.
  apply Hn. simpl. tauto.
Qed.
Print Assumptions C24_dummies_nodup_refuted.

(* non-vacuity: an invoke with repeats, spellings, renamings, a literal, a simple extent, a direction
   constant and quadrature satisfies stencil_safe and NoDup (alg_args_fixed) *)
Example C24_nonvacuous :
  stencil_safe pre0 ex_ok = true /\ NoDup (alg_args_fixed ex_ok) /\
  alg_args pre0 ex_ok = ["obj%f"; "f1"; "obj_f"; "fa(2)"; "fa_1"; "ext"; "qr"]%string /\
  psy_dummies pre0 ex_ok = ["obj_f"; "f1"; "obj_f_1"; "fa"; "fa_1"; "ext"; "qr"]%string /\
  map (kernel_used (final pre0 ex_ok)) ex_ok =
    [["obj_f"; "f1"; "ext"; "x_direction"; "obj_f_1"; "fa"; "qr"]; ["fa"; "1.0_r_def"; "fa_1"; "f1"]]%string.
Proof.
  split; [vm_compute; reflexivity|]. split; [|vm_compute; repeat split].
  (* a list that is its own de-duplication has no repeats *)
  assert (E : alg_args_fixed ex_ok = uniq (alg_args_fixed ex_ok)) by (vm_compute; reflexivity).
  rewrite E. apply uniq_NoDup.
Qed.
Print Assumptions C24_nonvacuous.

Example C24_order_example :
  alg_gen ex_tree = [(6, Some 6); (7, Some 7); (11, Some 11)] /\ parse_invokes ex_tree = [6; 7; 11].
Proof. vm_compute. split; reflexivity. Qed.
Print Assumptions C24_order_example.

(* ------------------------------------------------------------------------------------------------
   The PSyIR-based algorithm generation (generator.LFRIC_TESTING; C24/Psyir.v) and the tag keys (C24/Qr.v,
   keys extracted from the tree under test into C24/GenQr.v).
   FULL STATEMENT (psyir_positions_aligned): forall cb pre ks,
       psy_dummies pre ks = map (name_of (final pre ks)) (psyir_alg_args cb ks)
   FALSE of the code as it is (C24_psyir_positions_aligned_refuted); proved under psyir_safe (no CodeBlock
   argument, PSyIR equality key = text for every passed argument, i.e. lower-case structure members). *)
From PV Require Import C24.Psyir C24.GenQr C24.Qr.

Theorem C24_psyir_positions_aligned_partial : forall cb pre ks,
    psyir_safe cb ks = true ->
    psy_dummies pre ks = map (name_of (final pre ks)) (psyir_alg_args cb ks).
Proof. exact psyir_positions_aligned_partial_. Qed.
Print Assumptions C24_psyir_positions_aligned_partial.

Theorem C24_psyir_positions_aligned_refuted :
  exists cb pre ks, psy_dummies pre ks <> map (name_of (final pre ks)) (psyir_alg_args cb ks).
Proof. exact refuted_psyir_aligned. Qed.
Print Assumptions C24_psyir_positions_aligned_refuted.

(* finding: repeated structure argument passed twice -- invoke(setval_c(obj%v(1), 1.0_r_def), setval_X(f1, OBJ % V( 1 ))) *)
Theorem C24_psyir_structure_argument_passed_twice_refuted :
  psyir_alg_args (fun _ => false) wit_struct = ["obj%v(1)"; "f1"; "obj%v(1)"]%string /\
  psy_dummies ("invoke_0"%string :: nil) wit_struct = ["obj_v"; "f1"]%string /\
  alg_args_fixed wit_struct = ["obj%v(1)"; "f1"]%string.
Proof. exact refuted_struct_dup. Qed.
Print Assumptions C24_psyir_structure_argument_passed_twice_refuted.

(* finding: named single built-in invoke called by its index name; agreement everywhere else *)
Theorem C24_psyir_routine_names_agree_partial : forall label i ks,
    named_single_builtin label ks = false -> psyir_rname label i ks = psy_rname label i ks.
Proof. exact routine_names_agree_partial_. Qed.
Print Assumptions C24_psyir_routine_names_agree_partial.

Theorem C24_psyir_routine_names_refuted : exists label i ks, psyir_rname label i ks <> psy_rname label i ks.
Proof. exact routine_names_refuted. Qed.
Print Assumptions C24_psyir_routine_names_refuted.

(* quadrature: the tag key extracted from lfric_kern.py is the TEXT, hence different texts (qr(1), qr(2)) get
   different PSy dummies *)
Theorem C24_qr_names_injective_on_texts : forall pre ks a b,
    In (text a) (texts_of RQr ks) -> In (text b) (texts_of RQr ks) -> text a <> text b ->
    qr_name (final pre ks) a <> qr_name (final pre ks) b.
Proof. exact qr_names_injective_on_texts_. Qed.
Print Assumptions C24_qr_names_injective_on_texts.

Theorem C24_extracted_tag_keys_are_texts : (forall a, qr_tag a = tagof (text a)) /\ (forall a, arg_tag a = tagof (text a)).
Proof. split; [exact qr_tag_is_text_tag | exact arg_tag_is_text_tag]. Qed.
Print Assumptions C24_extracted_tag_keys_are_texts.

Example C24_qr_example :
  qr_name (final pre0 ex_qr) (ix "qrs" "1") = "qrs"%string /\ qr_name (final pre0 ex_qr) (ix "QRS" " 2") = "qrs_1"%string /\
  psy_dummies pre0 ex_qr = ["f1"; "qrs"; "qrs_1"]%string /\ alg_args pre0 ex_qr = ["f1"; "qrs(1)"; "qrs(2)"]%string.
Proof. exact ex_qr_names. Qed.
Print Assumptions C24_qr_example.
