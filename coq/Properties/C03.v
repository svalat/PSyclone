(* C03 -- Re-writing is stable after one round trip.  Property theorems only.
   Model: coq/C03/Decls.v (gen_decls, order_consts = _gen_parameter_decls, flatten = routine_node scope
   merging, reread = table order built by process_declarations).

   FULL STATEMENT (false of the faithful model, see C03_decl_order_idempotent_refuted):
     forall t l, NoDup (ids t) -> gen_decls t = Some l -> gen_decls (reread l) = Some l
   The reader gives a symbol its table slot at its first mention; gen_decls writes all constants
   before all variables, so a constant that mentions a variable (integer, parameter :: k = kind(b))
   is a forward reference in the written text and the second write re-orders the variables.
   PROVED (_partial): the statement under [no_forward_refs l = true]. *)
From Coq Require Import List Permutation String.
Import ListNotations.
From PV Require Import C03.Names C03.Decls C03.OrderProofs C03.DeclProofs C03.FlattenProofs C03.RoundTrip.
Open Scope list_scope.

(* order_perm: no declaration lost or duplicated by the writer *)
Theorem C03_order_perm : forall t l, gen_decls t = Some l -> Permutation l (filter declarable t).
Proof. exact gen_decls_perm. Qed.
Print Assumptions C03_order_perm.

(* order_valid: in the written constants, every constant comes after the local constants among
   the inputs _gen_parameter_decls computed for it (also when the sort had to re-order) *)
Theorem C03_order_valid : forall cs o l1 c l2, order_consts cs = Some o -> o = l1 ++ c :: l2 ->
   forall d, In d (s_deps c) -> In d (ids cs) -> In d (ids l1).
Proof. exact order_consts_deps_first. Qed.
Print Assumptions C03_order_valid.

(* the dependency pick is the identity on its own output (idempotent on an already valid order) *)
Theorem C03_order_consts_idempotent : forall cs o, order_consts cs = Some o -> order_consts o = Some o.
Proof. exact order_consts_idem. Qed.
Print Assumptions C03_order_consts_idempotent.

(* ... and so is the whole declaration writer, on any table for which it does not fail *)
Theorem C03_gen_decls_idempotent : forall t l, gen_decls t = Some l -> gen_decls l = Some l.
Proof. exact gen_decls_idem. Qed.
Print Assumptions C03_gen_decls_idempotent.

(* decl_order_idempotent, provable part *)
Theorem C03_decl_order_idempotent_partial : forall t l,
    NoDup (ids t) -> gen_decls t = Some l -> no_forward_refs l = true -> gen_decls (reread l) = Some l.
Proof. exact decl_order_idempotent_partial_. Qed.
Print Assumptions C03_decl_order_idempotent_partial.

(* decl_order_idempotent is false of the faithful model (replayed on the implementation by
   props/C03/check.py, known finding gen_decls/constant-mentions-later-variable) *)
Theorem C03_decl_order_idempotent_refuted :
  exists t l l', NoDup (ids t) /\ gen_decls t = Some l /\ gen_decls (reread l) = Some l' /\ l <> l'
                 /\ ids l = [2; 0; 1] /\ ids l' = [2; 1; 0].
Proof.
  (* integer, parameter :: k = kind(b) is written before the variables a, b; re-reading gives b its
     table slot at that first mention, ahead of a, and the second write swaps a and b *)
  exists [mkSym 0 "a" CVar [] []; mkSym 1 "b" CVar [] []; mkSym 2 "k" CConst [1] [1]].
  eexists. eexists. split; [|split; [|split; [|split; [|split]]]].
  - exact (seq_NoDup 3 0).
  - vm_compute. reflexivity.
  - vm_compute. reflexivity.
  - discriminate.
  - reflexivity.
  - reflexivity.
Qed.
Print Assumptions C03_decl_order_idempotent_refuted.

(* no declaration lost or duplicated by re-reading (same side condition) *)
Theorem C03_reread_no_loss_partial : forall l, NoDup (ids l) -> no_forward_refs l = true -> Permutation (reread l) l.
Proof. exact reread_perm_partial_. Qed.
Print Assumptions C03_reread_no_loss_partial.

(* scope merging: symbols keep identity and order; a renamed one gets a name different from its
   own and from every name visible in the enclosing scopes *)
Theorem C03_flatten_spec : forall outer routine inners,
    Forall2 (renamed outer) (routine ++ List.concat inners) (flatten outer routine inners).
Proof. exact flatten_spec_. Qed.
Print Assumptions C03_flatten_spec.

Theorem C03_flatten_names_unique : forall outer routine inners, NoDup (nnames (flatten outer routine inners)).
Proof. exact flatten_names_unique_. Qed.
Print Assumptions C03_flatten_names_unique.

(* scope-merge renaming is idempotent: after one flatten there are no inner scopes and no clashes,
   so the second pass renames nothing (whatever the enclosing scope then looks like) *)
Theorem C03_flatten_second_pass : forall outer outer' routine inners,
    flatten outer' (flatten outer routine inners) [] = flatten outer routine inners.
Proof.
  intros. rewrite (flatten_noclash_ outer' (flatten outer routine inners) []).
  - simpl. apply app_nil_r.
  - simpl. rewrite app_nil_r. apply flatten_names_unique_.
Qed.
Print Assumptions C03_flatten_second_pass.

(* merge_then_flat, provable part: merge + order, re-read, merge + order again = same declarations *)
Theorem C03_merge_then_flat_partial : forall outer outer' routine inners l,
    NoDup (ids (routine ++ List.concat inners)) ->
    write_decls outer routine inners = Some l ->
    no_forward_refs l = true ->
    write_decls outer' (reread l) [] = Some l.
Proof. exact merge_then_flat_partial_. Qed.
Print Assumptions C03_merge_then_flat_partial.

Open Scope string_scope.
Example C03_partial_nonvacuous :
  NoDup (ids sample_tbl) /\
  exists l, gen_decls sample_tbl = Some l /\ no_forward_refs l = true /\ ids l = [4; 3; 1; 2; 5; 0; 7]
            /\ ids (reread l) = [5; 4; 3; 1; 2; 0; 7].
Proof. exact partial_nonvacuous. Qed.
Print Assumptions C03_partial_nonvacuous.

Example C03_merge_then_flat_nonvacuous :
  let routine := [mkSym 0 "x" CVar [] [2; 1]; mkSym 1 "n" CConst [2] [2]; mkSym 2 "wp" CConst [] [];
                  mkSym 3 "i" CVar [] []; mkSym 4 "a" CArg [] [1]] in
  let inners := [[mkSym 5 "i" CVar [] []; mkSym 6 "n" CConst [] []]; [mkSym 7 "I" CVar [] [6]]] in
  NoDup (ids (routine ++ List.concat inners)) /\
  exists l, write_decls ["m"] routine inners = Some l /\ no_forward_refs l = true /\
            map s_name l = ["wp"; "n"; "n_1"; "a"; "x"; "i"; "i_1"; "I_2"] /\
            write_decls ["m"] (reread l) [] = Some l.
Proof. exact merge_then_flat_nonvacuous. Qed.
Print Assumptions C03_merge_then_flat_nonvacuous.

(* ---- generic interfaces (coq/C03/Iface.v): write = module-procedure line then procedure line, read =
   statement by statement with the kind of each statement *)
From PV Require Import C03.Iface.
Theorem C03_interface_roundtrip : forall i, Permutation (read_iface (write_iface i)) i.
Proof. exact interface_roundtrip_. Qed.
Print Assumptions C03_interface_roundtrip.

Theorem C03_interface_second_write_stable : forall i, write_iface (read_iface (write_iface i)) = write_iface i.
Proof. exact interface_second_write_stable_. Qed.
Print Assumptions C03_interface_second_write_stable.

Example C03_interface_nonvacuous :
  let i := [("solve_banded", PPlain); ("solve_dense", PPlain); ("solve_diag", PModule); ("solve_ident", PModule)] in
  write_iface i = [(PModule, ["solve_diag"; "solve_ident"]); (PPlain, ["solve_banded"; "solve_dense"])]
  /\ read_iface (write_iface i) = [("solve_diag", PModule); ("solve_ident", PModule); ("solve_banded", PPlain); ("solve_dense", PPlain)].
Proof. exact interface_nonvacuous. Qed.
Print Assumptions C03_interface_nonvacuous.
