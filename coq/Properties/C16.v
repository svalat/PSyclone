(* C16 -- Symbol tables keep names unique and lookups scoped.  Property theorems only.
   Model: C16/Model.v ([step] = one public SymbolTable operation on a state made of symbol objects,
   a chain of nested scopes with their tables, and detached tables).  [reachable st] = st is the
   state after some history of operations from n nested empty scopes.

   Property, full strength (properties.jsonl C16):
     (1) names unique case-insensitively within a table            -- PROVED   (C16_unique_names_inv)
     (2) lookup returns the symbol of the innermost enclosing scope -- PROVED   (C16_lookup_innermost ...)
     (3) a generated name clashes with nothing in table/ancestors/other -- PROVED (C16_fresh_name_fresh ...)
     (4) merge adds every non-skipped symbol exactly once           -- REFUTED for imported symbols
         (C16_merge_adds_once_refuted); PROVED for every symbol that is not imported/unresolved
         (C16_merge_adds_once_partial); containers and imported/unresolved symbols may be
         identified with a symbol already present -- that identification is where the code is wrong
     (5) merge renames only where needed                            -- REFUTED (C16_merge_renames_refuted:
         symbols_to_skip is ignored by the container pass); PROVED: no symbol outside the two tables
         is renamed (C16_merge_renames_local_partial) and nothing at all is renamed when the tables
         have no key in common (C16_merge_renames_only_clashes_partial)
     (6) a rejected operation changes nothing                       -- PROVED for every operation but
         merge (C16_rejected_unchanged_partial) and for merge rejected by check_for_clashes when no
         unresolved symbol of the receiving table has an intrinsic's name
         (C16_merge_rejected_unchanged_partial); REFUTED for merge in general
         (C16_rejected_unchanged_refuted_specialise, C16_rejected_unchanged_refuted_partial_update). *)
From Coq Require Import List Arith Bool String NArith.
Import ListNotations.
From PV Require Import C16.GenTables C16.Model C16.Names C16.Inv C16.MergeProofs C16.RenameProofs C16.StateInv C16.Proofs C16.Witness C16.CodeBlocks C16.ExecCB C16.CodeBlocksInv.
Open Scope string_scope.
Open Scope list_scope.

(* (1) for all histories, in every table of the state (attached to a scope or detached): keys are
   unique, they are exactly the lower-cased names of the symbols they hold, no two symbols of a
   table have names equal up to case, no symbol object is listed twice *)
Theorem C16_unique_names_inv : forall n ops T,
    let st := run (init_state n) ops in
    In T (all_tables st) ->
    NoDup (keys T) /\ NoDup (sids T) /\
    (forall k s, In (k, s) (t_syms T) -> k = normalize (s_name (hget (st_heap st) s))) /\
    (forall k1 s1 k2 s2, In (k1, s1) (t_syms T) -> In (k2, s2) (t_syms T) ->
                         normalize (s_name (hget (st_heap st) s1)) = normalize (s_name (hget (st_heap st) s2)) ->
                         s1 = s2).
Proof.
  intros n ops T st HT. apply TOK_unique_names. apply (WF_table _ T (run_WF ops _ (init_WF n)) HT).
Qed.
Print Assumptions C16_unique_names_inv.

(* tags are unique per table and never stale: a tagged symbol is in the table that holds the tag *)
Theorem C16_tags_never_stale : forall n ops T,
    In T (all_tables (run (init_state n) ops)) ->
    NoDup (map fst (t_tags T)) /\ forall tg s, In (tg, s) (t_tags T) -> In s (sids T).
Proof. intros n ops T HT. apply (WF_table _ T (run_WF ops _ (init_WF n)) HT). Qed.
Print Assumptions C16_tags_never_stale.

(* no symbol object is held by two tables (the domain restriction under which (1) is stated:
   the model only lets operations create their own symbol objects, and drops the other table of a
   merge that got past check_for_clashes) *)
Theorem C16_one_owner : forall n ops, NoDup (flat_map sids (all_tables (run (init_state n) ops))).
Proof. intros n ops. apply (run_WF ops _ (init_WF n)). Qed.
Print Assumptions C16_one_owner.

(* (2) lookup(name), computed as the code does through the merged dictionary of get_symbols(),
   returns exactly the entry of the first table -- the table itself, then its enclosing tables
   outwards -- that has the lower-cased name; KeyError iff no table of the chain has it *)
Theorem C16_lookup_innermost : forall T anc name s,
    lookup T anc name = Some s <->
    exists pre T' post, T :: anc = pre ++ T' :: post /\
                        (forall P, In P pre -> ~ In (normalize name) (keys P)) /\
                        find_key (normalize name) (t_syms T') = Some s.
Proof. intros T anc name s. unfold lookup. rewrite get_symbols_find. apply first_in_spec. Qed.
Print Assumptions C16_lookup_innermost.

Theorem C16_lookup_keyerror : forall T anc name,
    lookup T anc name = None <-> forall P, In P (T :: anc) -> ~ In (normalize name) (keys P).
Proof. intros T anc name. unfold lookup. rewrite get_symbols_find. apply first_in_none. Qed.
Print Assumptions C16_lookup_keyerror.

Theorem C16_lookup_tag_innermost : forall T anc tag s,
    lookup_tag T anc tag = Some s <->
    exists pre T' post, T :: anc = pre ++ T' :: post /\
                        (forall P, In P pre -> ~ In tag (map fst (t_tags P))) /\
                        find_key tag (t_tags T') = Some s.
Proof. intros T anc tag s. unfold lookup_tag. rewrite get_tags_find. apply first_in_spec. Qed.
Print Assumptions C16_lookup_tag_innermost.

(* after any history the symbol returned for `name` is named `name` up to case *)
Theorem C16_lookup_sound : forall n ops t T name s,
    let st := run (init_state n) ops in
    get_table st t = Some T -> lookup T (ancestors st t) name = Some s ->
    normalize (s_name (hget (st_heap st) s)) = normalize name.
Proof. intros n ops t T name s st. apply lookup_sound_. apply run_WF, init_WF. Qed.
Print Assumptions C16_lookup_sound.

(* (3) next_available_name: the counter loop always ends within |existing names|+1 iterations
   (pigeonhole: the candidates root, root_1, root_2, ... are pairwise distinct after lower-casing);
   the result is not a key of the table, nor -- unless shadowing -- of an enclosing table, nor of
   other_table; it is the first free candidate *)
Theorem C16_fresh_name_fresh : forall T anc root shadowing other,
    exists nm, next_available_name T anc root shadowing other = Some nm /\
               ~ In (normalize nm) (keys T) /\
               (shadowing = false -> forall A, In A anc -> ~ In (normalize nm) (keys A)) /\
               (forall Ot, other = Some Ot -> ~ In (normalize nm) (keys Ot)) /\
               exists k, nm = cand (if String.eqb root "" then default_root else root) (N.of_nat k) /\
                         forall k', k' < k ->
                                    In (normalize (cand (if String.eqb root "" then default_root else root) (N.of_nat k')))
                                       (existing_names T anc shadowing other).
Proof. exact fresh_name_fresh_. Qed.
Print Assumptions C16_fresh_name_fresh.

(* after any history: no symbol of the table, its enclosing tables (unless shadowing) or the other
   table is named like the generated name up to case *)
Theorem C16_fresh_name_no_clash : forall n ops t T root shadowing other nm,
    let st := run (init_state n) ops in
    get_table st t = Some T ->
    (forall Ot, other = Some Ot -> exists ot, get_table st ot = Some Ot) ->
    next_available_name T (ancestors st t) root shadowing other = Some nm ->
    forall P k s,
      (P = T \/ (shadowing = false /\ In P (ancestors st t)) \/ other = Some P) ->
      In (k, s) (t_syms P) ->
      normalize (s_name (hget (st_heap st) s)) <> normalize nm.
Proof. intros n ops t T root shadowing other nm st. apply fresh_name_no_clash_. apply run_WF, init_WF. Qed.
Print Assumptions C16_fresh_name_no_clash.

(* (4) full statement, FALSE of the code:
     forall completed merges, every symbol s of the other table with s not in symbols_to_skip is
     in the receiving table exactly once afterwards (or an equivalent symbol of the same name is).
   Proved part: nothing lost, nothing twice, nothing from elsewhere, and every non-skipped symbol
   that is not a ContainerSymbol, not imported and not unresolved is there exactly once. *)
Theorem C16_merge_adds_once_partial : forall h T anc Ot skip m,
    TOK h T -> TOK h Ot -> (forall s, In s (sids T) -> ~ In s (sids Ot)) ->
    merge h T anc Ot skip = (m, MDone, None) ->
    NoDup (sids (m_self m)) /\ NoDup (keys (m_self m)) /\
    (forall s, In s (sids T) -> In s (sids (m_self m))) /\
    (forall s, In s (sids (m_self m)) -> In s (sids T) \/ In s (sids Ot)) /\
    (forall s, In s (sids Ot) -> ~ In s skip -> is_container (hget h s) = false ->
               is_import (hget h s) = false -> is_unres (hget h s) = false ->
               In s (sids (m_self m)) /\ count_occ Nat.eq_dec (sids (m_self m)) s = 1).
Proof.
  intros h T anc Ot skip m HT HO Hd H.
  destruct (merge_spec _ _ _ _ _ _ _ _ HT HO Hd H) as [h1 [_ [HM [_ Hall]]]].
  destruct HM as [Htok _ Hsub Hsup _ _ _ _ _].
  split; [apply Htok|]. split; [apply Htok|]. split; [exact Hsup|]. split; [exact Hsub|].
  intros s Hs Hk Hc Hi Hu. pose proof (Hall s Hs Hk Hc Hi Hu) as Hin. split; [exact Hin|].
  apply NoDup_count_occ'; [apply Htok | exact Hin].
Qed.
Print Assumptions C16_merge_adds_once_partial.

(* the hypotheses hold in every reachable state for the two tables of a merge *)
Theorem C16_merge_hypotheses_reachable : forall n ops t j T Ot,
    let st := run (init_state n) ops in
    get_table st t = Some T -> nth_error (st_det st) j = Some Ot ->
    (match t with TDet j' => Nat.eqb j' j | _ => false end) = false ->
    TOK (st_heap st) T /\ TOK (st_heap st) Ot /\ (forall s, In s (sids T) -> ~ In s (sids Ot)).
Proof. intros n ops t j T Ot st. apply WF_merge_pre. apply run_WF, init_WF. Qed.
Print Assumptions C16_merge_hypotheses_reachable.

Theorem C16_merge_adds_once_refuted :
  exists st t j skip T Ot st' T' s,
    reachable st /\ get_table st t = Some T /\ nth_error (st_det st) j = Some Ot /\
    step st (OMerge t j skip) = (st', RUnit) /\ get_table st' t = Some T' /\
    In s (sids Ot) /\ ~ In s skip /\ is_container (hget (st_heap st) s) = false /\
    ~ In s (sids T') /\
    forallb (fun s' => negb (is_import (hget (st_heap st') s')) && negb (is_unres (hget (st_heap st') s')))
            (sids T') = true.
Proof.
  exists (run (init_state 1) ops_R2), (TSlot 0), 0, [].
  eexists. eexists. eexists. eexists. exists 1.
  split; [apply reachable_run|].
  split; [vm_compute; reflexivity|]. split; [vm_compute; reflexivity|].
  split; [vm_compute; reflexivity|]. split; [vm_compute; reflexivity|].
  split; [vm_compute; auto|]. split; [intros []|]. split; [vm_compute; reflexivity|].
  split; [vm_compute; intuition discriminate | vm_compute; reflexivity].
Qed.
Print Assumptions C16_merge_adds_once_refuted.

(* whatever the outcome of a merge (completed, rejected, or an exception half-way), the receiving
   table is consistent over the heap that is left: unique keys = lower-cased names *)
Theorem C16_merge_keeps_table_consistent : forall h T anc Ot skip m ph oe,
    TOK h T -> TOK h Ot -> (forall s, In s (sids T) -> ~ In s (sids Ot)) ->
    merge h T anc Ot skip = (m, ph, oe) -> TOK (m_heap m) (m_self m).
Proof.
  intros h T anc Ot skip m ph oe HT HO Hd H.
  destruct (merge_spec _ _ _ _ _ _ _ _ HT HO Hd H) as [h1 [Hck Hpost]].
  destruct ph; [|apply Hpost..].
  destruct Hpost as [E _]. subst m. exact (checked_TOK _ _ _ Hck HT).
Qed.
Print Assumptions C16_merge_keeps_table_consistent.

(* (5) full statement, FALSE of the code:
     a completed merge changes the name of a symbol only if a non-skipped symbol of the other table
     had the same name up to case. *)
Theorem C16_merge_renames_refuted :
  exists st t j skip T Ot st' s,
    reachable st /\ get_table st t = Some T /\ nth_error (st_det st) j = Some Ot /\
    step st (OMerge t j skip) = (st', RUnit) /\
    In s (sids T) /\ s_name (hget (st_heap st') s) <> s_name (hget (st_heap st) s) /\
    forallb (fun e => negb (String.eqb (fst e) (normalize (s_name (hget (st_heap st) s))))
                      || mem_sid (snd e) skip) (t_syms Ot) = true.
Proof.
  exists (run (init_state 1) ops_R3), (TSlot 0), 0, [2].
  eexists. eexists. eexists. exists 0.
  split; [apply reachable_run|].
  split; [vm_compute; reflexivity|]. split; [vm_compute; reflexivity|].
  split; [vm_compute; reflexivity|]. split; [vm_compute; auto|].
  split; [vm_compute; discriminate | vm_compute; reflexivity].
Qed.
Print Assumptions C16_merge_renames_refuted.

(* proved part of (5): with no key in common between the two tables, merge -- whatever its outcome --
   leaves every name as it was; and in any case only symbols of the two tables can be renamed.
   (Missing for the full statement restricted to non-skipped symbols: a per-symbol version, "s is
   renamed only if ITS key is in both tables".) *)
Theorem C16_merge_renames_only_clashes_partial : forall h T anc Ot skip m ph oe,
    TOK h T -> TOK h Ot -> (forall s, In s (sids T) -> ~ In s (sids Ot)) ->
    (forall s, In s (sids Ot) -> is_import (hget h s) = true -> is_container (hget h s) = false) ->
    (forall k, In k (keys T) -> ~ In k (keys Ot)) ->
    merge h T anc Ot skip = (m, ph, oe) ->
    forall s, s_name (hget (m_heap m) s) = s_name (hget h s).
Proof. exact merge_no_clash_no_rename_. Qed.
Print Assumptions C16_merge_renames_only_clashes_partial.

Theorem C16_merge_renames_local_partial : forall h T anc Ot skip m ph oe,
    TOK h T -> TOK h Ot -> (forall s, In s (sids T) -> ~ In s (sids Ot)) ->
    merge h T anc Ot skip = (m, ph, oe) ->
    forall s, ~ In s (sids T) -> ~ In s (sids Ot) -> s_name (hget (m_heap m) s) = s_name (hget h s).
Proof.
  intros h T anc Ot skip m ph oe HT HO Hd H s H1 H2.
  destruct (merge_spec _ _ _ _ _ _ _ _ HT HO Hd H) as [h1 [[[_ Hnm] _] Hpost]].
  destruct ph.
  1:{ destruct Hpost as [E _]. subst m. apply Hnm. }
  all: destruct Hpost as [HM _]; rewrite (mi_frame _ _ _ _ HM s H1 H2); apply Hnm.
Qed.
Print Assumptions C16_merge_renames_local_partial.

Example C16_merge_no_clash_nonvacuous :
  exists st T Ot m,
    reachable st /\ get_table st (TSlot 0) = Some T /\ nth_error (st_det st) 0 = Some Ot /\
    (forall s, In s (sids Ot) -> is_import (hget (st_heap st) s) = true -> is_container (hget (st_heap st) s) = false) /\
    (forall k, In k (keys T) -> ~ In k (keys Ot)) /\
    merge (st_heap st) T (ancestors st (TSlot 0)) Ot [] = (m, MDone, None) /\
    map (fun s => s_name (hget (m_heap m) s)) (sids (m_self m)) = ["a"; "B"; "m"; "x"; "c"].
Proof. exact merge_no_clash_nonvacuous. Qed.
Print Assumptions C16_merge_no_clash_nonvacuous.

(* (6) full statement, FALSE of the code:  forall st o st' e, step st o = (st', RErr e) -> st' = st.
   Proved for every operation except merge: *)
Theorem C16_rejected_unchanged_partial : forall st o st' e,
    is_merge o = false -> step st o = (st', RErr e) -> st' = st.
Proof. exact rejected_unchanged_nonmerge_. Qed.
Print Assumptions C16_rejected_unchanged_partial.

(* merge rejected by check_for_clashes never touches a table; it leaves the symbol objects
   untouched too if no unresolved symbol of the receiving table is named like an intrinsic *)
Theorem C16_merge_rejected_unchanged_partial : forall st t j skip T Ot m oe st' r,
    get_table st t = Some T -> nth_error (st_det st) j = Some Ot ->
    merge (st_heap st) T (ancestors st t) Ot skip = (m, MRejected, oe) ->
    (m_self m = T /\ m_other m = Ot) /\
    (no_intrinsic_unresolved (st_heap st) T ->
     step st (OMerge t j skip) = (st', r) -> st' = st).
Proof. exact merge_rejected_unchanged_. Qed.
Print Assumptions C16_merge_rejected_unchanged_partial.

Theorem C16_rejected_unchanged_refuted_specialise :
  exists st o st' e, reachable st /\ step st o = (st', RErr e) /\
                     map s_kind (st_heap st') <> map s_kind (st_heap st) /\
                     st_slots st' = st_slots st /\ st_det st' = st_det st.
Proof.
  exists (run (init_state 1) ops_R1a), (OMerge (TSlot 0) 0 []),
         (fst (step (run (init_state 1) ops_R1a) (OMerge (TSlot 0) 0 []))), ESymbol.
  split; [apply reachable_run|]. split; [vm_compute; reflexivity|].
  split; [vm_compute; discriminate|]. split; vm_compute; reflexivity.
Qed.
Print Assumptions C16_rejected_unchanged_refuted_specialise.

Theorem C16_rejected_unchanged_refuted_partial_update :
  exists st o st' e, reachable st /\ step st o = (st', RErr e) /\
                     get_table st' (TSlot 0) <> get_table st (TSlot 0).
Proof.
  exists (run (init_state 1) ops_R1b), (OMerge (TSlot 0) 0 [2]),
         (fst (step (run (init_state 1) ops_R1b) (OMerge (TSlot 0) 0 [2]))), ESymbol.
  split; [apply reachable_run|]. split; [vm_compute; reflexivity|]. vm_compute; discriminate.
Qed.
Print Assumptions C16_rejected_unchanged_refuted_partial_update.

(* non-vacuity of the hypotheses used above *)
Example C16_merge_adds_once_nonvacuous :
  exists st T Ot m,
    reachable st /\ get_table st (TSlot 0) = Some T /\ nth_error (st_det st) 0 = Some Ot /\
    TOK (st_heap st) T /\ TOK (st_heap st) Ot /\ (forall s, In s (sids T) -> ~ In s (sids Ot)) /\
    merge (st_heap st) T (ancestors st (TSlot 0)) Ot [] = (m, MDone, None) /\
    map (fun s => s_name (hget (m_heap m) s)) (sids (m_self m)) = ["a"; "A_2"; "B_1"; "B"; "c"].
Proof. exact merge_adds_once_nonvacuous. Qed.
Print Assumptions C16_merge_adds_once_nonvacuous.

Example C16_merge_rejected_nonvacuous :
  exists st T Ot m,
    reachable st /\ get_table st (TSlot 0) = Some T /\ nth_error (st_det st) 0 = Some Ot /\
    merge (st_heap st) T (ancestors st (TSlot 0)) Ot [] = (m, MRejected, Some ESymbol) /\
    no_intrinsic_unresolved (st_heap st) T /\
    step st (OMerge (TSlot 0) 0 []) = (st, RErr ESymbol).
Proof. exact merge_rejected_nonvacuous. Qed.
Print Assumptions C16_merge_rejected_nonvacuous.

Example C16_rejected_nonmerge_nonvacuous :
  let st := run (init_state 2) [OAdd (TSlot 1) "a" sp_data "t"; OAdd (TSlot 0) "B" sp_arg ""] in
  step st (OAdd (TSlot 1) "A" sp_data "") = (st, RErr EKey) /\
  step st (OAdd (TSlot 0) "c" sp_data "t") = (st, RErr EKey) /\
  step st (ORename (TSlot 0) 1 "b2") = (st, RErr ESymbol) /\
  step st (ORemove (TSlot 1) 0) = (st, RErr ENotImpl) /\
  step st (ONewSymbol (TSlot 0) "a" "" false sp_data false) = (st, RErr ESymbol).
Proof. exact rejected_nonmerge_nonvacuous. Qed.
Print Assumptions C16_rejected_nonmerge_nonvacuous.

(* the rejections of remove/swap that depend on references (ContainerSymbol still imported from,
   RoutineSymbol that is a member of a GenericInterfaceSymbol), on TAGGED symbols: nothing changes,
   in particular not the tag map (C16_rejected_unchanged_partial is about the whole state) *)
Example C16_rejected_remove_tagged_nonvacuous :
  let st := run (init_state 1) ops_E4 in
  step st (ORemove (TSlot 0) 0) = (st, RErr EValue) /\
  step st (ORemove (TSlot 0) 2) = (st, RErr EValue) /\
  step st (OSwap (TSlot 0) 0 "MOD1" sp_cont) = (st, RErr EValue) /\
  snd (step st (OLookupTag (TSlot 0) "c1")) = RSym 0 /\
  snd (step st (OLookupTag (TSlot 0) "r1")) = RSym 2 /\
  snd (step st (OFindOrCreateTag (TSlot 0) "c1" "mod1" false sp_cont true)) = RSym 0 /\
  snd (step (run st [ORemove (TSlot 0) 3; ORemove (TSlot 0) 2]) (OLookupTag (TSlot 0) "r1")) = RErr EKey.
Proof. exact rejected_remove_tagged_nonvacuous. Qed.
Print Assumptions C16_rejected_remove_tagged_nonvacuous.

Example C16_fresh_name_nonvacuous :
  let st := run (init_state 2)
                [OAdd (TSlot 1) "a" sp_data ""; OAdd (TSlot 0) "A_1" sp_data ""; ONewTable;
                 OAdd (TDet 0) "a_2" sp_data ""] in
  snd (step st (ONextName (TSlot 0) "A" false (Some (TDet 0)))) = RName "A_3" /\
  snd (step st (ONextName (TSlot 0) "A" false None)) = RName "A_2" /\
  snd (step st (ONextName (TSlot 0) "A" true None)) = RName "A" /\
  snd (step st (ONextName (TSlot 1) "" false None)) = RName "psyir_tmp".
Proof. exact fresh_name_nonvacuous. Qed.
Print Assumptions C16_fresh_name_nonvacuous.

Example C16_lookup_nonvacuous :
  let st := run (init_state 3) [OAdd (TSlot 2) "a" sp_data ""; OAdd (TSlot 0) "A" (mkSpec KGeneric false IAuto) ""] in
  snd (step st (OLookup (TSlot 0) "a")) = RSym 1 /\ snd (step st (OLookup (TSlot 1) "A")) = RSym 0 /\
  snd (step (fst (step st (ODetach 1))) (OLookup (TSlot 0) "a")) = RSym 1 /\
  snd (step (fst (step (fst (step st (ORemove (TSlot 0) 1))) (ODetach 1))) (OLookup (TSlot 0) "a")) = RErr EKey.
Proof. exact lookup_nonvacuous. Qed.
Print Assumptions C16_lookup_nonvacuous.

(* ---- extension with CodeBlocks (C16/CodeBlocks.v): every scope carries the normalised names mentioned
   in CodeBlocks of its tree; rename_symbol refuses such a symbol after all its other checks and
   before the dry_run return; check_for_clashes/merge decide through that dry run ---- *)

(* a rename that is refused -- for whatever reason, a CodeBlock access included -- leaves the whole
   state unchanged; and a symbol named in a CodeBlock in scope IS refused with SymbolError, dry run or not *)
Theorem C16_rename_codeblock_rejected_unchanged : forall cbs st t s name dry st' e,
    rename_step_cb cbs st t s name dry = (st', RErr e) -> st' = st.
Proof.
  intros cbs st t s name dry st' e H. unfold rename_step_cb in H.
  destruct (get_table st t) as [T|]; [|inversion H; reflexivity].
  destruct (rename_symbol_cb _ _ _ _ _ _) as [[h' T']|e']; [discriminate H | inversion H; reflexivity].
Qed.
Print Assumptions C16_rename_codeblock_rejected_unchanged.

Theorem C16_rename_codeblock_refused : forall cbs st t T s name dry,
    get_table st t = Some T -> rename_check (st_heap st) T s name = None ->
    In (normalize (s_name (hget (st_heap st) s))) (cb_of cbs t) ->
    rename_step_cb cbs st t s name dry = (st, RErr ESymbol).
Proof.
  intros cbs st t T s name dry HT Hc Hin. unfold rename_step_cb, rename_symbol_cb, rename_check_cb.
  rewrite HT, Hc. apply mem_str_In in Hin. rewrite Hin. reflexivity.
Qed.
Print Assumptions C16_rename_codeblock_refused.

(* dry_run=True never changes anything and succeeds / fails (with the same exception) exactly when the
   real rename would *)
Theorem C16_dry_run_pure : forall cb h T s name,
    TOK h T ->
    (forall r, rename_symbol_cb cb h T s name true = inl r -> r = (h, T)) /\
    (forall e, rename_symbol_cb cb h T s name true = inr e <-> rename_symbol_cb cb h T s name false = inr e) /\
    ((exists r, rename_symbol_cb cb h T s name true = inl r) <->
     (exists r, rename_symbol_cb cb h T s name false = inl r)).
Proof.
  intros cb h T s name HT. split; [intros r; apply dry_run_pure_|]. unfold rename_symbol_cb.
  destruct (rename_check_cb cb h T s name) as [e0|] eqn:Ec.
  - split; [intros e; tauto|]. split; intros [r H]; discriminate.
  - (* once the checks pass, rename_do finds the old key *)
    assert (Hdo : exists r, rename_do h T s name = inl r).
    { unfold rename_check_cb in Ec. destruct (rename_check h T s name) eqn:Er; [discriminate|].
      apply rename_check_ok in Er as [Hin _]. unfold rename_do, has_key.
      rewrite (TOK_find _ _ _ HT Hin). eexists. reflexivity. }
    destruct Hdo as [r Hr]. rewrite Hr. split.
    + intros e; split; intro H; discriminate.
    + split; intros _; eexists; reflexivity.
Qed.
Print Assumptions C16_dry_run_pure.

Theorem C16_dry_run_state_unchanged : forall cbs st t s name st' r,
    rename_step_cb cbs st t s name true = (st', r) ->
    st_slots st' = st_slots st /\ st_det st' = st_det st /\ st_heap st' = st_heap st.
Proof.
  intros cbs st t s name st' r H. unfold rename_step_cb in H.
  destruct (get_table st t) as [T|] eqn:HT; [|inversion H; auto].
  destruct (rename_symbol_cb (cb_of cbs t) (st_heap st) T s name true) as [[h' T']|e] eqn:E; [|inversion H; auto].
  apply dry_run_pure_ in E. inversion E; subst h' T'. inversion H; subst.
  rewrite set_table_with_heap_id, (set_table_same _ _ _ HT). auto.
Qed.
Print Assumptions C16_dry_run_state_unchanged.

(* a clash between an ordinary local symbol of the receiving table that cannot be renamed (named in a
   CodeBlock, argument, common block ...) and a symbol of the other table that cannot be renamed either
   is rejected by check_for_clashes, and merge leaves heap and both tables as they were.  Partial: one
   clashing pair, no unresolved symbol of the receiving table named like an intrinsic (otherwise
   check_for_clashes may already have specialised symbols: the open finding A). *)
Theorem C16_merge_unrenameable_clash_rejected_upfront_partial : forall cb h self anc other skip os ts e2,
    no_intrinsic_unresolved h self ->
    In os (sids other) -> ~ In os skip ->
    find_key (normalize (s_name (hget h os))) (t_syms self) = Some ts ->
    plain_local h ts ->
    rename_check_cb cb h self ts "" = Some ESymbol ->
    rename_check_cb [] h other os "" = Some e2 ->
    exists e, check_for_clashes_cb cb h self anc other skip = (h, Some e) /\
              merge_cb cb h self anc other skip = (mkM h self other, MRejected, Some e).
Proof.
  intros cb h self anc other skip os ts e2 Hs Hin Hsk Hf [Hc [Hi [Him Hu]]] H1 H2.
  apply (merge_unrenameable_clash_rejected_upfront_ cb h self anc other skip os ts Hs Hin Hsk Hf).
  - unfold needs_rename. rewrite Hc, Hi, Him, Hu, !andb_false_r. auto.
  - exists ESymbol. split; [exact H1 | intros _; exists e2; exact H2].
Qed.
Print Assumptions C16_merge_unrenameable_clash_rejected_upfront_partial.

Example C16_rename_codeblock_nonvacuous :
  rename_step_cb cb_cbs cb_st (TSlot 0) 0 "z" false = (cb_st, RErr ESymbol) /\
  rename_step_cb cb_cbs cb_st (TSlot 0) 0 "z" true = (cb_st, RErr ESymbol) /\
  rename_step_cb cb_cbs cb_st (TSlot 0) 0 "Y" false = (cb_st, RErr EKey) /\
  snd (rename_step_cb cb_cbs cb_st (TSlot 0) 1 "z" false) = RUnit /\
  rename_step_cb cb_cbs cb_st (TSlot 0) 1 "z" true = (cb_st, RUnit) /\
  snd (rename_step_cb [[]; []] cb_st (TSlot 0) 0 "z" false) = RUnit.
Proof. exact rename_codeblock_nonvacuous. Qed.
Print Assumptions C16_rename_codeblock_nonvacuous.

Example C16_merge_unrenameable_nonvacuous :
  exists T Ot,
    get_table cb_st (TSlot 0) = Some T /\ nth_error (st_det cb_st) 0 = Some Ot /\
    no_intrinsic_unresolved (st_heap cb_st) T /\ In 3 (sids Ot) /\
    find_key (normalize (s_name (hget (st_heap cb_st) 3))) (t_syms T) = Some 0 /\
    plain_local (st_heap cb_st) 0 /\
    rename_check_cb ["x"] (st_heap cb_st) T 0 "" = Some ESymbol /\
    rename_check_cb [] (st_heap cb_st) Ot 3 "" = Some ESymbol /\
    merge_cb ["x"] (st_heap cb_st) T [] Ot [] = (mkM (st_heap cb_st) T Ot, MRejected, Some ESymbol) /\
    (exists m, merge_cb [] (st_heap cb_st) T [] Ot [] = (m, MDone, None) /\
               map (fun s => s_name (hget (m_heap m) s)) (sids (m_self m)) = ["y"; "first"; "X_1"; "X"]).
Proof. exact merge_unrenameable_nonvacuous. Qed.
Print Assumptions C16_merge_unrenameable_nonvacuous.

(* ---- the invariants over ALL histories of the CodeBlock-aware step (ExecCB.step_cb, run_cb = fold_left),
   by simulation: every operation other than merge is Model.step or a CodeBlock refusal that changes
   nothing.  PARTIAL: histories without merge (no_merge ops); missing: the merge invariant (MergeProofs.MI)
   re-established for merge_cb, where a CodeBlock refusal can also stop a merge half-way ---- *)
Theorem C16_unique_names_inv_cb_partial : forall cbs n ops T,
    no_merge ops = true ->
    let st := run_cb cbs (init_state n) ops in
    In T (all_tables st) ->
    NoDup (keys T) /\ NoDup (sids T) /\
    (forall k s, In (k, s) (t_syms T) -> k = normalize (s_name (hget (st_heap st) s))) /\
    (forall k1 s1 k2 s2, In (k1, s1) (t_syms T) -> In (k2, s2) (t_syms T) ->
                         normalize (s_name (hget (st_heap st) s1)) = normalize (s_name (hget (st_heap st) s2)) ->
                         s1 = s2).
Proof.
  intros cbs n ops T Hn st HT. apply TOK_unique_names.
  apply (WF_table _ T (run_cb_WF cbs ops _ Hn (init_WF n)) HT).
Qed.
Print Assumptions C16_unique_names_inv_cb_partial.

Theorem C16_tags_never_stale_cb_partial : forall cbs n ops T,
    no_merge ops = true -> In T (all_tables (run_cb cbs (init_state n) ops)) ->
    NoDup (map fst (t_tags T)) /\ forall tg s, In (tg, s) (t_tags T) -> In s (sids T).
Proof. intros cbs n ops T Hn HT. apply (WF_table _ T (run_cb_WF cbs ops _ Hn (init_WF n)) HT). Qed.
Print Assumptions C16_tags_never_stale_cb_partial.

Theorem C16_lookup_innermost_cb_partial : forall cbs n ops t T name s,
    no_merge ops = true ->
    let st := run_cb cbs (init_state n) ops in
    get_table st t = Some T ->
    (lookup T (ancestors st t) name = Some s <->
     exists pre T' post, T :: ancestors st t = pre ++ T' :: post /\
                         (forall P, In P pre -> ~ In (normalize name) (keys P)) /\
                         find_key (normalize name) (t_syms T') = Some s) /\
    (lookup T (ancestors st t) name = Some s ->
     normalize (s_name (hget (st_heap st) s)) = normalize name).
Proof.
  intros cbs n ops t T name s Hn st Ht. split; [apply C16_lookup_innermost|].
  apply lookup_sound_; [apply (run_cb_WF cbs ops _ Hn (init_WF n)) | exact Ht].
Qed.
Print Assumptions C16_lookup_innermost_cb_partial.

Theorem C16_step_cb_simulation : forall cbs st o,
    is_merge o = false ->
    step_cb cbs st o = step st o \/
    (exists t s name, o = ORename t s name /\ step_cb cbs st o = (st, RErr ESymbol)).
Proof. exact step_cb_sim. Qed.
Print Assumptions C16_step_cb_simulation.

Theorem C16_rejected_unchanged_cb_partial : forall cbs st o st' e,
    is_merge o = false -> step_cb cbs st o = (st', RErr e) -> st' = st.
Proof.
  intros cbs st o st' e Hm H. destruct (step_cb_sim cbs st o Hm) as [E|[t [s [name [_ E]]]]]; rewrite E in H.
  - apply (rejected_unchanged_nonmerge_ st o st' e Hm H).
  - inversion H; reflexivity.
Qed.
Print Assumptions C16_rejected_unchanged_cb_partial.

(* general form of the up-front rejection: any number of clashing pairs; as soon as one non-skipped pair
   that has to be resolved by renaming cannot be (both dry runs fail, or the first raises something else
   than SymbolError), check_for_clashes raises -- at that pair or an earlier one -- and merge returns with
   heap and tables untouched.  Partial only in: no unresolved symbol of the receiving table is named like an
   intrinsic (else symbols may have been specialised before the raise: open finding A). *)
Theorem C16_merge_unrenameable_clash_rejected_upfront_general_partial : forall cb h self anc other skip os ts,
    no_intrinsic_unresolved h self ->
    In os (sids other) -> ~ In os skip ->
    find_key (normalize (s_name (hget h os))) (t_syms self) = Some ts ->
    needs_rename h ts os -> unrenameable_pair cb h self other ts os ->
    exists e, check_for_clashes_cb cb h self anc other skip = (h, Some e) /\
              merge_cb cb h self anc other skip = (mkM h self other, MRejected, Some e).
Proof. exact merge_unrenameable_clash_rejected_upfront_. Qed.
Print Assumptions C16_merge_unrenameable_clash_rejected_upfront_general_partial.

Example C16_invariants_cb_nonvacuous :
  no_merge cbi_ops = true /\
  map snd (map (step_cb [["x"; "a"]; []] (run_cb [["x"; "a"]; []] (init_state 2) (firstn 3 cbi_ops)))
               [ORename (TSlot 0) 1 "z"; ORename (TSlot 1) 0 "q"; ORename (TSlot 0) 2 "B"])
  = [RErr ESymbol; RErr ESymbol; RErr ESymbol] /\
  map s_name (st_heap (run_cb [["x"; "a"]; []] (init_state 2) cbi_ops)) = ["a"; "x"; "A"] /\
  map s_name (st_heap (run_cb [[]; []] (init_state 2) cbi_ops)) = ["q"; "z"; "x"].
Proof. exact invariants_cb_nonvacuous. Qed.
Print Assumptions C16_invariants_cb_nonvacuous.

Example C16_merge_upfront_general_nonvacuous :
  exists T Ot,
    get_table cbg_st (TSlot 0) = Some T /\ nth_error (st_det cbg_st) 0 = Some Ot /\
    no_intrinsic_unresolved (st_heap cbg_st) T /\ In 4 (sids Ot) /\
    find_key (normalize (s_name (hget (st_heap cbg_st) 4))) (t_syms T) = Some 1 /\
    needs_rename (st_heap cbg_st) 1 4 /\ unrenameable_pair ["x"] (st_heap cbg_st) T Ot 1 4 /\
    merge_cb ["x"] (st_heap cbg_st) T [] Ot [] = (mkM (st_heap cbg_st) T Ot, MRejected, Some ESymbol) /\
    (exists m, merge_cb [] (st_heap cbg_st) T [] Ot [] = (m, MDone, None) /\
               map (fun s => s_name (hget (m_heap m) s)) (sids (m_self m)) = ["b"; "B_1"; "first"; "X_1"; "X"]).
Proof. exact merge_upfront_general_nonvacuous. Qed.
Print Assumptions C16_merge_upfront_general_nonvacuous.
