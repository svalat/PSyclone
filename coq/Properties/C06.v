(* C06 — Array-syntax and intrinsic lowering preserve semantics.  Property theorems only.

   FULL statement (false of the unchanged code, see the *_refuted theorems):
     for every transformation T of {ArrayAssignment2Loops, Abs/Sign/Min/Max2Code, Sum/Product/Minval/Maxval2Loop,
     DotProduct2Code, Matmul2Code}, every target t accepted by T and every store s in which the original
     statement executes:  exec (T.apply t) s  ends in the store of the original statement, up to the symbols
     created by T.
   The models take a parameter fx : fixes saying which repairs of props/C06/fix.patch are present in the
   tree under test (probed on every run); `unfixed` is the code as found.  The `_partial` theorems hold for
   every fx; the `_refuted` theorems are about `unfixed`.
   What is proved: the full statement for ABS/SIGN/MIN/MAX (new symbols fresh); for the others the
   `_partial` theorems under a sufficient, decidable `*_safe` condition on the faithful model's input, and
   `_refuted` witnesses (accepted by the model exactly as by the implementation) where `*_safe` fails.
   Missing for the full statement: refusal (or a correct lowering) of
     - a lhs array read on the rhs through another section / element (forward-loop smearing),
     - ranges whose strides differ, same-array ranges of different dimensions at their lower bounds,
     - `x(..) = RED(.. x ..)` (result accumulated in a temporary and never stored),
     - DOT_PRODUCT / MATMUL operands whose declared lower bounds differ.
   Values are integers (exactly representable reals; no signed zero, NaN or rounding); executions that
   fault are outside the statements; array sections of one statement are conformable (extents are taken
   from the lhs / first operand). *)
From Coq Require Import List ZArith Bool.
Import ListNotations.
From PV Require Import Fort.Syntax Fort.Sem Fort.Facts C06.Syntax C06.Model C06.Common
                       C06.ArrayAssignProofs C06.IntrinsicProofs C06.ReductionProofs C06.LinAlgProofs
                       C06.Bounds C06.MatMatProofs C06.MatVecFProofs C06.ArrayAssign2D C06.ArrayAssign2DProofs C06.DotFProofs.
Open Scope Z_scope.

(* ArrayAssignment2LoopsTrans, for ALL bounds, strides and contents: the loop computes the Fortran array
   assignment (whole rhs evaluated first) up to the loop variable, when the lhs array is read only through the
   written section *)
Theorem C06_arrayassign_sound_partial : forall fx d idx a s s' f,
  aa_safe fx d idx a = true -> bnd_ok d s -> aa_sem a s = Some s' ->
  exists prog, aa_apply fx d idx a = Some prog /\
  exists s2 tr, exec (3 + f) prog s = Ok s2 tr CNormal /\ agree_except [idx] s2 s'.
Proof.
  intros fx d idx a s s' f Safe Hbnd Sem. destruct (aa_sound_partial_ fx d idx a s s' Safe Hbnd Sem) as [prog [AP H]].
  exists prog. split; [exact AP | apply hoare_run, H].
Qed.
Print Assumptions C06_arrayassign_sound_partial.

(* a(2:10) = a(1:9) is accepted and becomes a forward loop that smears a(1) *)
Theorem C06_arrayassign_refuted :
  exists d idx a s s' prog s2 tr,
    aa_accept a = true /\ bnd_ok d s /\ aa_sem a s = Some s' /\ aa_apply unfixed d idx a = Some prog /\
    exec 10 prog s = Ok s2 tr CNormal /\ val s2 (aa_arr a, [3]) <> val s' (aa_arr a, [3]).
Proof.
  destruct (some_val_witness (aa_sem ex_overlap ex_store) (0%nat, [3]) 12) as [s' [E1 V1]]; [vm_compute; reflexivity|].
  destruct (apply_val_witness 10 (aa_apply unfixed ex_decls 2%nat ex_overlap) ex_store (0%nat, [3]) 11)
    as [prog [s2 [tr [E2 [E3 V2]]]]]; [vm_compute; reflexivity|].
  exists ex_decls, 2%nat, ex_overlap, ex_store, s', prog, s2, tr.
  split; [reflexivity|]. split; [intros [|[|b]]; reflexivity|]. do 3 (split; [assumption|]).
  intro X. discriminate (eq_trans (eq_sym V2) (eq_trans X V1)).
Qed.
Print Assumptions C06_arrayassign_refuted.

Example C06_arrayassign_nonvacuous :
  aa_safe unfixed ex_decls 2%nat ex_safe = true /\ bnd_ok ex_decls ex_store /\
  (exists s', aa_sem ex_safe ex_store = Some s' /\ val s' (0%nat, [2]) = 24).
Proof. exact aa_safe_nonvacuous. Qed.
Print Assumptions C06_arrayassign_nonvacuous.

Theorem C06_abs_ok : forall res tmp X s v,
  res <> tmp -> eval s X = Some v ->
  hoare 5 (abs_code res tmp X) s
        (fun s' => Some (val s' (res, [])) = eval s (EIntr IAbs [X]) /\ agree_except [res; tmp] s' s).
Proof. exact abs_ok_. Qed.
Print Assumptions C06_abs_ok.

Theorem C06_sign_ok : forall res tmp res_abs tmp_abs A B s a b,
  NoDup [res; tmp; res_abs; tmp_abs] -> eval s A = Some a -> eval s B = Some b ->
  (forall x, In x [res; tmp; res_abs; tmp_abs] -> mentions x B = false) ->
  hoare 12 (sign_code res tmp res_abs tmp_abs A B) s
        (fun s' => Some (val s' (res, [])) = eval s (EIntr ISign [A; B]) /\
                   agree_except [res; tmp; res_abs; tmp_abs] s' s).
Proof. exact sign_ok_. Qed.
Print Assumptions C06_sign_ok.

(* any number of arguments; cmp = Lt is MIN, cmp = Gt is MAX *)
Theorem C06_minmax_ok : forall cmp res tmp A rest s,
  (cmp = Lt \/ cmp = Gt) -> res <> tmp ->
  (exists v, eval s (EIntr (match cmp with Lt => IMin | _ => IMax end) (A :: rest)) = Some v) ->
  (forall x B, In x [res; tmp] -> In B rest -> mentions x B = false) ->
  hoare (3 + 5 * length rest) (minmax_code cmp res tmp (A :: rest)) s
        (fun s' => Some (val s' (res, [])) = eval s (EIntr (match cmp with Lt => IMin | _ => IMax end) (A :: rest)) /\
                   agree_except [res; tmp] s' s).
Proof. exact minmax_ok_. Qed.
Print Assumptions C06_minmax_ok.

(* the whole rewritten assignment (call at any position p of the rhs), all four intrinsics: FULL *)
Theorem C06_intrinsic_stmt_sound : forall k names x ix e p code s vs v,
  intr_apply k names x ix e p = Some code ->
  NoDup names -> ~ In x names ->
  (forall y, In y names -> mentions y e = false) ->
  (forall y i, In y names -> In i ix -> mentions y i = false) ->
  opt_all (map (eval s) ix) = Some vs -> eval s e = Some v ->
  exists N, hoare N code s (fun s2 => agree_except names s2 (upd s (x, vs) v)).
Proof. exact intr_sound_. Qed.
Print Assumptions C06_intrinsic_stmt_sound.

Example C06_intrinsic_nonvacuous :
  let e := EBin Sub (EBin Mul (ELit 2) (EIntr IMax [EVar 1%nat; ELit 3; EVar 2%nat])) (EVar 1%nat) in
  let s := store_of [((1%nat, []), 1); ((2%nat, []), 7)] [] in
  exists code, intr_apply KMax [3%nat; 4%nat] 0%nat [] e [0%nat; 1%nat] = Some code /\
  eval s e = Some 13 /\ (exists s2 tr, exec 30 code s = Ok s2 tr CNormal /\ val s2 (0%nat, []) = 13).
Proof. exact intr_sound_nonvacuous. Qed.
Print Assumptions C06_intrinsic_nonvacuous.

(* the generated loop leaves the Fortran value of the reduction in x(xi): every extent (also empty),
   every mask, every kind; MINVAL/MAXVAL need the elements bounded by HUGE *)
Theorem C06_reduction_ok : forall fx d idx x xi k arr mask code s xv v,
  red_loop fx d idx x xi k arr mask = Some code ->
  red_safe fx d idx x xi arr mask = true -> bnd_ok d s ->
  opt_all (map (eval s) xi) = Some xv ->
  red_sem k arr mask s = Some v ->
  (forall l h t all, red_elems s arr mask (zseq 0 (trip_count l h t)) = Some all ->
                     Forall (fun w => - HUGE <= w <= HUGE) all) ->
  hoare 6 code s (fun s' => val s' (x, xv) = v /\ bnd s' = bnd s /\
                            forall loc, fst loc <> idx -> loc <> (x, xv) -> val s' loc = val s loc).
Proof. exact reduction_ok_. Qed.
Print Assumptions C06_reduction_ok.

(* the whole statement x(xi) = C[RED(arr, mask)] *)
Theorem C06_reduction_sound_partial : forall fx d idx tmp hole x xi k arr mask ctx code s s',
  red_apply fx d idx tmp x xi k arr mask ctx hole = Some code ->
  red_stmt_safe fx d idx tmp hole x xi arr mask ctx = true -> bnd_ok d s ->
  red_stmt_sem k x xi arr mask ctx hole s = Some s' ->
  (forall l h t all, red_elems s arr mask (zseq 0 (trip_count l h t)) = Some all ->
                     Forall (fun w => - HUGE <= w <= HUGE) all) ->
  exists N, hoare N code s (fun s2 => agree_except [idx; tmp; hole] s2 s').
Proof. exact reduction_sound_partial_. Qed.
Print Assumptions C06_reduction_sound_partial.

(* a(1) = SUM(a(1:4)) is accepted; the sum goes to a temporary and a(1) is never assigned *)
Theorem C06_reduction_refuted :
  exists d idx tmp hole x xi k arr mask code s s' s2 tr,
    red_apply unfixed d idx tmp x xi k arr mask None hole = Some code /\ bnd_ok d s /\
    red_stmt_sem k x xi arr mask None hole s = Some s' /\
    exec 20 code s = Ok s2 tr CNormal /\ val s2 (x, [1]) <> val s' (x, [1]).
Proof.
  destruct (some_val_witness (red_stmt_sem RSum 0%nat [ELit 1] rx_arr None None 4%nat rx_store) (0%nat, [1]) 7)
    as [s' [E1 V1]]; [vm_compute; reflexivity|].
  destruct (apply_val_witness 20 (red_apply unfixed rx_decls 2%nat 3%nat 0%nat [ELit 1] RSum rx_arr None None 4%nat)
                             rx_store (0%nat, [1]) 3) as [code [s2 [tr [E2 [E3 V2]]]]]; [vm_compute; reflexivity|].
  exists rx_decls, 2%nat, 3%nat, 4%nat, 0%nat, [ELit 1], RSum, rx_arr, None, code, rx_store, s', s2, tr.
  split; [exact E2|]. split; [intros [|b]; reflexivity|]. split; [exact E1|]. split; [exact E3|].
  intro X. discriminate (eq_trans (eq_sym V2) (eq_trans X V1)).
Qed.
Print Assumptions C06_reduction_refuted.

Example C06_reduction_nonvacuous :
  let ctx := Some (EBin Sub (EVar 5%nat) (EVar 4%nat)) in
  red_stmt_safe unfixed rx_decls 2%nat 3%nat 4%nat 1%nat [] rx_arr rx_mask ctx = true /\ bnd_ok rx_decls rx_store /\
  (exists code, red_apply unfixed rx_decls 2%nat 3%nat 1%nat [] RMaxval rx_arr rx_mask ctx 4%nat = Some code) /\
  (exists s', red_stmt_sem RMaxval 1%nat [] rx_arr rx_mask ctx 4%nat rx_store = Some s' /\ val s' (1%nat, []) = 5).
Proof. exact reduction_nonvacuous. Qed.
Print Assumptions C06_reduction_nonvacuous.

Theorem C06_dot_sound_partial : forall d i res hole x xi ctx v1 r1 v2 r2 s v xv w,
  dot_safe d i res hole x xi ctx v1 r1 v2 r2 = true ->
  dot_sem d v1 r1 v2 r2 s = Some v ->
  opt_all (map (eval s) xi) = Some xv -> eval (upd s (hole, []) v) ctx = Some w ->
  hoare 8 (dot_apply d i res x xi ctx hole v1 r1 v2 r2) s
        (fun s2 => agree_except [i; res; hole] s2 (upd s (x, xv) w)).
Proof. intros d i res hole x xi ctx v1 r1 v2 r2 s v xv w Safe. apply dot_loops; [exact Safe|]. intros s' _. split; reflexivity. Qed.
Print Assumptions C06_dot_sound_partial.

(* v1(1:2), v2(0:1): both are indexed with the loop variable of v1 *)
Theorem C06_dot_refuted :
  exists d i res hole x v1 v2 s v s2 tr,
    dot_sem d v1 [] v2 [] s = Some v /\
    exec 20 (dot_apply d i res x [] (EVar hole) hole v1 [] v2 []) s = Ok s2 tr CNormal /\ val s2 (x, []) <> v.
Proof.
  destruct (exec_val_witness 20 (dot_apply dx_decls 3%nat 4%nat 2%nat [] (EVar 5%nat) 5%nat 0%nat [] 1%nat [])
                             dx_store (2%nat, []) 14) as [s2 [tr [E3 V2]]]; [vm_compute; reflexivity|].
  exists dx_decls, 3%nat, 4%nat, 5%nat, 2%nat, 0%nat, 1%nat, dx_store, 31, s2, tr.
  split; [vm_compute; reflexivity|]. split; [exact E3|]. intro X. discriminate (eq_trans (eq_sym V2) X).
Qed.
Print Assumptions C06_dot_refuted.

Example C06_dot_nonvacuous :
  let d : decls := fun n => match n with O => [(2, 3)] | S O => [(2, 3)] | _ => [] end in
  let s := store_of [((0%nat, [2]), 2); ((0%nat, [3]), 3); ((1%nat, [2]), 5); ((1%nat, [3]), 7)] [] in
  dot_safe d 3%nat 4%nat 5%nat 2%nat [] (EBin Add (EVar 5%nat) (ELit 1)) 0%nat [] 1%nat [] = true /\
  dot_sem d 0%nat [] 1%nat [] s = Some 31.
Proof. exact dot_safe_nonvacuous. Qed.
Print Assumptions C06_dot_nonvacuous.

Theorem C06_matvec_sound_partial : forall d i j r m v s,
  matvec_safe d i j r m v = true ->
  hoare 7 (matvec_apply d i j r m v) s (fun s2 => agree_except [i; j] s2 (matvec_sem d r m v s)).
Proof. intros d i j r m v s Safe. apply matvec_loops; [exact Safe|]. intros s' _. repeat split. Qed.
Print Assumptions C06_matvec_sound_partial.

Theorem C06_matvec_refuted :
  exists d i j r m v s s2 tr,
    matvec_accept r m v = true /\
    exec 20 (matvec_apply d i j r m v) s = Ok s2 tr CNormal /\
    val s2 (r, [0]) <> val (matvec_sem d r m v s) (r, [0]).
Proof.
  destruct (exec_val_witness 20 (matvec_apply mx_decls 3%nat 4%nat 0%nat 1%nat 2%nat) mx_store (0%nat, [0]) 0)
    as [s2 [tr [E3 V2]]]; [vm_compute; reflexivity|].
  exists mx_decls, 3%nat, 4%nat, 0%nat, 1%nat, 2%nat, mx_store, s2, tr.
  split; [reflexivity|]. split; [exact E3|].
  assert (V1 : val (matvec_sem mx_decls 0%nat 1%nat 2%nat mx_store) (0%nat, [0]) = 17) by (vm_compute; reflexivity).
  intro X. discriminate (eq_trans (eq_sym V2) (eq_trans X V1)).
Qed.
Print Assumptions C06_matvec_refuted.

Example C06_matvec_nonvacuous :
  let d : decls := fun n => match n with O => [(2, 3)] | S O => [(2, 3); (0, 1)] | S (S O) => [(0, 1)] | _ => [] end in
  let s := store_of [((1%nat, [2; 0]), 1); ((1%nat, [2; 1]), 2); ((1%nat, [3; 0]), 3); ((1%nat, [3; 1]), 4);
                     ((2%nat, [0]), 5); ((2%nat, [1]), 6)] [] in
  matvec_safe d 3%nat 4%nat 0%nat 1%nat 2%nat = true /\
  val (matvec_sem d 0%nat 1%nat 2%nat s) (0%nat, [3]) = 39.
Proof. exact matvec_safe_nonvacuous. Qed.
Print Assumptions C06_matvec_nonvacuous.

(* bounds seen inside the routine as a function of the declaration form and the actual argument's bounds *)
Theorem C06_effective_bounds : forall f act,
  match f with
  | DExplicit lb ub => eff_dim f act = (lb, ub)
  | DAssumedLb lb => fst (eff_dim f act) = lb /\ zextent (eff_dim f act) = zextent act
  | DAssumed => fst (eff_dim f act) = 1 /\ zextent (eff_dim f act) = zextent act
  | DDeferred => eff_dim f act = act
  end.
Proof. exact eff_dim_spec. Qed.
Print Assumptions C06_effective_bounds.

(* the bound expressions generated by matmul2code's _get_array_bound evaluate to the effective bounds *)
Theorem C06_bound_exprs_effective : forall fm d s a k b,
  bnd s a = d a -> nth_error (d a) k = Some b ->
  (forall f, nth_error (fm a) k = Some f -> form_ok f b) ->
  eval s (fst (mbound fm a k)) = Some (fst b) /\ eval s (snd (mbound fm a k)) = Some (snd b).
Proof. exact mbound_eval. Qed.
Print Assumptions C06_bound_exprs_effective.

(* the array-assignment theorem over the effective bounds of (assumed-shape) dummies *)
Theorem C06_arrayassign_effective_partial : forall fx fm actuals idx a s s' f,
  aa_safe fx (eff_decls fm actuals) idx a = true -> bnd_ok (eff_decls fm actuals) s -> aa_sem a s = Some s' ->
  exists prog, aa_apply fx (eff_decls fm actuals) idx a = Some prog /\
  exists s2 tr, exec (3 + f) prog s = Ok s2 tr CNormal /\ agree_except [idx] s2 s'.
Proof. intros fx fm actuals. exact (C06_arrayassign_sound_partial fx (eff_decls fm actuals)). Qed.
Print Assumptions C06_arrayassign_effective_partial.

(* MATMUL matrix * matrix, any declaration form: triple loop; non-square; bounds are the form-dependent
   expressions; correct when the lower bounds that the loops identify are equal (result/m1 rows, result/m2
   columns, m1 columns/m2 rows) *)
Theorem C06_matmat_sound_partial : forall fm d i j ii r m1 m2 s,
  matmat_safe d i j ii r m1 m2 = true -> operands_ok fm d s [m1; m2] ->
  hoare 7 (matmat_apply fm i j ii r m1 m2) s (fun s2 => agree_except [i; j; ii] s2 (matmat_sem d r m1 m2 s)).
Proof. exact matmat_sound_partial_. Qed.
Print Assumptions C06_matmat_sound_partial.

(* r(0:1,0:3) = MATMUL(m1(0:1,0:2), m2(0:,0:)) with a 3x4 actual argument b(5:7,5:8) *)
Example C06_matmat_nonvacuous :
  mm_decls 2%nat = [(0, 2); (0, 3)] /\
  matmat_safe mm_decls 3%nat 4%nat 5%nat 0%nat 1%nat 2%nat = true /\
  operands_ok mm_forms mm_decls mm_store [1%nat; 2%nat] /\
  val (matmat_sem mm_decls 0%nat 1%nat 2%nat mm_store) (0%nat, [1; 3]) = 654 /\
  (exists s2 tr, exec 30 (matmat_apply mm_forms 3%nat 4%nat 5%nat 0%nat 1%nat 2%nat) mm_store = Ok s2 tr CNormal /\
                 val s2 (0%nat, [1; 3]) = 654).
Proof. exact matmat_nonvacuous. Qed.
Print Assumptions C06_matmat_nonvacuous.

(* MATMUL matrix * vector with the form-dependent bound expressions *)
Theorem C06_matvec_forms_sound_partial : forall fm d i j r m v s,
  matvec_safe d i j r m v = true -> operands_ok fm d s [m] -> vector_ok fm d s v ->
  hoare 7 (matvecF_apply fm i j r m v) s (fun s2 => agree_except [i; j] s2 (matvec_sem d r m v s)).
Proof.
  intros fm d i j r m v s Safe Om Ov. apply matvec_loops; [exact Safe|]. intros s' B. split.
  - apply (operand_bounds fm d s [m] m s' Om (or_introl eq_refl) B).
  - apply (vector_bounds fm d s v s' Ov B).
Qed.
Print Assumptions C06_matvec_forms_sound_partial.

(* r(2:3) = MATMUL(m(2:,:), v(:)) with actual arguments (5:6,7:8) and (4:5) *)
Example C06_matvec_forms_nonvacuous :
  mv_decls 1%nat = [(2, 3); (1, 2)] /\ mv_decls 2%nat = [(1, 2)] /\
  matvec_safe mv_decls 3%nat 4%nat 0%nat 1%nat 2%nat = true /\
  operands_ok mv_forms mv_decls mv_store [1%nat] /\ vector_ok mv_forms mv_decls mv_store 2%nat /\
  val (matvec_sem mv_decls 0%nat 1%nat 2%nat mv_store) (0%nat, [3]) = 39 /\
  (exists s2 tr, exec 30 (matvecF_apply mv_forms 3%nat 4%nat 0%nat 1%nat 2%nat) mv_store = Ok s2 tr CNormal /\
                 val s2 (0%nat, [3]) = 39).
Proof. exact matvecF_nonvacuous. Qed.
Print Assumptions C06_matvec_forms_nonvacuous.

(* a(.., l1:u1:s1, .., l2:u2:s2, ..) = rhs: the LAST range becomes the outer loop (symbol idx), the first the
   inner loop (idx1); for all bounds, strides and contents the nest ends in the store of the Fortran array
   assignment (all elements evaluated first) up to idx, idx1 -- when the lhs array is read only through the
   written section, strides are syntactically equal and ranges declared equal have the same normalised start *)
Theorem C06_arrayassign2d_sound_partial : forall fx d idx idx1 a s s' f,
  aa2_safe fx d idx idx1 a = true -> bnd_ok d s -> aa2_sem a s = Some s' ->
  exists prog, aa2_apply fx d idx idx1 a = Some prog /\
  exists s2 tr, exec (4 + f) prog s = Ok s2 tr CNormal /\ agree_except [idx; idx1] s2 s'.
Proof.
  intros fx d idx idx1 a s s' f Safe Hbnd Sem. destruct (aa2_sound_partial_ fx d idx idx1 a s s' Safe Hbnd Sem) as [prog [AP H]].
  exists prog. split; [exact AP | apply hoare_run, H].
Qed.
Print Assumptions C06_arrayassign2d_sound_partial.

(* a(2:3, 0:2) = b(1:2, 5:7) * x + a(2:3, 0:2) with a(2:4,0:2), b(1:3,5:7) *)
Example C06_arrayassign2d_nonvacuous :
  aa2_safe unfixed e2_decls 2%nat 3%nat e2_stmt = true /\ bnd_ok e2_decls e2_store /\
  (exists s', aa2_sem e2_stmt e2_store = Some s' /\ val s' (0%nat, [3; 2]) = 84) /\
  (exists prog s2 tr, aa2_apply unfixed e2_decls 2%nat 3%nat e2_stmt = Some prog /\
                      exec 20 prog e2_store = Ok s2 tr CNormal /\ val s2 (0%nat, [3; 2]) = 84).
Proof. exact aa2_safe_nonvacuous. Qed.
Print Assumptions C06_arrayassign2d_nonvacuous.

(* d(:,1) = d(1,:) with d(0:2,1:3): the unfixed same_range shortcut ignores the dimension ... *)
Theorem C06_arrayassign_dimmix_refuted :
  exists s' prog s2 tr,
    aa_accept dm_stmt = true /\ bnd_ok dm_decls dm_store /\ aa_sem dm_stmt dm_store = Some s' /\
    aa_apply unfixed dm_decls 2%nat dm_stmt = Some prog /\
    exec 10 prog dm_store = Ok s2 tr CNormal /\ val s2 (0%nat, [0; 1]) <> val s' (0%nat, [0; 1]).
Proof.
  destruct (some_val_witness (aa_sem dm_stmt dm_store) (0%nat, [0; 1]) 11) as [s' [E1 V1]]; [vm_compute; reflexivity|].
  destruct (apply_val_witness 10 (aa_apply unfixed dm_decls 2%nat dm_stmt) dm_store (0%nat, [0; 1]) 0)
    as [prog [s2 [tr [E2 [E3 V2]]]]]; [vm_compute; reflexivity|].
  exists s', prog, s2, tr.
  split; [reflexivity|]. split; [intros [|b]; reflexivity|]. do 3 (split; [assumption|]).
  intro X. discriminate (eq_trans (eq_sym V2) (eq_trans X V1)).
Qed.
Print Assumptions C06_arrayassign_dimmix_refuted.

(* ... and the variant with the repair 148f649 (flag fx_shortcut, detected on the tree under test) lowers it correctly *)
Theorem C06_arrayassign_dimmix_fixed :
  exists s' prog s2 tr,
    aa_sem dm_stmt dm_store = Some s' /\ aa_apply (mkFixes true false false) dm_decls 2%nat dm_stmt = Some prog /\
    exec 10 prog dm_store = Ok s2 tr CNormal /\
    val s2 (0%nat, [0; 1]) = val s' (0%nat, [0; 1]) /\ val s2 (0%nat, [1; 1]) = val s' (0%nat, [1; 1]) /\
    val s2 (0%nat, [2; 1]) = val s' (0%nat, [2; 1]) /\ val s' (0%nat, [1; 1]) = 12.
Proof.
  set (ls := [(0%nat, [0; 1]); (0%nat, [1; 1]); (0%nat, [2; 1])]).
  destruct (some_vals_witness (aa_sem dm_stmt dm_store) ls [11; 12; 13]) as [s' [E1 V1]]; [vm_compute; reflexivity|].
  destruct (apply_vals_witness 10 (aa_apply (mkFixes true false false) dm_decls 2%nat dm_stmt) dm_store ls [11; 12; 13])
    as [prog [s2 [tr [E2 [E3 V2]]]]]; [vm_compute; reflexivity|].
  exists s', prog, s2, tr. do 3 (split; [assumption|]).
  injection V1 as A1 B1 C1. injection V2 as A2 B2 C2. repeat split; congruence.
Qed.
Print Assumptions C06_arrayassign_dimmix_fixed.

(* the reduction-loop theorem over the effective bounds of (assumed-shape) dummies *)
Theorem C06_reduction_effective : forall fx fm actuals idx x xi k arr mask code s xv v,
  red_loop fx (eff_decls fm actuals) idx x xi k arr mask = Some code ->
  red_safe fx (eff_decls fm actuals) idx x xi arr mask = true -> bnd_ok (eff_decls fm actuals) s ->
  opt_all (map (eval s) xi) = Some xv -> red_sem k arr mask s = Some v ->
  (forall l h t all, red_elems s arr mask (zseq 0 (trip_count l h t)) = Some all ->
                     Forall (fun w => - HUGE <= w <= HUGE) all) ->
  hoare 6 code s (fun s' => val s' (x, xv) = v /\ bnd s' = bnd s /\
                            forall loc, fst loc <> idx -> loc <> (x, xv) -> val s' loc = val s loc).
Proof. intros fx fm actuals. exact (reduction_ok_ fx (eff_decls fm actuals)). Qed.
Print Assumptions C06_reduction_effective.

(* DOT_PRODUCT with any loop-bound expressions that evaluate to the first vector's effective bounds *)
Theorem C06_dot_effective_partial : forall lo hi d i res hole x xi ctx v1 r1 v2 r2 s v xv w,
  dot_safe d i res hole x xi ctx v1 r1 v2 r2 = true ->
  (forall s', bnd s' = bnd s -> eval s' lo = Some (fst (dim0 d v1)) /\ eval s' hi = Some (snd (dim0 d v1))) ->
  dot_sem d v1 r1 v2 r2 s = Some v ->
  opt_all (map (eval s) xi) = Some xv -> eval (upd s (hole, []) v) ctx = Some w ->
  hoare 8 (dotG_apply lo hi i res x xi ctx hole v1 r1 v2 r2) s
        (fun s2 => agree_except [i; res; hole] s2 (upd s (x, xv) w)).
Proof. exact dot_loops. Qed.
Print Assumptions C06_dot_effective_partial.

(* the bounds chosen by _get_array_bound for each accepted declaration form *)
Theorem C06_dot_forms_sound_partial : forall fm d i res hole x xi ctx v1 r1 v2 r2 s v xv w lo hi,
  dot_bounds fm v1 v2 = Some (lo, hi) ->
  dot_safe d i res hole x xi ctx v1 r1 v2 r2 = true ->
  vector_ok fm d s v1 -> vector_ok fm d s v2 -> snd (dim0 d v2) = snd (dim0 d v1) ->
  dot_sem d v1 r1 v2 r2 s = Some v ->
  opt_all (map (eval s) xi) = Some xv -> eval (upd s (hole, []) v) ctx = Some w ->
  hoare 8 (dotG_apply lo hi i res x xi ctx hole v1 r1 v2 r2) s
        (fun s2 => agree_except [i; res; hole] s2 (upd s (x, xv) w)).
Proof. exact dot_forms_sound_partial_. Qed.
Print Assumptions C06_dot_forms_sound_partial.

(* x = DOT_PRODUCT(v1, v2) with v1(:) (actual 4:6) and v2(1:3) *)
Example C06_dot_forms_nonvacuous :
  df_decls 0%nat = [(1, 3)] /\ dot_bounds df_forms 0%nat 1%nat = Some (ELit 1, ELit 3) /\
  dot_safe df_decls 3%nat 4%nat 5%nat 2%nat [] (EVar 5%nat) 0%nat [] 1%nat [] = true /\
  vector_ok df_forms df_decls df_store 0%nat /\ vector_ok df_forms df_decls df_store 1%nat /\
  dot_sem df_decls 0%nat [] 1%nat [] df_store = Some 32 /\
  (exists s2 tr, exec 30 (dotG_apply (ELit 1) (ELit 3) 3%nat 4%nat 2%nat [] (EVar 5%nat) 5%nat 0%nat [] 1%nat []) df_store
                 = Ok s2 tr CNormal /\ val s2 (2%nat, []) = 32).
Proof. exact dot_forms_nonvacuous. Qed.
Print Assumptions C06_dot_forms_nonvacuous.
