(* C22 — Distributed-memory LFRic code never reads a dirty halo.  Property theorems only.

   Full statement (DESIGN 5/C22), NOT provable of the code as it is today:
     never_reads_dirty : forall invoke, history of accepted transformations, M >= 1, run-time extents >= 1
       and initial halo states, the abstract run of the generated PSy layer reads no dirty halo / annexed
       dof and leaves no recorded state cleaner than the actual one.
   It is FALSE of the faithful model: three refutation theorems below (each witness is replayed on the
   real implementation by the check: known findings).  What is proved:
     - the placement condition established by create_halo_exchanges/update_halo_exchanges, as the checkable
       predicate [well_placed] on the generated invoke, implies the full property (all M, extents, initial
       states; induction over the schedule) -- the check evaluates [well_placed] on every generated invoke;
     - the decision tree of [required], the HaloReadAccess / _halo_read_access / HaloWriteAccess
       computations and the set_dirty/set_clean marks are sound under explicit sufficient conditions
       ([req_safe], not [read_gap]) -- [_partial]: the missing part is exactly the refuted cases. *)
From Coq Require Import List NArith Bool.
Import ListNotations.
From PV Require Import C22.Model C22.Placement C22.Required C22.Access C22.DepthList.
Open Scope N_scope.

(* never reads dirty + recorded no cleaner (+ annexed dofs clean on exit under COMPUTE_ANNEXED_DOFS) for
   every well-placed invoke, every halo depth (at least the deepest literal loop depth mlo of the invoke: smaller
   depths are not valid configurations), all extents, every initial state *)
Theorem C22_placement_safe : forall mlo cfg cont p, well_placed mlo cfg cont p = true ->
  forall M e s0, valid_cfg M e -> mlo <= M -> init_ok cfg M s0 ->
  match run M e p s0 false with
  | Ok s _ => fr s <= fa s /\ (cfg && cont = true -> fann s = true)
  | Invalid => True
  | DirtyRead | RecordedCleaner => False
  end.
Proof. exact placement_safe_. Qed.
Print Assumptions C22_placement_safe.

Example C22_placement_nonvacuous :
  well_placed 1 false true
    [ SHx [SLit 1] true; SLoop [(SLit 1, true)] None;
      SLoop [(SLit 0, true)] (Some (SLit 0, true)); SDirty;
      SHx [SVar false 0 1; SLit 2] false; SLoop [(SVar false 0 1, true)] None ] = true.
Proof. vm_compute. reflexivity. Qed.
Print Assumptions C22_placement_nonvacuous.

(* required = (False, _)  =>  what the writer is believed to leave clean covers what the readers demand *)
Theorem C22_required_sound_partial : forall cfg rc w k,
  req_safe rc = true -> required cfg rc w = (false, k) ->
  forall M e s0, valid_cfg M e -> (cfg = true -> snd s0 = true) ->
  rc_depth M e rc <= M ->
  sat (match w with Some c => after_write cfg M c | None => s0 end) (rc_need M e rc).
Proof. intros cfg rc w k Hs Hreq M e s0 _. apply (required_gen_sound false cfg rc w k); auto. Qed.
Print Assumptions C22_required_sound_partial.

(* the same statement at full strength for the code with the repair of props/C22/fix.patch *)
Theorem C22_required_sound_fixed : forall cfg rc w k,
  required_gen true cfg rc w = (false, k) ->
  forall M e s0, valid_cfg M e -> (cfg = true -> snd s0 = true) ->
  rc_depth M e rc <= M ->
  sat (match w with Some c => after_write cfg M c | None => s0 end) (rc_need M e rc).
Proof. intros cfg rc w k Hreq M e s0 _. apply (required_gen_sound true cfg rc w k); auto. Qed.
Print Assumptions C22_required_sound_fixed.

Example C22_required_nonvacuous :
  let rc := [plain_depth None 2] in
  let w := Some {| hw_max := false; hw_lit := 2; hw_dirty_outer := false |} in
  req_safe rc = true /\ required false rc w = (false, true).
Proof. exact required_sound_nonvacuous. Qed.
Print Assumptions C22_required_nonvacuous.

Theorem C22_required_refuted : exists cfg rc w k M e,
  required cfg rc (Some w) = (false, k) /\ valid_cfg M e /\ rc_depth M e rc <= M /\
  ~ sat (after_write cfg M w) (rc_need M e rc).
Proof. exact required_refuted_. Qed.
Print Assumptions C22_required_refuted.

Theorem C22_maxm1_exchange_depth_zero_refuted :
  let reader := {| r_acc := AInc; r_ub := BCellHalo; r_ubd := None; r_disc := false; r_dofkern := false;
                   r_auw := false; r_stencil := None; r_fine := false |} in
  exists h, read_access reader = Some h /\
    eval_max 1 (fun _ => 1) (map sd_of_hd (create_depth_list [h])) = 0 /\
    true_need (KCells LDMax) {| t_acc := AInc; t_cont := true; t_stencil := None; t_ghwc := false |}
      = Some (SMaxM1, true).
Proof. exact maxm1_exchange_depth_zero_. Qed.
Print Assumptions C22_maxm1_exchange_depth_zero_refuted.

(* HaloReadAccess records at least what is really read *)
Theorem C22_read_access_covers_partial : forall cfg a k t h d ann,
  lkind_of (r_ub a) (r_ubd a) = Some k -> compat_r cfg a k t = true -> read_gap a t = false ->
  read_access a = Some h -> true_need k t = Some (d, ann) ->
  forall M e, valid_cfg M e -> meets cfg (hr_need M e h) (eval_sd M e d, ann).
Proof. exact read_access_covers_partial_. Qed.
Print Assumptions C22_read_access_covers_partial.

(* full strength for the code with the repair of props/C22/fix.patch: there the special-case condition
   PSyclone evaluates (r_auw) coincides with the kernel kind of the ground truth (t_ghwc) *)
Theorem C22_read_access_covers_fixed : forall cfg a k t h d ann,
  lkind_of (r_ub a) (r_ubd a) = Some k -> compat_r cfg a k t = true -> r_auw a = t_ghwc t ->
  read_access a = Some h -> true_need k t = Some (d, ann) ->
  forall M e, valid_cfg M e -> meets cfg (hr_need M e h) (eval_sd M e d, ann).
Proof.
  intros cfg a k t h d ann Hk Hc Hfix. apply (read_access_covers_partial_ cfg a k t h d ann Hk Hc).
  apply read_gap_closed. exact Hfix.
Qed.
Print Assumptions C22_read_access_covers_fixed.

Theorem C22_halo_read_false_sound_fixed : forall cfg a k t d ann,
  lkind_of (r_ub a) (r_ubd a) = Some k -> compat_r cfg a k t = true -> r_auw a = t_ghwc t ->
  halo_read_access cfg (larg_of a) = Some false -> true_need k t = Some (d, ann) ->
  forall M e, eval_sd M e d = 0 /\ (ann = true -> cfg = true).
Proof.
  intros cfg a k t d ann Hk Hc Hfix. apply (halo_read_false_sound_ cfg a k t d ann Hk Hc).
  apply read_gap_closed. exact Hfix.
Qed.
Print Assumptions C22_halo_read_false_sound_fixed.

Example C22_read_access_nonvacuous :
  let a := {| r_acc := ARead; r_ub := BCellHalo; r_ubd := Some 1; r_disc := false; r_dofkern := false;
              r_auw := false; r_stencil := None; r_fine := false |} in
  let t := {| t_acc := ARead; t_cont := true; t_stencil := None; t_ghwc := false |} in
  lkind_of (r_ub a) (r_ubd a) = Some (KCells (LD 1)) /\ compat_r false a (KCells (LD 1)) t = true /\
  read_gap a t = false /\ (exists h, read_access a = Some h) /\
  true_need (KCells (LD 1)) t = Some (SLit 1, true).
Proof. exact read_access_covers_nonvacuous. Qed.
Print Assumptions C22_read_access_nonvacuous.

Theorem C22_read_access_refuted : exists cfg a k t h d ann M e,
  lkind_of (r_ub a) (r_ubd a) = Some k /\ compat_r cfg a k t = true /\
  read_access a = Some h /\ true_need k t = Some (d, ann) /\ valid_cfg M e /\
  ~ meets cfg (hr_need M e h) (eval_sd M e d, ann).
Proof. exact read_access_refuted_. Qed.
Print Assumptions C22_read_access_refuted.

(* _halo_read_access = False  =>  nothing of the halo is read (annexed dofs only under COMPUTE_ANNEXED_DOFS) *)
Theorem C22_halo_read_false_sound_partial : forall cfg a k t d ann,
  lkind_of (r_ub a) (r_ubd a) = Some k -> compat_r cfg a k t = true -> read_gap a t = false ->
  halo_read_access cfg (larg_of a) = Some false -> true_need k t = Some (d, ann) ->
  forall M e, eval_sd M e d = 0 /\ (ann = true -> cfg = true).
Proof. exact halo_read_false_sound_. Qed.
Print Assumptions C22_halo_read_false_sound_partial.

(* what HaloWriteAccess claims is no cleaner than what the loop leaves *)
Theorem C22_write_belief_sound : forall cfg w k t,
  lkind_of (w_ub w) (w_ubd w) = Some k -> compat_w cfg w k t = true ->
  forall M e, valid_cfg M e -> eval_sd M e (fst (true_after k t)) <= M ->
  sat (eval_sd M e (fst (true_after k t)), snd (true_after k t) || (1 <=? eval_sd M e (fst (true_after k t))))
      (after_write cfg M (write_access w)).
Proof. intros cfg w k t Hk Hc M e _ _. exact (write_belief_sound_ cfg w k t Hk Hc M e). Qed.
Print Assumptions C22_write_belief_sound.

(* recorded_no_cleaner for the marks of gen_mark_halos_clean_dirty *)
Theorem C22_recorded_no_cleaner : forall cfg w k t,
  lkind_of (w_ub w) (w_ubd w) = Some k -> compat_w cfg w k t = true ->
  forall M e r, valid_cfg M e -> r <= M -> eval_sd M e (fst (true_after k t)) <= M ->
  let mk := marks (write_access w) in
  N.max (if fst mk then 0 else r) (match snd mk with Some d => eval_sd M e d | None => 0 end)
    <= eval_sd M e (fst (true_after k t)).
Proof. intros cfg w k t Hk Hc M e r _ Hr _. exact (marks_no_cleaner_ cfg w k t Hk Hc M e r Hr). Qed.
Print Assumptions C22_recorded_no_cleaner.

(* _create_depth_list: the aggregated list demands at least what each reader demands (the excluded case --
   halo depth 1 with a GH_INC reader at maximum depth -- is C22_maxm1_exchange_depth_zero_refuted; an empty
   list makes code generation fail) *)
Theorem C22_depth_list_covers_partial : forall hs h M e,
  In h hs -> valid_cfg M e ->
  forallb wf hs = true ->
  (forall x, In x hs -> hd_maxm1 (hr_d x) = false /\ ev M e (hr_d x) <= M) ->
  create_depth_list hs <> [] ->
  (2 <= M \/ existsb maxinc hs = false) ->
  meets0 (rc_need M e (create_depth_list hs)) (hr_need M e h).
Proof. exact depth_list_covers_partial_. Qed.
Print Assumptions C22_depth_list_covers_partial.

Example C22_depth_list_nonvacuous :
  let h1 := {| hr_d := {| hd_max := false; hd_maxm1 := false; hd_var := Some (false, 0); hd_lit := 1; hd_ann := false |};
               hr_nco := true |} in
  let h2 := {| hr_d := {| hd_max := false; hd_maxm1 := false; hd_var := None; hd_lit := 2; hd_ann := false |};
               hr_nco := false |} in
  forallb wf [h1; h2] = true /\ create_depth_list [h1; h2] <> [] /\ existsb maxinc [h1; h2] = false /\
  map sd_of_hd (create_depth_list [h1; h2]) = [SVar false 0 1; SLit 1].
Proof. exact depth_list_nonvacuous. Qed.
Print Assumptions C22_depth_list_nonvacuous.

(* ---- the placement step itself, untransformed invokes (coq/C22/Place.v: model of create_halo_exchanges).
   Full statement: forall invoke, outside the gaps, well_placed (place invoke) = true.  Proved for every field
   with AT MOST THREE loops touching it, loops drawn from the base-case universe (all access modes x loop
   bounds of LFRicLoop.load x continuity x stencil kinds), by exhaustive vm_compute sweep lifted to a
   forall-statement; the unbounded induction is missing ([_partial]). *)
From PV Require Import C22.Place C22.PlaceProofs.

Theorem C22_place_well_placed_partial : forall cfg cont ls,
  (length ls <= 3)%nat -> Forall (fun l => In l (universe cfg cont)) ls ->
  forallb outside_gap ls = true ->
  well_placed 1 cfg cont (place cfg ls) = true.
Proof. exact place_well_placed_bounded_. Qed.
Print Assumptions C22_place_well_placed_partial.

Theorem C22_universe_spec : forall cfg l, base_ok cfg l = true -> In (pl_st l) stencils ->
  In l (universe cfg (pl_cont l)).
Proof. exact universe_spec. Qed.
Print Assumptions C22_universe_spec.

(* hence no dirty read / recorded-cleaner for the generated untransformed code: all M, extents, initial states *)
Theorem C22_generated_never_reads_dirty_partial : forall cfg cont ls,
  (length ls <= 3)%nat -> Forall (fun l => In l (universe cfg cont)) ls ->
  forallb outside_gap ls = true ->
  forall M e s0, valid_cfg M e -> init_ok cfg M s0 ->
  match run M e (place cfg ls) s0 false with
  | Ok s _ => fr s <= fa s /\ (cfg && cont = true -> fann s = true)
  | Invalid => True
  | DirtyRead | RecordedCleaner => False
  end.
Proof.
  intros cfg cont ls Hlen Hall Hgap M e s0 Hv Hi.
  apply (placement_safe_ 1 cfg cont (place cfg ls) (C22_place_well_placed_partial cfg cont ls Hlen Hall Hgap)
                         M e s0 Hv); [destruct Hv; assumption | exact Hi].
Qed.
Print Assumptions C22_generated_never_reads_dirty_partial.

Example C22_place_nonvacuous :
  forallb (base_ok false) ex_invoke = true /\ forallb (fun l => pl_cont l) ex_invoke = true /\
  forallb outside_gap ex_invoke = true /\
  place false ex_invoke =
    [ SLoop [(SLit 0, false)] (Some (SLit 0, false)); SDirty;
      SHx [SVar false 0 0] false;
      SLoop [(SVar false 0 0, true)] None;
      SLoop [(SLit 0, true)] (Some (SLit 0, true)); SDirty ] /\
  well_placed 1 false true (place false ex_invoke) = true.
Proof. exact place_nonvacuous. Qed.
Print Assumptions C22_place_nonvacuous.
