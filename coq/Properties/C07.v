(* C07 — Inlining a call preserves the caller's behaviour.  Property theorems only. *)
From Coq Require Import List ZArith Bool.
Import ListNotations.
From PV Require Import Fort.Syntax Fort.Sem Fort.Facts3 C07.Model C07.Proofs C07.Fresh C07.Refuted C07.Examples C07.Stride.
Open Scope Z_scope.

(* FULL statement (FALSE of the unchanged code — see the _refuted theorems below):
     forall c ren, accept_impl c = true -> ren_ok c ren = true ->
       forall fuel st, bind_all st (cs_formals c) (cs_actuals c) <> None ->
       obs_eq (exec fuel (inline_apply c ren) st) (exec_call fuel c ren st)
     /\ (no caller-visible name outside the actual arguments occurs in inline_apply c ren).
   Proved instead: the same under the sufficient condition [actual_indices_invariant] (no name that
   occurs in a subscript of an element actual, in the base / fixed subscript of a section actual or in
   an expression actual is assigned by the inlined body), inside the modelled fragment [in_fragment]
   (no bounds inquiry in the callee, no formal argument used as DO variable).  The premise `no_alias`
   of the design is NOT needed: on both sides formals denote locations.  Missing for the full
   statement: exactly the cases exhibited by the _refuted theorems. *)
Theorem C07_inline_sound_partial : forall c ren,
  accept_impl c = true -> in_fragment c = true -> actual_indices_invariant c ren = true ->
  forall fuel st, bind_all st (cs_formals c) (cs_actuals c) <> None ->
  obs_eq (exec fuel (inline_apply c ren) st) (exec_call fuel c ren st).
Proof. intros c ren Hacc. apply inline_sound_returns. intro Et. apply (accept_impl_body c Et Hacc). Qed.
Print Assumptions C07_inline_sound_partial.

(* inlined locals never capture (read) or clobber (write) a caller variable: under the contract of
   SymbolTable.merge ([ren_ok]), provided no local bears the name of a variable of an enclosing scope
   ([locals_disjoint_outer] — false of the unchanged code in general, see C07_inline_refuted_capture)
   and the callee does not assign a formal associated with an expression *)
Theorem C07_inline_locals_fresh_partial : forall c ren,
  accept_impl c = true -> in_fragment c = true -> ren_ok c ren = true ->
  locals_disjoint_outer c = true -> expr_formals_readonly c = true ->
  forall y, In y (cs_own c ++ cs_outer c) -> ~ In y (flat_map actual_names (cs_actuals c)) ->
  ~ In y (wnames (inline_apply c ren)) /\ ~ In y (rnames (inline_apply c ren)).
Proof. exact inline_locals_fresh. Qed.
Print Assumptions C07_inline_locals_fresh_partial.

Theorem C07_inline_locals_no_clobber : forall c ren,
  accept_impl c = true -> in_fragment c = true -> ren_ok c ren = true ->
  locals_disjoint_outer c = true -> expr_formals_readonly c = true ->
  forall y, In y (cs_own c ++ cs_outer c) -> ~ In y (flat_map actual_names (cs_actuals c)) ->
  forall fuel st s' tr ctl ix, exec fuel (inline_apply c ren) st = Ok s' tr ctl -> val s' (y, ix) = val st (y, ix).
Proof.
  intros c ren H1 H2 H3 H4 H5 y Hy Hn fuel st s' tr ctl ix He.
  destruct (C07_inline_locals_fresh_partial c ren H1 H2 H3 H4 H5 y Hy Hn) as [Hw _].
  eapply exec_unchanged_names; [exact He|exact Hw].
Qed.
Print Assumptions C07_inline_locals_no_clobber.

(* call s(a(i), i) with s incrementing its 2nd argument before writing its 1st *)
Theorem C07_inline_refuted_index : exists c ren st fuel,
  (accept_impl c = true /\ ren_ok c ren = true /\ locals_disjoint_outer c = true /\
   bind_all st (cs_formals c) (cs_actuals c) <> None /\
   ~ obs_eq (exec fuel (inline_apply c ren) st) (exec_call fuel c ren st)) /\ in_fragment c = true.
Proof. exists c_index, [], st_i2, 5%nat. split; apply refuted_index. Qed.
Print Assumptions C07_inline_refuted_index.

(* call s(i + 1, i, t): the expression actual is re-evaluated after the callee changed i *)
Theorem C07_inline_refuted_expr : exists c ren st fuel,
  (accept_impl c = true /\ ren_ok c ren = true /\ locals_disjoint_outer c = true /\
   bind_all st (cs_formals c) (cs_actuals c) <> None /\
   ~ obs_eq (exec fuel (inline_apply c ren) st) (exec_call fuel c ren st)) /\ in_fragment c = true.
Proof. exists c_expr, [], st_i2, 5%nat. split; apply refuted_expr. Qed.
Print Assumptions C07_inline_refuted_expr.

(* call s(a(i:), i): the section base is re-evaluated *)
Theorem C07_inline_refuted_section : exists c ren st fuel,
  (accept_impl c = true /\ ren_ok c ren = true /\ locals_disjoint_outer c = true /\
   bind_all st (cs_formals c) (cs_actuals c) <> None /\
   ~ obs_eq (exec fuel (inline_apply c ren) st) (exec_call fuel c ren st)) /\ in_fragment c = true.
Proof. exists c_section, [], st_i2, 5%nat. split; apply refuted_section. Qed.
Print Assumptions C07_inline_refuted_section.

(* a formal used as DO variable is not substituted (outside in_fragment, inside accept_impl) *)
Theorem C07_inline_refuted_loopvar : exists c ren st fuel,
  (accept_impl c = true /\ ren_ok c ren = true /\ locals_disjoint_outer c = true /\
   bind_all st (cs_formals c) (cs_actuals c) <> None /\
   ~ obs_eq (exec fuel (inline_apply c ren) st) (exec_call fuel c ren st)) /\
  actual_indices_invariant c ren = true.
Proof. exists c_loopvar, [], st_i2, 9%nat. split; apply refuted_loopvar. Qed.
Print Assumptions C07_inline_refuted_loopvar.

(* a local named like a module variable keeps its name and the inlined code assigns that variable *)
Theorem C07_inline_refuted_capture : exists c ren st fuel y,
  accept_impl c = true /\ in_fragment c = true /\ ren_ok c ren = true /\
  In y (cs_outer c) /\ In y (wnames (inline_apply c ren)) /\
  exists s' tr, exec fuel (inline_apply c ren) st = Ok s' tr CNormal /\ val s' (y, []) <> val st (y, []).
Proof.
  exists c_capture, [(6%nat, 6%nat)], st_i2, 5%nat, 6%nat.
  destruct refuted_capture as [H1 [H2 [H3 [_ [_ [H6 [H7 H8]]]]]]]. repeat split; assumption.
Qed.
Print Assumptions C07_inline_refuted_capture.

(* non-vacuity of the partial theorems: one call site satisfying all their hypotheses *)
Example C07_nonvacuous :
  accept_impl c_ok = true /\ in_fragment c_ok = true /\ actual_indices_invariant c_ok ren_okx = true /\
  ren_ok c_ok ren_okx = true /\ locals_disjoint_outer c_ok = true /\ expr_formals_readonly c_ok = true /\
  bind_all st_ok (cs_formals c_ok) (cs_actuals c_ok) <> None /\
  inline_apply c_ok ren_okx =
    [SAssign 7%nat [] (ELit 2); SAssign 4%nat [] (EBin Add (EVar 4%nat) (EVar 7%nat));
     SAssign 2%nat [EBin Add (EBin Sub (EVar 7%nat) (ELit 0)) (ELit 1)] (EVar 4%nat)] /\
  (exists s' tr, exec 9 (inline_apply c_ok ren_okx) st_ok = Ok s' tr CNormal /\
                 val s' (2%nat, [3]) = 12 /\ val s' (4%nat, []) = 12 /\ val s' (5%nat, []) = 99) /\
  In 5%nat (cs_own c_ok ++ cs_outer c_ok) /\ ~ In 5%nat (flat_map actual_names (cs_actuals c_ok)).
Proof. exact sound_nonvacuous. Qed.
Print Assumptions C07_nonvacuous.

(* ---- section actuals a(lo:hi:st): by-reference meaning (coq/C07/Stride.v) ----
   exec_call_strided re-indexes the callee's accesses to the formal and runs exec_call on the contiguous
   view; the location reached by x(k) is a(lo + (k - lb) * st), lo and st taken at the call: *)
Theorem C07_strided_view_index : forall st k kv v s lb,
  eval st k = Some kv ->
  map (eval st) (merge_sem [SOff (v - lb)] [restride_idx lb s k]) = [Some (sec_index v s lb kv)].
Proof.
  intros st k kv v s lb H. cbn [merge_sem map]. unfold restride_idx, sec_index.
  destruct (Z.eqb_spec s 1) as [->|_]; cbn [eval]; rewrite H; cbn [eval_bin]; do 2 f_equal; ring.
Qed.
Print Assumptions C07_strided_view_index.

(* unit stride: the index shifting of inline_apply is exactly that mapping (partial: same sufficient
   condition as C07_inline_sound_partial; the full statement fails for the same reasons) *)
Theorem C07_section_unit_stride_sound_partial : forall c ren ss,
  accept_impl c = true -> in_fragment c = true -> actual_indices_invariant c ren = true ->
  forall fuel st, eval st (ss_stride ss) = Some 1 ->
  bind_all st (cs_formals c) (cs_actuals c) <> None ->
  obs_eq (exec fuel (inline_apply c ren) st) (exec_call_strided fuel c ss ren st).
Proof.
  intros c ren ss H1 H2 H3 fuel st Hs Hb. unfold exec_call_strided. rewrite Hs. cbn [Z.eqb].
  rewrite restride_s_unit, with_body_id. apply C07_inline_sound_partial; assumption.
Qed.
Print Assumptions C07_section_unit_stride_sound_partial.

(* non-unit stride (variable n = 2; literal -1): the contiguous mapping apply() would use is not the call,
   and accept_impl refuses every section whose stride is not the literal 1 (literal 2, variable, negated,
   expression) *)
Theorem C07_nonunit_stride_must_be_refused :
  (forall f a dims, snd f <> [] -> arg_ok f (AArr a dims false) = false) /\
  (stride_unit (ELit 2) = false /\ stride_unit (EVar 3%nat) = false /\ stride_unit (EUn Neg (ELit 1)) = false /\
   stride_unit (EUn Neg (EVar 3%nat)) = false /\ stride_unit (EBin Add (EVar 3%nat) (ELit 0)) = false /\
   stride_unit (ELit 1) = true) /\
  accept_impl c_stride_var = false /\ accept_impl c_stride_rev = false /\
  ~ obs_eq (exec 20 (inline_apply c_stride_var ren_k) st_n2) (exec_call_strided 20 c_stride_var ss_var ren_k st_n2) /\
  ~ obs_eq (exec 20 (inline_apply c_stride_rev ren_k) st_n2) (exec_call_strided 20 c_stride_rev ss_rev ren_k st_n2) /\
  (exists s' tr, exec_call_strided 20 c_stride_var ss_var ren_k st_n2 = Ok s' tr CNormal /\
     val s' (2%nat, [1]) = 11 /\ val s' (2%nat, [3]) = 12 /\ val s' (2%nat, [5]) = 13 /\ val s' (2%nat, [2]) = 0) /\
  (exists s' tr, exec_call_strided 20 c_stride_rev ss_rev ren_k st_n2 = Ok s' tr CNormal /\
     val s' (2%nat, [8]) = 11 /\ val s' (2%nat, [7]) = 12 /\ val s' (2%nat, [6]) = 13 /\ val s' (2%nat, [9]) = 0).
Proof.
  split; [exact arg_ok_nonunit|]. split; [repeat split; reflexivity|].
  split; [vm_compute; reflexivity|]. split; [vm_compute; reflexivity|].
  split; [apply (differs_not_obs (2%nat, [3])); vm_compute; reflexivity|].
  split; [apply (differs_not_obs (2%nat, [7])); vm_compute; reflexivity|].
  split; eexists; eexists; (split; [vm_compute; reflexivity|repeat split; vm_compute; reflexivity]).
Qed.
Print Assumptions C07_nonunit_stride_must_be_refused.

Example C07_section_unit_nonvacuous :
  accept_impl c_stride_one = true /\ in_fragment c_stride_one = true /\
  actual_indices_invariant c_stride_one ren_k = true /\ eval st_n2 (ss_stride ss_one) = Some 1 /\
  bind_all st_n2 (cs_formals c_stride_one) (cs_actuals c_stride_one) <> None /\
  inline_apply c_stride_one ren_k =
    [SDo 5%nat (ELit 1) (ELit 3) (ELit 1)
       [SAssign 2%nat [EBin Add (EBin Sub (EVar 5%nat) (ELit 1)) (EVar 3%nat)] (EBin Add (ELit 10) (EVar 5%nat))]] /\
  (exists s' tr, exec_call_strided 20 c_stride_one ss_one ren_k st_n2 = Ok s' tr CNormal /\
     val s' (2%nat, [2]) = 11 /\ val s' (2%nat, [3]) = 12 /\ val s' (2%nat, [4]) = 13 /\
     val s' (2%nat, [sec_index 2 1 1 3]) = 13).
Proof. exact section_unit_nonvacuous. Qed.
Print Assumptions C07_section_unit_nonvacuous.
