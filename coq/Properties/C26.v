(* C26 — A rejected transformation leaves the code unchanged.  Property theorems only.

   FULL STATEMENT (not provable, and false of the unchanged tree): for every Transformation T of
   PSyclone, every PSyIR tree and every option dictionary, if T.apply raises TransformationError
   then the tree and all its symbol tables are exactly as before.
   What is proved is PARTIAL: the statement over *effect skeletons* (C26/Skeleton.v), i.e. over the
   abstraction of each apply() to "where can TransformationError be raised / where is the PSyIR
   mutated / control structure", extracted from the source of the tree under test by
   props/C26/translate.py into C26/Gen.v.  Missing: (i) the classification of the mutating
   primitives and the translator are trusted, not verified; (ii) skeletons that are not `safe`
   (unsafe_names in Gen.v) are outside the theorem: each is either a known finding with a concrete
   witness on the implementation or on the committed baseline of statically-unsafe-but-no-witness
   pairs (props/C26/static_unsafe_baseline.json); the dynamic search of props/C26/check.py
   evaluates the property itself on the implementation for all transformations. *)
From Coq Require Import List String Bool.
Import ListNotations.
From PV Require Import C26.Skeleton C26.Proofs C26.Gen.

(* Meta-theorem, for ALL skeletons, states and resolutions of the non-determinism: if every raise
   site that can leave the skeleton precedes every mutation site on every path (transitively
   through followed calls and nested applies), then a run that ends in TransformationError has
   the state it started with. *)
Theorem C26_safe_skeleton_sound_partial : forall s, safe s = true ->
  forall st ch st' ch', run s st ch = (RErr, st', ch') -> st' = st.
Proof. exact safe_skeleton_sound_. Qed.
Print Assumptions C26_safe_skeleton_sound_partial.

(* The state is a log that only grows, so "st' = st" says that NO mutation was executed. *)
Theorem C26_run_log_extends : forall s st ch, exists l, state_of (run s st ch) = (l ++ st)%list.
Proof. intros s st ch. destruct (run_fits s st ch) as (l & E & _). now exists l. Qed.
Print Assumptions C26_run_log_extends.

(* Instantiation on the GENERATED skeletons of the tree under test: every transformation listed in
   safe_names (Gen.v; checked safe by computation) has the property at skeleton level. *)
Theorem C26_generated_safe_transformations_partial : forall n, In n safe_names ->
  exists s, lookup_sk all_skeletons n = Some s /\
    forall st ch st' ch', run s st ch = (RErr, st', ch') -> st' = st.
Proof. exact (table_sound_ all_skeletons safe_names all_safe_names). Qed.
Print Assumptions C26_generated_safe_transformations_partial.

(* safe_names and unsafe_names together cover every generated skeleton *)
Theorem C26_names_partition :
  List.length safe_names + List.length unsafe_names = List.length all_skeletons.
Proof. exact names_partition. Qed.
Print Assumptions C26_names_partition.

(* The statement without the `safe` premise is false: the shape present today in
   ArrayAssignment2LoopsTrans (options verbose=True: attach a comment, then raise) ends in
   TransformationError with a changed state.  The witness is replayed on the implementation by
   the check (known finding ArrayAssignment2LoopsTrans/verbose-comment-before-raise). *)
Theorem C26_unsafe_shape_refuted :
  exists s st ch st' ch', run s st ch = (RErr, st', ch') /\ st' <> st.
Proof.
  exists aa2l_verbose_shape, [], [1; 0; 0], ["append_preceding_comment"%string], [].
  split; [vm_compute; reflexivity | discriminate].
Qed.
Print Assumptions C26_unsafe_shape_refuted.

(* Non-vacuity: a safe skeleton of the usual shape (validate, then mutate; loops, early return,
   try/except) that has both a raising run and a mutating run. *)
Example C26_nonvacuous :
  safe validate_then_mutate = true /\
  (exists ch st' ch', run validate_then_mutate [] ch = (RErr, st', ch')) /\
  (exists ch st' ch', run validate_then_mutate [] ch = (ROk, st', ch') /\ st' <> []).
Proof. exact nonvacuous_safe. Qed.
Print Assumptions C26_nonvacuous.
