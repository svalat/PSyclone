(* C19 — PSyAD adjoints are the exact transpose of the tangent-linear code.  Property theorems only.

   FULL STATEMENT (false of the unchanged code — see the four _refuted theorems below):
     forall acts L p q sx sy sx' sy', NoDup L -> adj impl_flags acts p = Some q ->
       same_passive acts (lvars_l p) sx sy -> run p sx = Some sx' -> run q sy = Some sy' ->
       dot L sx' sy = dot L sx sy'.
   What is proved instead (…_partial): the same conclusion for every program satisfying the static
   condition [safe] and every execution of the guarded semantics [runG] (active data inside L, no
   run-time aliasing of textually different references to the assigned array, no non-unit-step DO
   entered with 0 < |lo-hi| < |step| on the empty side).  Missing for the full statement: exactly the
   four situations refuted below, plus passive statements among active ones (PSyAD issue #1458). *)
From Coq Require Import List ZArith.
Import ListNotations.
From PV Require Import Fort.Syntax Fort.Sem C19.Model C19.Gen C19.Terms C19.Arith C19.Main C19.Theorems C19.Refute C19.Exec.
Open Scope Z_scope.

(* <A x, y> = <x, A* y> and passive data kept, for all linear programs of the subset, all stores *)
Theorem C19_dot_adjoint_partial : forall fl acts L, NoDup L -> (forall l, In l L -> act acts (fst l) = true) ->
  forall p q sx sy sx',
  safe fl acts p = true -> adj fl acts p = Some q ->
  same_passive acts (lvars_l p) sx sy -> runG acts L p sx = Some sx' ->
  exists sy', run q sy = Some sy' /\ dot L sx' sy = dot L sx sy' /\
              same_passive acts (lvars_l p) sx sx' /\ same_passive acts (lvars_l p) sy sy'.
Proof. exact dot_adjoint. Qed.
Print Assumptions C19_dot_adjoint_partial.

(* the same, for the variant of the code found in the tree under test (Gen.v, from translate.py) *)
Theorem C19_dot_adjoint_current_partial : forall acts L, NoDup L -> (forall l, In l L -> act acts (fst l) = true) ->
  forall p q sx sy sx',
  safe impl_flags acts p = true -> adj impl_flags acts p = Some q ->
  same_passive acts (lvars_l p) sx sy -> runG acts L p sx = Some sx' ->
  exists sy', run q sy = Some sy' /\ dot L sx' sy = dot L sx sy' /\
              same_passive acts (lvars_l p) sx sx' /\ same_passive acts (lvars_l p) sy sy'.
Proof. exact (dot_adjoint impl_flags). Qed.
Print Assumptions C19_dot_adjoint_current_partial.

Theorem C19_passive_preserved : forall fl acts L, NoDup L -> (forall l, In l L -> act acts (fst l) = true) ->
  forall p q sx sy sx' sy',
  safe fl acts p = true -> adj fl acts p = Some q -> same_passive acts (lvars_l p) sx sy ->
  runG acts L p sx = Some sx' -> run q sy = Some sy' ->
  same_passive acts (lvars_l p) sx sx' /\ same_passive acts (lvars_l p) sy sy'.
Proof. exact passive_preserved. Qed.
Print Assumptions C19_passive_preserved.

(* AssignmentTrans: one assignment of any linear shape is transposed by its adjoint *)
Theorem C19_assign_adjoint_transpose : forall fl acts L, NoDup L ->
  forall x ix e q LV E sx sy sx',
  safe_stmt fl acts LV E (SAssign x ix e) = true -> adj_assign fl acts x ix e = Some q ->
  rel acts LV E sx sy -> run1 (guardA acts L) guardL (SAssign x ix e) sx = Some sx' ->
  exists sy', run q sy = Some sy' /\ dot L sx' sy = dot L sx sy'.
Proof.
  intros fl acts L NDL x ix e q LV E sx sy sx' HS HA R HR.
  destruct (Assign.assign_transpose fl acts LV L NDL E x ix e q sx sy sx' HS HA R HR) as [sy' [Q [D _]]]. eauto.
Qed.
Print Assumptions C19_assign_adjoint_transpose.

(* schedule reversal: sequences of any length *)
Theorem C19_seq_adjoint : forall fl acts L LV p, Forall (TS fl acts LV L) p -> TL fl acts LV L p.
Proof. intros fl acts L LV. exact (seq_transpose fl acts LV L). Qed.
Print Assumptions C19_seq_adjoint.

(* loop_node: reversal with start' = stop - MOD(stop - start, step) *)
Theorem C19_loop_adjoint_partial : forall fl acts L, (forall l, In l L -> act acts (fst l) = true) ->
  forall LV x lo hi st body, TL fl acts LV L body -> TS fl acts LV L (SDo x lo hi st body).
Proof. intros fl acts L Lact LV. exact (do_transpose fl acts LV L Lact). Qed.
Print Assumptions C19_loop_adjoint_partial.

(* the arithmetic of loop_node: the reversed bounds enumerate the same values backwards *)
Theorem C19_reversed_bounds_partial : forall l h t, t <> 0 -> ~ bad_empty l h t ->
  ivals0 (h - Z.rem (h - l) t) (- t) (trip_count (h - Z.rem (h - l) t) l (- t)) = rev (ivals0 l t (trip_count l h t)).
Proof. exact rev_vals. Qed.
Print Assumptions C19_reversed_bounds_partial.

(* the guarded semantics is the semantics; the reference semantics is Fort.Sem.exec on the subset *)
Theorem C19_guarded_is_run : forall acts L p s s', runG acts L p s = Some s' -> run p s = Some s'.
Proof. intros acts L p s s'. rewrite Assign.run_eq. apply runl_mono; reflexivity. Qed.
Print Assumptions C19_guarded_is_run.

Theorem C19_run_is_exec : forall p s s', run p s = Some s' ->
  exists f tr, exec f p s = Ok s' tr CNormal.
Proof. exact run_exec. Qed.
Print Assumptions C19_run_is_exec.

(* refutations of the full statement on the faithful model of the unchanged code *)
Theorem C19_adj_refuted_mod_string :
  exists q, adj unchanged [0; 1; 2]%nat p_mod = Some q /\
    q = [SDo i_ (EBin Sub (EVar n_) (EIntr IMod [EBin Add (EBin Sub (EVar n_) (EVar kk_)) (ELit 1); ELit 3]))
           (EBin Add (EVar kk_) (ELit 1)) (EUn Neg (ELit 3))
           [SAssign b_ [EVar i_] (EBin Add (EIdx b_ [EVar i_]) (EBin Mul (ELit 2) (EIdx a_ [EVar i_])));
            SAssign c_ [EVar i_] (EBin Add (EIdx c_ [EVar i_]) (EBin Mul (ELit 3) (EIdx a_ [EVar i_])));
            SAssign a_ [EVar i_] (ELit 0)]] /\
    violates L_mod p_mod q sx_mod sy_mod = true /\
    (exists sx', runG [0; 1; 2]%nat L_mod p_mod sx_mod = Some sx') /\
    safe unchanged [0; 1; 2]%nat p_mod = false /\ safe (mkFlags true false) [0; 1; 2]%nat p_mod = true.
Proof.
  eexists. split; [vm_compute; reflexivity|]. split; [reflexivity|]. split; [vm_compute; reflexivity|].
  split; [|split; vm_compute; reflexivity].
  destruct (Algebra.opt_test (runG [0; 1; 2]%nat L_mod p_mod sx_mod) (fun _ => true)) as [sx' [E _]];
    [vm_compute; reflexivity | exists sx'; exact E].
Qed.
Print Assumptions C19_adj_refuted_mod_string.

Theorem C19_adj_refuted_empty_loop :
  exists q, adj unchanged [0; 2]%nat p_empty = Some q /\
    violates L_empty p_empty q sx_empty sy_empty = true /\
    safe unchanged [0; 2]%nat p_empty = true /\
    runG [0; 2]%nat L_empty p_empty sx_empty = None /\
    adj (mkFlags true true) [0; 2]%nat p_empty = Some q.
Proof. eexists. split; [vm_compute; reflexivity|]. repeat apply conj; vm_compute; reflexivity. Qed.
Print Assumptions C19_adj_refuted_empty_loop.

Theorem C19_adj_refuted_self_sign :
  exists q, adj unchanged [1; 2]%nat p_sign = Some q /\
    q = [SAssign b_ [ELit 1] (EBin Add (EIdx b_ [ELit 1]) (EIdx c_ [ELit 1]));
         SAssign c_ [ELit 1] (EBin Mul (ELit 2) (EIdx c_ [ELit 1]))] /\
    violates L_sign p_sign q s_sign s_sign = true /\
    (exists sx', runG [1; 2]%nat L_sign p_sign s_sign = Some sx') /\
    safe unchanged [1; 2]%nat p_sign = false /\ safe (mkFlags false true) [1; 2]%nat p_sign = true.
Proof.
  eexists. split; [vm_compute; reflexivity|]. split; [reflexivity|]. split; [vm_compute; reflexivity|].
  split; [|split; vm_compute; reflexivity].
  destruct (Algebra.opt_test (runG [1; 2]%nat L_sign p_sign s_sign) (fun _ => true)) as [sx' [E _]];
    [vm_compute; reflexivity | exists sx'; exact E].
Qed.
Print Assumptions C19_adj_refuted_self_sign.

Theorem C19_adj_refuted_alias :
  exists q, adj unchanged [0; 1]%nat p_alias = Some q /\
    violates L_alias p_alias q s_alias s_alias = true /\
    safe (mkFlags true true) [0; 1]%nat p_alias = true /\
    runG [0; 1]%nat L_alias p_alias s_alias = None.
Proof. eexists. split; [vm_compute; reflexivity|]. repeat apply conj; vm_compute; reflexivity. Qed.
Print Assumptions C19_adj_refuted_alias.

(* a violation in the sense of [violates] is a concrete pair of runs with different inner products *)
Theorem C19_violates_spec : forall L p q sx sy, violates L p q sx sy = true ->
  exists sx' sy', run p sx = Some sx' /\ run q sy = Some sy' /\ dot L sx' sy <> dot L sx sy'.
Proof.
  intros L p q sx sy. unfold violates. destruct (run p sx) as [sx'|]; [|discriminate].
  destruct (run q sy) as [sy'|]; [|discriminate]. intro H. exists sx', sy'. split; [reflexivity|]. split; [reflexivity|].
  apply Bool.negb_true_iff, Z.eqb_neq in H. exact H.
Qed.
Print Assumptions C19_violates_spec.

(* non-vacuity: a nested, negative-step, IF-carrying program satisfies every hypothesis of the partial theorem *)
Example C19_nonvacuous :
  NoDup L_ok /\ (forall l, In l L_ok -> act acts_ok (fst l) = true) /\
  safe unchanged acts_ok p_ok = true /\
  (exists q, adj unchanged acts_ok p_ok = Some q) /\
  same_passive acts_ok (lvars_l p_ok) sx_ok sy_ok /\
  (exists sx', runG acts_ok L_ok p_ok sx_ok = Some sx' /\ val sx' (0%nat, [7]) <> val sx_ok (0%nat, [7])).
Proof. exact nonvacuous. Qed.
Print Assumptions C19_nonvacuous.

(* C19/Exact.v: the loop guard made exact *)
From PV Require Import C19.Assign C19.Exact.

(* pure Z arithmetic, ALL lo, hi and step <> 0 with a non-empty iteration set (positive or negative
   step, aligned or not; MOD = Z.rem): `do i = hi - MOD(hi - lo, step), lo, -step` visits exactly the
   reverse of the original iteration sequence *)
Theorem C19_reversed_bounds_exact : forall l h t, t <> 0 -> trip_count l h t <> 0%nat ->
  ivals0 (h - Z.rem (h - l) t) (- t) (trip_count (h - Z.rem (h - l) t) l (- t)) = rev (ivals0 l t (trip_count l h t)).
Proof. intros l h t N NE. apply rev_vals; [exact N|]. intros [E _]. contradiction. Qed.
Print Assumptions C19_reversed_bounds_exact.

(* the exception, exactly: the reversal is right iff the loop is not empty with 0 < |lo-hi| < |step|;
   in that case the reversed loop runs once, at lo *)
Theorem C19_reversed_bounds_iff : forall l h t, t <> 0 ->
  (ivals0 (h - Z.rem (h - l) t) (- t) (trip_count (h - Z.rem (h - l) t) l (- t)) = rev (ivals0 l t (trip_count l h t))
   <-> ~ bad_empty l h t).
Proof.
  intros l h t N. split.
  - intros H B. destruct (reversed_empty_exception l h t N B) as [E1 E2]. rewrite E1, E2 in H. discriminate.
  - apply rev_vals, N.
Qed.
Print Assumptions C19_reversed_bounds_iff.

Theorem C19_reversed_empty_exception : forall l h t, t <> 0 -> bad_empty l h t ->
  ivals0 l t (trip_count l h t) = [] /\
  ivals0 (h - Z.rem (h - l) t) (- t) (trip_count (h - Z.rem (h - l) t) l (- t)) = [l].
Proof. exact reversed_empty_exception. Qed.
Print Assumptions C19_reversed_empty_exception.

Theorem C19_reversed_bounds_refuted :
  exists l h t, t <> 0 /\ bad_empty l h t /\
    ivals0 l t (trip_count l h t) = [] /\
    ivals0 (h - Z.rem (h - l) t) (- t) (trip_count (h - Z.rem (h - l) t) l (- t)) = [5].
Proof.
  exists 5, 4, 2. split; [discriminate|]. split; [split; [|split]; reflexivity|]. split; reflexivity.
Qed.
Print Assumptions C19_reversed_bounds_refuted.

(* the loop guard replaced by the decidable condition "non-empty or unit step" (guardNE) *)
Theorem C19_loop_adjoint_nonempty_partial : forall fl acts L, NoDup L -> (forall l, In l L -> act acts (fst l) = true) ->
  forall LV E x lo hi st body q sx sy sx',
  safe_stmt fl acts LV E (SDo x lo hi st body) = true -> adj_stmt fl acts (SDo x lo hi st body) = Some q ->
  rel acts LV E sx sy -> run1 (guardA acts L) guardNE (SDo x lo hi st body) sx = Some sx' ->
  exists sy', run q sy = Some sy' /\ dot L sx' sy = dot L sx sy' /\ rel acts LV E sx sx' /\ rel acts LV E sy sy'.
Proof.
  intros fl acts L NDL Lact LV E x lo hi st body q sx sy sx' HS HA R HR.
  apply (do_transpose fl acts LV L Lact x lo hi st body (prog_transpose fl acts LV L NDL Lact body) E q sx sy sx' HS HA R).
  apply (run1_mono _ _ _ _ (fun _ _ _ _ H => H) guardNE_guardL _ _ _ HR).
Qed.
Print Assumptions C19_loop_adjoint_nonempty_partial.

Theorem C19_dot_adjoint_nonempty_partial : forall fl acts L, NoDup L -> (forall l, In l L -> act acts (fst l) = true) ->
  forall p q sx sy sx',
  safe fl acts p = true -> adj fl acts p = Some q -> same_passive acts (lvars_l p) sx sy ->
  runNE acts L p sx = Some sx' ->
  exists sy', run q sy = Some sy' /\ dot L sx' sy = dot L sx sy' /\
              same_passive acts (lvars_l p) sx sx' /\ same_passive acts (lvars_l p) sy sy'.
Proof.
  intros fl acts L NDL Lact p q sx sy sx' HS HA R HR. apply (dot_adjoint fl acts L NDL Lact p q sx sy sx' HS HA R).
  apply (runl_mono _ _ _ _ (fun _ _ _ _ H => H) guardNE_guardL _ _ _ HR).
Qed.
Print Assumptions C19_dot_adjoint_nonempty_partial.

(* loops with LITERAL bounds and step: emptiness is decided statically (lit_l), no run-time loop
   guard is left (gLT is the constant-true guard); only the assignment guards remain *)
Theorem C19_dot_adjoint_literal_loops : forall fl acts L, NoDup L -> (forall l, In l L -> act acts (fst l) = true) ->
  forall p q sx sy sx',
  safe fl acts p = true -> lit_l p = true -> adj fl acts p = Some q -> same_passive acts (lvars_l p) sx sy ->
  runl (guardA acts L) gLT p sx = Some sx' ->
  exists sy', run q sy = Some sy' /\ dot L sx' sy = dot L sx sy' /\
              same_passive acts (lvars_l p) sx sx' /\ same_passive acts (lvars_l p) sy sy'.
Proof. exact dot_adjoint_literal_loops. Qed.
Print Assumptions C19_dot_adjoint_literal_loops.

(* non-vacuity: step 3 not aligned; negative step not aligned; a literal-loop program with both *)
Example C19_exact_step3_unaligned :
  trip_count 1 8 3 <> 0%nat /\ ivals0 1 3 (trip_count 1 8 3) = [1; 4; 7] /\
  ivals0 (8 - Z.rem (8 - 1) 3) (- 3) (trip_count (8 - Z.rem (8 - 1) 3) 1 (- 3)) = [7; 4; 1].
Proof. exact exact_step3_unaligned. Qed.
Print Assumptions C19_exact_step3_unaligned.

Example C19_exact_negative_step :
  trip_count 9 2 (-3) <> 0%nat /\ ivals0 9 (-3) (trip_count 9 2 (-3)) = [9; 6; 3] /\
  ivals0 (2 - Z.rem (2 - 9) (-3)) (- -3) (trip_count (2 - Z.rem (2 - 9) (-3)) 9 (- -3)) = [3; 6; 9].
Proof. exact exact_negative_step. Qed.
Print Assumptions C19_exact_negative_step.

Example C19_literal_loops_nonvacuous :
  safe (mkFlags true true) [0%nat; 1%nat] p_lit = true /\ lit_l p_lit = true /\
  (exists q, adj (mkFlags true true) [0%nat; 1%nat] p_lit = Some q) /\
  (exists s', runl (guardA [0%nat; 1%nat] L_lit) gLT p_lit s_lit = Some s' /\ val s' (1%nat, [6]) <> val s_lit (1%nat, [6])).
Proof. exact literal_loops_nonvacuous. Qed.
Print Assumptions C19_literal_loops_nonvacuous.

(* C19/Static.v: the no-alias guard discharged statically *)
From PV Require Import C19.Static.

(* alias_free (computable, syntactic): every rhs reference to the assigned array has the lhs subscripts
   textually or subscripts differing from them by a non-zero literal offset in some dimension
   => the run-time no-alias guard holds for EVERY store *)
Theorem C19_alias_free_guard : forall acts L s x ix e, alias_free_assign acts x ix e = true ->
  guardDom acts L s x ix e = true -> guardA acts L s x ix e = true.
Proof. exact alias_free_guard. Qed.
Print Assumptions C19_alias_free_guard.

(* only static conditions (safe = linear subset, literal loops, alias_free); the single run-time
   hypothesis left is the domain one: the execution touches active data inside L only (guardDom) *)
Theorem C19_dot_adjoint_static : forall acts L, NoDup L -> (forall l, In l L -> act acts (fst l) = true) ->
  forall fl p q sx sy sx',
  safe fl acts p = true -> lit_l p = true -> alias_free acts p = true -> adj fl acts p = Some q ->
  same_passive acts (lvars_l p) sx sy ->
  runl (guardDom acts L) gLT p sx = Some sx' ->
  exists sy', run q sy = Some sy' /\ dot L sx' sy = dot L sx sy' /\
              same_passive acts (lvars_l p) sx sx' /\ same_passive acts (lvars_l p) sy sy'.
Proof.
  intros acts L NDL Lact fl p q sx sy sx' HS HLt HAf HA R HR.
  apply (dot_adjoint_literal_loops fl acts L NDL Lact p q sx sy sx' HS HLt HA R). apply af_runl; assumption.
Qed.
Print Assumptions C19_dot_adjoint_static.

(* non-vacuity: do i = 2, 8, 3 ; a(i) = a(i-1) + 2*b(i) is in the class, a(i) = a(kk+1) + b(i) is not *)
Example C19_static_nonvacuous :
  safe (mkFlags true true) [0%nat; 1%nat] p_st = true /\ lit_l p_st = true /\ alias_free [0%nat; 1%nat] p_st = true /\
  (exists q, adj (mkFlags true true) [0%nat; 1%nat] p_st = Some q) /\
  (exists s', runl (guardDom [0%nat; 1%nat] L_lit) gLT p_st s_st = Some s' /\ val s' (0%nat, [2]) <> val s_st (0%nat, [2])) /\
  alias_free [0%nat; 1%nat]
    [SAssign 0%nat [EVar 9%nat] (EBin Add (EIdx 0%nat [EBin Add (EVar 7%nat) (ELit 1)]) (EIdx 1%nat [EVar 9%nat]))] = false.
Proof. exact static_nonvacuous. Qed.
Print Assumptions C19_static_nonvacuous.
