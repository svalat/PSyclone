(* C11 — Variable access information covers every actual read and write.  Property theorems only.

   FULL STATEMENT (false of the faithful model, see the _refuted theorems):
     forall fuel outs xs s s' tr c, xexec fuel outs xs s = Ok s' tr c ->
       (forall l, In l (reads tr)  -> is_read    (fst l) (xaccesses xs) = true) /\
       (forall l, In l (writes tr) -> is_written (fst l) (xaccesses xs) = true)
   What is proved: the statement under `xsafe` (no CodeBlock that touches data, no pure call with an
   intent(out/inout) dummy; IntrinsicCall statements are covered in full since the fix 78e51fb) — the `_partial` theorems; the order part (RHS reads before
   the LHS write) in full; and two refutations, each replayed on the implementation by the check. *)
From Coq Require Import List ZArith Bool.
Import ListNotations.
From PV Require Import Fort.Syntax Fort.Sem C11.Access C11.Proofs C11.Ext C11.Order C11.Struct C11.StructX.

(* core MiniFortran (assignments, IF, DO, EXIT/CYCLE/RETURN, regions, directives), all stores, all fuels *)
Theorem C11_access_covers_reads_partial : forall fuel ss st st' tr c,
  forallb noprint ss = true -> exec fuel ss st = Ok st' tr c ->
  forall l, In l (reads tr) -> is_read (fst l) (accesses ss) = true.
Proof. intros fuel ss st st' tr c NP H. exact (proj1 (access_covers_ fuel ss 0 st st' tr c NP H)). Qed.
Print Assumptions C11_access_covers_reads_partial.

Theorem C11_access_covers_writes_partial : forall fuel ss st st' tr c,
  forallb noprint ss = true -> exec fuel ss st = Ok st' tr c ->
  forall l, In l (writes tr) -> is_written (fst l) (accesses ss) = true.
Proof. intros fuel ss st st' tr c NP H. exact (proj2 (access_covers_ fuel ss 0 st st' tr c NP H)). Qed.
Print Assumptions C11_access_covers_writes_partial.

(* the report of ONE statement node taken at any location counter: VariablesAccessInfo(node) *)
Theorem C11_access_covers_stmt_partial : forall fuel s loc st st' tr c,
  noprint s = true -> exec fuel [s] st = Ok st' tr c ->
  (forall l, In l (reads tr) -> is_read (fst l) (fst (acc_stmt s loc)) = true) /\
  (forall l, In l (writes tr) -> is_written (fst l) (fst (acc_stmt s loc)) = true).
Proof. exact access_covers_stmt_. Qed.
Print Assumptions C11_access_covers_stmt_partial.

(* with routine calls (any callee behaviour `outs`, any intents), IntrinsicCall statements and WHILE loops *)
Theorem C11_xaccess_covers_reads_partial : forall fuel outs xs s s' tr c,
  forallb xsafe xs = true -> xexec fuel outs xs s = Ok s' tr c ->
  forall l, In l (reads tr) -> is_read (fst l) (xaccesses xs) = true.
Proof. intros fuel outs xs s s' tr c Hs H. exact (proj1 (xaccess_covers_ fuel outs xs 0 s s' tr c Hs H)). Qed.
Print Assumptions C11_xaccess_covers_reads_partial.

Theorem C11_xaccess_covers_writes_partial : forall fuel outs xs s s' tr c,
  forallb xsafe xs = true -> xexec fuel outs xs s = Ok s' tr c ->
  forall l, In l (writes tr) -> is_written (fst l) (xaccesses xs) = true.
Proof. intros fuel outs xs s s' tr c Hs H. exact (proj2 (xaccess_covers_ fuel outs xs 0 s s' tr c Hs H)). Qed.
Print Assumptions C11_xaccess_covers_writes_partial.

(* "calls that may modify an argument report that argument as written": holds in full for impure routines *)
Theorem C11_impure_call_covers : forall fuel outs its args loc s s' tr c,
  xstep fuel outs (XCall (CUser false) its args) s = Ok s' tr c ->
  bcovers tr (fst (xacc_stmt (XCall (CUser false) its args) loc)).
Proof. intros. eapply xstep_covers; [reflexivity | eassumption]. Qed.
Print Assumptions C11_impure_call_covers.

(* order: the access list of an assignment is exactly the sequence of its dynamic accesses *)
Theorem C11_assign_sequence : forall fuel x ix e loc st st' tr c,
  exec fuel [SAssign x ix e] st = Ok st' tr c ->
  flat_map ev_sk tr = map sk (fst (acc_stmt (SAssign x ix e) loc)).
Proof. exact assign_sequence_. Qed.
Print Assumptions C11_assign_sequence.

Theorem C11_rhs_before_lhs : forall x ix e loc,
  exists R, fst (acc_stmt (SAssign x ix e) loc) = R ++ [mkAcc x WRITE loc] /\
            Forall (fun a => a_kind a = READ /\ a_loc a = loc) R /\
            (forall y, In y (expr_reads e) -> In (mkAcc y READ loc) R) /\
            snd (acc_stmt (SAssign x ix e) loc) = S loc.
Proof.
  intros x ix e loc. exists (reads_at loc (expr_reads e) ++ reads_at loc (flat_map expr_reads ix)).
  cbn [acc_stmt fst snd]. repeat split.
  - rewrite <- app_assoc. reflexivity.
  - apply Forall_forall. intros a Ha. apply in_app_iff in Ha as [Ha|Ha]; unfold reads_at in Ha;
      apply in_map_iff in Ha as [y [<- _]]; split; reflexivity.
  - intros y Hy. apply in_app_iff. left. unfold reads_at. apply in_map_iff. exists y. split; [reflexivity | exact Hy].
Qed.
Print Assumptions C11_rhs_before_lhs.

(* `a = a + 1` is not "written first": the assigned variable occurs on the right-hand side, so its first access
   in the statement is a READ *)
Theorem C11_self_update_not_written_first : forall x ix e loc,
  In x (expr_reads e) -> is_written_first x (fst (acc_stmt (SAssign x ix e) loc)) = false.
Proof.
  intros x ix e loc Hx. cbn [acc_stmt fst]. unfold is_written_first.
  rewrite (first_access_reads_at x loc _ _ Hx). reflexivity.
Qed.
Print Assumptions C11_self_update_not_written_first.

Theorem C11_loop_var_written_first : forall x lo hi st body loc,
  is_written_first x (fst (acc_stmt (SDo x lo hi st body) loc)) = true.
Proof.
  intros. rewrite acc_stmt_do. destruct (acc_loop_body body (S loc)) as [a1 l1]. cbn [fst].
  unfold is_written_first, first_access, var_accesses. cbn [filter a_sig]. rewrite Nat.eqb_refl. reflexivity.
Qed.
Print Assumptions C11_loop_var_written_first.

(* order between statements: locations never decrease along the report; a later statement of a block
   only has locations >= those of an earlier one *)
Theorem C11_locations_monotone : forall ss loc,
  (loc <= snd (acc_block ss loc))%nat /\ between loc (snd (acc_block ss loc)) (fst (acc_block ss loc)) /\
  mono (fst (acc_block ss loc)).
Proof. intros ss loc. apply (good_list false). apply Forall_forall. intros s _. apply good_stmt. Qed.
Print Assumptions C11_locations_monotone.

Theorem C11_later_statement_later_location : forall s1 rest loc a b,
  In a (fst (acc_stmt s1 loc)) -> In b (fst (acc_block rest (snd (acc_stmt s1 loc)))) ->
  (a_loc a <= a_loc b)%nat /\
  fst (acc_block (s1 :: rest) loc) = fst (acc_stmt s1 loc) ++ fst (acc_block rest (snd (acc_stmt s1 loc))).
Proof.
  intros s1 rest loc a b Ha Hb. split.
  - destruct (good_stmt s1 loc) as [_ [B1 _]].
    destruct (C11_locations_monotone rest (snd (acc_stmt s1 loc))) as [_ [B2 _]].
    unfold between in *. rewrite Forall_forall in B1, B2.
    exact (Nat.le_trans _ _ _ (proj2 (B1 a Ha)) (proj1 (B2 b Hb))).
  - cbn [acc_block]. destruct (acc_stmt s1 loc) as [a1 l1]. cbn [fst snd]. destruct (acc_block rest l1). reflexivity.
Qed.
Print Assumptions C11_later_statement_later_location.

(* refutations of the full statement on the faithful model; each witness is replayed on the implementation *)
Theorem C11_access_refuted_codeblock :
  exists ss st st' tr c l, exec 5 ss st = Ok st' tr c /\ In l (reads tr) /\ is_read (fst l) (accesses ss) = false.
Proof.
  (* print *, a(i): PRINT is a CodeBlock, CodeBlock has no reference_accesses, nothing is reported *)
  exists [SPrint [EIdx 1%nat [EVar 0%nat]]], (store_of [((0%nat, []), 2)] []).
  eexists. eexists. eexists. exists (0%nat, []).
  split; [vm_compute; reflexivity|]. split; [vm_compute; left; reflexivity | vm_compute; reflexivity].
Qed.
Print Assumptions C11_access_refuted_codeblock.

Theorem C11_intrinsic_stmt_covers : forall fuel outs its args loc s s' tr c,
  xstep fuel outs (XCall CIntrinsic its args) s = Ok s' tr c ->
  bcovers tr (fst (xacc_stmt (XCall CIntrinsic its args) loc)).
Proof. intros. eapply xstep_covers; [reflexivity | eassumption]. Qed.
Print Assumptions C11_intrinsic_stmt_covers.

Example C11_allocate_reported_written :
  let x := XCall CIntrinsic [IOut; IOut] [EIdx 2%nat [EVar 1%nat]; EVar 4%nat] in
  is_written 4%nat (fst (xacc_stmt x 0)) = true /\ is_written 2%nat (fst (xacc_stmt x 0)) = true /\
  is_read 1%nat (fst (xacc_stmt x 0)) = true /\ snd (xacc_stmt x 0) = 1%nat.
Proof. exact allocate_reported_written. Qed.
Print Assumptions C11_allocate_reported_written.

Theorem C11_access_refuted_pure_call :
  exists x outs s s' tr c l,
    xstep 1 outs x s = Ok s' tr c /\ In l (writes tr) /\ is_written (fst l) (fst (xacc_stmt x 0)) = false.
Proof.
  (* a PURE subroutine may still have intent(out) dummies; Call.reference_accesses reports READ for all *)
  exists (XCall (CUser true) [IIn; IOut] [EIdx 2%nat [EVar 0%nat]; EIdx 3%nat [EBin Add (EVar 1%nat) (ELit 1)]]),
         (fun _ => 9), (store_of [((0%nat, []), 1); ((1%nat, []), 2)] []).
  eexists. eexists. eexists. exists (3%nat, [3]).
  split; [vm_compute; reflexivity|]. split; [vm_compute; left; reflexivity | vm_compute; reflexivity].
Qed.
Print Assumptions C11_access_refuted_pure_call.

(* non-vacuity of the implications *)
Example C11_covers_nonvacuous :
  forallb noprint ex_prog = true /\
  match exec 50 ex_prog ex_store with
  | Ok _ tr c => length (reads tr) = 16%nat /\ length (writes tr) = 10%nat /\ c = CNormal
  | _ => False
  end.
Proof. exact covers_nonvacuous. Qed.
Print Assumptions C11_covers_nonvacuous.

Example C11_xcovers_nonvacuous :
  forallb xsafe xex_prog = true /\
  match xexec 20 (fun k => Z.of_nat k) xex_prog xex_store with
  | Ok _ tr c => length (reads tr) = 18%nat /\ length (writes tr) = 6%nat /\ c = CNormal
  | _ => False
  end.
Proof. exact xcovers_nonvacuous. Qed.
Print Assumptions C11_xcovers_nonvacuous.

(* structure (derived-type) accesses grid(ii)%cells(jj)%vals(j) as RHS leaves, assignment targets, call arguments and
   IF/WHILE conditions; [enc] maps a signature (component names) to a variable name and is arbitrary.  Partial only in
   the sense of `ssafe` (pure call with an intent(out) dummy, PRINT in a body) *)
Theorem C11_struct_covers_partial : forall enc fuel outs x loc s s' tr c,
  ssafe x = true -> sstep enc fuel outs x s = Ok s' tr c -> bcovers tr (fst (sacc_stmt enc x loc)).
Proof. exact sstep_covers_. Qed.
Print Assumptions C11_struct_covers_partial.

(* every subscript variable of every component is reported READ: as target, on the right-hand side, as call argument *)
Theorem C11_sref_subscripts_reported : forall enc p e loc x,
  In x (flat_map expr_reads (psubs p)) ->
  is_read x (fst (sacc_stmt enc (SAsg (TRef p) e) loc)) = true /\
  is_read x (fst (sacc_stmt enc (SAsg (TVar 0%nat []) (SRef p)) loc)) = true /\
  (forall k its, is_read x (fst (sacc_stmt enc (SCallS k its [SRef p]) loc)) = true).
Proof.
  intros enc p e loc x Hx. cbn [sacc_stmt fst target_subs target_sig sexpr_reads flat_map scall_arg]. repeat split.
  - rewrite !is_read_app. apply orb_true_iff. right. apply orb_true_iff. left. apply is_read_reads_at, Hx.
  - rewrite !is_read_app. apply orb_true_iff. left. apply is_read_reads_at. apply in_app_iff. left. exact Hx.
  - intros k its. rewrite app_nil_r. apply is_read_cons_reads_at, Hx.
Qed.
Print Assumptions C11_sref_subscripts_reported.

Example C11_struct_nonvacuous :
  (match sstep (enc_tbl ex_tbl) 5 (fun _ => 0%Z) (SAsg (TVar 5%nat []) (SBin Add (SRef ex_gcv) (SCore (ELit 1)))) ex_sstore with
   | Ok s' tr _ => reads tr = [(1%nat, []); (2%nat, []); (3%nat, []); (20%nat, [2; 3; 4]%Z)] /\ val s' (5%nat, []) = 8%Z
   | _ => False end) /\
  (match sstep (enc_tbl ex_tbl) 5 (fun _ => 0%Z) (SCallS (CUser false) [IInOut] [SRef ex_gcv]) ex_sstore with
   | Ok _ tr _ => reads tr = [(1%nat, []); (2%nat, []); (3%nat, []); (20%nat, [2; 3; 4]%Z)] /\ writes tr = [(20%nat, [2; 3; 4]%Z)]
   | _ => False end) /\
  map (fun a => (a_sig a, a_kind a)) (fst (sacc_stmt (enc_tbl ex_tbl) (SCallS (CUser false) [IInOut] [SRef ex_gcv]) 0))
    = [(20%nat, READWRITE); (1%nat, READ); (2%nat, READ); (3%nat, READ)] /\
  map (fun a => (a_sig a, a_kind a)) (fst (sacc_stmt (enc_tbl ex_tbl) (SAsg (TRef ex_gcv) (SCore (EVar 1%nat))) 0))
    = [(1%nat, READ); (1%nat, READ); (2%nat, READ); (3%nat, READ); (20%nat, WRITE)].
Proof. exact struct_nonvacuous. Qed.
Print Assumptions C11_struct_nonvacuous.

(* structure accesses as a first-class expression form (StructX.v): anywhere an expression may occur — array subscripts,
   intrinsic arguments, DO bounds/step, conditions, call arguments, nested in another structure access — in arbitrarily
   nested assignments / IF / DO / calls; any [enc], callee behaviour [outs], store, fuel, location counter, block kind *)
Theorem C11_fstruct_covers_partial : forall enc outs fuel bump b loc s s' tr c,
  fsafe_block b = true -> fexec enc outs fuel b s = Ok s' tr c -> bcovers tr (fst (facc_block enc bump b loc)).
Proof. exact fexec_covers_. Qed.
Print Assumptions C11_fstruct_covers_partial.

(* every subscript variable of every component of a structure access occurring ANYWHERE in an expression is READ *)
Theorem C11_fref_subscripts_reported : forall enc p x,
  In x (fpath_reads enc p) ->
  (forall e loc, In x (fexpr_reads enc e) -> is_read x (reads_at loc (fexpr_reads enc e)) = true) /\
  In x (fexpr_reads enc (FRef p)) /\
  (forall a ix0 o e2 f, In x (fexpr_reads enc (FIdx a (ECons (FRef p) ix0))) /\
                        In x (fexpr_reads enc (FBin o (FRef p) e2)) /\
                        (is_inquiry f = false -> In x (fexpr_reads enc (FIntr f (ECons e2 (ECons (FRef p) ENil))))) /\
                        In x (fexpr_reads enc (FRef (PCons a (ECons (FRef p) ENil) PNil)))) /\
  (forall t loc, is_read x (fst (facc_stmt enc (FAssign (FTRef p) t) loc)) = true) /\
  (forall k its loc, is_read x (fst (facc_stmt enc (FCall k its (ECons (FRef p) ENil)) loc)) = true).
Proof.
  intros enc p x Hx. split; [intros e loc He; apply is_read_reads_at, He|].
  assert (Hr : In x (fexpr_reads enc (FRef p))) by (cbn [fexpr_reads]; apply in_app_iff; left; exact Hx).
  split; [exact Hr|]. split; [|split].
  - intros a ix0 o e2 f. cbn [fexpr_reads fexprs_reads fpath_reads] in *. repeat split.
    + apply in_app_iff. left. apply in_app_iff. left. exact Hr.
    + apply in_app_iff. left. exact Hr.
    + intro Hf. rewrite Hf. cbn [fexprs_reads]. apply in_app_iff. right. apply in_app_iff. left. exact Hr.
    + apply in_app_iff. left. apply in_app_iff. left. apply in_app_iff. left. exact Hr.
  - intros t loc. cbn [facc_stmt fst ftarget_reads]. rewrite !is_read_app. apply orb_true_iff. right.
    apply orb_true_iff. left. apply is_read_reads_at, Hx.
  - intros k its loc. cbn [facc_stmt fst fcall_args fcall_arg]. rewrite app_nil_r. apply is_read_cons_reads_at, Hx.
Qed.
Print Assumptions C11_fref_subscripts_reported.

(* order: the subscript reads of all components precede the access of the signature (report and trace) *)
Theorem C11_struct_order : forall enc p,
  fexpr_reads enc (FRef p) = fpath_reads enc p ++ [enc (StructX.psig p)] /\
  (forall e loc, exists pre,
      fst (facc_stmt enc (FAssign (FTRef p) e) loc) =
      pre ++ reads_at loc (fpath_reads enc p) ++ [mkAcc (enc (StructX.psig p)) WRITE loc]) /\
  (forall s vs, fpevals enc s p = Some vs -> fereads enc s (FRef p) = fpreads enc s p ++ [(enc (StructX.psig p), vs)]) /\
  (forall s l, In l (fpreads enc s p) -> In (fst l) (fpath_reads enc p)).
Proof.
  intros enc p. split; [reflexivity|]. split; [|split].
  - intros e loc. exists (reads_at loc (fexpr_reads enc e)). reflexivity.
  - intros s vs E. cbn [fereads]. rewrite E. reflexivity.
  - intros s l. apply fpreads_sub.
Qed.
Print Assumptions C11_struct_order.

(* do i = 1, g(k)%n ; a(s%idx(i)) = max(t(i)%v(j), 0) ; end do *)
Example C11_fstruct_nonvacuous :
  fsafe_block fx_prog = true /\
  match fexec (enc_tbl2 fx_tbl) (fun _ => 0%Z) 10 fx_prog fx_store with
  | Ok s' tr c =>
      val s' (3%nat, [4%Z]) = 0%Z /\ val s' (3%nat, [6%Z]) = 9%Z /\ c = CNormal /\
      reads tr = [(1%nat, []); (20%nat, [2%Z]);
                  (0%nat, []); (2%nat, []); (22%nat, [1; 5]%Z); (0%nat, []); (21%nat, [1%Z]);
                  (0%nat, []); (2%nat, []); (22%nat, [2; 5]%Z); (0%nat, []); (21%nat, [2%Z])] /\
      writes tr = [(0%nat, []); (3%nat, [4%Z]); (0%nat, []); (3%nat, [6%Z]); (0%nat, [])]
  | _ => False
  end /\
  map (fun a => (a_sig a, a_kind a, a_loc a)) (fst (facc_block (enc_tbl2 fx_tbl) false fx_prog 0)) =
    [(0, WRITE, 0); (0, READ, 0); (1, READ, 0); (20, READ, 0);
     (0, READ, 1); (2, READ, 1); (22, READ, 1); (0, READ, 1); (21, READ, 1); (3, WRITE, 1)]%nat.
Proof. exact fstruct_nonvacuous. Qed.
Print Assumptions C11_fstruct_nonvacuous.

(* regenerated obligation (props/C12/translate.py -> coq/C12/GenTables.v, shared with C09/C12/C13): every intrinsic of the
   tree under test is known to the frozen table of the Fortran standard's inquiry functions, and none is flagged
   `is_inquiry` (its first argument is then skipped by IntrinsicCall.reference_accesses = a missing READ, cf. expr_reads)
   unless the standard classifies it as an inquiry function *)
From PV Require Import C12.IntrTable C12.GenTables C12.IntrOblig.
Theorem C11_inquiry_flags_sound : forallb flag_ok gen_intrinsics = true.
Proof. exact inquiry_flags_sound. Qed.
Print Assumptions C11_inquiry_flags_sound.
