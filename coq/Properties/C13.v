(* C13 — OpenACC data regions move all data the region needs.  Property theorems only.

   FULL PROPERTY (false of the faithful model of create_data_movement_deep_copy_refs; see _refuted):
     forall isarr r f st st' tr c junk, acc_accept r = true -> exec f r st = Ok st' tr c ->
       exists st'', exec_dev f isarr (cl_of isarr r) junk r st = Ok st'' tr c /\ forall l, val st'' l = val st' l
   i.e. for every accepted region, every host store and EVERY possible content [junk] of the
   uninitialised device arrays, running on device memory with exactly the generated copyin / copyout /
   copy movements leaves the host as the host-only run does.
   Proved: for every run that satisfies the run-time condition acc_run_ok (C13_acc_sound_dyn), and
   with its first part discharged statically for accepted regions whose copyout arrays are write-only
   (C13_acc_sound_partial).  Missing for the full statement: copyout arrays that are not completely
   overwritten, or are read at an element the region has not written (both happen on the unchanged
   code: the `is_written_first` and "not read" rules are per variable, not per element / per path). *)
From Coq Require Import List ZArith Bool.
Import ListNotations.
From PV Require Import Fort.Syntax Fort.Sem C11.Access C12.InOut C13.AccData C13.Proofs.
Open Scope Z_scope.

Theorem C13_acc_sound_dyn : forall isarr f r st st' tr c,
  exec f r st = Ok st' tr c ->
  acc_run_ok isarr r st tr = true ->
  forall junk, exists st'',
    exec_dev f isarr (cl_of isarr r) junk r st = Ok st'' tr c /\
    bnd st'' = bnd st' /\ forall l, val st'' l = val st' l.
Proof. exact acc_sound_dyn. Qed.
Print Assumptions C13_acc_sound_dyn.

Theorem C13_acc_sound_partial : forall isarr f r st st' tr c,
  acc_accept r = true -> copyout_write_only isarr r = true ->
  exec f r st = Ok st' tr c ->
  writes_inb isarr st tr = true -> copyout_fully_written isarr r st tr = true ->
  forall junk, exists st'',
    exec_dev f isarr (cl_of isarr r) junk r st = Ok st'' tr c /\
    bnd st'' = bnd st' /\ forall l, val st'' l = val st' l.
Proof. exact acc_sound_partial. Qed.
Print Assumptions C13_acc_sound_partial.

(* accepted regions: every location read by any run belongs to a variable reported READ *)
Theorem C13_reads_covered : forall f r s s' tr c,
  acc_accept r = true -> exec f r s = Ok s' tr c ->
  forall l, In l (reads tr) -> In (fst l, READ) (accs false r).
Proof. exact reads_covered. Qed.
Print Assumptions C13_reads_covered.

(* every written array is in a copyout or copy clause *)
Theorem C13_written_copied_out : forall isarr l x,
  isarr x = true -> In (x, WRITE) l -> copied_out (classify isarr l) x = true.
Proof. exact written_copied_out. Qed.
Print Assumptions C13_written_copied_out.

Example C13_acc_nonvacuous :
  acc_accept r_ok = true /\ copyout_write_only arrs r_ok = true /\
  in_clause arrs (accs false r_ok) CopyIn = [vb] /\ in_clause arrs (accs false r_ok) CopyOut = [va] /\
  in_clause arrs (accs false r_ok) Copy = [vc] /\
  let st := st_of [((vb, [1]), 5); ((vc, [1]), 7); ((va, [2]), 9)] in
  exists st' tr, exec 20 r_ok st = Ok st' tr CNormal /\
    writes_inb arrs st tr = true /\ copyout_fully_written arrs r_ok st tr = true /\ acc_run_ok arrs r_ok st tr = true /\
    val st' (va, [1]) = 12 /\ val st' (vc, [1]) = 14.
Proof. exact acc_nonvacuous. Qed.
Print Assumptions C13_acc_nonvacuous.

(* a(1) = 0  =>  copyout(a) *)
Theorem C13_acc_refuted_partial_write :
  in_clause arrs (accs false r_partial) CopyOut = [va] /\ in_clause arrs (accs false r_partial) CopyIn = [] /\
  in_clause arrs (accs false r_partial) Copy = [] /\
  acc_refutes r_partial (st_of [((va, [2]), 7)]) (fun _ => 99) (va, [2]).
Proof. exact acc_refuted_partial_write. Qed.
Print Assumptions C13_acc_refuted_partial_write.

(* a(1) = 0 ; s = a(2)  =>  copyout(a) *)
Theorem C13_acc_refuted_read_unwritten :
  in_clause arrs (accs false r_read) CopyOut = [va] /\ in_clause arrs (accs false r_read) CopyIn = [] /\
  acc_refutes r_read (st_of [((va, [2]), 7)]) (fun _ => 99) (vs, []).
Proof.
  split; [vm_compute; reflexivity|]. split; [vm_compute; reflexivity|].
  split; [vm_compute; reflexivity|].
  apply BigStep.normal_runs. vm_compute. discriminate.
Qed.
Print Assumptions C13_acc_refuted_read_unwritten.

(* if (t > 0) c(1) = 1 ; n = c(1)  =>  copyout(c) *)
Theorem C13_acc_refuted_conditional_write :
  in_clause arrs (accs false r_cond) CopyOut = [vc] /\
  acc_refutes r_cond (st_of [((vc, [1]), 7)]) (fun _ => 99) (vn, []).
Proof.
  split; [vm_compute; reflexivity|].
  split; [vm_compute; reflexivity|].
  apply BigStep.normal_runs. vm_compute. discriminate.
Qed.
Print Assumptions C13_acc_refuted_conditional_write.

(* any clause lists (what was generated), any statement list as the semantics of the region (calls expanded) *)
Theorem C13_acc_sound_gen : forall isarr f r st st' tr c cin cout cpy,
  exec f r st = Ok st' tr c ->
  acc_run_ok_gen isarr cin cout cpy st tr = true ->
  forall junk, exists st'',
    exec_dev f isarr (cl_from cin cout cpy) junk r st = Ok st'' tr c /\
    bnd st'' = bnd st' /\ forall l, val st'' l = val st' l.
Proof. exact acc_sound_gen. Qed.
Print Assumptions C13_acc_sound_gen.

(* a by-reference argument of a non-pure call (READWRITE access) is always in the copy clause *)
Theorem C13_readwrite_is_copy : forall isarr l x,
  isarr x = true -> In (x, READWRITE) l -> classify isarr l x = Some Copy.
Proof.
  intros isarr l x Ha Hr.
  rewrite (classify_accessed isarr l x READWRITE Ha Hr), (proj2 (Proofs.hasrw_iff x l) Hr). reflexivity.
Qed.
Print Assumptions C13_readwrite_is_copy.

(* a(1) = 0 ; call inc(a) *)
Example C13_call_nonvacuous :
  let isarr := fun x => mem x [0%nat] in
  let st := store_of [((0%nat, [2]), 7)] [(0%nat, [(1, 3)])] in
  in_clause isarr (xaccs false xs_call) Copy = [0%nat] /\ in_clause isarr (xaccs false xs_call) CopyOut = [] /\
  exists st' tr, exec 20 sem_call st = Ok st' tr CNormal /\
    acc_run_ok_gen isarr [] [] [0%nat] st tr = true /\ acc_run_ok_gen isarr [] [0%nat] [] st tr = false /\
    exists st'' tr', exec_dev 20 isarr (cl_from [] [0%nat] []) (fun _ => 99) sem_call st = Ok st'' tr' CNormal /\
                     val st'' (0%nat, [2]) <> val st' (0%nat, [2]).
Proof. exact call_nonvacuous. Qed.
Print Assumptions C13_call_nonvacuous.

(* regenerated obligation (props/C12/translate.py -> coq/C12/GenTables.v): every intrinsic of the tree under test is known to the
   frozen table of the Fortran standard's inquiry functions, and none is flagged `is_inquiry` (first argument skipped by
   IntrinsicCall.reference_accesses) unless the standard classifies it as an inquiry function *)
From PV Require Import C12.IntrTable C12.GenTables C12.IntrOblig.
Theorem C13_inquiry_flags_sound : forallb flag_ok gen_intrinsics = true.
Proof. exact inquiry_flags_sound. Qed.
Print Assumptions C13_inquiry_flags_sound.

(* ---- regions containing DO WHILE directly (fuelled semantics C12/While.v), any clause lists, any junk: the trace being
   the same, every WHILE loop iterates equally often on the device *)
From PV Require Import C12.While C13.WhileAcc.
Theorem C13_acc_sound_gen_while : forall isarr f ws st st' tr c cin cout cpy,
  wexec f ws st = Ok st' tr c ->
  acc_run_ok_gen isarr cin cout cpy st tr = true ->
  forall junk, exists st'',
    wexec_dev f isarr (cl_from cin cout cpy) junk ws st = Ok st'' tr c /\
    bnd st'' = bnd st' /\ forall l, val st'' l = val st' l.
Proof.
  intros isarr f ws st st' tr c cin cout cpy.
  exact (acc_sound_gen_run (wexec f ws) isarr st st' tr c cin cout cpy (frame_wexec f ws)).
Qed.
Print Assumptions C13_acc_sound_gen_while.

Example C13_while_acc_nonvacuous :
  let c := EBin And (EBin Gt (EIdx 0%nat [ELit 1]) (ELit 1)) (EBin Lt (EVar 1%nat) (ELit 3)) in
  let body := [SAssign 0%nat [ELit 1] (EBin Sub (EIdx 0%nat [ELit 1]) (ELit 1)); SAssign 1%nat [] (EBin Add (EVar 1%nat) (ELit 1))] in
  let isarr := fun x => mem x [0%nat] in
  let st := store_of [((0%nat, [1]), 3)] [(0%nat, [(1, 2)])] in
  exists st' tr, wexec 10 [WWhile c body] st = Ok st' tr CNormal /\
    acc_run_ok_gen isarr [] [] [0%nat] st tr = true /\ acc_run_ok_gen isarr [] [0%nat] [] st tr = false.
Proof. exact while_acc_nonvacuous. Qed.
Print Assumptions C13_while_acc_nonvacuous.

(* ---- STATIC class, no run-time premise (coq/C13/Static.v): top-level literal-subscript assignments in bounds and
   full-extent loops  do i = lb, ub : a(i) = e  over the declared bounds; every copyout array write-only with such a loop *)
From PV Require Import C13.Static.
Theorem C13_acc_sound_static : forall isarr b f r st st' tr c,
  static_safe isarr b r = true -> (forall a, bnd st a = b a) ->
  exec f r st = Ok st' tr c ->
  forall junk, exists st'',
    exec_dev f isarr (cl_of isarr r) junk r st = Ok st'' tr c /\
    bnd st'' = bnd st' /\ forall l, val st'' l = val st' l.
Proof. exact acc_sound_static. Qed.
Print Assumptions C13_acc_sound_static.

Example C13_static_nonvacuous :
  static_safe arrs b3 r_static = true /\
  in_clause arrs (accs false r_static) CopyOut = [va] /\ in_clause arrs (accs false r_static) CopyIn = [vb] /\
  (forall vals a, bnd (st_of vals) a = b3 a) /\
  exists st' tr, exec 20 r_static (st_of [((vb, [2]), 4); ((va, [3]), 9)]) = Ok st' tr CNormal /\ val st' (va, [2]) = 5.
Proof. exact static_nonvacuous. Qed.
Print Assumptions C13_static_nonvacuous.

(* the refuted witnesses of the C13_acc_refuted theorems are outside the static class *)
Example C13_static_excludes_partial_write :
  static_safe arrs b3 r_partial = false /\ static_safe arrs b3 r_read = false /\ static_safe arrs b3 r_cond = false.
Proof. exact static_excludes_partial_write. Qed.
Print Assumptions C13_static_excludes_partial_write.
