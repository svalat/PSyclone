(* C15 — Copies of PSyIR subtrees are independent and equal.  Property theorems only.
   Model: coq/C15/Model.v (Node.copy, ScopingNode._refine_copy, SymbolTable.deep_copy, *.copy of
   symbols).  `write W n` is the id-free written form of tree n in world W (symbols by NAME,
   declarations with their datatype / initial value / interface).  Objects are identities; new
   objects get ids above the offsets off / soff / ooff. *)
From Coq Require Import List NArith Bool.
Import ListNotations.
From PV Require Import C15.Model C15.Basics C15.CopyProofs C15.Indep C15.Witness.
Open Scope N_scope.

(* the copy is equal to the original: same written form (structure, names, declarations) although
   every node id and every symbol id of the copied scopes is new *)
Theorem C15_copy_equal : forall W off soff ooff n,
  wf W off soff ooff n ->
  write (copy_world W off soff ooff n) (copy (hs W) off soff n) = write W n.
Proof.
  intros W off soff ooff n [Hwf [Himp [Hnd [_ [Hss Hso]]]]].
  apply (copy_write_gen W (copy_world W off soff ooff n) off soff ooff); try assumption.
  - intros x Hx. simpl. apply copy_hs_old. exact Hx.
  - intros o Ho. simpl. apply copy_ho_old. exact Ho.
  - intros o. simpl. apply copy_ho_new.
  - intros t x Ht Hx. simpl. apply copy_hs_new; assumption.
Qed.
Print Assumptions C15_copy_equal.

(* no node object is shared *)
Theorem C15_copy_disjoint_nodes : forall h off soff n,
  Forall (fun i => i < off) (ids n) ->
  forall i, In i (ids n) -> ~ In i (ids (copy h off soff n)).
Proof. exact copy_disjoint_nodes_. Qed.
Print Assumptions C15_copy_disjoint_nodes.

(* every Reference / Loop variable of the copy, position by position: a symbol declared in the copied
   scopes is replaced by the copy's own symbol (declared in the copy's tables, not in the
   original's, same name); any other symbol is kept *)
Theorem C15_copy_refs_local : forall W off soff ooff n,
  wf W off soff ooff n -> wsc n ->
  let W' := copy_world W off soff ooff n in
  let c := copy (hs W) off soff n in
  Forall2 (fun s s' => (In s (owned n) -> s' = s + soff /\ In s' (owned c) /\ ~ In s' (owned n)
                                          /\ sname (hs W' s') = sname (hs W s))
                       /\ (~ In s (owned n) -> s' = s))
          (refs n) (refs c).
Proof. exact copy_refs_local_. Qed.
Print Assumptions C15_copy_refs_local.

(* FULL statement (FALSE of the faithful model — see the _refuted theorems):
     forall W n es, wf -> wsc -> edits es address one tree only ->
       the written form of the other tree is unchanged.
   PROVED PART: under `no_symbol_in_datatypes` (no literal precision, datatype object, interface
   object or initial value of the copied scopes mentions a symbol of the copied scopes) and for
   edit sequences that are `valid`: rename / add / re-attribute symbols of the edited tree's
   scopes, create objects, replace nodes of the edited tree by trees built from its own or new
   nodes — but no in-place mutation of a datatype / interface object that the other tree reaches. *)
Theorem C15_copy_independent_partial : forall W off soff ooff n,
  wf W off soff ooff n -> wsc n -> no_symbol_in_datatypes W n ->
  let W' := copy_world W off soff ooff n in
  let c := copy (hs W) off soff n in
  write W' n = write W n
  /\ (forall es, let st0 := {| sw := W'; sa := n; sb := c |} in
        valid_seq es st0 -> write (sw (run es st0)) (sb (run es st0)) = write W' c)
  /\ (forall es, let st0 := {| sw := W'; sa := c; sb := n |} in
        valid_seq es st0 -> write (sw (run es st0)) (sb (run es st0)) = write W' n).
Proof.
  intros W off soff ooff n Hwf Hwsc Hsafe W' c. split; [|split].
  - apply orig_unchanged. exact Hwf.
  - intros es st0 Hv. apply (edits_invisible es st0); [|exact Hv].
    apply inv_edit_original; assumption.
  - intros es st0 Hv. apply (edits_invisible es st0); [|exact Hv].
    apply inv_edit_copy. exact Hwf.
Qed.
Print Assumptions C15_copy_independent_partial.

(* one direction holds without the side condition: valid edits of the COPY never show in the original *)
Theorem C15_copy_edits_invisible_in_original : forall W off soff ooff n,
  wf W off soff ooff n ->
  let W' := copy_world W off soff ooff n in
  let c := copy (hs W) off soff n in
  forall es, let st0 := {| sw := W'; sa := c; sb := n |} in
    valid_seq es st0 -> write (sw (run es st0)) (sb (run es st0)) = write W n.
Proof.
  intros W off soff ooff n Hwf W' c es st0 Hv.
  rewrite (edits_invisible es st0); [|apply inv_edit_copy; exact Hwf|exact Hv].
  simpl. apply orig_unchanged. exact Hwf.
Qed.
Print Assumptions C15_copy_edits_invisible_in_original.

(* the general engine: edits on one side of two trees that share nothing are invisible on the other *)
Theorem C15_edits_invisible : forall es st, inv st -> valid_seq es st ->
  write (sw (run es st)) (sb (run es st)) = write (sw st) (sb st).
Proof. exact edits_invisible. Qed.
Print Assumptions C15_edits_invisible.

(* ---- refutations of the full independence statement: well-formed, well-scoped tree, a VALID edit
   of the original (rename of local `m`), and the copy's written form changes *)
Theorem C15_copy_refuted_shape_symbol :          (* real, dimension(m) :: b *)
  exists W n es, refutes W n es.
Proof. exists (wit_world [ref_m] [] None), (wit_tree lit), rename_m. apply refutes_by_eval. vm_compute. split; [reflexivity | discriminate]. Qed.
Print Assumptions C15_copy_refuted_shape_symbol.

Theorem C15_copy_refuted_kind_symbol :           (* real(kind=m) :: b *)
  exists W n es, refutes W n es.
Proof. exists (wit_world [] [1] None), (wit_tree lit), rename_m. apply refutes_by_eval. vm_compute. split; [reflexivity | discriminate]. Qed.
Print Assumptions C15_copy_refuted_kind_symbol.

Theorem C15_copy_refuted_initial_value :         (* real :: b = m *)
  exists W n es, refutes W n es.
Proof. exists (wit_world [] [] (Some ref_m)), (wit_tree lit), rename_m. apply refutes_by_eval. vm_compute. split; [reflexivity | discriminate]. Qed.
Print Assumptions C15_copy_refuted_initial_value.

Theorem C15_copy_refuted_literal_precision :     (* b = 1.0_m *)
  exists W n es, refutes W n es.
Proof. exists (wit_world [] [] None), (wit_tree lit_kind_m), rename_m. apply refutes_by_eval. vm_compute. split; [reflexivity | discriminate]. Qed.
Print Assumptions C15_copy_refuted_literal_precision.

(* in-place mutation of an object shared by copy (datatype object; interface object of a typed
   symbol) shows in the copy even when `no_symbol_in_datatypes` holds *)
Theorem C15_copy_refuted_shared_datatype_object :
  exists W n s a, refutes_inplace W n s sdt a.
Proof.
  exists (wit_world [] [] None), (wit_tree lit), 3, {| obounds := []; osyms := []; opay := 77 |}.
  apply refutes_inplace_by_eval. vm_compute. split; [reflexivity | discriminate].
Qed.
Print Assumptions C15_copy_refuted_shared_datatype_object.

Theorem C15_copy_refuted_shared_interface_object :
  exists W n s a, refutes_inplace W n s (fun y => match sintf y with ILocal o => o | IImport _ => 0 end) a.
Proof.
  exists (wit_world [] [] None), (wit_tree lit), 3, {| obounds := []; osyms := []; opay := 78 |}.
  apply refutes_inplace_by_eval. vm_compute. split; [reflexivity | discriminate].
Qed.
Print Assumptions C15_copy_refuted_shared_interface_object.

(* non-vacuity: a tree with nested scopes, shadowing, an import, an untyped symbol, a loop variable and
   datatypes mentioning an OUTSIDE symbol satisfies all hypotheses; a six-step edit sequence using
   every kind of edit is valid, really changes the edited tree, and the re-bound references are as
   listed *)
Example C15_nonvacuous :
  (wf nv_world 1000 1000 1000 nv_tree /\ wsc nv_tree /\ no_symbol_in_datatypes nv_world nv_tree)
  /\ (let W' := copy_world nv_world 1000 1000 1000 nv_tree in
      let c := copy (hs nv_world) 1000 1000 nv_tree in
      let st0 := {| sw := W'; sa := nv_tree; sb := c |} in
      valid_seq nv_edits st0
      /\ write (sw (run nv_edits st0)) (sa (run nv_edits st0)) <> write W' nv_tree
      /\ refs c = [1005; 1002; 1004; 1006; 1004; 9; 1003]
      /\ smem (hs W' 1007) = [1003]).
Proof. exact (conj nv_hyps nv_valid). Qed.
Print Assumptions C15_nonvacuous.
