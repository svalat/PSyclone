(* C28 — PSyData regions are entered and left in matched pairs.  Property theorems only.

   FULL STATEMENT (false of the faithful model, see the *_refuted theorems):
     forall t p tg o, accept_impl t p tg o = true -> no_escaping_transfer p = true ->
       forall fuel st st' tr c, exec fuel (apply_at (region_tag t o) tg p) st = Ok st' tr c ->
         well_bracketed (regions tr)
   together with uniqueness of region names unless the user supplied equal names.
   What is proved: the statement under the sufficient condition "the selected statements contain
   no RETURN and no EXIT/CYCLE that targets a loop outside the selection" (gap_return / gap_xc =
   false), of which the real validate establishes one half per transformation (Return excluded by
   Profile/NanTest/ReadOnlyVerify; CodeBlock excluded by Extract); the other half is refuted by
   witnesses that the check replays on the implementation. *)
From Coq Require Import List ZArith Bool.
Import ListNotations.
From PV Require Import Fort.Syntax Fort.Sem C28.Model C28.Proofs C28.Gen C28.TableProofs C28.PsyProofs.

(* any program (all stores, all fuel) without escaping transfer has a well-bracketed trace *)
Theorem C28_balanced_partial : forall fuel p st st' tr c,
  no_escaping_transfer p = true -> exec fuel p st = Ok st' tr c -> well_bracketed (regions tr).
Proof. exact balanced_partial_. Qed.
Print Assumptions C28_balanced_partial.

(* wrapping a selection with no RETURN and no directly contained EXIT/CYCLE keeps a program safe *)
Theorem C28_apply_preserves_safe_partial : forall r tg p sel ir d,
  selected p tg = Some sel -> gap_return sel = false -> gap_xc sel = false ->
  safe ir d p = true -> safe ir d (apply_at r tg p) = true.
Proof. exact apply_safe_nogap_. Qed.
Print Assumptions C28_apply_preserves_safe_partial.

(* the property for accepted placements outside the gap *)
Theorem C28_instrumented_balanced_partial : forall t p tg o sel,
  accept_impl t p tg o = true -> no_escaping_transfer p = true ->
  selected p tg = Some sel -> gap_return sel = false -> gap_xc sel = false ->
  forall fuel st st' tr c,
    exec fuel (apply_at (region_tag t o) tg p) st = Ok st' tr c -> well_bracketed (regions tr).
Proof. intros t p tg o sel _. apply wrapped_balanced. Qed.
Print Assumptions C28_instrumented_balanced_partial.

(* Profile / NanTest / ReadOnlyVerify (tables of the tree under test): RETURN is excluded by validate *)
Theorem C28_instrumented_balanced_return_excluded_partial : forall t p tg o sel,
  t <> TExtract -> accept_impl t p tg o = true -> no_escaping_transfer p = true ->
  selected p tg = Some sel -> gap_xc sel = false ->
  forall fuel st st' tr c,
    exec fuel (apply_at (region_tag t o) tg p) st = Ok st' tr c -> well_bracketed (regions tr).
Proof. intros t p tg o sel Ht. apply balanced_if_return_excluded, gen_return_excluded, Ht. Qed.
Print Assumptions C28_instrumented_balanced_return_excluded_partial.

(* Extract (tables of the tree under test): EXIT/CYCLE (CodeBlocks) are excluded by validate *)
Theorem C28_instrumented_balanced_extract_partial : forall p tg o sel,
  accept_impl TExtract p tg o = true -> no_escaping_transfer p = true ->
  selected p tg = Some sel -> gap_return sel = false ->
  forall fuel st st' tr c,
    exec fuel (apply_at (region_tag TExtract o) tg p) st = Ok st' tr c -> well_bracketed (regions tr).
Proof. intros p tg o sel. apply balanced_if_codeblock_excluded, gen_extract_codeblock. Qed.
Print Assumptions C28_instrumented_balanced_extract_partial.

(* for ANY tables: if both Return and CodeBlock are excluded, accept implies the safe condition *)
Theorem C28_accept_implies_safe : forall T t p tg o r ir d,
  x_excl T t KReturn = true -> x_excl T t KCodeBlock = true ->
  accept_with T t p tg o = true -> safe ir d p = true -> safe ir d (apply_at r tg p) = true.
Proof.
  intros T t p tg o r ir d Hr Hc Ha Hs.
  destruct (accept_sel _ _ _ _ _ Ha) as (ancs & blk & _ & Hsel & _).
  pose proof (accept_excludes_return_ _ _ _ _ _ _ Hr Ha Hsel) as Hnr.
  pose proof (accept_excludes_xc_ _ _ _ _ _ _ Hc Ha Hsel) as Hnx.
  apply (apply_safe_nogap_ r tg p _ ir d Hsel Hnr); [|exact Hs].
  exact (selected_noxc_gap tg p _ ir d Hsel Hs Hnr Hnx).
Qed.
Print Assumptions C28_accept_implies_safe.

(* REFUTED (tree as found): EXIT and CYCLE inside a Profile/NanTest/ReadOnlyVerify region *)
Theorem C28_balanced_refuted_exit : forall t x, t <> TExtract -> x = SExit \/ x = SCycle ->
  accept_with asfound_tables t (wit_loop x) wit_tgt wit_opts = true /\
  no_escaping_transfer (wit_loop x) = true /\
  exists s' tr c,
    exec 20 (apply_at (region_tag t wit_opts) wit_tgt (wit_loop x)) wit_store = Ok s' tr c /\
    ~ well_bracketed (regions tr).
Proof.
  intros t x Ht Hx. split; [|split].
  - destruct t; try congruence; destruct Hx as [-> | ->]; vm_compute; reflexivity.
  - destruct Hx as [-> | ->]; vm_compute; reflexivity.
  - destruct t; try congruence; destruct Hx as [-> | ->];
      (eexists; eexists; eexists; split; [vm_compute; reflexivity | vm_compute; discriminate]).
Qed.
Print Assumptions C28_balanced_refuted_exit.

(* REFUTED (tree as found): RETURN inside an Extract region *)
Theorem C28_balanced_refuted_return_extract :
  accept_with asfound_tables TExtract witr_prog witr_tgt wit_opts = true /\
  no_escaping_transfer witr_prog = true /\
  exists s' tr c,
    exec 20 (apply_at (region_tag TExtract wit_opts) witr_tgt witr_prog) wit_store = Ok s' tr c /\
    ~ well_bracketed (regions tr).
Proof.
  split; [vm_compute; reflexivity | split; [vm_compute; reflexivity|]].
  eexists; eexists; eexists; split; [vm_compute; reflexivity | vm_compute; discriminate].
Qed.
Print Assumptions C28_balanced_refuted_return_extract.

(* never directly between a loop directive and its loop, never under an OpenACC directive *)
Theorem C28_accept_not_between : forall t p tg o,
  accept_impl t p tg o = true ->
  exists ancs blk, locate (t_path tg) p [] = Some (ancs, blk) /\
    (forall rest, ancs <> ADir 1 :: rest /\ ancs <> ADir 2 :: rest /\ ancs <> ADir 4 :: rest) /\
    ~ In (ADir 3) ancs /\ ~ In (ADir 4) ancs /\ ~ In (ADir 5) ancs.
Proof.
  intros t p tg o Ha. destruct (accept_not_between_ _ _ _ _ _ Ha) as (ancs & blk & Hl & Hloop & Hacc).
  destruct gen_loopdirs as (L1 & L2 & L4). destruct gen_accdirs as (A3 & A4 & A5).
  exists ancs, blk. split; [exact Hl|]. split.
  - intro rest. repeat split; apply Hloop; assumption.
  - repeat split; apply Hacc; assumption.
Qed.
Print Assumptions C28_accept_not_between.

(* automatic names "r<pre-order index>" are pairwise distinct *)
Theorem C28_names_unique_auto : forall p, NoDup (filter is_auto (region_names p)).
Proof. intro p. apply names_unique_from. Qed.
Print Assumptions C28_names_unique_auto.

(* all names distinct unless the user supplied the same name twice (aggregation) *)
Theorem C28_names_unique : forall p,
  NoDup (filter (fun n => negb (is_auto n)) (region_names p)) -> NoDup (region_names p).
Proof. intros p Hu. apply (NoDup_filter_split is_auto); [apply names_unique_from | exact Hu]. Qed.
Print Assumptions C28_names_unique.

(* automatic whole-routine profiling (profiler.py) of valid Fortran cannot be escaped *)
Theorem C28_auto_profile_safe : forall p q,
  auto_profile p = AWrapped q -> safe false true p = true -> no_escaping_transfer q = true.
Proof. exact auto_profile_safe_. Qed.
Print Assumptions C28_auto_profile_safe.

(* non-vacuity *)
Example C28_nonvacuous :
  accept_with asfound_tables TProfile ok_prog ok_tgt wit_opts = true /\
  no_escaping_transfer ok_prog = true /\
  (exists sel, selected ok_prog ok_tgt = Some sel /\ gap_return sel = false /\ gap_xc sel = false) /\
  exists s' tr c,
    exec 30 (apply_at (region_tag TProfile wit_opts) ok_tgt ok_prog) wit_store = Ok s' tr c /\
    regions tr = [Enter 0; Leave 0; Enter 0; Leave 0].
Proof.
  split; [vm_compute; reflexivity | split; [vm_compute; reflexivity | split]].
  - eexists; split; [vm_compute; reflexivity | split; vm_compute; reflexivity].
  - eexists; eexists; eexists; split; vm_compute; reflexivity.
Qed.
Print Assumptions C28_nonvacuous.

Example C28_gen_nonvacuous :
  accept_impl TProfile ok_prog ok_tgt wit_opts = true /\
  accept_impl TExtract witr_prog (mkTarget [] 0 1) wit_opts = true /\
  accept_impl TNanTest [SDir 1 [SDo 0 (ELit 1%Z) (ELit 2%Z) (ELit 1%Z) []]] (mkTarget [(0, false)] 0 1) wit_opts = false.
Proof. exact gen_nonvacuous. Qed.
Print Assumptions C28_gen_nonvacuous.

(* PSy layer: names issued by get_unique_region_name (LFRic/GOcean extraction) are pairwise distinct
   for any sequence of regions and any earlier history of the counter *)
Theorem C28_psy_issue_unique : forall reqs hist, NoDup (issue hist reqs).
Proof. exact issue_unique_. Qed.
Print Assumptions C28_psy_issue_unique.

(* the tree under test still keys the counter on the name it builds (translator obligation) *)
Theorem C28_psy_key_is_name : gen_psy_key_is_name = true.
Proof. reflexivity. Qed.
Print Assumptions C28_psy_key_is_name.

(* PSy layer: names chosen at generation time (gen_code) are pairwise distinct *)
Theorem C28_psy_lfric_gen_unique : forall nodes i issued,
  Forall (fun nd => snd nd = PSGen) nodes -> NoDup (lfric_names_from i issued nodes).
Proof. exact lfric_gen_unique_. Qed.
Print Assumptions C28_psy_lfric_gen_unique.

(* REFUTED (tree as found): a generation-time name and an issued name can coincide in one invoke *)
Theorem C28_psy_lfric_mixed_refuted :
  exists reqs nodes, ~ NoDup (lfric_file_names reqs nodes) /\
                     (forall u, ~ In (PNUser u) (lfric_file_names reqs nodes)).
Proof.
  (* one invoke 0 with kernels 1 1 2 2: a Profile region around the first two (named at generation:
     position 0) and an LFRicExtractTrans region around the last two (issued: counter 0) both get
     "invoke_0:r0" *)
  exists [(0, [2; 2])], [(0, [1; 1], PSGen); (0, [2; 2], PSIssued 0)]. split.
  - vm_compute. intro H. inversion H as [|x l Hn Hd]; subst. apply Hn. left. reflexivity.
  - intros u H. vm_compute in H. destruct H as [H|[H|H]]; try discriminate; destruct H.
Qed.
Print Assumptions C28_psy_lfric_mixed_refuted.

Example C28_psy_issue_nonvacuous :
  issue [] [(0, [1; 1]); (0, [2; 2]); (0, [3]); (1, [3]); (0, [3])]
  = [((0, None), 0); ((0, None), 1); ((0, Some 3), 0); ((1, Some 3), 0); ((0, Some 3), 1)].
Proof. exact issue_nonvacuous. Qed.
Print Assumptions C28_psy_issue_nonvacuous.
