(* C20 — LFRic built-ins compute their documented operations.  Property theorems only.
   Full statement: for every class in BUILTIN_MAP, under every combination of distributed memory
   and COMPUTE_ANNEXED_DOFS, serial or after OpenMP parallelisation (PARALLEL DO, or PARALLEL region + DO, reductions also with the
   run-reproducible scheme), the generated DoF loop sets
   every DoF of the documented range to the value of the user-guide formula evaluated on the
   original inputs (reductions: the documented SUM over the owned DoFs), for all field and scalar
   values, all aliasing of arguments, all layouts, all OpenMP schedules; everything else unchanged.
   Values are integers; `/`, `**`, INT, REAL are uninterpreted operators shared by code and guide
   (theorems hold for every interpretation).  Floating-point rounding is out of scope. *)
From Coq Require Import List ZArith Bool String Permutation.
Import ListNotations.
From PV Require Import C20.Model C20.Proofs C20.GenDoc C20.GenCode C20.GenObl C20.Final.
Open Scope Z_scope.

(* the index set of DO df = lo, hi, 1 *)
Theorem C20_do_loop_indices : forall lo hi x, In x (zrange lo hi) <-> lo <= x <= hi.
Proof. exact zrange_In. Qed.
Print Assumptions C20_do_loop_indices.

(* generic: a loop whose body is out(df) = rhs(df) sets exactly the visited DoFs to rhs of the
   ORIGINAL store (also in place / aliased) and leaves everything else unchanged *)
Theorem C20_pointwise_loop : forall O bind out rhs l s, NoDup l ->
  (forall df, In df l -> fdat (run_loop O bind (KAssign out rhs) l s) (bind out) df = eval O bind s df rhs) /\
  (forall f d, f <> bind out \/ ~ In d l -> fdat (run_loop O bind (KAssign out rhs) l s) f d = fdat s f d) /\
  (forall j, sval (run_loop O bind (KAssign out rhs) l s) j = sval s j) /\
  rvar (run_loop O bind (KAssign out rhs) l s) = rvar s /\ rcnt (run_loop O bind (KAssign out rhs) l s) = rcnt s /\
  lvar (run_loop O bind (KAssign out rhs) l s) = lvar s.
Proof. exact run_loop_assign. Qed.
Print Assumptions C20_pointwise_loop.

(* generic: any execution order of the iterations (hence any OpenMP schedule) gives the same store *)
Theorem C20_pointwise_any_order : forall O bind out rhs l l' s, NoDup l -> Permutation l l' ->
  store_eq (run_loop O bind (KAssign out rhs) l s) (run_loop O bind (KAssign out rhs) l' s).
Proof. exact run_loop_assign_perm. Qed.
Print Assumptions C20_pointwise_any_order.

Theorem C20_iterations_commute : forall O bind out rhs s d1 d2, d1 <> d2 ->
  store_eq (run_iter O bind (KAssign out rhs) (run_iter O bind (KAssign out rhs) s d1) d2)
           (run_iter O bind (KAssign out rhs) (run_iter O bind (KAssign out rhs) s d2) d1).
Proof. exact iterations_commute. Qed.
Print Assumptions C20_iterations_commute.

(* generic: red = red + g(df) accumulates the sum of g over the visited DoFs *)
Theorem C20_reduction_sum : forall O bind rhs g, red_free g = true ->
  (forall s df, eval O bind s df rhs = rvar s + eval O bind s df g) ->
  forall l s,
  rvar (run_loop O bind (KReduce rhs) l s) = rvar s + sum_over O bind s g l /\
  (forall f d, fdat (run_loop O bind (KReduce rhs) l s) f d = fdat s f d) /\
  (forall j, sval (run_loop O bind (KReduce rhs) l s) j = sval s j) /\
  rcnt (run_loop O bind (KReduce rhs) l s) = rcnt s.
Proof. intros O bind rhs g Hf Hr l s. rewrite (run_loop_accumulate O bind rhs g false Hf Hr). now repeat split. Qed.
Print Assumptions C20_reduction_sum.

Theorem C20_reduction_any_order : forall O bind g s l l', Permutation l l' ->
  sum_over O bind s g l = sum_over O bind s g l'.
Proof. exact sum_over_perm. Qed.
Print Assumptions C20_reduction_any_order.

(* OpenMP reduction(+:red): any distribution of the iterations over threads *)
Theorem C20_omp_reduction : forall O bind rhs g, red_free g = true ->
  (forall s df, eval O bind s df rhs = rvar s + eval O bind s df g) ->
  forall chunks s,
  rvar (run_omp_reduction O bind (KReduce rhs) chunks s) = rvar s + sum_over O bind s g (List.concat chunks) /\
  (forall f d, fdat (run_omp_reduction O bind (KReduce rhs) chunks s) f d = fdat s f d) /\
  (forall j, sval (run_omp_reduction O bind (KReduce rhs) chunks s) j = sval s j).
Proof. intros O bind rhs g Hf Hr chunks s. rewrite (run_omp_reduction_sum O bind rhs g Hf Hr). now repeat split. Qed.
Print Assumptions C20_omp_reduction.

(* REPRODUCIBLE OpenMP reductions: the array l_red(1, 1..nthreads) is zeroed, thread t accumulates its
   iterations into l_red(1,t) (body  l_red(1,th_idx) = l_red(1,th_idx) + g(df)), then the elements are
   added to the reduction variable: for ANY number of threads and ANY assignment of iterations to
   threads the result is the old value plus the sum of g over all assigned iterations *)
Theorem C20_reprod_reduction : forall O bind rhs g, red_free g = true ->
  (forall s df, eval O bind s df rhs = lvar s + eval O bind s df g) ->
  forall chunks s,
  rvar (run_reprod O bind (KReduceLocal rhs) true true chunks s) = rvar s + sum_over O bind s g (List.concat chunks) /\
  (forall f d, fdat (run_reprod O bind (KReduceLocal rhs) true true chunks s) f d = fdat s f d) /\
  (forall j, sval (run_reprod O bind (KReduceLocal rhs) true true chunks s) j = sval s j).
Proof. intros O bind rhs g Hf Hr chunks s. rewrite (run_reprod_sum O bind rhs g Hf Hr). now repeat split. Qed.
Print Assumptions C20_reprod_reduction.

(* the per-thread accumulation never touches the shared reduction variable *)
Theorem C20_reprod_thread_local : forall O bind rhs g, red_free g = true ->
  (forall s df, eval O bind s df rhs = lvar s + eval O bind s df g) ->
  forall l s,
  lvar (run_loop O bind (KReduceLocal rhs) l s) = lvar s + sum_over O bind s g l /\
  rvar (run_loop O bind (KReduceLocal rhs) l s) = rvar s /\
  (forall f d, fdat (run_loop O bind (KReduceLocal rhs) l s) f d = fdat s f d) /\
  (forall j, sval (run_loop O bind (KReduceLocal rhs) l s) j = sval s j) /\
  rcnt (run_loop O bind (KReduceLocal rhs) l s) = rcnt s.
Proof. intros O bind rhs g Hf Hr l s. rewrite (run_loop_accumulate O bind rhs g true Hf Hr). now repeat split. Qed.
Print Assumptions C20_reprod_thread_local.

(* setval_random: the n-th executed iteration receives the n-th number of the generator; frame *)
Theorem C20_random_loop : forall O bind out l s, NoDup l ->
  (forall i df, nth_error l i = Some df ->
      fdat (run_loop O bind (KRandom out) l s) (bind out) df = o_rand O (rcnt s + i)%nat) /\
  (forall f d, f <> bind out \/ ~ In d l -> fdat (run_loop O bind (KRandom out) l s) f d = fdat s f d) /\
  (forall j, sval (run_loop O bind (KRandom out) l s) j = sval s j) /\
  rvar (run_loop O bind (KRandom out) l s) = rvar s /\
  rcnt (run_loop O bind (KRandom out) l s) = (rcnt s + List.length l)%nat.
Proof. exact run_loop_random. Qed.
Print Assumptions C20_random_loop.

(* composition, for ANY instance/doc pair satisfying the obligations *)
Theorem C20_obligations_suffice : forall i d, instance_ok i d ->
  forall O bind L sch s, valid_schedule i d L sch ->
  doc_post O bind L (i_dm i) (i_annexed i) (d_spec d) s (run_instance O bind L i sch s).
Proof. exact instance_correct. Qed.
Print Assumptions C20_obligations_suffice.

(* THE GENERATED OBLIGATIONS: every (lowered built-in, setting) of the working tree meets its
   user-guide entry: GenObl.builtins_match_doc, dof_ranges_documented, skeletons_documented *)
Theorem C20_generated_obligations : Forall (fun p => instance_ok (fst p) (snd p)) GenObl.table.
Proof. exact table_ok. Qed.
Print Assumptions C20_generated_obligations.

(* the property: every built-in of the working tree, every setting, every schedule, all values *)
Theorem C20_builtins_compute_documented : forall i d, In (i, d) GenObl.table ->
  forall O bind L sch s, valid_schedule i d L sch ->
  doc_post O bind L (i_dm i) (i_annexed i) (d_spec d) s (run_instance O bind L i sch s).
Proof. intros i d Hin. apply instance_correct. exact (table_instance_ok i d Hin). Qed.
Print Assumptions C20_builtins_compute_documented.

(* reductions with distributed memory: the global sum of the per-process results is the sum over
   the owned DoFs of all processes *)
Theorem C20_dm_reductions_sum_owned : forall i d g, In (i, d) GenObl.table -> d_spec d = DSum g -> i_dm i = true ->
  forall O (ranks : list rank),
  (forall r, In r ranks -> valid_schedule i d (r_lay r) (r_sched r)) ->
  i_global_sum i = true /\
  global_sum (map (fun r => rvar (run_instance O (r_bind r) (r_lay r) i (r_sched r) (r_store r))) ranks) =
  zsum (map (fun r => sum_over O (r_bind r) (r_store r) g (zrange 1 (last_owned (r_lay r)))) ranks).
Proof. intros i d g Hin. apply dm_reduction_global. exact (table_instance_ok i d Hin). Qed.
Print Assumptions C20_dm_reductions_sum_owned.

(* nothing is left out: every class in BUILTIN_MAP appears under all four DM x annexed settings,
   serially and (where the transformations accept) with OMP PARALLEL DO and OMP PARALLEL + OMP DO; reductions also with reproducible reductions; the guide, the metadata file
   and BUILTIN_MAP list the same names *)
Theorem C20_every_builtin_every_setting : forall n, In n GenCode.builtin_names -> forall dm ann, exists i d,
  In (i, d) GenObl.table /\ i_name i = n /\ i_dm i = dm /\ i_annexed i = ann /\ i_omp i = None.
Proof. exact (groups_cover_serial groups builtin_names serial_coverage). Qed.
Print Assumptions C20_every_builtin_every_setting.

Theorem C20_every_omp_builtin_every_setting : forall n, In n GenObl.omp_builtin_names -> forall dm ann, exists i d,
  In (i, d) GenObl.table /\ i_name i = n /\ i_dm i = dm /\ i_annexed i = ann /\ omp_code i = 1%nat.
Proof. exact (groups_cover_sound groups 1 omp_builtin_names omp_coverage). Qed.
Print Assumptions C20_every_omp_builtin_every_setting.

(* OMP DO inside an OMP PARALLEL region (Dynamo0p3OMPLoopTrans + OMPParallelTrans) *)
Theorem C20_every_region_builtin_every_setting : forall n, In n GenObl.region_builtin_names -> forall dm ann, exists i d,
  In (i, d) GenObl.table /\ i_name i = n /\ i_dm i = dm /\ i_annexed i = ann /\ omp_code i = 2%nat.
Proof. exact (groups_cover_sound groups 2 region_builtin_names region_coverage). Qed.
Print Assumptions C20_every_region_builtin_every_setting.

(* run-reproducible OpenMP reductions ({"reprod": True}) for every built-in that writes a scalar; and
   every built-in whose documented definition is a SUM is one of those *)
Theorem C20_every_reduction_reprod_every_setting : forall n, In n GenObl.reprod_builtin_names -> forall dm ann, exists i d,
  In (i, d) GenObl.table /\ i_name i = n /\ i_dm i = dm /\ i_annexed i = ann /\ omp_code i = 3%nat.
Proof. exact (groups_cover_sound groups 3 reprod_builtin_names reprod_coverage). Qed.
Print Assumptions C20_every_reduction_reprod_every_setting.

Theorem C20_sum_builtins_are_reductions :
  forallb (fun p => negb (is_reduction_spec (d_spec (snd p))) || existsb (String.eqb (i_name (fst p))) GenObl.reduction_builtin_names) GenObl.table = true.
Proof. exact reductions_are_the_sum_builtins. Qed.
Print Assumptions C20_sum_builtins_are_reductions.

Theorem C20_names_agree :
  forallb (fun n => existsb (String.eqb n) GenDoc.doc_names) GenCode.builtin_names = true /\
  forallb (fun n => existsb (String.eqb n) GenCode.builtin_names) GenDoc.doc_names = true /\
  forallb (fun n => existsb (String.eqb n) GenDoc.meta_names) GenCode.builtin_names = true /\
  forallb (fun n => existsb (String.eqb n) GenCode.builtin_names) GenDoc.meta_names = true.
Proof. exact doc_lists_exactly_the_builtins. Qed.
Print Assumptions C20_names_agree.

(* non-vacuity: a concrete in-place, aliased run; a concrete admissible OpenMP schedule; the table is inhabited *)
Example C20_nonvacuous_inplace_aliased :
  let s' := run_instance ex_ops (fun _ => 3%nat) ex_layout ex_inc_X_plus_Y SSerial ex_store in
  map (fdat s' 3%nat) [1; 2; 7; 8; 9] = [602; 604; 614; 308; 309].
Proof. exact ex_inplace_aliased. Qed.
Print Assumptions C20_nonvacuous_inplace_aliased.

Example C20_nonvacuous_table : exists i d, In (i, d) GenObl.table /\ i_name i = "inc_X_plus_Y"%string /\ i_dm i = true /\ i_annexed i = true.
Proof. exact table_nonempty. Qed.
Print Assumptions C20_nonvacuous_table.

(* remark on the guide's prose gloss of sign_X ("a for X >= 0, -a for X < 0"): it agrees with the
   defining formula SIGN(a, X) iff a >= 0 *)
Theorem C20_sign_gloss_agrees_for_nonnegative_a : forall a x, 0 <= a -> fsign a x = if x >=? 0 then a else - a.
Proof. intros a x H. unfold fsign. now rewrite Z.abs_eq. Qed.
Print Assumptions C20_sign_gloss_agrees_for_nonnegative_a.

Theorem C20_sign_gloss_refuted_for_negative_a : exists a x, fsign a x <> (if x >=? 0 then a else - a).
Proof. exists (-2), 3. vm_compute. discriminate. Qed.
Print Assumptions C20_sign_gloss_refuted_for_negative_a.
