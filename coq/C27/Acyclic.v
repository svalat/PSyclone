(* C27 — the rank-based premise [acyclic_known] of [sort_respects_] follows from (and is in fact
   equivalent to) the natural path-based statement "there is no cycle among known dependencies".
   Rank of a := length of the longest chain of known dependencies starting at a, computed by a
   fuelled function; in a cycle-free map every chain is duplicate-free, hence (pigeonhole) shorter
   than [length m], so the function has stabilised at fuel [length m].  No axioms. *)
From Coq Require Import List Arith Lia Relations.
Import ListNotations.
From PV Require Import C27.Model C27.Proofs.

Definition kdep (m : modmap) (a b : nat) : Prop :=
  exists ds, In (a, ds) m /\ In b ds /\ In b (keys m).
Definition path (m : modmap) : nat -> nat -> Prop := clos_trans_1n nat (kdep m).
Definition no_cycle (m : modmap) : Prop := forall a, ~ path m a a.

Definition deps (m : modmap) (a : nat) : list nat :=
  flat_map (fun e => if fst e =? a then filter (fun d => memb d (keys m)) (snd e) else []) m.

Lemma deps_kdep m a b : In b (deps m a) <-> kdep m a b.
Proof.
  unfold deps, kdep. rewrite in_flat_map. split.
  - intros [[a' ds] [Hin Hb]]. cbn [fst snd] in Hb. destruct (a' =? a) eqn:E; [|destruct Hb].
    apply Nat.eqb_eq in E. subst a'. apply filter_In in Hb as [Hb Hk]. apply memb_In in Hk.
    exists ds. auto.
  - intros [ds [Hin [Hb Hk]]]. exists (a, ds). split; [exact Hin|]. cbn [fst snd].
    rewrite Nat.eqb_refl. apply filter_In. split; [exact Hb|apply memb_In, Hk].
Qed.

Fixpoint height (m : modmap) (fuel : nat) (a : nat) : nat :=
  match fuel with
  | 0 => 0
  | S f => list_max (map (fun b => S (height m f b)) (deps m a))
  end.

Lemma list_max_in_or_nil l : l = [] \/ In (list_max l) l.
Proof.
  induction l as [|x l IH]; [left; reflexivity|right].
  cbn [list_max fold_right]. change (fold_right Nat.max 0 l) with (list_max l).
  destruct (Nat.max_dec x (list_max l)) as [E|E]; rewrite E.
  - left; reflexivity.
  - destruct IH as [->|IH]; [cbn in E |right; exact IH].
    left. cbn. lia.
Qed.

Lemma list_max_ge l x : In x l -> x <= list_max l.
Proof.
  intro H. assert (L : list_max l <= list_max l) by lia.
  apply list_max_le in L. rewrite Forall_forall in L. apply L, H.
Qed.

Lemma height_step m f a b : kdep m a b -> S (height m f b) <= height m (S f) a.
Proof.
  intro H. apply deps_kdep in H. cbn [height]. apply list_max_ge.
  apply in_map_iff. exists b. auto.
Qed.

(* if the fuel was not exhausted, one more unit changes nothing *)
Lemma height_stable m : forall f a, height m f a < f -> height m (S f) a = height m f a.
Proof.
  induction f as [|f IH]; intros a H; [lia|].
  cbn [height] in *. f_equal. apply map_ext_in. intros b Hb. f_equal.
  change (list_max (map (fun b0 => S (height m f b0)) (deps m b))) with (height m (S f) b).
  apply IH.
  assert (S (height m f b) <= list_max (map (fun b0 => S (height m f b0)) (deps m a))).
  { apply list_max_ge. apply in_map_iff. exists b. auto. }
  lia.
Qed.

Inductive chain (m : modmap) : nat -> list nat -> Prop :=
| chain_nil a : chain m a []
| chain_cons a b l : kdep m a b -> chain m b l -> chain m a (b :: l).

Lemma height_chain m : forall f a, exists l, length l = height m f a /\ chain m a l.
Proof.
  induction f as [|f IH]; intro a.
  - exists []. split; [reflexivity|constructor].
  - cbn [height].
    destruct (list_max_in_or_nil (map (fun b => S (height m f b)) (deps m a))) as [E|Hin].
    + rewrite E. exists []. split; [reflexivity|constructor].
    + apply in_map_iff in Hin as [b [Eb Hb]]. destruct (IH b) as [l [Hl Hc]].
      exists (b :: l). split.
      * cbn [length]. rewrite Hl. exact Eb.
      * constructor; [apply deps_kdep, Hb|exact Hc].
Qed.

Lemma chain_path m a l : chain m a l -> forall x, In x l -> path m a x.
Proof.
  induction 1 as [a|a b l Hk Hc IH]; intros x Hx; [destruct Hx|].
  destruct Hx as [<-|Hx].
  - apply Relation_Operators.t1n_step, Hk.
  - eapply Relation_Operators.t1n_trans; [exact Hk|apply IH, Hx].
Qed.

Lemma chain_NoDup m a l : no_cycle m -> chain m a l -> NoDup (a :: l).
Proof.
  intros Hn. induction 1 as [a|a b l Hk Hc IH].
  - constructor; [intros []|constructor].
  - constructor; [|exact IH].
    intro Hin. apply (Hn a). apply (chain_path m a (b :: l)); [constructor; assumption|exact Hin].
Qed.

Lemma chain_keys m a l : chain m a l -> incl l (keys m).
Proof.
  induction 1 as [a|a b l Hk Hc IH]; intros x Hx; [destruct Hx|].
  destruct Hx as [<-|Hx]; [|apply IH, Hx]. destruct Hk as [ds [_ [_ Hb]]]. exact Hb.
Qed.

Lemma kdep_key m a b : kdep m a b -> In a (keys m).
Proof. intros [ds [Hin _]]. unfold keys. apply in_map_iff. exists (a, ds). auto. Qed.

(* pigeonhole: a non-trivial chain has fewer nodes than there are keys *)
Lemma height_bound m f a : no_cycle m -> height m f a = 0 \/ S (height m f a) <= length m.
Proof.
  intro Hn. destruct (height_chain m f a) as [l [Hl Hc]].
  destruct l as [|b l]; [left; symmetry; exact Hl|right].
  assert (ND := chain_NoDup m a _ Hn Hc).
  assert (IN : incl (a :: b :: l) (keys m)).
  { intros x [<-|Hx]; [|apply (chain_keys m a _ Hc), Hx].
    inversion Hc; subst. eapply kdep_key; eassumption. }
  apply (NoDup_incl_length ND) in IN. unfold keys in IN. rewrite map_length in IN.
  rewrite <- Hl. exact IN.
Qed.

Theorem no_cycle_acyclic_known : forall m, no_cycle m -> acyclic_known m.
Proof.
  intros m Hn. exists (height m (length m)). intros a ds b Hin Hb Hk.
  assert (K : kdep m a b) by (exists ds; auto).
  assert (Hpos : 1 <= length m) by (destruct m; [destruct Hin|cbn [length]; lia]).
  assert (Hlt : height m (length m) a < length m)
    by (destruct (height_bound m (length m) a Hn); lia).
  rewrite <- (height_stable m _ _ Hlt).
  apply (height_step m (length m) a b K).
Qed.

(* the converse: a rank excludes cycles, so the two formulations are equivalent *)
Lemma rank_path m (r : nat -> nat) :
  (forall a ds b, In (a, ds) m -> In b ds -> In b (keys m) -> r b < r a) ->
  forall a b, path m a b -> r b < r a.
Proof.
  intros Hr a b P. induction P as [a b [ds [H1 [H2 H3]]]|a b c [ds [H1 [H2 H3]]] P IH].
  - eapply Hr; eassumption.
  - specialize (Hr a ds b H1 H2 H3). lia.
Qed.

Theorem acyclic_known_no_cycle : forall m, acyclic_known m -> no_cycle m.
Proof. intros m [r Hr] a P. apply (rank_path m r Hr) in P. lia. Qed.

Corollary no_cycle_iff_acyclic_known m : no_cycle m <-> acyclic_known m.
Proof. split; [apply no_cycle_acyclic_known | apply acyclic_known_no_cycle]. Qed.

Corollary sort_respects_no_cycle : forall m, NoDup (keys m) -> no_cycle m ->
  forall a ds b, In (a, ds) m -> In b ds -> In b (keys m) -> before b a (sort_modules m).
Proof. intros m ND Hn. apply sort_respects_; [exact ND | apply no_cycle_acyclic_known, Hn]. Qed.

(* non-vacuity: the diamond of Proofs.v is cycle-free, and a 2-cycle is rejected *)
Example no_cycle_nonvacuous :
  let m := [(3, [1; 2; 9]); (1, [0]); (2, [0; 7]); (0, [])] in
  NoDup (keys m) /\ no_cycle m /\ before 1 3 (sort_modules m).
Proof.
  cbv zeta. pose proof acyclic_nonvacuous as H. cbv zeta in H. destruct H as [ND [AK _]].
  assert (NC := acyclic_known_no_cycle _ AK).
  split; [exact ND|]. split; [exact NC|].
  apply (sort_respects_no_cycle _ ND NC 3 [1; 2; 9] 1); cbn; auto.
Qed.

Example cycle_detected : ~ no_cycle [(0, [1]); (1, [0])].
Proof.
  intro H. apply (H 0). eapply Relation_Operators.t1n_trans; [|apply Relation_Operators.t1n_step].
  - exists [1]. cbn. auto.
  - exists [0]. cbn. auto.
Qed.

Print Assumptions sort_respects_no_cycle.
Print Assumptions no_cycle_iff_acyclic_known.
