(* C27 — proofs about the model of sort_modules: the result lists every module once, and with
   acyclic known dependencies every module follows the modules it depends on. *)
From Coq Require Import List Arith Bool Lia Permutation.
Import ListNotations.
From PV Require Import C27.Model.

Lemma memb_In x l : memb x l = true <-> In x l.
Proof.
  unfold memb. rewrite existsb_exists. split.
  - intros [y [Hy E]]. apply Nat.eqb_eq in E. subst. exact Hy.
  - intros H. exists x. split; [exact H | apply Nat.eqb_refl].
Qed.

Lemma length_keys m : length (keys m) = length m.
Proof. apply map_length. Qed.

Lemma in_keys m a ds : In (a, ds) m -> In a (keys m).
Proof. intros H. exact (in_map fst m (a, ds) H). Qed.

Lemma in_keys_entry m b : In b (keys m) -> exists ds, In (b, ds) m.
Proof.
  unfold keys. intros H. apply in_map_iff in H as [[k ds] [E Hin]]. cbn in E. subst. exists ds. exact Hin.
Qed.

Lemma keys_prune m : keys (prune m) = keys m.
Proof. unfold keys, prune. rewrite map_map. apply map_ext. intros [k ds]. reflexivity. Qed.

Lemma length_prune m : length (prune m) = length m.
Proof. unfold prune. apply map_length. Qed.

(* an entry of the pruned map: the known dependencies of an entry of the map *)
Lemma in_prune m a ds : In (a, ds) m ->
  In (a, filter (fun d => memb d (keys m)) (nodup Nat.eq_dec ds)) (prune m).
Proof. intros H. exact (in_map _ m (a, ds) H). Qed.

Lemma in_prune_inv m a ds' : In (a, ds') (prune m) ->
  exists ds, In (a, ds) m /\ forall b, In b ds' <-> In b ds /\ In b (keys m).
Proof.
  intros H. apply in_map_iff in H as [[a0 ds] [[= -> <-] H]]. exists ds. split; [exact H|].
  intro b. cbn [snd]. now rewrite filter_In, nodup_In, memb_In.
Qed.

Definition neqk (k x : nat) : bool := negb (x =? k).

Lemma neqk_true k x : neqk k x = true <-> x <> k.
Proof. unfold neqk. now rewrite negb_true_iff, Nat.eqb_neq. Qed.

Lemma keys_remove_mod k m : keys (remove_mod k m) = filter (neqk k) (keys m).
Proof.
  unfold keys, remove_mod. rewrite map_map. cbn [fst].
  induction m as [|[a ds] m IH]; cbn [filter map fst]; [reflexivity|].
  unfold neqk at 1. destruct (negb (a =? k)); cbn [map fst]; rewrite IH; reflexivity.
Qed.

Lemma in_remove_mod k m a ds : In (a, ds) m -> a <> k -> In (a, remove Nat.eq_dec k ds) (remove_mod k m).
Proof.
  intros Hin Hne. unfold remove_mod. apply in_map_iff. exists (a, ds). split; [reflexivity|].
  apply filter_In. split; [exact Hin | apply neqk_true, Hne].
Qed.

Lemma in_remove_mod_inv k m a ds' : In (a, ds') (remove_mod k m) ->
  exists ds, In (a, ds) m /\ a <> k /\ ds' = remove Nat.eq_dec k ds.
Proof.
  unfold remove_mod. intros H. apply in_map_iff in H as [[a0 ds0] [[= -> <-] Hin]].
  apply filter_In in Hin as [Hin Hf]. apply neqk_true in Hf. exists ds0. auto.
Qed.

(* removing a key from a duplicate-free list: the rest is duplicate-free and one shorter *)
Lemma remove_key k m : NoDup (keys m) -> In k (keys m) ->
  NoDup (keys (remove_mod k m)) /\ Permutation (k :: keys (remove_mod k m)) (keys m) /\
  S (length (remove_mod k m)) = length m.
Proof.
  intros Hnd Hin. rewrite keys_remove_mod.
  assert (Hnd' : NoDup (filter (neqk k) (keys m))) by apply NoDup_filter, Hnd.
  assert (HP : Permutation (k :: filter (neqk k) (keys m)) (keys m)).
  { apply NoDup_Permutation; [constructor; [|exact Hnd'] | exact Hnd |].
    - rewrite filter_In, neqk_true. tauto.
    - intro x. cbn [In]. rewrite filter_In, neqk_true.
      destruct (Nat.eq_dec x k) as [->|N]; [tauto | intuition congruence]. }
  split; [exact Hnd' | split; [exact HP|]].
  apply Permutation_length in HP. rewrite <- keys_remove_mod in HP. cbn [length] in HP.
  now rewrite !length_keys in HP.
Qed.

Lemma first_empty_some m k : first_empty m = Some k -> In (k, []) m.
Proof.
  induction m as [|[a ds] m IH]; cbn [first_empty]; [discriminate|].
  destruct ds as [|d ds].
  - intros E. inversion E; subst. left; reflexivity.
  - intros E. right. apply IH, E.
Qed.

Lemma first_empty_none m : first_empty m = None -> forall a ds, In (a, ds) m -> ds <> [].
Proof.
  induction m as [|[a0 ds0] m IH]; cbn [first_empty]; intros E a ds Hin; [destruct Hin|].
  destruct ds0 as [|d ds0]; [discriminate|].
  destruct Hin as [H|H]; [inversion H; subst; discriminate | eapply IH; eassumption].
Qed.

Lemma min_len_in m best : In (min_len m best) (fst best :: keys m).
Proof.
  revert best. induction m as [|[k ds] m IH]; intros best; cbn [min_len keys map fst].
  - left; reflexivity.
  - destruct (length ds <? snd best).
    + specialize (IH (k, length ds)). cbn [fst] in IH. destruct IH as [H|H]; [right; left; exact H | right; right; exact H].
    + specialize (IH best). destruct IH as [H|H]; [left; exact H | right; right; exact H].
Qed.

Lemma pick_in m : m <> [] -> In (pick m) (keys m).
Proof.
  intros Hne. unfold pick. destruct (first_empty m) as [k|] eqn:E.
  - apply first_empty_some in E. exact (in_keys _ _ _ E).
  - destruct m as [|[k ds] m]; [congruence|]. cbn [keys map fst].
    pose proof (min_len_in m (k, length ds)) as H. exact H.
Qed.

Lemma loop_perm : forall fuel m, NoDup (keys m) -> length m <= fuel -> Permutation (loop fuel m) (keys m).
Proof.
  induction fuel as [|f IH]; intros m Hnd Hlen.
  - destruct m; [apply perm_nil | cbn in Hlen; lia].
  - destruct m as [|e m']; [apply perm_nil|].
    set (m := e :: m') in *. cbn [loop]. fold m.
    destruct (remove_key (pick m) m Hnd) as [Hnd' [HP Hl]]; [apply pick_in; discriminate|].
    rewrite <- HP. apply perm_skip, IH; [exact Hnd' | lia].
Qed.

Definition closed (m : modmap) := forall a ds b, In (a, ds) m -> In b ds -> In b (keys m).
Definition ranked (r : nat -> nat) (m : modmap) := forall a ds b, In (a, ds) m -> In b ds -> r b < r a.
Definition before (b a : nat) (l : list nat) := exists l1 l2, l = l1 ++ a :: l2 /\ In b l1.

(* "no cycle among the known dependencies" is stated through a rank (topological numbering):
   every known dependency has a strictly smaller rank than the module that needs it. *)
Definition acyclic_known (m : modmap) :=
  exists r : nat -> nat, forall a ds b, In (a, ds) m -> In b ds -> In b (keys m) -> r b < r a.

Lemma closed_remove_mod k m : closed m -> closed (remove_mod k m).
Proof.
  intros Hc a ds' b H1 H2. apply in_remove_mod_inv in H1 as [ds [H0 [_ ->]]].
  apply in_remove in H2 as [H2 Hbk]. rewrite keys_remove_mod. apply filter_In.
  split; [exact (Hc _ _ _ H0 H2) | apply neqk_true, Hbk].
Qed.

Lemma ranked_remove_mod r k m : ranked r m -> ranked r (remove_mod k m).
Proof.
  intros Hr a ds' b H1 H2. apply in_remove_mod_inv in H1 as [ds [H0 [_ ->]]].
  apply in_remove in H2 as [H2 _]. exact (Hr _ _ _ H0 H2).
Qed.

Lemma min_rank (r : nat -> nat) (m : modmap) : m <> [] ->
  exists a ds, In (a, ds) m /\ forall a' ds', In (a', ds') m -> r a <= r a'.
Proof.
  induction m as [|[a ds] m IH]; [congruence|]. intros _.
  destruct m as [|e m'].
  - exists a, ds. split; [left; reflexivity|]. intros a' ds' [H|[]]. inversion H; subst; lia.
  - destruct IH as [a1 [ds1 [Hin Hmin]]]; [discriminate|].
    destruct (le_lt_dec (r a) (r a1)) as [L|L].
    + exists a, ds. split; [left; reflexivity|]. intros a' ds' [H|H].
      * inversion H; subst; lia.
      * specialize (Hmin _ _ H). lia.
    + exists a1, ds1. split; [right; exact Hin|]. intros a' ds' [H|H].
      * inversion H; subst; lia.
      * apply (Hmin _ _ H).
Qed.

Lemma ranked_has_empty r m : m <> [] -> closed m -> ranked r m -> exists k, first_empty m = Some k.
Proof.
  intros Hne Hc Hr. destruct (first_empty m) as [k|] eqn:E; [exists k; reflexivity|]. exfalso.
  destruct (min_rank r m Hne) as [a [ds [Hin Hmin]]].
  pose proof (first_empty_none m E a ds Hin) as Hds.
  destruct ds as [|b ds]; [congruence|].
  assert (Hb : In b (b :: ds)) by (left; reflexivity).
  pose proof (Hc _ _ _ Hin Hb) as Hk. apply in_keys_entry in Hk as [ds' Hin'].
  pose proof (Hr _ _ _ Hin Hb). pose proof (Hmin _ _ Hin'). lia.
Qed.

Lemma entry_unique m a ds ds' : NoDup (keys m) -> In (a, ds) m -> In (a, ds') m -> ds = ds'.
Proof.
  induction m as [|[k d] m IH]; intros Hnd H1 H2; [destruct H1|].
  cbn [keys map fst] in Hnd. inversion Hnd as [|? ? Hk Hnd']; subst.
  destruct H1 as [H1|H1], H2 as [H2|H2].
  - congruence.
  - inversion H1; subst. destruct (Hk (in_keys _ _ _ H2)).
  - inversion H2; subst. destruct (Hk (in_keys _ _ _ H1)).
  - apply IH; assumption.
Qed.

Lemma loop_respects r : forall fuel m, NoDup (keys m) -> closed m -> ranked r m -> length m <= fuel ->
  forall a ds b, In (a, ds) m -> In b ds -> before b a (loop fuel m).
Proof.
  induction fuel as [|f IH]; intros m Hnd Hc Hr Hlen a ds b Hin Hb.
  - destruct m; [destruct Hin | cbn in Hlen; lia].
  - destruct m as [|e m']; [destruct Hin|]. set (m := e :: m') in *.
    cbn [loop]. fold m.
    (* a ranked closed map has an entry without dependencies, which is the one picked *)
    destruct (ranked_has_empty r m) as [k Hk]; [discriminate|exact Hc|exact Hr|].
    assert (Hpick : pick m = k) by (unfold pick; rewrite Hk; reflexivity).
    rewrite Hpick. pose proof (first_empty_some _ _ Hk) as Hkin.
    assert (Hak : a <> k).
    { intro; subst a. pose proof (entry_unique _ _ _ _ Hnd Hin Hkin). subst ds. destruct Hb. }
    destruct (remove_key k m Hnd (in_keys _ _ _ Hkin)) as [Hnd' [_ Hl]].
    pose proof (in_remove_mod k m a ds Hin Hak) as Hin'.
    destruct (Nat.eq_dec b k) as [->|Nbk].
    + (* b is picked now, a later *)
      assert (Ha : In a (loop f (remove_mod k m))).
      { eapply Permutation_in; [apply Permutation_sym, loop_perm; [exact Hnd' | lia]|].
        exact (in_keys _ _ _ Hin'). }
      apply in_split in Ha as [l1 [l2 E]]. exists (k :: l1), l2. split; [rewrite E; reflexivity | left; reflexivity].
    + (* both are still there after k has been removed *)
      assert (Hb' : In b (remove Nat.eq_dec k ds)) by (apply in_in_remove; assumption).
      destruct (IH _ Hnd' (closed_remove_mod k m Hc) (ranked_remove_mod r k m Hr) ltac:(lia)
                   _ _ _ Hin' Hb') as [l1 [l2 [E Hl1]]].
      exists (k :: l1), l2. split; [rewrite E; reflexivity | right; exact Hl1].
Qed.

Lemma sort_respects_ m : NoDup (keys m) -> acyclic_known m ->
  forall a ds b, In (a, ds) m -> In b ds -> In b (keys m) -> before b a (sort_modules m).
Proof.
  intros Hnd [r Hr] a ds b Hin Hb Hk. unfold sort_modules.
  apply (loop_respects r (length m) (prune m)) with (ds := filter (fun d => memb d (keys m)) (nodup Nat.eq_dec ds)).
  - rewrite keys_prune; exact Hnd.
  - intros a1 ds1 b1 H1 H2. apply in_prune_inv in H1 as [ds0 [_ E]]. rewrite keys_prune. apply E, H2.
  - intros a1 ds1 b1 H1 H2. apply in_prune_inv in H1 as [ds0 [H0 E]]. apply E in H2 as [H2 H3].
    exact (Hr _ _ _ H0 H2 H3).
  - rewrite length_prune; lia.
  - apply in_prune, Hin.
  - apply filter_In. split; [apply nodup_In, Hb | apply memb_In, Hk].
Qed.

Lemma filter_idem {A} (f : A -> bool) l : filter f (filter f l) = filter f l.
Proof.
  induction l as [|x l IH]; cbn [filter]; [reflexivity|]. destruct (f x) eqn:E; cbn [filter]; rewrite ?E, IH; reflexivity.
Qed.

Lemma prune_idem m : prune (prune m) = prune m.
Proof.
  unfold prune at 1. rewrite keys_prune. unfold prune. rewrite map_map. apply map_ext. intros [k ds]. cbn [fst snd].
  f_equal. rewrite nodup_fixed_point; [apply filter_idem|]. apply NoDup_filter, NoDup_nodup.
Qed.

Lemma unknown_ignored_ m : sort_modules (prune m) = sort_modules m.
Proof. unfold sort_modules. rewrite prune_idem, length_prune. reflexivity. Qed.

(* a rank exists for the concrete diamond a<-b, a<-c, b<-d, c<-d: the premise is satisfiable *)
Example acyclic_nonvacuous :
  let m := [(3, [1; 2; 9]); (1, [0]); (2, [0; 7]); (0, [])] in
  NoDup (keys m) /\ acyclic_known m /\ sort_modules m = [0; 1; 2; 3].
Proof.
  cbn zeta. split; [|split].
  - repeat constructor; cbn; intuition congruence.
  - exists (fun x => x). intros a ds b Hin Hb Hk.
    (* entry by entry: each dependency is smaller than its module or (9, 7) not a key *)
    destruct Hin as [E|[E|[E|[E|[]]]]]; injection E as <- <-; cbn in Hb, Hk; intuition lia.
  - vm_compute. reflexivity.
Qed.
