(* C18 — text level: join is compositional over complete continuation groups, hence joining the
   concatenated per-line outputs of the limiter is equivalent to joining the input text. *)
From Coq Require Import Ascii Arith Bool NArith List.
Import ListNotations.
From PV Require Import C18.Types C18.Model C18.Join C18.LimitProofs C18.JoinLemmas C18.JoinAll.

(* frame: what was collected before does not influence what follows *)
Definition shift (I0 : list (kind * str)) (C0 : list str) (st : jstate) : jstate :=
  mkJ (j_items st ++ I0) (j_cmts st ++ C0) (j_pend st) (j_merge st).
(* the merge flag is only set when there is a comment to merge into *)
Definition inv (st : jstate) : Prop := j_merge st = true -> j_cmts st <> [].

(* o' is o with (I0, C0) collected before it; o keeps the invariant *)
Definition framed I0 C0 (o o' : option jstate) : Prop :=
  o' = option_map (shift I0 C0) o /\ forall st, o = Some st -> inv st.

Lemma framed_some : forall I0 C0 st, inv st -> framed I0 C0 (Some st) (Some (shift I0 C0 st)).
Proof. intros I0 C0 st H. split; [reflexivity|]. intros ? [= <-]. exact H. Qed.

Lemma framed_none : forall I0 C0, framed I0 C0 None None.
Proof. split; [reflexivity | discriminate]. Qed.

Lemma finish_framed : forall I0 C0 st k acc q t,
  framed I0 C0 (finish st k acc q t) (finish (shift I0 C0 st) k acc q t).
Proof.
  intros I0 C0 [I C P M] k acc q t. unfold finish, shift.
  destruct (scan_cmt q t); cbn [add_cmt j_items j_cmts j_pend j_merge];
    destruct (lstrip (rev (scan_code q t))) as [|a r]; try destruct (Ascii.eqb a amp);
    destruct (scan_q q t); try apply framed_none;
    (split; [reflexivity | intros ? [= <-]; unfold inv; cbn; congruence]).
Qed.

Lemma step_framed : forall I0 C0 st line, inv st -> framed I0 C0 (step st line) (step (shift I0 C0 st) line).
Proof.
  intros I0 C0 [I C P M] line Hinv. unfold inv in Hinv. cbn [j_merge j_cmts] in Hinv.
  (* a comment line, merged into the previous comment or not: the same in both branches of step *)
  assert (Hcmt : forall body,
    framed I0 C0
      (if prefixb cmt_marker body && M
       then match C with c0 :: r => Some (mkJ I ((c0 ++ skipn 3 body) :: r) P true) | [] => None end
       else Some (mkJ I (body :: C) P true))
      (if prefixb cmt_marker body && M
       then match C ++ C0 with c0 :: r => Some (mkJ (I ++ I0) ((c0 ++ skipn 3 body) :: r) P true) | [] => None end
       else Some (mkJ (I ++ I0) (body :: C ++ C0) P true))).
  { intro body. destruct (prefixb cmt_marker body); destruct M; cbn [andb];
      try (apply (framed_some I0 C0 (mkJ I (body :: C) P true)); unfold inv; cbn; congruence).
    destruct C as [|c0 rc]; [exfalso; apply Hinv; reflexivity|].
    apply (framed_some I0 C0 (mkJ I ((c0 ++ skipn 3 body) :: rc) P true)). unfold inv; cbn; congruence. }
  unfold step, shift. cbn [j_items j_cmts j_pend j_merge]. destruct P as [p|].
  - cbv zeta. destruct (lstrip line) as [|c r]; [apply (framed_some I0 C0 (mkJ I C (Some p) M)); exact Hinv|].
    destruct (cont_text (pk p) (pq p) (c :: r) line) as [[t|]|]; [| |apply framed_none].
    + apply (finish_framed I0 C0 (mkJ I C (Some p) M)).
    + apply Hcmt.
  - unfold step_idle. cbv zeta. cbn [j_items j_cmts j_pend j_merge].
    destruct (lstrip line) as [|c r]; [apply (framed_some I0 C0 (mkJ I C None false)); unfold inv; cbn; congruence|].
    destruct (Ascii.eqb c bang).
    + destruct (dir_start sent_omp (c :: r)); [apply (finish_framed I0 C0 (mkJ I C None M))|].
      destruct (dir_start sent_acc (c :: r)); [apply (finish_framed I0 C0 (mkJ I C None M))|].
      destruct (cond_start (c :: r)); [|apply Hcmt].
      destruct (lone None (skipn 2 (c :: r))); [apply framed_none | apply (finish_framed I0 C0 (mkJ I C None M))].
    + destruct (lone None (c :: r)); [apply framed_none | apply (finish_framed I0 C0 (mkJ I C None M))].
Qed.

Lemma run_frame : forall I0 C0 ls st, inv st -> run (shift I0 C0 st) ls = option_map (shift I0 C0) (run st ls).
Proof.
  intros I0 C0 ls. induction ls as [|l r IH]; intros st Hinv; [reflexivity|].
  cbn [run]. destruct (step_framed I0 C0 st l Hinv) as [E Hi]. rewrite E.
  destruct (step st l) as [st'|]; [|reflexivity]. cbn [option_map]. apply IH, Hi. reflexivity.
Qed.

Lemma run_app : forall a b st, run st (a ++ b) = match run st a with Some st' => run st' b | None => None end.
Proof.
  induction a as [|l a IH]; intros b st; [reflexivity|]. cbn [app run].
  destruct (step st l); [apply IH | reflexivity].
Qed.

(* the line does not use the limiter's comment-continuation marker `!& ` *)
Definition no_marker (l : str) : bool := negb (prefixb cmt_marker (lstrip l)).
Definition starts_ok (g : list str) : bool := match g with [] => true | l :: _ => no_marker l end.

Lemma step_merge_irrelevant : forall I C m l, no_marker l = true ->
  step (mkJ I C None m) l = step (mkJ I C None false) l.
Proof.
  intros I C m l H. unfold no_marker in H. apply negb_true_iff in H.
  unfold step. cbn [j_pend]. unfold step_idle. cbv zeta. cbn [j_items j_cmts j_pend j_merge].
  destruct (lstrip l) as [|c r]; [reflexivity|]. rewrite H. cbn [andb]. reflexivity.
Qed.

Lemma inv_jinit : inv jinit.
Proof. unfold inv. cbn. discriminate. Qed.

Lemma run_idle : forall l r I C m, no_marker l = true ->
  run (mkJ I C None m) (l :: r) = option_map (shift I C) (run jinit (l :: r)).
Proof.
  intros l r I C m H. cbn [run]. rewrite step_merge_irrelevant by assumption.
  exact (run_frame I C (l :: r) jinit inv_jinit).
Qed.

Definition jcat (a b : joined) : joined := (fst a ++ fst b, snd a ++ snd b).

(* join distributes over a complete group followed by further lines *)
Lemma join_app : forall g1 l r r1, join g1 = Some r1 -> no_marker l = true ->
  join (g1 ++ l :: r) = option_map (jcat r1) (join (l :: r)).
Proof.
  intros g1 l r r1 H Hm. unfold join in *. rewrite run_app.
  destruct (run jinit g1) as [[I C P M]|]; [|discriminate]. cbn [j_pend j_items j_cmts] in H.
  destruct P; [discriminate|]. injection H as <-.
  rewrite run_idle by assumption.
  destruct (run jinit (l :: r)) as [st2|]; [|reflexivity]. cbn [option_map].
  unfold shift. cbn [j_pend j_items j_cmts]. destruct (j_pend st2); [reflexivity|].
  cbn [option_map]. unfold jcat. cbn [fst snd]. rewrite !rev_app_distr. reflexivity.
Qed.

Lemma list_eqb_app : forall {A} (e : A -> A -> bool) a1 b1 a2 b2,
  list_eqb e a1 b1 = true -> list_eqb e a2 b2 = true -> list_eqb e (a1 ++ a2) (b1 ++ b2) = true.
Proof.
  intros A e a1. induction a1 as [|x a1 IH]; intros [|y b1] a2 b2 H1 H2; cbn in *; try discriminate; [assumption|].
  apply andb_true_iff in H1 as [E H1]. rewrite E. apply IH; assumption.
Qed.

Lemma jequiv_jcat : forall a1 b1 a2 b2, jequiv a1 b1 = true -> jequiv a2 b2 = true ->
  jequiv (jcat a1 a2) (jcat b1 b2) = true.
Proof.
  intros a1 b1 a2 b2 H1 H2. unfold jequiv, jcat in *. cbn [fst snd].
  apply andb_true_iff in H1 as [I1 C1]. apply andb_true_iff in H2 as [I2 C2].
  rewrite (list_eqb_app _ _ _ _ _ I1 I2), (list_eqb_app _ _ _ _ _ C1 C2). reflexivity.
Qed.

(* a complete continuation group of the input with the group of output lines produced for it:
   both non-empty, neither starts with the `!& ` marker, both join, with equivalent results *)
Definition group_okb (g : list str * list str) : bool :=
  match fst g, snd g with
  | l :: _, o :: _ =>
      no_marker l && no_marker o &&
      match join (fst g), join (snd g) with
      | Some r, Some r' => jequiv r' r
      | _, _ => false
      end
  | _, _ => false
  end.

Theorem join_groups_ : forall gs, forallb group_okb gs = true ->
  exists R R', join (concat (map fst gs)) = Some R /\ join (concat (map snd gs)) = Some R' /\ jequiv R' R = true.
Proof.
  induction gs as [|[gi go] gs IH]; intros H.
  - exists ([], []), ([], []). repeat split; reflexivity.
  - cbn [forallb] in H. apply andb_true_iff in H as [Hg Hr]. destruct (IH Hr) as [R [R' [J [J' E]]]].
    unfold group_okb in Hg. cbn [fst snd] in Hg.
    destruct gi as [|l gi']; [discriminate|]. destruct go as [|o go']; [discriminate|].
    apply andb_true_iff in Hg as [Hm Hj]. apply andb_true_iff in Hm as [Hml Hmo].
    destruct (join (l :: gi')) as [r|] eqn:Jr; [|discriminate].
    destruct (join (o :: go')) as [r'|] eqn:Jr'; [|discriminate].
    cbn [map concat fst snd].
    destruct gs as [|[gi2 go2] gs'].
    + cbn [map concat]. rewrite !app_nil_r. exists r, r'. repeat split; assumption.
    + cbn [forallb] in Hr. apply andb_true_iff in Hr as [Hg2 _].
      unfold group_okb in Hg2. cbn [fst snd] in Hg2.
      destruct gi2 as [|l2 gi2']; [discriminate|]. destruct go2 as [|o2 go2']; [discriminate|].
      apply andb_true_iff in Hg2 as [Hm2 _]. apply andb_true_iff in Hm2 as [Hml2 Hmo2].
      cbn [map concat fst snd] in *.
      set (X := concat (map fst gs')) in *. set (Y := concat (map snd gs')) in *.
      change ((l2 :: gi2') ++ X) with (l2 :: (gi2' ++ X)) in *.
      change ((o2 :: go2') ++ Y) with (o2 :: (go2' ++ Y)) in *.
      rewrite (join_app (l :: gi') l2 (gi2' ++ X) r Jr Hml2), (join_app (o :: go') o2 (go2' ++ Y) r' Jr' Hmo2).
      rewrite J, J'. cbn [option_map]. exists (jcat r R), (jcat r' R'). repeat split; try reflexivity.
      apply jequiv_jcat; assumption.
Qed.

Theorem join_text_partial_ : forall L ls out,
  process_lines L ls = Ok out ->
  forallb (fun l => safe l && no_marker l) ls = true ->
  (forall l o, In l ls -> process_line L l = Ok o -> starts_ok o = true) ->
  exists R R', join ls = Some R /\ join out = Some R' /\ jequiv R' R = true.
Proof.
  intros L ls out H Hs Ho. destruct (process_lines_concat L ls out H) as [outs [F E]]. subst out.
  set (gs := combine (map (fun l : str => l :: nil) ls) outs).
  assert (G : (forallb group_okb gs = true) /\ (concat (map fst gs) = ls) /\ (concat (map snd gs) = concat outs)).
  { subst gs. clear H. induction F as [|l o ls' outs' P F IH]; [repeat split; reflexivity|].
    cbn [forallb] in Hs. apply andb_true_iff in Hs as [Hl Hs']. apply andb_true_iff in Hl as [Hsafe Hmark].
    destruct (IH Hs') as [G1 [G2 G3]]; [intros l0 o0 Hin; apply Ho; right; exact Hin|].
    cbn [map combine forallb concat fst snd app]. rewrite G1, G2, G3. repeat split; try reflexivity.
    rewrite andb_true_r. unfold group_okb. cbn [fst snd].
    pose proof (Ho l o (or_introl eq_refl) P) as So.
    assert (Hj : exists r, join [l] = Some r).
    { unfold safe in Hsafe. destruct (join [l]) as [r|]; [exists r; reflexivity | discriminate]. }
    destruct Hj as [r Hj].
    destruct (join_process_partial_ L l o r Hsafe Hj P) as [r' [Hj' Eq]].
    destruct o as [|o1 o']; [destruct (process_line_nonempty L l [] P eq_refl)|].
    cbn [starts_ok] in So. rewrite Hmark, So, Hj, Hj'. cbn [andb]. exact Eq. }
  destruct G as [G1 [G2 G3]]. destruct (join_groups_ _ G1) as [R [R' [J [J' Eq]]]].
  rewrite G2 in J. rewrite G3 in J'. exists R, R'. repeat split; assumption.
Qed.
