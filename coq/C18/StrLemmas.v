(* C18 — lemmas about lstrip / fnw / prefixb / rfind / find_break_point of Model.v *)
From Coq Require Import Ascii Arith Bool NArith List Lia.
Import ListNotations.
From PV Require Import C18.Types C18.Model.

Lemma lstrip_length : forall s, length (lstrip s) <= length s.
Proof.
  induction s as [|c r IH]; cbn [lstrip]; [lia|].
  destruct (is_ws c); cbn [length]; lia.
Qed.

Lemma lstrip_decomp : forall s, exists w, s = w ++ lstrip s /\ Forall (fun c => is_ws c = true) w /\ length w = fnw s.
Proof.
  induction s as [|c r IH].
  - exists []. cbn. repeat split; constructor.
  - unfold fnw. cbn [lstrip]. destruct (is_ws c) eqn:E.
    + destruct IH as [w [H1 [H2 H3]]]. exists (c :: w). repeat split.
      * cbn. f_equal. exact H1.
      * constructor; assumption.
      * cbn [length]. unfold fnw in H3. pose proof (lstrip_length r). lia.
    + exists []. repeat split; [constructor | cbn [length]; lia].
Qed.

Lemma lstrip_head_nonws : forall s c r, lstrip s = c :: r -> is_ws c = false.
Proof.
  induction s as [|a s IH]; cbn [lstrip]; intros c r H; [discriminate|].
  destruct (is_ws a) eqn:E; [eauto | congruence].
Qed.

Lemma lstrip_ws_app : forall w s, Forall (fun c => is_ws c = true) w -> lstrip (w ++ s) = lstrip s.
Proof.
  induction w as [|c w IH]; intros s H; [reflexivity|].
  inversion H; subst. cbn [app lstrip]. rewrite H2. apply IH; assumption.
Qed.

Lemma lstrip_all_ws : forall w, Forall (fun c => is_ws c = true) w -> lstrip w = [].
Proof. intros w H. rewrite <- (app_nil_r w). exact (lstrip_ws_app w [] H). Qed.

Lemma lstrip_nonws : forall c r, is_ws c = false -> lstrip (c :: r) = c :: r.
Proof. intros c r H. cbn [lstrip]. rewrite H. reflexivity. Qed.

Lemma lstrip_idem : forall s, lstrip (lstrip s) = lstrip s.
Proof.
  intros s. destruct (lstrip s) as [|c r] eqn:E; [reflexivity|].
  apply lstrip_nonws. eapply lstrip_head_nonws; eauto.
Qed.

Lemma line_type_lstrip : forall l, line_type (lstrip l) = line_type l.
Proof. intros l. unfold line_type, re_ws_then. rewrite lstrip_idem. reflexivity. Qed.

Lemma lstrip_app_nonempty : forall a b, lstrip a <> [] -> lstrip (a ++ b) = lstrip a ++ b.
Proof.
  induction a as [|c a IH]; intros b H; [cbn in H; congruence|].
  cbn [app lstrip] in *. destruct (is_ws c); [apply IH; assumption | reflexivity].
Qed.

Lemma fnw_le : forall s, fnw s <= length s.
Proof. intros s. unfold fnw. lia. Qed.

Lemma fnw_lstrip_length : forall s, fnw s + length (lstrip s) = length s.
Proof. intros s. unfold fnw. pose proof (lstrip_length s). lia. Qed.

Lemma lstrip_firstn : forall s n, fnw s < n -> fnw s < length s ->
  lstrip (firstn n s) = firstn (n - fnw s) (lstrip s) /\ lstrip (firstn n s) <> [].
Proof.
  intros s n H Hl. destruct (lstrip_decomp s) as [w [H1 [H2 H3]]].
  pose proof (fnw_lstrip_length s) as F.
  remember (fnw s) as f eqn:Ef. clear Ef.
  destruct (lstrip s) as [|c r] eqn:E.
  - cbn in F. lia.
  - assert (Hc : is_ws c = false) by (eapply lstrip_head_nonws; eauto).
    clear E. subst s. rewrite firstn_app, H3, (firstn_all2 w) by lia.
    rewrite lstrip_ws_app by assumption.
    destruct (n - f) as [|m] eqn:En; [lia|].
    cbn [firstn]. rewrite lstrip_nonws by assumption. split; [reflexivity | discriminate].
Qed.

Lemma prefixb_length : forall p s, prefixb p s = true -> length p <= length s.
Proof.
  induction p as [|a p IH]; intros [|b s] H; cbn in *; try lia; try discriminate.
  apply andb_true_iff in H as [_ H]. apply IH in H. lia.
Qed.

Lemma prefixb_app : forall p s, prefixb p s = true -> exists r, s = p ++ r.
Proof.
  induction p as [|a p IH]; intros [|b s] H; cbn in *; try discriminate.
  - exists []. reflexivity.
  - exists (b :: s). reflexivity.
  - apply andb_true_iff in H as [H1 H2]. apply Ascii.eqb_eq in H1. subst.
    destruct (IH _ H2) as [r Hr]. exists r. rewrite Hr. reflexivity.
Qed.

Lemma prefixb_refl_app : forall p r, prefixb p (p ++ r) = true.
Proof.
  induction p as [|a p IH]; intros r; cbn; [reflexivity|].
  rewrite Ascii.eqb_refl. apply IH.
Qed.

Lemma iprefixb_firstn : forall p s n, iprefixb p s = false -> iprefixb p (firstn n s) = false.
Proof.
  induction p as [|a p IH]; intros s n H; [discriminate H|].
  destruct n as [|n]; [reflexivity|]. destruct s as [|b s]; [reflexivity|].
  cbn in *. destruct (ieqb a b); [apply IH, H | reflexivity].
Qed.

Definition occurs (key s : str) (i : nat) : Prop := i < length s /\ prefixb key (skipn i s) = true.

Lemma rfind_go_sound : forall key s pos lo hi best i, key <> [] ->
  rfind_go key s pos lo hi best = Some i ->
  best = Some i \/ exists k, i = pos + k /\ occurs key s k /\ lo <= k /\ k + length key <= hi.
Proof.
  intros key s. induction s as [|c r IH]; intros pos lo hi best i Hk H; cbn [rfind_go] in H.
  - left. exact H.
  - apply IH in H; [|assumption]. destruct H as [H | [k [Hi [[Hl Hp] [Hlo Hhi]]]]].
    + destruct (is_zero lo && (length key <=? hi) && prefixb key (c :: r)) eqn:E.
      * right. inversion H; subst. exists 0.
        apply andb_true_iff in E as [E E3]. apply andb_true_iff in E as [E1 E2].
        apply Nat.leb_le in E2. destruct lo; [|discriminate].
        repeat split; cbn [length skipn]; try lia. exact E3.
      * left. exact H.
    + right. exists (S k). repeat split; cbn [length skipn]; try lia. exact Hp.
      destruct key; [congruence|]. cbn [length] in *. lia.
Qed.

Lemma rfind_sound : forall key s lo hi i, key <> [] -> rfind key s lo hi = Some i ->
  occurs key s i /\ lo <= i /\ i + length key <= hi.
Proof.
  intros key s lo hi i Hk H. unfold rfind in H. apply rfind_go_sound in H; [|assumption].
  destruct H as [H | [k [Hi H]]]; [discriminate|]. cbn in Hi. subst. exact H.
Qed.

Lemma rfind_go_keep : forall key s pos lo hi best, best <> None -> rfind_go key s pos lo hi best <> None.
Proof.
  intros key s. induction s as [|c r IH]; intros pos lo hi best H; cbn [rfind_go]; [assumption|].
  apply IH. destruct (is_zero lo && (length key <=? hi) && prefixb key (c :: r)); [discriminate | assumption].
Qed.

Lemma rfind_go_complete : forall key s pos lo hi best k,
  occurs key s k -> lo <= k -> k + length key <= hi -> rfind_go key s pos lo hi best <> None.
Proof.
  intros key s. induction s as [|c r IH]; intros pos lo hi best k [Hl Hp] Hlo Hhi; cbn [length] in Hl; [lia|].
  cbn [rfind_go]. destruct k as [|k].
  - apply rfind_go_keep. cbn [skipn] in Hp. rewrite Hp.
    assert (E1 : is_zero lo = true) by (destruct lo; [reflexivity | lia]).
    assert (E2 : (length key <=? hi) = true) by (apply Nat.leb_le; lia).
    rewrite E1, E2. discriminate.
  - apply (IH _ _ _ _ k); [split; [lia | exact Hp] | lia | lia].
Qed.

Lemma rfind_complete : forall key s lo hi k,
  occurs key s k -> lo <= k -> k + length key <= hi -> rfind key s lo hi <> None.
Proof. intros. unfold rfind. eapply rfind_go_complete; eauto. Qed.

Definition keys_ok (keys : list str) : Prop := Forall (fun k => k <> []) keys.

Lemma fbp_sound : forall line m keys bp, keys_ok keys -> find_break_point line m keys = Some bp ->
  exists key i, In key keys /\ key <> [] /\ bp = i + length key /\ occurs key line i /\ fnw line + 1 <= i /\ bp <= m.
Proof.
  intros line m keys. induction keys as [|k ks IH]; intros bp Hk H; cbn [find_break_point] in H; [discriminate|].
  inversion Hk as [|? ? Hk1 Hk2]; subst.
  destruct (rfind k line (fnw line + 1) m) as [i|] eqn:E.
  - inversion H; subst. apply rfind_sound in E; [|assumption]. destruct E as [Ho [Hlo Hhi]].
    exists k, i. repeat split; try assumption; try (left; reflexivity); apply Ho.
  - destruct (IH bp Hk2 H) as [key [i [Hin Hr]]]. exists key, i. split; [right; assumption | exact Hr].
Qed.

Lemma fbp_bounds : forall line m keys bp, keys_ok keys -> find_break_point line m keys = Some bp ->
  fnw line + 2 <= bp /\ bp <= m /\ bp <= length line /\ fnw line < length line.
Proof.
  intros line m keys bp Hk H. apply fbp_sound in H; [|assumption].
  destruct H as [key [i [_ [Hne [Hbp [[Hl Hp] [Hlo Hm]]]]]]].
  apply prefixb_length in Hp. rewrite skipn_length in Hp.
  destruct key; [congruence|]. cbn [length] in *. lia.
Qed.

Lemma fbp_complete : forall line m keys key i, In key keys -> occurs key line i -> fnw line + 1 <= i ->
  i + length key <= m -> find_break_point line m keys <> None.
Proof.
  intros line m keys. induction keys as [|k ks IH]; intros key i Hin Ho Hlo Hhi; [destruct Hin|].
  cbn [find_break_point]. destruct (rfind k line (fnw line + 1) m) eqn:E; [discriminate|].
  destruct Hin as [Hin | Hin].
  - subst. exfalso. eapply rfind_complete; eauto.
  - eapply IH; eauto.
Qed.

Lemma fbp_mono : forall line m m' keys, keys_ok keys -> m <= m' ->
  find_break_point line m keys <> None -> find_break_point line m' keys <> None.
Proof.
  intros line m m' keys Hk Hm H. destruct (find_break_point line m keys) as [bp|] eqn:E; [|congruence].
  apply fbp_sound in E; [|assumption]. destruct E as [key [i [Hin [_ [Hbp [Ho [Hlo Hhi]]]]]]].
  eapply fbp_complete; eauto. lia.
Qed.
