(* C18 — joining the limiter's output gives back the statement (line types statement / unknown) *)
From Coq Require Import Ascii Arith Bool NArith List Lia.
Import ListNotations.
From PV Require Import C18.Types C18.Gen C18.Model C18.Join C18.StrLemmas C18.LimitProofs C18.JoinLemmas.

Lemma scan_cmt_wrap : forall q seg, qok q -> scan_cmt q seg = None -> scan_cmt q (amp :: seg ++ [amp]) = None.
Proof.
  intros q seg Hq H. rewrite scan_cmt_cons by (assumption || apply neutral_amp).
  rewrite scan_cmt_app by assumption.
  rewrite scan_cmt_cons by (apply scan_q_ok; assumption) || apply neutral_amp.
  reflexivity.
Qed.

Lemma step_stmt_cont : forall st acc q text, j_pend st = Some (mkPend KStmt acc q) ->
  lone q (amp :: text) = false -> step st (amp :: text) = finish st KStmt acc q text.
Proof.
  intros st acc q text Hp L0. unfold step. rewrite Hp. cbv zeta. cbn [pk pq pacc].
  rewrite (lstrip_nonws amp _ ws_amp). cbv iota. unfold cont_text. cbn [first_is].
  change (Ascii.eqb amp bang) with false. change (Ascii.eqb amp amp) with true. cbv iota.
  rewrite L0. reflexivity.
Qed.

Lemma step_stmt_mid : forall st acc q seg, qok q -> scan_cmt q seg = None ->
  j_pend st = Some (mkPend KStmt acc q) ->
  step st (amp :: seg ++ [amp]) =
  Some (mkJ (j_items st) (j_cmts st) (Some (mkPend KStmt (acc ++ seg) (scan_q q seg))) false).
Proof.
  intros st acc q seg Hq Hc Hp.
  rewrite (step_stmt_cont st acc q _ Hp (not_lone q amp seg amp Hq (scan_cmt_wrap q seg Hq Hc) ws_amp ws_amp)).
  apply finish_amp; assumption.
Qed.

Lemma step_stmt_last : forall st acc q rest, qok q -> scan_cmt q rest = None -> scan_q q rest = None ->
  good_end rest = true -> j_pend st = Some (mkPend KStmt acc q) ->
  step st (amp :: rest) = Some (mkJ ((KStmt, lstrip (acc ++ rest)) :: j_items st) (j_cmts st) None false).
Proof.
  intros st acc q rest Hq Hc Hqf Hg Hp. destruct (good_end_snoc rest Hg) as [p [c [E [W A]]]].
  rewrite (step_stmt_cont st acc q _ Hp).
  - apply finish_done; try assumption. apply good_end_amp_end. assumption.
  - rewrite E. apply not_lone; try assumption; [|apply ws_amp].
    rewrite <- E. rewrite scan_cmt_cons by (assumption || apply neutral_amp). assumption.
Qed.

Lemma stmt_loop : forall L keys, keys_ok keys -> forall fuel line ls,
  cont_loop fuel L [amp] [amp] keys line = Ok ls ->
  forall st acc q, qok q -> j_pend st = Some (mkPend KStmt acc q) ->
  scan_cmt q line = None -> scan_q q line = None -> good_end line = true ->
  run st ls = Some (mkJ ((KStmt, lstrip (acc ++ line)) :: j_items st) (j_cmts st) None false).
Proof.
  intros L keys Hk.
  apply (cont_loop_Ok_ind L [amp] [amp] keys (fun line ls => forall st acc q, qok q ->
    j_pend st = Some (mkPend KStmt acc q) -> scan_cmt q line = None -> scan_q q line = None -> good_end line = true ->
    run st ls = Some (mkJ ((KStmt, lstrip (acc ++ line)) :: j_items st) (j_cmts st) None false))).
  - intros [|c r] _ st acc q Hq Hp Hc Hqf Hg; [discriminate Hg|]. cbn [run app].
    rewrite (step_stmt_last st acc q (c :: r)) by assumption. reflexivity.
  - intros line bp ls E F IH st acc q Hq Hp Hc Hqf Hg. cbn [length] in E, F.
    destruct (fbp_bounds _ _ _ _ Hk F) as [B1 [B2 _]].
    destruct (scan_split q (firstn bp line) (skipn bp line)) as [Hc1 [Hc2 Hq2]]; [rewrite firstn_skipn; assumption ..|].
    cbn [run app]. rewrite (step_stmt_mid st acc q (firstn bp line) Hq Hc1 Hp).
    rewrite (IH (mkJ (j_items st) (j_cmts st) (Some (mkPend KStmt (acc ++ firstn bp line) (scan_q q (firstn bp line)))) false)
               _ _ (scan_q_ok _ _ Hq) eq_refl Hc2 Hq2)
      by (rewrite good_end_skipn by lia; exact Hg).
    cbn [j_items j_cmts]. rewrite <- app_assoc, firstn_skipn. reflexivity.
Qed.

(* what `join [x] = one statement, no comment` says about x *)
Definition stmt_facts (x : str) : Prop :=
  (exists c r, lstrip x = c :: r /\ Ascii.eqb c bang = false) /\
  scan_cmt None x = None /\ scan_q None x = None /\ good_end x = true.

Lemma join1_stmt_inv : forall l t, join [l] = Some ([(KStmt, t)], []) -> last_nonws l = true ->
  stmt_facts l /\ t = lstrip l.
Proof.
  intros l t H Hl. apply join1_inv in H. destruct (lstrip l) as [|c r] eqn:Eb; [discriminate H|].
  destruct (Ascii.eqb c bang) eqn:Ec.
  - exfalso. destruct (dir_start sent_omp (c :: r)); [destruct H as [H _]; discriminate H|].
    destruct (dir_start sent_acc (c :: r)); [destruct H as [H _]; discriminate H|].
    destruct (cond_start (c :: r)); [destruct H as [H _]|]; discriminate H.
  - destruct H as [I [Cm [Q A]]]. cbn [fst snd app] in I, Cm.
    destruct (scan_cmt None l) eqn:Sc; [discriminate Cm|]. rewrite (scan_code_nocmt l None Sc) in *.
    injection I as ->. split; [|exact Eb]. split; [exists c, r; auto|].
    repeat split; try assumption. apply last_nonws_good; assumption.
Qed.

Lemma stmt_emit : forall L keys x bp ls, keys_ok keys -> stmt_facts x ->
  fnw x < bp -> bp < length x ->
  emit L [amp] [amp] keys x bp = Ok ls -> join ls = Some ([(KStmt, lstrip x)], []).
Proof.
  intros L keys x bp ls Hk [[c [r [Eb Ec]]] [Sc [Sq G]]] B1 B2 H. destruct (emit_inv _ _ _ _ _ _ _ H) as [ls' [C ->]].
  destruct (scan_split None (firstn bp x) (skipn bp x)) as [Hc1 [Hc2 Hq2]]; [rewrite firstn_skipn; assumption ..|].
  (* the first line *)
  destruct (lstrip_firstn x bp B1 ltac:(lia)) as [F1 F2]. rewrite Eb in F1.
  destruct (bp - fnw x) as [|m] eqn:Em; [lia|]. cbn [firstn] in F1.
  destruct (lstrip_decomp (firstn bp x)) as [w [Ex [Hw _]]]. rewrite F1 in Ex.
  destruct (scan_ws_prefix w (c :: firstn m r) None qok_none Hw) as [A1 _]. rewrite <- Ex in A1.
  assert (S1 : step jinit (firstn bp x ++ [amp]) =
               Some (mkJ [] [] (Some (mkPend KStmt (firstn bp x) (scan_q None (firstn bp x)))) false)).
  { unfold step. cbn [jinit j_pend]. unfold step_idle. cbv zeta.
    rewrite lstrip_app_nonempty by assumption. rewrite F1. cbn [app]. rewrite Ec.
    assert (W : is_ws c = false) by (eapply lstrip_head_nonws; eauto).
    rewrite (not_lone None c (firstn m r) amp qok_none); [| |assumption|apply ws_amp].
    - rewrite (finish_amp jinit KStmt [] None (firstn bp x) qok_none Hc1). reflexivity.
    - change (c :: firstn m r ++ [amp]) with ((c :: firstn m r) ++ [amp]).
      rewrite scan_cmt_app by (rewrite <- A1; assumption).
      rewrite scan_cmt_cons by (apply scan_q_ok, qok_none) || apply neutral_amp. reflexivity. }
  unfold join. cbn [run]. rewrite S1.
  rewrite (stmt_loop L keys Hk _ _ _ C (mkJ [] [] (Some (mkPend KStmt (firstn bp x) (scan_q None (firstn bp x)))) false)
             _ _ (scan_q_ok _ _ qok_none) eq_refl Hc2 Hq2)
    by (rewrite good_end_skipn by lia; exact G).
  cbn [j_pend j_items j_cmts rev app]. rewrite firstn_skipn. reflexivity.
Qed.

Theorem join_process_stmt : forall L l ls t,
  line_type l = Statement \/ line_type l = Unknown ->
  join [l] = Some ([(KStmt, t)], []) -> last_nonws l = true ->
  process_line L l = Ok ls -> join ls = Some ([(KStmt, t)], []).
Proof.
  intros L l ls t Ht Hj Hl H.
  assert (Hcs : cont_start (line_type l) = [amp] /\ cont_end (line_type l) = [amp])
    by (destruct Ht as [Ht | Ht]; rewrite Ht; split; reflexivity).
  destruct Hcs as [Hcs Hce].
  pose proof (keys_ok_all (line_type l)) as Hk.
  destruct (process_line_cases L l ls H) as [x [Hx Hls]]. rewrite Hcs, Hce in Hls.
  assert (Hx' : join [x] = Some ([(KStmt, t)], []) /\ last_nonws x = true)
    by (destruct Hx as [-> | ->]; [|rewrite join_one_lstrip; apply last_nonws_lstrip in Hl]; auto).
  destruct Hx' as [Hjx Hlx]. destruct Hls as [[_ ->] | [bp [E [F Em]]]]; [exact Hjx|].
  destruct (join1_stmt_inv x t Hjx Hlx) as [Fx ->].
  destruct (fbp_bounds _ _ _ _ Hk F) as [B1 [B2 _]]. cbn [length] in B2.
  apply (stmt_emit L _ x bp ls Hk Fx); [lia | lia | exact Em].
Qed.
