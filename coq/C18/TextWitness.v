(* C18 — non-vacuity of the text-level theorems: a text made of a directive already split over two
   lines whose `!$omp&` continuation line is itself longer than the limit, a long call and a long
   comment. *)
From Coq Require Import Ascii Arith Bool NArith List.
From Coq Require String.
Import ListNotations.
From PV Require Import C18.Types C18.Gen C18.Model C18.Join C18.TextProofs.

Module TLits.
  Import String.
  Local Open Scope string_scope.
  Definition w (x : string) : str := list_ascii_of_string x.
  Definition d1 : str := w "  !$omp parallel do default(shared), &".
  Definition d2 : str := w "  !$omp& private(i, tmp_one, tmp_two, tmp_three, tmp_four, tmp_five), schedule(static), reduction(+:total)".
  Definition s1 : str := w "    call invoke_kernel(f1_proxy%data, f2_proxy%data, m1_proxy%data, ndf_w1, undf_w1, map_w1(:,cell))".
  Definition c1 : str := w "      ! Call the kernel for each cell, looping over the halo to depth 2. See eq. (3), a,b".
End TLits.
Export TLits.

Definition out_of (L : nat) (ls : list str) : list str :=
  match process_lines L ls with Ok o => o | _ => [] end.

(* groups: the split directive is ONE complete continuation group of two input lines *)
Definition ex_groups (L : nat) : list (list str * list str) :=
  [([d1; d2], out_of L [d1; d2]); ([s1], out_of L [s1]); ([c1], out_of L [c1])].
