(* C18 — lemmas about the join specification (Join.v): scanner compositionality, finish, strip;
   a line read on its own (join_one, join1_inv) means the same with or without its leading blanks. *)
From Coq Require Import Ascii Arith Bool NArith List Lia.
Import ListNotations.
From PV Require Import C18.Types C18.Model C18.Join C18.StrLemmas.

Lemma ws_amp : is_ws amp = false. Proof. reflexivity. Qed.
Lemma ws_bang : is_ws bang = false. Proof. reflexivity. Qed.
Lemma ws_blank : is_ws blank = true. Proof. reflexivity. Qed.

Definition neutral (c : ascii) : Prop := Ascii.eqb c bang = false /\ is_quote c = false.
Lemma neutral_amp : neutral amp. Proof. split; reflexivity. Qed.
Lemma neutral_blank : neutral blank. Proof. split; reflexivity. Qed.

(* no code of the white-space table is `!` or a quote *)
Lemma ws_neutral : forall c, is_ws c = true -> neutral c.
Proof.
  intros c H. unfold is_ws in H. apply existsb_exists in H as [n [Hin E]]. apply N.eqb_eq in E.
  rewrite <- (ascii_N_embedding c), E. clear E. revert n Hin. apply Forall_forall.
  repeat constructor.
Qed.

Definition qok (q : option ascii) : Prop := q = None \/ q = Some squote \/ q = Some dquote.
Lemma qok_none : qok None. Proof. left. reflexivity. Qed.

Lemma qnext_ok : forall q c, qok q -> qok (qnext q c).
Proof.
  intros q c [H | [H | H]]; subst; cbn [qnext].
  - unfold is_quote. destruct (Ascii.eqb c squote) eqn:E1.
    + apply Ascii.eqb_eq in E1. subst. right. left. reflexivity.
    + destruct (Ascii.eqb c dquote) eqn:E2; cbn [orb].
      * apply Ascii.eqb_eq in E2. subst. right. right. reflexivity.
      * left. reflexivity.
  - destruct (Ascii.eqb c squote); [left | right; left]; reflexivity.
  - destruct (Ascii.eqb c dquote); [left | right; right]; reflexivity.
Qed.

Lemma qnext_neutral : forall q c, qok q -> neutral c -> qnext q c = q.
Proof.
  intros q c Hq [Hb Hn]. unfold is_quote in Hn. apply orb_false_iff in Hn as [N1 N2].
  destruct Hq as [H | [H | H]]; subst; cbn [qnext]; unfold is_quote.
  - rewrite N1, N2. reflexivity.
  - rewrite N1. reflexivity.
  - rewrite N2. reflexivity.
Qed.

Lemma scan_code_cons : forall q c r, qok q -> neutral c -> scan_code q (c :: r) = c :: scan_code q r.
Proof.
  intros q c r Hq Hn. pose proof (qnext_neutral q c Hq Hn) as E. destruct Hn as [Hb _].
  cbn [scan_code]. rewrite E. destruct q; [reflexivity | rewrite Hb; reflexivity].
Qed.
Lemma scan_q_cons : forall q c r, qok q -> neutral c -> scan_q q (c :: r) = scan_q q r.
Proof.
  intros q c r Hq Hn. pose proof (qnext_neutral q c Hq Hn) as E. destruct Hn as [Hb _].
  cbn [scan_q]. rewrite E. destruct q; [reflexivity | rewrite Hb; reflexivity].
Qed.
Lemma scan_cmt_cons : forall q c r, qok q -> neutral c -> scan_cmt q (c :: r) = scan_cmt q r.
Proof.
  intros q c r Hq Hn. pose proof (qnext_neutral q c Hq Hn) as E. destruct Hn as [Hb _].
  cbn [scan_cmt]. rewrite E. destruct q; [reflexivity | rewrite Hb; reflexivity].
Qed.

Lemma scan_q_ok : forall s q, qok q -> qok (scan_q q s).
Proof.
  induction s as [|c r IH]; intros q Hq; cbn [scan_q]; [assumption|].
  destruct q.
  - apply IH. apply qnext_ok. assumption.
  - destruct (Ascii.eqb c bang); [apply qok_none | apply IH; apply qnext_ok; assumption].
Qed.

(* the scanners distribute over ++ when the first part starts no comment *)
Lemma scan_cmt_app : forall a b q, scan_cmt q a = None -> scan_cmt q (a ++ b) = scan_cmt (scan_q q a) b.
Proof.
  induction a as [|c r IH]; intros b q H; [reflexivity|].
  cbn [app scan_cmt scan_q] in *. destruct q.
  - apply IH. assumption.
  - destruct (Ascii.eqb c bang); [discriminate | apply IH; assumption].
Qed.
Lemma scan_q_app : forall a b q, scan_cmt q a = None -> scan_q q (a ++ b) = scan_q (scan_q q a) b.
Proof.
  induction a as [|c r IH]; intros b q H; [reflexivity|].
  cbn [app scan_cmt scan_q] in *. destruct q.
  - apply IH. assumption.
  - destruct (Ascii.eqb c bang); [discriminate | apply IH; assumption].
Qed.
Lemma scan_code_app : forall a b q, scan_cmt q a = None -> scan_code q (a ++ b) = a ++ scan_code (scan_q q a) b.
Proof.
  induction a as [|c r IH]; intros b q H; [reflexivity|].
  cbn [app scan_cmt scan_q scan_code] in *. destruct q.
  - f_equal. apply IH. assumption.
  - destruct (Ascii.eqb c bang); [discriminate | f_equal; apply IH; assumption].
Qed.
Lemma scan_code_nocmt : forall a q, scan_cmt q a = None -> scan_code q a = a.
Proof.
  intros a q H. rewrite <- (app_nil_r a) at 1. rewrite scan_code_app by assumption. cbn. apply app_nil_r.
Qed.
Lemma scan_cmt_app_none : forall a b q, scan_cmt q (a ++ b) = None -> scan_cmt q a = None.
Proof.
  induction a as [|c r IH]; intros b q H; [reflexivity|].
  cbn [app scan_cmt] in *. destruct q.
  - eapply IH; eauto.
  - destruct (Ascii.eqb c bang); [discriminate | eapply IH; eauto].
Qed.

(* leading white space is transparent *)
Lemma scan_ws_prefix : forall w s q, qok q -> Forall (fun c => is_ws c = true) w ->
  scan_cmt q (w ++ s) = scan_cmt q s /\ scan_q q (w ++ s) = scan_q q s /\ scan_code q (w ++ s) = w ++ scan_code q s.
Proof.
  induction w as [|c w IH]; intros s q Hq H; [repeat split; reflexivity|].
  inversion H as [|? ? Hc Hw]; subst. apply ws_neutral in Hc. cbn [app].
  rewrite scan_cmt_cons, scan_q_cons, scan_code_cons by assumption.
  destruct (IH s q Hq Hw) as [A [B C]]. rewrite A, B, C. repeat split; reflexivity.
Qed.

Definition good_end (s : str) : bool :=
  match rev s with c :: _ => negb (is_ws c) && negb (Ascii.eqb c amp) | [] => false end.
Definition amp_end (s : str) : bool :=
  match lstrip (rev s) with a :: _ => Ascii.eqb a amp | [] => false end.

Lemma good_end_app : forall a b, b <> [] -> good_end (a ++ b) = good_end b.
Proof.
  intros a b Hb. unfold good_end. rewrite rev_app_distr.
  destruct (rev b) as [|c r] eqn:E; [|reflexivity].
  exfalso. apply Hb. rewrite <- (rev_involutive b), E. reflexivity.
Qed.

Lemma good_end_snoc : forall s, good_end s = true -> exists p c, s = p ++ [c] /\ is_ws c = false /\ Ascii.eqb c amp = false.
Proof.
  intros s H. unfold good_end in H. destruct (rev s) as [|c r] eqn:E; [discriminate|].
  apply andb_true_iff in H as [H1 H2]. apply negb_true_iff in H1, H2.
  exists (rev r), c. repeat split; try assumption.
  rewrite <- (rev_involutive s), E. reflexivity.
Qed.

Lemma good_end_amp_end : forall s, good_end s = true -> amp_end s = false.
Proof.
  intros s H. destruct (good_end_snoc s H) as [p [c [E [H1 H2]]]]. subst.
  unfold amp_end. rewrite rev_app_distr. cbn [rev app]. rewrite lstrip_nonws by assumption. exact H2.
Qed.

Lemma last_nonws_good : forall s, last_nonws s = true -> amp_end s = false -> good_end s = true.
Proof.
  intros s H A. unfold last_nonws, good_end, amp_end in *. destruct (rev s) as [|c r]; [discriminate|].
  apply negb_true_iff in H. rewrite lstrip_nonws in A by assumption. rewrite H, A. reflexivity.
Qed.

Lemma last_nonws_lstrip : forall s, last_nonws s = true -> last_nonws (lstrip s) = true.
Proof.
  intros s H. destruct (lstrip_decomp s) as [w [E [Hw _]]]. unfold last_nonws in *.
  rewrite E, rev_app_distr in H. destruct (rev (lstrip s)) as [|c t]; [|exact H].
  apply Forall_rev in Hw. destruct Hw as [|c t Hc _]; [discriminate H|]. cbn [app] in H. rewrite Hc in H. discriminate H.
Qed.

Lemma rstrip_snoc : forall s c, is_ws c = false -> rstrip (s ++ [c]) = s ++ [c].
Proof.
  intros s c H. unfold rstrip. rewrite rev_app_distr. cbn [rev app].
  rewrite lstrip_nonws by assumption. cbn [rev]. rewrite rev_involutive. reflexivity.
Qed.

Lemma str_eqb_eq : forall a b, str_eqb a b = true <-> a = b.
Proof.
  induction a as [|x a IH]; intros [|y b]; cbn; split; intro H; try discriminate; try reflexivity.
  - apply andb_true_iff in H as [H1 H2]. apply Ascii.eqb_eq in H1. apply IH in H2. congruence.
  - inversion H; subst. rewrite Ascii.eqb_refl. apply IH. reflexivity.
Qed.

Lemma not_lone : forall q c mid d, qok q -> scan_cmt q (c :: mid ++ [d]) = None ->
  is_ws c = false -> is_ws d = false -> lone q (c :: mid ++ [d]) = false.
Proof.
  intros q c mid d Hq Hc H1 H2. unfold lone. rewrite scan_code_nocmt by assumption.
  unfold strip. change (c :: mid ++ [d]) with ((c :: mid) ++ [d]). rewrite rstrip_snoc by assumption.
  cbn [app]. rewrite lstrip_nonws by assumption. cbn [str_eqb].
  destruct (mid ++ [d]) eqn:E; [destruct mid; discriminate|]. apply andb_false_r.
Qed.

Lemma finish_amp : forall st k acc q t, qok q -> scan_cmt q t = None ->
  finish st k acc q (t ++ [amp]) =
  Some (mkJ (j_items st) (j_cmts st) (Some (mkPend k (acc ++ t) (scan_q q t))) false).
Proof.
  intros st k acc q t Hq H. unfold finish.
  pose proof (scan_q_ok t q Hq) as Hq'.
  rewrite scan_code_app, scan_q_app, scan_cmt_app by assumption.
  rewrite scan_code_cons, scan_q_cons, scan_cmt_cons by (assumption || apply neutral_amp).
  cbn [scan_code scan_q scan_cmt add_cmt j_items j_cmts j_merge].
  rewrite rev_app_distr. cbn [rev app]. rewrite lstrip_nonws by apply ws_amp.
  rewrite Ascii.eqb_refl. rewrite rev_involutive. reflexivity.
Qed.

Lemma finish_done : forall st k acc q t, scan_cmt q t = None -> scan_q q t = None -> amp_end t = false ->
  finish st k acc q t = Some (mkJ ((k, lstrip (acc ++ t)) :: j_items st) (j_cmts st) None false).
Proof.
  intros st k acc q t H1 H2 H3. unfold finish. rewrite (scan_code_nocmt t q H1), H1, H2.
  cbn [add_cmt j_items j_cmts j_merge]. unfold amp_end in H3.
  destruct (lstrip (rev t)) as [|a r]; [reflexivity|]. rewrite H3. reflexivity.
Qed.

Lemma finish_inv : forall st k acc q t st', finish st k acc q t = Some st' -> j_pend st' = None ->
  j_items st' = (k, lstrip (acc ++ scan_code q t)) :: j_items st /\
  j_cmts st' = match scan_cmt q t with Some c => c :: j_cmts st | None => j_cmts st end /\
  scan_q q t = None /\ amp_end (scan_code q t) = false.
Proof.
  intros st k acc q t st' H Hp. unfold finish in H. unfold amp_end.
  destruct (lstrip (rev (scan_code q t))) as [|a r] eqn:E.
  - destruct (scan_q q t); [discriminate|]. inversion H; subst. cbn.
    destruct (scan_cmt q t); cbn; repeat split; reflexivity.
  - destruct (Ascii.eqb a amp) eqn:Ea.
    + inversion H; subst. cbn in Hp. discriminate.
    + destruct (scan_q q t); [discriminate|]. inversion H; subst. cbn.
      destruct (scan_cmt q t); cbn; repeat split; reflexivity.
Qed.

Lemma scan_split : forall q a b, scan_cmt q (a ++ b) = None -> scan_q q (a ++ b) = None ->
  scan_cmt q a = None /\ scan_cmt (scan_q q a) b = None /\ scan_q (scan_q q a) b = None.
Proof.
  intros q a b Hc Hq. pose proof (scan_cmt_app_none a b q Hc) as Ha.
  rewrite scan_cmt_app in Hc by exact Ha. rewrite scan_q_app in Hq by exact Ha. auto.
Qed.

Lemma skipn_nonempty : forall n (s : str), n < length s -> skipn n s <> [].
Proof. intros n s H X. apply (f_equal (@length _)) in X. rewrite skipn_length in X. cbn in X. lia. Qed.

Lemma good_end_skipn : forall n s, n < length s -> good_end (skipn n s) = good_end s.
Proof.
  intros n s H. rewrite <- (firstn_skipn n s) at 2. symmetry. apply good_end_app, skipn_nonempty, H.
Qed.

(* what `join` makes of the state reached at the end of the text *)
Definition closed (o : option jstate) : option joined :=
  match o with
  | Some st => match j_pend st with None => Some (rev (j_items st), rev (j_cmts st)) | Some _ => None end
  | None => None
  end.

Lemma join_one : forall l, join [l] = closed (step jinit l).
Proof. intros l. unfold join. cbn [run]. destruct (step jinit l); reflexivity. Qed.

(* the line was completed by `finish` on text t in context (k, acc) *)
Definition finished (k : kind) (acc t : str) (r : joined) : Prop :=
  fst r = [(k, lstrip (acc ++ scan_code None t))] /\
  snd r = match scan_cmt None t with Some c => [c] | None => [] end /\
  scan_q None t = None /\ amp_end (scan_code None t) = false.

Lemma join1_finish : forall k acc t r, closed (finish jinit k acc None t) = Some r -> finished k acc t r.
Proof.
  intros k acc t r H. destruct (finish jinit k acc None t) as [st|] eqn:F; [|discriminate].
  cbn [closed] in H. destruct (j_pend st) eqn:P; [discriminate|]. injection H as <-.
  destruct (finish_inv _ _ _ _ _ _ F P) as [I [C [Q A]]]. unfold finished. cbn [fst snd]. rewrite I, C.
  destruct (scan_cmt None t); auto.
Qed.

(* which branch of step_idle answered, and what it says *)
Lemma join1_inv : forall l r, join [l] = Some r ->
  match lstrip l with
  | [] => r = ([], [])
  | c :: _ =>
      if Ascii.eqb c bang then
        if dir_start sent_omp (lstrip l) then finished KOmp (firstn 5 (lstrip l)) (skipn 5 (lstrip l)) r
        else if dir_start sent_acc (lstrip l) then finished KAcc (firstn 5 (lstrip l)) (skipn 5 (lstrip l)) r
        else if cond_start (lstrip l) then finished KCond [] (skipn 2 (lstrip l)) r
        else r = ([], [lstrip l])
      else finished KStmt [] l r
  end.
Proof.
  intros l r H. rewrite join_one in H. unfold step in H. cbn [jinit j_pend] in H.
  unfold step_idle in H. cbv zeta in H.
  destruct (lstrip l) as [|c b]; [injection H as <-; reflexivity|].
  destruct (Ascii.eqb c bang).
  - destruct (dir_start sent_omp (c :: b)); [apply join1_finish, H|].
    destruct (dir_start sent_acc (c :: b)); [apply join1_finish, H|].
    destruct (cond_start (c :: b)).
    + destruct (lone None (skipn 2 (c :: b))); [discriminate | apply join1_finish, H].
    + cbn [jinit j_merge] in H. rewrite andb_false_r in H. injection H as <-. reflexivity.
  - destruct (lone None (c :: b)); [discriminate | apply join1_finish, H].
Qed.

(* Leading white space does not change what a line means on its own.  Only the statement branch of
   step_idle looks at the unstripped line, and there the white space ends up in front of the item
   text, where `finish` strips it. *)
Lemma finish_ws_prefix : forall w b, Forall (fun c => is_ws c = true) w ->
  closed (finish jinit KStmt [] None (w ++ b)) = closed (finish jinit KStmt [] None b).
Proof.
  intros w b Hw. destruct (scan_ws_prefix w b None qok_none Hw) as [A [B C]].
  unfold finish. cbv zeta. rewrite A, B, C. cbn [app]. rewrite (lstrip_ws_app w _ Hw), rev_app_distr.
  destruct (lstrip (rev (scan_code None b))) as [|a pre] eqn:E.
  - (* the code part is blank: so is w, nothing ends with `&` *)
    destruct (lstrip_decomp (rev (scan_code None b))) as [w' [E' [Hw' _]]]. rewrite E, app_nil_r in E'.
    rewrite E', (lstrip_ws_app w' _ Hw'), (lstrip_all_ws _ (Forall_rev Hw)). reflexivity.
  - rewrite lstrip_app_nonempty by (rewrite E; discriminate). rewrite E. cbn [app].
    destruct (Ascii.eqb a amp); reflexivity.
Qed.

Lemma join_one_lstrip : forall x, join [lstrip x] = join [x].
Proof.
  intros x. rewrite !join_one. unfold step. cbn [jinit j_pend]. unfold step_idle. cbv zeta.
  rewrite lstrip_idem. destruct (lstrip_decomp x) as [w [Ex [Hw _]]].
  destruct (lstrip x) as [|c r]; [reflexivity|].
  destruct (Ascii.eqb c bang); [reflexivity|]. destruct (lone None (c :: r)); [reflexivity|].
  subst x. symmetry. apply finish_ws_prefix, Hw.
Qed.
