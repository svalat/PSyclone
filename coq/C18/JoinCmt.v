(* C18 — joining the limiter's output gives back the comment (line type comment) *)
From Coq Require Import Ascii Arith Bool NArith List Lia.
Import ListNotations.
From PV Require Import C18.Types C18.Gen C18.Model C18.Join C18.StrLemmas C18.LimitProofs C18.JoinLemmas.

Lemma line_type_comment : forall l, line_type l = CommentT ->
  iprefixb sent_omp (lstrip l) = false /\ iprefixb sent_acc (lstrip l) = false.
Proof.
  intros l H. unfold line_type in H.
  destruct (re_ws_then stat_keywords true l); [discriminate|].
  destruct (re_ws_then [omp_sentinel] true l) eqn:E1; [discriminate|].
  destruct (re_ws_then [acc_sentinel] true l) eqn:E2; [discriminate|].
  unfold re_ws_then in E1, E2. cbn [existsb] in E1, E2. rewrite orb_false_r in E1, E2.
  split; assumption.
Qed.

Lemma cond_start_firstn : forall n b, cond_start b = false -> cond_start (firstn n b) = false.
Proof.
  intros n b H. destruct n as [|[|[|n]]]; destruct b as [|x [|y [|z b]]]; try reflexivity. exact H.
Qed.

Lemma dir_start_marker : forall sent s, sent = sent_omp \/ sent = sent_acc -> dir_start sent (bang :: amp :: s) = false.
Proof. intros sent s [H | H]; subst; reflexivity. Qed.

Lemma step_cmt_cont : forall items c0 r seg,
  step (mkJ items (c0 :: r) None true) (bang :: amp :: blank :: seg) = Some (mkJ items ((c0 ++ seg) :: r) None true).
Proof.
  intros items c0 r seg. unfold step. cbn [j_pend]. unfold step_idle. cbv zeta.
  rewrite (lstrip_nonws bang _ ws_bang). cbv iota.
  change (Ascii.eqb bang bang) with true. cbv iota.
  rewrite (dir_start_marker sent_omp) by (left; reflexivity).
  rewrite (dir_start_marker sent_acc) by (right; reflexivity).
  change (cond_start (bang :: amp :: blank :: seg)) with false.
  change (prefixb cmt_marker (bang :: amp :: blank :: seg)) with true.
  cbn [j_merge andb j_cmts j_items skipn]. reflexivity.
Qed.

Lemma cmt_loop : forall L keys fuel line ls, cont_loop fuel L cmt_marker [] keys line = Ok ls ->
  forall items c0 r, run (mkJ items (c0 :: r) None true) ls = Some (mkJ items ((c0 ++ line) :: r) None true).
Proof.
  intros L keys. apply (cont_loop_Ok_ind L cmt_marker [] keys (fun line ls => forall items c0 r,
    run (mkJ items (c0 :: r) None true) ls = Some (mkJ items ((c0 ++ line) :: r) None true))).
  - intros [|c l] _ items c0 r; cbn [run app cmt_marker].
    + rewrite app_nil_r. reflexivity.
    + rewrite step_cmt_cont. reflexivity.
  - intros line bp ls _ _ IH items c0 r. cbn [run app cmt_marker]. rewrite app_nil_r, step_cmt_cont, IH.
    rewrite <- app_assoc, firstn_skipn. reflexivity.
Qed.

(* what `join [x] = one comment` says about a line x that the limiter takes for a comment (so that
   the sentinels' letters are absent, not merely not followed by a blank) *)
Definition cmt_facts (x : str) : Prop :=
  (exists r, lstrip x = bang :: r) /\ iprefixb sent_omp (lstrip x) = false /\
  iprefixb sent_acc (lstrip x) = false /\ cond_start (lstrip x) = false.

Lemma dir_start_false : forall sent b, iprefixb sent b = false -> dir_start sent b = false.
Proof. intros sent b H. unfold dir_start. rewrite H. reflexivity. Qed.

Lemma step_cmt_first : forall b r, b = bang :: r -> iprefixb sent_omp b = false -> iprefixb sent_acc b = false ->
  cond_start b = false -> forall x, lstrip x = b -> step jinit x = Some (mkJ [] [b] None true).
Proof.
  intros b r Eb H1 H2 H3 x Hx. unfold step. cbn [jinit j_pend]. unfold step_idle. cbv zeta.
  rewrite Hx. subst b. cbv iota. change (Ascii.eqb bang bang) with true. cbv iota.
  rewrite (dir_start_false _ _ H1), (dir_start_false _ _ H2), H3.
  cbn [j_merge]. rewrite andb_false_r. reflexivity.
Qed.

Lemma join1_cmt_inv : forall l cm, join [l] = Some ([], [cm]) -> line_type l = CommentT ->
  cmt_facts l /\ cm = lstrip l.
Proof.
  intros l cm H Ht. destruct (line_type_comment l Ht) as [T1 T2]. apply join1_inv in H.
  rewrite (dir_start_false _ _ T1), (dir_start_false _ _ T2) in H. unfold cmt_facts.
  destruct (lstrip l) as [|c r] eqn:Eb; [discriminate H|].
  destruct (Ascii.eqb c bang) eqn:Ec; [|destruct H as [H _]; discriminate H].
  apply Ascii.eqb_eq in Ec. subst c.
  destruct (cond_start (bang :: r)); [destruct H as [H _]; discriminate H|].
  injection H as ->. repeat split; try assumption. exists r. reflexivity.
Qed.

Lemma cmt_emit : forall L keys x bp ls, cmt_facts x -> fnw x < bp ->
  emit L cmt_marker [] keys x bp = Ok ls -> join ls = Some ([], [lstrip x]).
Proof.
  intros L keys x bp ls [[r Eb] [H1 [H2 H3]]] B1 H. destruct (emit_inv _ _ _ _ _ _ _ H) as [ls' [C ->]].
  assert (Hlen : fnw x < length x).
  { pose proof (fnw_lstrip_length x) as F. rewrite Eb in F. cbn [length] in F. lia. }
  destruct (lstrip_firstn x bp B1 Hlen) as [F1 F2].
  destruct (bp - fnw x) as [|m] eqn:Em; [lia|].
  (* the first line is a comment line like x *)
  assert (S1 : step jinit (firstn bp x ++ []) = Some (mkJ [] [firstn (S m) (lstrip x)] None true)).
  { rewrite app_nil_r. apply (step_cmt_first _ (firstn m r)); [rewrite Eb; reflexivity | | | | exact F1].
    - apply iprefixb_firstn, H1.
    - apply iprefixb_firstn, H2.
    - apply cond_start_firstn, H3. }
  unfold join. cbn [run]. rewrite S1. rewrite (cmt_loop _ _ _ _ _ C).
  rewrite <- F1, <- lstrip_app_nonempty by assumption.
  rewrite firstn_skipn. reflexivity.
Qed.

Theorem join_process_cmt : forall L l ls cm,
  line_type l = CommentT -> join [l] = Some ([], [cm]) ->
  process_line L l = Ok ls -> join ls = Some ([], [cm]).
Proof.
  intros L l ls cm Ht Hj H.
  pose proof (keys_ok_all (line_type l)) as Hk.
  destruct (process_line_cases L l ls H) as [x [Hx Hls]]. rewrite Ht in Hls, Hk.
  assert (Hx' : join [x] = Some ([], [cm]) /\ line_type x = CommentT)
    by (destruct Hx as [-> | ->]; [|rewrite join_one_lstrip, line_type_lstrip]; auto).
  destruct Hx' as [Hjx Htx]. destruct Hls as [[_ ->] | [bp [_ [F Em]]]]; [exact Hjx|].
  destruct (join1_cmt_inv x cm Hjx Htx) as [Fx ->].
  destruct (fbp_bounds _ _ _ _ Hk F) as [B1 _]. apply (cmt_emit L (key_list CommentT) x bp ls Fx); [lia | exact Em].
Qed.
