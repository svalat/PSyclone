(* C18 — concrete lines: witnesses against the full-strength statements on the faithful model, and
   non-vacuity examples for the implications (evaluated in Properties/C18.v). *)
From Coq Require Import Ascii Arith Bool NArith List.
From Coq Require String.
Import ListNotations.
From PV Require Import C18.Types C18.Model C18.Join.

Module Lits.
  Import String.
  Local Open Scope string_scope.
  Definition w (x : string) : str := list_ascii_of_string x.
  Definition wit_trailing : str := w "  x = y + 1 ! a long trailing comment that goes past the limit of forty".
  Definition wit_cond : str := w "  !$ x = y + 1 + 2 + 3 + 4 + 5 + 6 + 7 + 8 + 9 + 10 + 11 + 12".
  Definition wit_dircmt : str := w "  !$omp parallel do default(shared) private(i) ! comment on directive here".
  Definition wit_lone : str := w "  x = y + 1                                                            ".
  Definition wit_sentinel : str := w "  !$omp_note this is only a comment, it is not an OpenMP directive at all".
  Definition wit_nobreak : str := w "  s = 'aaaaaaaaaaaaaaaaaaaaaaaaaaaaaaaaaaaaaaaaaaaaaaaaaaaaaaaaaaaaaaaaaaaaaaaa'".
  Definition ex_stmt : str := w "    call invoke_kernel(f1_proxy%data, f2_proxy%data, m1_proxy%data, ndf_w1, undf_w1, map_w1(:,cell))".
  Definition ex_decl : str := w "  REAL(KIND=r_def), intent(in), dimension(undf_w1) :: field_one, field_two, 'it''s ! & ok'".
  Definition ex_omp : str := w "  !$omp parallel do default(shared), private(cell,df), schedule(static), reduction(+:asum)".
  Definition ex_acc : str := w "!$ACC parallel loop collapse(2) copyin(a,b,c) copyout(res) present(fld) vector_length(128)".
  Definition ex_cmt : str := w "      ! Call the kernel for each cell, looping over the halo to depth 2. See eq. (3), a,b".
  Definition out_trailing : list str := [w "  x = y + 1 ! a long trailing comment &"; w "&that goes past the limit of forty"].
  Definition out_omp : list str := [w "  !$omp parallel do default(shared), private(cell,df),  &"; w "!$omp& schedule(static), reduction(+:asum)"].
End Lits.
Export Lits.

(* the full-strength join statement fails on (L, l): the limiter succeeds, the input is well formed,
   the joined output is not equivalent to the joined input *)
Definition join_broken (L : nat) (l : str) : Prop :=
  exists ls r, process_line L l = Ok ls /\ join [l] = Some r /\
               match join ls with Some r' => jequiv r' r | None => false end = false.

Definition join_brokenb (L : nat) (l : str) : bool :=
  match process_line L l, join [l] with
  | Ok ls, Some r => negb (match join ls with Some r' => jequiv r' r | None => false end)
  | _, _ => false
  end.

Lemma join_brokenb_ok : forall L l, join_brokenb L l = true -> join_broken L l.
Proof.
  intros L l H. unfold join_brokenb in H. destruct (process_line L l) as [ls| |] eqn:P; try discriminate.
  destruct (join [l]) as [r|] eqn:J; try discriminate. exists ls, r. repeat split; try assumption.
  apply negb_true_iff in H. exact H.
Qed.

(* the model's output for the first witness, for the record *)
Lemma trailing_output : process_line 40 wit_trailing =
  Ok out_trailing.
Proof. vm_compute. reflexivity. Qed.

Lemma refuted : forall L l t, (40 <=? L) && (L <=? 132) = true -> line_type l = t -> join_brokenb L l = true ->
  40 <= L <= 132 /\ line_type l = t /\ join_broken L l.
Proof.
  intros L l t HL Ht Hb. apply andb_true_iff in HL as [H1 H2]. apply Nat.leb_le in H1, H2.
  repeat split; try assumption. apply join_brokenb_ok, Hb.
Qed.


Definition nontrivial (L : nat) (l : str) : bool :=
  (L <? length l) && safe l && breakable L l &&
  match process_line L l, join [l] with
  | Ok ls, Some r => (1 <? length ls) && forallb (fun x => length x <=? L) ls
                     && match join ls with Some r' => jequiv r' r | None => false end
  | _, _ => false
  end.

(* the model's output for the `!$omp` example: really different from the input *)
Lemma example_output : process_line 60 ex_omp =
  Ok out_omp.
Proof. vm_compute. reflexivity. Qed.
