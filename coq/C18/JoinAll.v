(* C18 — instantiation of the directive argument for !$omp / !$acc and the unified theorem
   safe l -> join (process_line L l) ~ join [l]. *)
From Coq Require Import Ascii Arith Bool NArith List Lia.
Import ListNotations.
From PV Require Import C18.Types C18.Model C18.Join C18.JoinLemmas
  C18.JoinStmt C18.JoinCmt C18.JoinDir.

(* `!` is not the upper-case form of a letter *)
Lemma ieqb_bang : forall c, ieqb bang c = true -> c = bang.
Proof.
  intros c H. apply Ascii.eqb_eq in H. change (upper bang) with bang in H. unfold upper in H.
  destruct (N.leb 97 (N_of_ascii c) && N.leb (N_of_ascii c) 122)%bool eqn:R; [|congruence].
  exfalso. apply andb_true_iff in R as [R1 R2]. apply N.leb_le in R1, R2.
  apply (f_equal N_of_ascii) in H. rewrite N_ascii_embedding in H by lia.
  change (N_of_ascii bang) with 33%N in H. lia.
Qed.

Lemma ieqb_upper : forall a c, ieqb a c = true -> upper a = upper c.
Proof. intros a c H. apply Ascii.eqb_eq. exact H. Qed.

Lemma acc_not_omp : forall b, iprefixb sent_acc b = true -> iprefixb sent_omp b = false.
Proof.
  intros b H. destruct b as [|b0 [|b1 [|b2 r]]]; cbn [sent_acc sent_omp map iprefixb] in *; try discriminate H;
    try (rewrite ?andb_false_r; reflexivity).
  apply andb_true_iff in H as [_ H]. apply andb_true_iff in H as [_ H]. apply andb_true_iff in H as [H _].
  apply ieqb_upper in H.
  destruct (ieqb (ascii_of_N 79) b2) eqn:E; [|rewrite !andb_false_r; reflexivity].
  apply ieqb_upper in E. rewrite <- H in E. vm_compute in E. discriminate E.
Qed.

Lemma idle_omp : forall st x, j_pend st = None -> dir_start sent_omp (lstrip x) = true ->
  step st x = finish st KOmp (firstn 5 (lstrip x)) None (skipn 5 (lstrip x)).
Proof.
  intros st x Hp Hd. unfold step. rewrite Hp. unfold step_idle. cbv zeta.
  destruct (lstrip x) as [|c r] eqn:Eb; [discriminate Hd|].
  assert (Hc : c = bang).
  { unfold dir_start in Hd. apply andb_true_iff in Hd as [Hd _]. cbn [sent_omp map iprefixb] in Hd.
    apply andb_true_iff in Hd as [Hd _]. apply ieqb_bang. exact Hd. }
  subst c. change (Ascii.eqb bang bang) with true. cbv iota. rewrite Hd. reflexivity.
Qed.

Lemma idle_acc : forall st x, j_pend st = None -> dir_start sent_acc (lstrip x) = true ->
  step st x = finish st KAcc (firstn 5 (lstrip x)) None (skipn 5 (lstrip x)).
Proof.
  intros st x Hp Hd. unfold step. rewrite Hp. unfold step_idle. cbv zeta.
  destruct (lstrip x) as [|c r] eqn:Eb; [discriminate Hd|].
  assert (Hi : iprefixb sent_acc (c :: r) = true) by (unfold dir_start in Hd; apply andb_true_iff in Hd as [Hd _]; exact Hd).
  assert (Hc : c = bang).
  { cbn [sent_acc map iprefixb] in Hi. apply andb_true_iff in Hi as [Hi _]. apply ieqb_bang. exact Hi. }
  subst c. change (Ascii.eqb bang bang) with true. cbv iota.
  rewrite (dir_start_false _ _ (acc_not_omp _ Hi)). rewrite Hd. reflexivity.
Qed.

(* the kind of the single item tells which branch of step_idle was taken *)
Lemma join1_kind : forall l k t, join [l] = Some ([(k, t)], []) ->
  match k with
  | KOmp => dir_start sent_omp (lstrip l) = true
  | KAcc => dir_start sent_acc (lstrip l) = true
  | _ => True
  end.
Proof.
  intros l k t H. apply join1_inv in H. destruct (lstrip l) as [|c r]; [discriminate H|].
  (* H names the kind of the branch that answered: every branch but k's own contradicts it *)
  destruct (Ascii.eqb c bang), (dir_start sent_omp (c :: r)), (dir_start sent_acc (c :: r)),
    (cond_start (c :: r)), k; trivial; try discriminate H; destruct H as [H _]; discriminate H.
Qed.

(* no break key starts inside the sentinel (checked on the generated key lists) *)
Definition nokey_chk (sent : str) (keys : list str) : bool :=
  forallb (fun key => match key with [] => false | k0 :: _ => forallb (fun sc => negb (ieqb sc k0)) (tl sent) end) keys.

Lemma iprefixb_nth : forall sent body j sc, iprefixb sent body = true -> nth_error sent j = Some sc ->
  exists b rest, skipn j body = b :: rest /\ ieqb sc b = true.
Proof.
  induction sent as [|s0 sent IH]; intros body j sc H N; [destruct j; discriminate N|].
  destruct body as [|b0 body]; [discriminate H|]. cbn [iprefixb] in H. apply andb_true_iff in H as [H0 H].
  destruct j as [|j]; cbn [nth_error skipn] in *.
  - injection N as <-. eauto.
  - eapply IH; eauto.
Qed.

Lemma nokey_gen : forall sent keys, nokey_chk sent keys = true ->
  forall body key j, iprefixb sent body = true -> In key keys -> 1 <= j < length sent ->
  prefixb key (skipn j body) = false.
Proof.
  intros sent keys Hchk body key j Hip Hin Hj.
  unfold nokey_chk in Hchk. rewrite forallb_forall in Hchk. specialize (Hchk key Hin).
  destruct key as [|k0 kr]; [discriminate|]. rewrite forallb_forall in Hchk.
  destruct (nth_error sent j) as [sc|] eqn:N; [|apply nth_error_None in N; lia].
  destruct (iprefixb_nth sent body j sc Hip N) as [b [rest [-> E]]].
  cbn [prefixb]. destruct (Ascii.eqb k0 b) eqn:Q; [|reflexivity]. apply Ascii.eqb_eq in Q. subst b.
  (* the j-th sentinel character matches the first character of the key, which the check excludes *)
  assert (I : In sc (tl sent)).
  { destruct sent as [|s0 t]; [destruct j; discriminate N|]. destruct j as [|j]; [lia|]. apply (nth_error_In t j N). }
  apply Hchk in I. rewrite E in I. discriminate.
Qed.

Definition c5t_omp : str := map ascii_of_N [36; 111; 109; 112]%N.   (* $omp *)
Definition c5t_acc : str := map ascii_of_N [36; 97; 99; 99]%N.      (* $acc *)

Theorem join_process_omp : forall L l ls t,
  line_type l = Omp -> join [l] = Some ([(KOmp, t)], []) -> process_line L l = Ok ls ->
  exists t', join ls = Some ([(KOmp, t')], []) /\ squeeze true t' = squeeze true t.
Proof.
  apply (join_process_dir_ KOmp sent_omp c5t_omp Omp).
  1-6: reflexivity.
  - exact idle_omp.
  - intros l t H. exact (join1_kind l KOmp t H).
  - apply nokey_gen. vm_compute. reflexivity.
  - apply keys_softb_ok. vm_compute. reflexivity.
Qed.

Theorem join_process_acc : forall L l ls t,
  line_type l = Acc -> join [l] = Some ([(KAcc, t)], []) -> process_line L l = Ok ls ->
  exists t', join ls = Some ([(KAcc, t')], []) /\ squeeze true t' = squeeze true t.
Proof.
  apply (join_process_dir_ KAcc sent_acc c5t_acc Acc).
  1-6: reflexivity.
  - exact idle_acc.
  - intros l t H. exact (join1_kind l KAcc t H).
  - apply nokey_gen. vm_compute. reflexivity.
  - apply keys_softb_ok. vm_compute. reflexivity.
Qed.

Lemma str_eqb_refl : forall s, str_eqb s s = true.
Proof. intros s. apply str_eqb_eq. reflexivity. Qed.

Lemma list_eqb_refl : forall {A} (e : A -> A -> bool), (forall x, e x x = true) -> forall l, list_eqb e l l = true.
Proof. intros A e He l. induction l as [|x l IH]; [reflexivity|]. cbn. rewrite He, IH. reflexivity. Qed.

Lemma item_equiv_refl : forall x, item_equiv x x = true.
Proof.
  intros [k t]. unfold item_equiv. cbn [fst snd]. destruct k; cbn; apply str_eqb_refl.
Qed.

Lemma jequiv_refl : forall r, jequiv r r = true.
Proof.
  intros [items cmts]. unfold jequiv. cbn [fst snd].
  rewrite (list_eqb_refl item_equiv item_equiv_refl), (list_eqb_refl str_eqb str_eqb_refl). reflexivity.
Qed.

Theorem join_process_partial_ : forall L l ls r,
  safe l = true -> join [l] = Some r -> process_line L l = Ok ls ->
  exists r', join ls = Some r' /\ jequiv r' r = true.
Proof.
  intros L l ls r Hs Hj H. unfold safe in Hs. rewrite Hj in Hs.
  destruct r as [items cmts].
  destruct items as [|[k t] [|? ?]]; destruct cmts as [|cm [|? ?]]; try discriminate Hs.
  - (* one comment *)
    destruct (line_type l) eqn:Ht; try discriminate Hs.
    exists ([], [cm]). split; [eapply join_process_cmt; eauto | apply jequiv_refl].
  - (* one statement or directive *)
    destruct (line_type l) eqn:Ht; destruct k; try discriminate Hs.
    + exists ([(KStmt, t)], []). split; [|apply jequiv_refl].
      eapply join_process_stmt; eauto.
    + destruct (join_process_omp L l ls t Ht Hj H) as [t' [J S]].
      exists ([(KOmp, t')], []). split; [assumption|].
      unfold jequiv, item_equiv, canon. cbn [fst snd is_dir kind_eqb list_eqb andb]. rewrite S, str_eqb_refl. reflexivity.
    + destruct (join_process_acc L l ls t Ht Hj H) as [t' [J S]].
      exists ([(KAcc, t')], []). split; [assumption|].
      unfold jequiv, item_equiv, canon. cbn [fst snd is_dir kind_eqb list_eqb andb]. rewrite S, str_eqb_refl. reflexivity.
    + exists ([(KStmt, t)], []). split; [|apply jequiv_refl].
      eapply join_process_stmt; eauto.
Qed.
