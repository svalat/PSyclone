(* C18 — the limit is respected, processing is total (fuel suffices), output is a fixed point,
   no InternalError when a break point exists. *)
From Coq Require Import Ascii Arith Bool NArith List Lia.
Import ListNotations.
From PV Require Import C18.Types C18.Gen C18.Model C18.StrLemmas.

(* facts about the generated tables, re-checked whenever Gen.v changes *)
Lemma keys_ok_all : forall t, keys_ok (key_list t).
Proof. intros []; repeat constructor; intro H; vm_compute in H; discriminate H. Qed.

Definition no_nl (s : str) : Prop := ~ In nl s.

Lemma tables_no_nl : forall t, no_nl (cont_start t) /\ no_nl (cont_end t).
Proof.
  intros []; split; intro H; vm_compute in H;
    repeat (destruct H as [H | H]; [discriminate H|]); exact H.
Qed.

(* the continuation loop: the remainder fits, or it is cut at a break point and the loop goes on *)
Lemma cont_loop_Ok_ind L cs ce keys (P : str -> list str -> Prop) :
  (forall line, length line + length cs <= L -> P line (match line with [] => [] | _ => [cs ++ line] end)) ->
  (forall line bp ls, L < length line + length cs ->
     find_break_point line (L - length ce - length cs) keys = Some bp ->
     P (skipn bp line) ls -> P line ((cs ++ firstn bp line ++ ce) :: ls)) ->
  forall fuel line ls, cont_loop fuel L cs ce keys line = Ok ls -> P line ls.
Proof.
  intros Hfit Hcut. induction fuel as [|f IH]; intros line ls H; cbn [cont_loop] in H;
    destruct (length line + length cs <=? L) eqn:E; try discriminate.
  1,2: apply Nat.leb_le in E; specialize (Hfit line E); destruct line; injection H as <-; exact Hfit.
  destruct (find_break_point line (L - length ce - length cs) keys) as [bp|] eqn:F; [|discriminate].
  destruct (cont_loop f L cs ce keys (skipn bp line)) as [ls'| |] eqn:C; try discriminate. injection H as <-.
  apply Nat.leb_gt in E. exact (Hcut line bp ls' E F (IH _ _ C)).
Qed.

Lemma emit_inv L cs ce keys line bp ls : emit L cs ce keys line bp = Ok ls ->
  exists ls', cont_loop (length line) L cs ce keys (skipn bp line) = Ok ls' /\ ls = (firstn bp line ++ ce) :: ls'.
Proof.
  unfold emit. destruct (cont_loop (length line) L cs ce keys (skipn bp line)) as [ls'| |]; try discriminate.
  intro H. injection H as <-. eauto.
Qed.

(* a line is answered by itself or by its lstrip-ped form x, either as it is or wrapped at a break point *)
Lemma process_line_cases L l ls : process_line L l = Ok ls ->
  exists x, (x = l \/ x = lstrip l) /\
    ((length x <= L /\ ls = [x]) \/
     exists bp, L <= length x /\
       find_break_point x (L - length (cont_end (line_type l))) (key_list (line_type l)) = Some bp /\
       emit L (cont_start (line_type l)) (cont_end (line_type l)) (key_list (line_type l)) x bp = Ok ls).
Proof.
  unfold process_line. intro H. destruct (length l <=? L) eqn:E.
  - apply Nat.leb_le in E. injection H as <-. exists l. auto.
  - apply Nat.leb_gt in E. destruct (find_break_point l _ _) as [bp|] eqn:F.
    + exists l. split; [auto|]. right. exists bp. split; [lia | auto].
    + exists (lstrip l). split; [auto|]. destruct (length (lstrip l) <? L) eqn:E2.
      * apply Nat.ltb_lt in E2. injection H as <-. left. split; [lia | reflexivity].
      * apply Nat.ltb_ge in E2. destruct (find_break_point (lstrip l) _ _) as [bp|] eqn:F2; [|discriminate].
        right. exists bp. auto.
Qed.

Lemma cont_loop_limit : forall fuel L cs ce keys line ls, keys_ok keys ->
  cont_loop fuel L cs ce keys line = Ok ls -> Forall (fun x => length x <= L) ls.
Proof.
  intros fuel L cs ce keys line ls Hk. revert fuel line ls.
  apply (cont_loop_Ok_ind L cs ce keys (fun _ ls => Forall (fun x => length x <= L) ls)).
  - intros [|c r] E; repeat constructor. rewrite app_length. lia.
  - intros line bp ls _ F IH. apply fbp_bounds in F; [|assumption]. constructor; [|exact IH].
    rewrite !app_length. pose proof (firstn_le_length bp line). lia.
Qed.

Lemma emit_limit : forall L cs ce keys line bp ls, keys_ok keys ->
  fnw line + 2 <= bp -> bp <= L - length ce ->
  emit L cs ce keys line bp = Ok ls -> Forall (fun x => length x <= L) ls.
Proof.
  intros L cs ce keys line bp ls Hk H1 H2 H. destruct (emit_inv _ _ _ _ _ _ _ H) as [ls' [C ->]]. constructor.
  - rewrite app_length. pose proof (firstn_le_length bp line). lia.
  - eapply cont_loop_limit; eauto.
Qed.

Lemma process_line_limit : forall L l ls, process_line L l = Ok ls -> Forall (fun x => length x <= L) ls.
Proof.
  intros L l ls H. destruct (process_line_cases L l ls H) as [x [_ [[E ->] | [bp [_ [F Em]]]]]].
  - repeat constructor. exact E.
  - pose proof (keys_ok_all (line_type l)) as Hk. destruct (fbp_bounds _ _ _ _ Hk F) as [B1 [B2 _]].
    exact (emit_limit _ _ _ _ _ _ _ Hk B1 B2 Em).
Qed.

Lemma process_lines_concat : forall L ls out, process_lines L ls = Ok out ->
  exists outs, Forall2 (fun l o => process_line L l = Ok o) ls outs /\ out = concat outs.
Proof.
  intros L ls. induction ls as [|l r IH]; intros out H; cbn [process_lines] in H.
  - injection H as <-. exists []. split; [constructor | reflexivity].
  - destruct (process_line L l) as [o| |] eqn:P; try discriminate.
    destruct (process_lines L r) as [o'| |] eqn:R; try discriminate. injection H as <-.
    destruct (IH o' eq_refl) as [outs [F E]]. exists (o :: outs). split; [constructor; assumption | cbn; congruence].
Qed.

Lemma process_lines_limit : forall L ls out, process_lines L ls = Ok out -> Forall (fun x => length x <= L) out.
Proof.
  intros L ls out H. destruct (process_lines_concat L ls out H) as [outs [F ->]]. clear H.
  induction F as [|l o ls outs P _ IH]; cbn [concat]; [constructor|].
  apply Forall_app. split; [exact (process_line_limit L l o P) | exact IH].
Qed.

Lemma cont_loop_fuel : forall fuel L cs ce keys line, keys_ok keys -> length line < fuel ->
  cont_loop fuel L cs ce keys line <> OutOfFuel.
Proof.
  induction fuel as [|f IH]; intros L cs ce keys line Hk Hl; [lia|].
  cbn [cont_loop]. destruct (length line + length cs <=? L); [destruct line; discriminate|].
  destruct (find_break_point line (L - length ce - length cs) keys) as [bp|] eqn:F; [|discriminate].
  apply fbp_bounds in F; [|assumption].
  assert (Hs : length (skipn bp line) < f) by (rewrite skipn_length; lia).
  specialize (IH L cs ce keys (skipn bp line) Hk Hs).
  destruct (cont_loop f L cs ce keys (skipn bp line)); congruence.
Qed.

Lemma emit_fuel : forall L cs ce keys line bp, keys_ok keys -> 2 <= bp -> bp <= length line ->
  emit L cs ce keys line bp <> OutOfFuel.
Proof.
  intros L cs ce keys line bp Hk H1 H2. unfold emit.
  assert (Hs : length (skipn bp line) < length line) by (rewrite skipn_length; lia).
  pose proof (cont_loop_fuel (length line) L cs ce keys (skipn bp line) Hk Hs).
  destruct (cont_loop (length line) L cs ce keys (skipn bp line)); congruence.
Qed.

Lemma process_line_total : forall L l, process_line L l <> OutOfFuel.
Proof.
  intros L l. unfold process_line. destruct (length l <=? L); [discriminate|].
  pose proof (keys_ok_all (line_type l)) as Hk.
  destruct (find_break_point l _ _) as [bp|] eqn:F.
  - pose proof (fbp_bounds _ _ _ _ Hk F). apply emit_fuel; [assumption | lia | lia].
  - destruct (length (lstrip l) <? L); [discriminate|].
    destruct (find_break_point (lstrip l) _ _) as [bp|] eqn:F2; [|discriminate].
    pose proof (fbp_bounds _ _ _ _ Hk F2). apply emit_fuel; [assumption | lia | lia].
Qed.

Lemma split_nl_nonempty : forall s, split_nl s <> [].
Proof.
  induction s as [|c r IH]; cbn [split_nl]; [discriminate|].
  destruct (Ascii.eqb c nl); [discriminate|]. destruct (split_nl r); discriminate.
Qed.

Lemma split_nl_no_nl : forall s, Forall no_nl (split_nl s).
Proof.
  induction s as [|c r IH]; cbn [split_nl].
  - constructor; [intros []|constructor].
  - destruct (Ascii.eqb c nl) eqn:E.
    + constructor; [intros []|assumption].
    + pose proof (split_nl_nonempty r) as Hne. destruct (split_nl r) as [|h t]; [congruence|]. inversion IH; subst. constructor; [|assumption].
      intros [H|H]; [subst; rewrite Ascii.eqb_refl in E; discriminate | contradiction].
Qed.

Lemma split_nl_line : forall l, no_nl l -> split_nl l = [l].
Proof.
  induction l as [|c r IH]; intros H; cbn [split_nl]; [reflexivity|].
  destruct (Ascii.eqb c nl) eqn:E.
  - apply Ascii.eqb_eq in E. subst. exfalso. apply H. left. reflexivity.
  - rewrite IH; [reflexivity|]. intro X. apply H. right. exact X.
Qed.

Lemma split_nl_app : forall l rest, no_nl l -> split_nl (l ++ nl :: rest) = l :: split_nl rest.
Proof.
  induction l as [|c r IH]; intros rest H; cbn [app split_nl].
  - rewrite Ascii.eqb_refl. reflexivity.
  - destruct (Ascii.eqb c nl) eqn:E.
    + apply Ascii.eqb_eq in E. subst. exfalso. apply H. left. reflexivity.
    + rewrite IH; [reflexivity|]. intro X. apply H. right. exact X.
Qed.

Lemma split_join_nl : forall ls, ls <> [] -> Forall no_nl ls -> split_nl (join_nl ls) = ls.
Proof.
  induction ls as [|l r IH]; intros Hne H; [congruence|].
  inversion H; subst. destruct r as [|l2 r2].
  - cbn [join_nl]. apply split_nl_line. assumption.
  - change (join_nl (l :: l2 :: r2)) with (l ++ nl :: join_nl (l2 :: r2)).
    rewrite split_nl_app by assumption. f_equal. apply IH; [discriminate | assumption].
Qed.

Lemma no_nl_app : forall a b, no_nl a -> no_nl b -> no_nl (a ++ b).
Proof. unfold no_nl. intros a b Ha Hb H. apply in_app_or in H. tauto. Qed.
Lemma no_nl_firstn : forall n a, no_nl a -> no_nl (firstn n a).
Proof. unfold no_nl. intros n a Ha H. apply Ha. rewrite <- (firstn_skipn n a). apply in_or_app. tauto. Qed.
Lemma no_nl_skipn : forall n a, no_nl a -> no_nl (skipn n a).
Proof. unfold no_nl. intros n a Ha H. apply Ha. rewrite <- (firstn_skipn n a). apply in_or_app. tauto. Qed.
Lemma no_nl_lstrip : forall a, no_nl a -> no_nl (lstrip a).
Proof.
  unfold no_nl. intros a Ha H. apply Ha. destruct (lstrip_decomp a) as [w [E _]]. rewrite E. apply in_or_app. tauto.
Qed.

Lemma cont_loop_no_nl : forall fuel L cs ce keys line ls, no_nl cs -> no_nl ce -> no_nl line ->
  cont_loop fuel L cs ce keys line = Ok ls -> Forall no_nl ls.
Proof.
  intros fuel L cs ce keys line ls Hcs Hce Hl H. revert Hl. revert fuel line ls H.
  apply (cont_loop_Ok_ind L cs ce keys (fun line ls => no_nl line -> Forall no_nl ls)).
  - intros [|c r] _ Hl; repeat constructor. apply no_nl_app; assumption.
  - intros line bp ls _ _ IH Hl. constructor; [|apply IH, no_nl_skipn, Hl].
    apply no_nl_app; [assumption|]. apply no_nl_app; [apply no_nl_firstn|]; assumption.
Qed.

Lemma emit_no_nl : forall L cs ce keys line bp ls, no_nl cs -> no_nl ce -> no_nl line ->
  emit L cs ce keys line bp = Ok ls -> Forall no_nl ls.
Proof.
  intros L cs ce keys line bp ls Hcs Hce Hl H. destruct (emit_inv _ _ _ _ _ _ _ H) as [ls' [C ->]].
  constructor.
  - apply no_nl_app; [apply no_nl_firstn|]; assumption.
  - apply (cont_loop_no_nl _ _ _ _ _ _ _ Hcs Hce (no_nl_skipn _ _ Hl) C).
Qed.

Lemma process_line_no_nl : forall L l ls, no_nl l -> process_line L l = Ok ls -> Forall no_nl ls.
Proof.
  intros L l ls Hl H. destruct (tables_no_nl (line_type l)) as [Hcs Hce].
  destruct (process_line_cases L l ls H) as [x [Hx [[_ ->] | [bp [_ [_ Em]]]]]];
    assert (Hnx : no_nl x) by (destruct Hx as [-> | ->]; [|apply no_nl_lstrip]; exact Hl).
  - repeat constructor. exact Hnx.
  - exact (emit_no_nl _ _ _ _ _ _ _ Hcs Hce Hnx Em).
Qed.

Lemma process_line_nonempty : forall L l ls, process_line L l = Ok ls -> ls <> [].
Proof.
  intros L l ls H. destruct (process_line_cases L l ls H) as [x [_ [[_ ->] | [bp [_ [_ Em]]]]]]; [discriminate|].
  destruct (emit_inv _ _ _ _ _ _ _ Em) as [ls' [_ ->]]. discriminate.
Qed.

Lemma process_lines_no_nl : forall L ls out, ls <> [] -> Forall no_nl ls -> process_lines L ls = Ok out ->
  Forall no_nl out /\ out <> [].
Proof.
  intros L ls out Hne Hl H. destruct (process_lines_concat L ls out H) as [outs [F ->]]. clear H. split.
  - clear Hne. induction F as [|l o ls outs P _ IH]; cbn [concat]; [constructor|]. inversion Hl as [|? ? H1 H2]; subst.
    apply Forall_app. split; [apply (process_line_no_nl L l o H1 P) | exact (IH H2)].
  - destruct F as [|l o ls outs P _]; [congruence|]. pose proof (process_line_nonempty L l o P) as B.
    cbn [concat]. destruct o; [congruence | discriminate].
Qed.

Lemma process_lines_short : forall L ls, Forall (fun x => length x <= L) ls -> process_lines L ls = Ok ls.
Proof.
  intros L ls H. induction H as [|l r Hl Hr IH]; [reflexivity|].
  cbn [process_lines]. unfold process_line. apply Nat.leb_le in Hl. rewrite Hl, IH. reflexivity.
Qed.

Theorem limit_respected_text : forall L t t',
  process_text L t = TOk t' -> Forall (fun x => length x <= L) (split_nl t').
Proof.
  intros L t t' H. unfold process_text in H.
  destruct (process_lines L (split_nl t)) as [out| |] eqn:P; try discriminate. inversion H; subst.
  destruct (process_lines_no_nl _ _ _ (split_nl_nonempty t) (split_nl_no_nl t) P) as [A B].
  rewrite split_join_nl by assumption. eapply process_lines_limit; eauto.
Qed.

Theorem idempotent_lines : forall L l ls, process_line L l = Ok ls -> process_lines L ls = Ok ls.
Proof. intros L l ls H. apply process_lines_short. eapply process_line_limit; eauto. Qed.

Theorem long_lines_false_after : forall L t t', process_text L t = TOk t' -> long_lines L t' = false.
Proof.
  intros L t t' H. apply limit_respected_text in H. unfold long_lines.
  induction H as [|x r Hx Hr IH]; [reflexivity|]. cbn [existsb].
  rewrite IH. assert (E : (L <? length x) = false) by (apply Nat.ltb_ge; exact Hx). rewrite E. reflexivity.
Qed.

Lemma suffixes_in : forall p s, In s (suffixes (p ++ s)).
Proof.
  induction p as [|c p IH]; intros s; cbn [app].
  - destruct s; left; reflexivity.
  - cbn [suffixes]. right. apply IH.
Qed.

Lemma cont_loop_never_fails : forall fuel L cs ce keys line,
  (forall s, (exists p, line = p ++ s) ->
             (length s + length cs <=? L) || has_bp (find_break_point s (L - length ce - length cs) keys) = true) ->
  cont_loop fuel L cs ce keys line <> Err.
Proof.
  induction fuel as [|f IH]; intros L cs ce keys line H; cbn [cont_loop].
  - destruct (length line + length cs <=? L); [destruct line|]; discriminate.
  - specialize (H line (ex_intro _ [] eq_refl)) as H0.
    destruct (length line + length cs <=? L); [destruct line; discriminate|]. cbn [orb] in H0.
    destruct (find_break_point line (L - length ce - length cs) keys) as [bp|]; [|discriminate].
    assert (IH' : cont_loop f L cs ce keys (skipn bp line) <> Err).
    { apply IH. intros s [p Hp]. apply H. exists (firstn bp line ++ p).
      rewrite <- app_assoc, <- Hp. symmetry. apply firstn_skipn. }
    destruct (cont_loop f L cs ce keys (skipn bp line)); congruence.
Qed.

Theorem never_fails_partial_ : forall L l, breakable L l = true -> process_line L l <> Err.
Proof.
  intros L l H. unfold breakable in H. rewrite forallb_forall in H. unfold process_line.
  destruct (length l <=? L) eqn:E; [discriminate|]. apply Nat.leb_gt in E.
  pose proof (keys_ok_all (line_type l)) as Hk.
  set (t := line_type l) in *.
  assert (H0 := H l (suffixes_in [] l)). cbn beta in H0.
  assert (E1 : (length l + length (cont_start t) <=? L) = false) by (apply Nat.leb_gt; lia).
  rewrite E1 in H0. cbn [orb] in H0.
  assert (F : find_break_point l (L - length (cont_end t)) (key_list t) <> None).
  { apply (fbp_mono l (L - length (cont_end t) - length (cont_start t))); [assumption | lia |].
    destruct (find_break_point l (L - length (cont_end t) - length (cont_start t)) (key_list t)); [discriminate|].
    cbn in H0. discriminate. }
  destruct (find_break_point l (L - length (cont_end t)) (key_list t)) as [bp|]; [|congruence].
  unfold emit.
  assert (C : cont_loop (length l) L (cont_start t) (cont_end t) (key_list t) (skipn bp l) <> Err).
  { apply cont_loop_never_fails. intros s [p Hp]. apply H.
    replace l with ((firstn bp l ++ p) ++ s); [apply suffixes_in|].
    rewrite <- app_assoc, <- Hp. apply firstn_skipn. }
  destruct (cont_loop (length l) L (cont_start t) (cont_end t) (key_list t) (skipn bp l)); congruence.
Qed.
