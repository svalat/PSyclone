(* C08 — frame and origin of trace events: executing a body of assignments / IF / DO only changes
   locations whose name the body writes syntactically, always ends normally, and every Rd/Wr event
   stems from a syntactic access (Model.sacc) whose subscripts, evaluated in a store that agrees with
   the initial one outside the written names, give the event's location. *)
From Coq Require Import List ZArith Bool Lia PeanoNat.
Import ListNotations.
From PV Require Import Fort.Syntax Fort.Sem Fort.Facts C08.Model C08.Safe C08.SemFacts.
Open Scope Z_scope.

Definition rel (W : list name) (s s' : store) : Prop := forall l, ~ In (fst l) W -> val s' l = val s l.

Lemma rel_refl W s : rel W s s.
Proof. intros l _. reflexivity. Qed.
Lemma rel_trans W s1 s2 s3 : rel W s1 s2 -> rel W s2 s3 -> rel W s1 s3.
Proof. intros H1 H2 l N. rewrite (H2 l N). apply H1, N. Qed.
Lemma rel_upd W s l v : In (fst l) W -> rel W s (upd s l v).
Proof. intros H l' N. apply val_upd_other. intro E. subst. contradiction. Qed.
Lemma rel_weaken W W' s s' : incl W W' -> rel W s s' -> rel W' s s'.
Proof. intros I H l N. apply H. intro X. apply N, I, X. Qed.

Definition acc_at (W : list name) (s : store) (accs : list access) (wr : bool) (L : loc) : Prop :=
  exists ix s2, In (mkAcc wr (fst L) ix) accs /\ rel W s s2 /\ opt_all (map (eval s2) ix) = Some (snd L).

Definition origin (W : list name) (s : store) (accs : list access) (ev : event) : Prop :=
  match ev with
  | Rd L => acc_at W s accs false L
  | Wr L => acc_at W s accs true L
  | _ => True
  end.

Lemma acc_at_mono W s s1 accs accs' wr L :
  rel W s s1 -> incl accs accs' -> acc_at W s1 accs wr L -> acc_at W s accs' wr L.
Proof.
  intros R I [ix [s2 [H1 [H2 H3]]]]. exists ix, s2. split; [apply I, H1|]. split; [eapply rel_trans; eassumption | exact H3].
Qed.

Lemma origin_mono W s s1 accs accs' ev :
  rel W s s1 -> incl accs accs' -> origin W s1 accs ev -> origin W s accs' ev.
Proof. intros R I. destruct ev; cbn [origin]; try tauto; apply acc_at_mono; assumption. Qed.

Lemma Forall_origin_mono W s s1 accs accs' tr :
  rel W s s1 -> incl accs accs' -> Forall (origin W s1 accs) tr -> Forall (origin W s accs') tr.
Proof. intros R I H. eapply Forall_impl; [|exact H]. intros ev. apply origin_mono; assumption. Qed.

(* L is read through an access of accs whose subscripts evaluate to L's index vector in s *)
Definition read_at (s : store) (accs : list access) (L : loc) : Prop :=
  exists ix, In (mkAcc false (fst L) ix) accs /\ opt_all (map (eval s) ix) = Some (snd L).

Lemma read_at_mono s accs accs' L : incl accs accs' -> read_at s accs L -> read_at s accs' L.
Proof. intros I [ix [H1 H2]]. exists ix. split; [apply I, H1 | exact H2]. Qed.

Lemma read_at_flat_map s (f : expr -> list access) es e L : In e es -> read_at s (f e) L -> read_at s (flat_map f es) L.
Proof. intro He. apply read_at_mono. intros a Ha. apply in_flat_map. exists e. split; assumption. Qed.

Lemma ereads_origin s : forall e L, In L (ereads s e) -> read_at s (eacc e) L.
Proof.
  induction e as [z|y|a ix IH|o e1 IH|o l r IHl IHr|f args IH] using expr_ind'; intros L HL; cbn [ereads eacc] in *.
  - destruct HL.
  - destruct HL as [<-|[]]. exists []. split; [left; reflexivity | reflexivity].
  - apply in_app_or in HL as [HL|HL].
    + apply in_flat_map in HL as [e' [He' HL]]. rewrite Forall_forall in IH.
      apply (read_at_mono s (flat_map eacc ix)); [apply incl_appl, incl_refl|].
      exact (read_at_flat_map s eacc ix e' L He' (IH e' He' L HL)).
    + destruct (opt_all (map (eval s) ix)) as [vs|] eqn:E; [|destruct HL]. destruct HL as [<-|[]].
      exists ix. split; [apply in_or_app; right; left; reflexivity | exact E].
  - apply IH, HL.
  - apply in_app_or in HL as [HL|HL].
    + eapply read_at_mono; [|apply IHl, HL]. apply incl_appl, incl_refl.
    + eapply read_at_mono; [|apply IHr, HL]. apply incl_appr, incl_refl.
  - assert (G : forall args', incl args' args -> In L (flat_map (ereads s) args') -> read_at s (flat_map eacc args) L).
    { intros args' I HL'. apply in_flat_map in HL' as [e' [He' HL']]. rewrite Forall_forall in IH.
      exact (read_at_flat_map s eacc args e' L (I e' He') (IH e' (I e' He') L HL')). }
    destruct (is_inquiry f).
    + destruct args as [|a0 r]; [destruct HL|]. apply (G r); [intros y Hy; right; exact Hy | exact HL].
    + apply (G args); [apply incl_refl | exact HL].
Qed.

Lemma ereads_origin_in s (es : list expr) L : In L (flat_map (ereads s) es) -> read_at s (flat_map eacc es) L.
Proof.
  intro HL. apply in_flat_map in HL as [e [He HL]]. exact (read_at_flat_map s eacc es e L He (ereads_origin s e L HL)).
Qed.

Lemma rds_origin W s accs ls : (forall L, In L ls -> read_at s accs L) -> Forall (origin W s accs) (rds ls).
Proof.
  intro H. unfold rds. apply Forall_forall. intros ev Hev. apply in_map_iff in Hev as [L [<- HL]].
  destruct (H L HL) as [ix [H1 H2]]. exists ix, s. split; [exact H1|]. split; [apply rel_refl | exact H2].
Qed.

Definition good (W : list name) (A : list access) (s : store) (o : outcome) : Prop :=
  forall s' tr c, o = Ok s' tr c -> rel W s s' /\ Forall (origin W s A) tr /\ c = CNormal.

Lemma do_loop_origin W A (run : store -> outcome) j l t :
  In j W -> In (mkAcc true j []) A -> (forall s, good W A s (run s)) ->
  forall n k s, good W A s (do_loop run j l t n k s).
Proof.
  intros Hj HA Hrun. induction n as [|n IH]; intros k s s' tr c H; cbn [do_loop] in H.
  - inversion H; subst. split; [apply rel_upd; exact Hj|]. split; [|reflexivity].
    constructor; [|constructor]. exists [], s. split; [exact HA|]. split; [apply rel_refl | reflexivity].
  - set (s1 := upd s (j, []) (l + k * t)) in *.
    destruct (run s1) as [s2 tr2 c2| |] eqn:E; try discriminate.
    destruct (Hrun s1 s2 tr2 c2 E) as [R12 [O2 ->]].
    apply prepend_ok_inv in H as [tr0 [H ->]].
    destruct (IH (k + 1) s2 s' tr0 c H) as [R2 [O0 ->]].
    assert (R01 : rel W s s1) by (apply rel_upd; exact Hj).
    split; [eapply rel_trans; [exact R01 | eapply rel_trans; eassumption]|]. split; [|reflexivity].
    cbn [app]. constructor.
    + exists [], s. split; [exact HA|]. split; [apply rel_refl | reflexivity].
    + apply Forall_app. split.
      * eapply Forall_origin_mono; [exact R01 | apply incl_refl | exact O2].
      * eapply Forall_origin_mono; [eapply rel_trans; eassumption | apply incl_refl | exact O0].
Qed.

Lemma forallb_simple_app a b : forallb simple (a ++ b) = true -> forallb simple a = true /\ forallb simple b = true.
Proof. rewrite forallb_app. apply andb_true_iff. Qed.

Lemma stmt_origin W f st s :
  (forall ss s, forallb simple ss = true -> incl (flat_map swn ss) W -> good W (flat_map sacc ss) s (exec f ss s)) ->
  simple st = true -> incl (swn st) W -> good W (sacc st) s (exec_stmt (exec f) st s).
Proof.
  intros IH Hs Hw s' tr c H.
  destruct st as [x ix e|cnd th el|j lo hi stp b| | | |es|r b|d b]; cbn [simple] in Hs; try discriminate; cbn [exec_stmt] in H.
  - destruct (opt_all (map (eval s) ix)) as [vs|] eqn:E1; [|discriminate].
    destruct (eval s e) as [v|] eqn:E2; [|discriminate]. inversion H; subst.
    assert (Hx : In x W) by (apply Hw; left; reflexivity).
    split; [apply rel_upd; exact Hx|]. split; [|reflexivity]. cbn [sacc].
    apply Forall_app. split.
    + apply rds_origin. intros L HL. apply in_app_or in HL as [HL|HL].
      * eapply read_at_mono; [|apply ereads_origin, HL]. apply incl_appl, incl_refl.
      * eapply read_at_mono; [|apply ereads_origin_in, HL]. apply incl_appr, incl_appl, incl_refl.
    + constructor; [|constructor]. exists ix, s. cbn [fst snd].
      split; [apply in_or_app; right; apply in_or_app; right; left; reflexivity|]. split; [apply rel_refl | exact E1].
  - apply andb_true_iff in Hs as [Hth Hel]. cbn [swn] in Hw.
    destruct (eval s cnd) as [v|] eqn:E; [|discriminate].
    apply prepend_ok_inv in H as [tr0 [H ->]]. cbn [sacc].
    assert (G : forall blk, forallb simple blk = true -> incl (flat_map swn blk) W -> incl (flat_map sacc blk) (flat_map sacc th ++ flat_map sacc el) ->
                exec f blk s = Ok s' tr0 c -> rel W s s' /\ Forall (origin W s (eacc cnd ++ flat_map sacc th ++ flat_map sacc el)) (rds (ereads s cnd) ++ tr0) /\ c = CNormal).
    { intros blk B1 B2 B3 HB. destruct (IH blk s B1 B2 s' tr0 c HB) as [R [O ->]]. split; [exact R|]. split; [|reflexivity].
      apply Forall_app. split.
      - apply rds_origin. intros L HL. eapply read_at_mono; [|apply ereads_origin, HL]. apply incl_appl, incl_refl.
      - eapply Forall_origin_mono; [apply rel_refl | | exact O]. intros a Ha. apply in_or_app; right. apply B3, Ha. }
    destruct (v =? 0).
    + apply (G el); [exact Hel | intros y Hy; apply Hw, in_or_app; right; exact Hy | intros y Hy; apply in_or_app; right; exact Hy | exact H].
    + apply (G th); [exact Hth | intros y Hy; apply Hw, in_or_app; left; exact Hy | intros y Hy; apply in_or_app; left; exact Hy | exact H].
  - cbn [swn] in Hw.
    destruct (eval s lo) as [l|] eqn:E1; [|discriminate].
    destruct (eval s hi) as [h|] eqn:E2; [|discriminate].
    destruct (eval s stp) as [t|] eqn:E3; [|discriminate].
    destruct (t =? 0); [discriminate|].
    apply prepend_ok_inv in H as [tr0 [H ->]]. cbn [sacc].
    set (A := mkAcc true j [] :: mkAcc false j [] :: eacc lo ++ eacc hi ++ eacc stp ++ flat_map sacc b).
    assert (Hrun : forall s0, good W A s0 (exec f b s0)).
    { intros s0 s1 tr1 c1 H1. destruct (IH b s0 Hs (fun y Hy => Hw y (or_intror Hy)) s1 tr1 c1 H1) as [R [O ->]].
      split; [exact R|]. split; [|reflexivity]. eapply Forall_origin_mono; [apply rel_refl | | exact O].
      do 2 apply incl_tl. do 3 apply incl_appr. apply incl_refl. }
    destruct (do_loop_origin W A (exec f b) j l t (Hw j (or_introl eq_refl)) (or_introl eq_refl) Hrun _ _ _ _ _ _ H) as [R [O ->]].
    split; [exact R|]. split; [|reflexivity]. apply Forall_app. split; [|exact O].
    apply rds_origin. intros L HL. apply (read_at_mono s (eacc lo ++ eacc hi ++ eacc stp)).
    { do 2 apply incl_tl. rewrite !app_assoc. apply incl_appl, incl_refl. }
    apply in_app_or in HL as [HL|HL]; [|apply in_app_or in HL as [HL|HL]].
    + eapply read_at_mono; [|apply ereads_origin, HL]. apply incl_appl, incl_refl.
    + eapply read_at_mono; [|apply ereads_origin, HL]. apply incl_appr, incl_appl, incl_refl.
    + eapply read_at_mono; [|apply ereads_origin, HL]. apply incl_appr, incl_appr, incl_refl.
Qed.

Theorem exec_origin W : forall f ss s,
  forallb simple ss = true -> incl (flat_map swn ss) W -> good W (flat_map sacc ss) s (exec f ss s).
Proof.
  induction f as [|f IH]; intros ss s Hs Hw s' tr c H; [discriminate|].
  destruct ss as [|st rest].
  - inversion H; subst. split; [apply rel_refl|]. split; [constructor | reflexivity].
  - rewrite exec_cons in H. cbn [forallb] in Hs. apply andb_true_iff in Hs as [Hst Hrest].
    cbn [flat_map] in Hw |- *.
    destruct (incl_app_inv _ _ Hw) as [Hw1 Hw2].
    pose proof (stmt_origin W f st s IH Hst Hw1) as G.
    apply then_run_ok_inv in H as [[s1 [tr1 [tr2 [H1 [H2 ->]]]]]|[N H1]].
    + destruct (G s1 tr1 CNormal H1) as [R1 [O1 _]].
      destruct (IH rest s1 Hrest Hw2 s' tr2 c H2) as [R2 [O2 ->]].
      split; [eapply rel_trans; eassumption|]. split; [|reflexivity]. apply Forall_app. split.
      * eapply Forall_origin_mono; [apply rel_refl | apply incl_appl, incl_refl | exact O1].
      * eapply Forall_origin_mono; [exact R1 | apply incl_appr, incl_refl | exact O2].
    + destruct (G s' tr c H1) as [_ [_ E]]. contradiction.
Qed.
