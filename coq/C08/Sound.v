(* C08 — par_sound (C08_par_sound_partial): on the safe fragment, a loop the model reports parallelisable has no Bernstein
   conflict between two distinct iterations of its execution in Fort.Sem (except exempt scalars). *)
From Coq Require Import List ZArith Bool Lia PeanoNat.
Import ListNotations.
From PV Require Import Fort.Syntax Fort.Sem Fort.Facts C08.Model C08.Safe C08.Spec C08.SemFacts C08.Origin
     C08.Decide C08.Scalars.
Open Scope Z_scope.

Lemma iters_props f body x l t W s0 :
  forallb simple body = true -> incl (flat_map swn body) W -> ~ In x W ->
  forall n k s its fin,
    iters (exec f body) x l t n k s = Some (its, fin) -> rel (x :: W) s0 s ->
    forall idx sk trk, nth_error its idx = Some (sk, trk) ->
      val sk (x, []) = l + (k + Z.of_nat idx) * t /\ rel (x :: W) s0 sk /\
      exists s2, exec f body sk = Ok s2 trk CNormal.
Proof.
  intros Hs Hw Hx. induction n as [|n IH]; intros k s its fin H R idx sk trk Hn; cbn [iters] in H.
  - inversion H; subst. destruct idx; discriminate.
  - set (s1 := upd s (x, []) (l + k * t)) in *.
    destruct (exec f body s1) as [s2 tr c| |] eqn:E; try discriminate. destruct c; try discriminate.
    destruct (iters (exec f body) x l t n (k + 1) s2) as [[its' fin']|] eqn:E2; [|discriminate].
    inversion H; subst. clear H.
    assert (R1 : rel (x :: W) s0 s1).
    { eapply rel_trans; [exact R|]. apply rel_upd. left; reflexivity. }
    destruct idx as [|i]; cbn [nth_error] in Hn.
    + inversion Hn; subst. split; [|split; [exact R1 | exists s2; exact E]].
      unfold s1. rewrite val_upd_same. cbn [Z.of_nat]. lia.
    + destruct (exec_origin W f body s1 Hs Hw s2 tr CNormal E) as [R2 _].
      assert (R02 : rel (x :: W) s0 s2).
      { eapply rel_trans; [exact R1|]. eapply rel_weaken; [apply incl_tl, incl_refl | exact R2]. }
      destruct (IH (k + 1) s2 _ _ E2 R02 i sk trk Hn) as [A B]. split; [|exact B].
      rewrite A. rewrite Nat2Z.inj_succ. lia.
Qed.

(* tie to Sem.do_loop: the trace of the whole loop is made of the per-iteration traces *)
Lemma do_loop_iters (run : store -> outcome) x l t :
  (forall s s' tr c, run s = Ok s' tr c -> c = CNormal) ->
  forall n k s s' tr c, do_loop run x l t n k s = Ok s' tr c ->
    exists its fin, iters run x l t n k s = Some (its, fin) /\
                    tr = concat (map (fun t0 => Wr (x, []) :: t0) (map snd its)) ++ [Wr (x, [])] /\ c = CNormal.
Proof.
  intros Hrun. induction n as [|n IH]; intros k s s' tr c H; cbn [do_loop] in H; cbn [iters].
  - inversion H; subst. exists [], s. repeat split.
  - destruct (run (upd s (x, []) (l + k * t))) as [s2 tr2 c2| |] eqn:E; try discriminate.
    rewrite (Hrun _ _ _ _ E) in *. apply prepend_ok_inv in H as [tr0 [H ->]].
    destruct (IH _ _ _ _ _ H) as [its [fin [E2 [-> ->]]]]. rewrite E2.
    exists ((upd s (x, []) (l + k * t), tr2) :: its), fin. split; [reflexivity|]. split; [|reflexivity].
    cbn [map snd concat app]. rewrite <- app_assoc. reflexivity.
Qed.

Theorem loop_iterations_exist f x lo hi st body s s' tr c :
  forallb simple body = true ->
  exec (S f) [SDo x lo hi st body] s = Ok s' tr c ->
  exists its, iterations_of f x lo hi st body s its /\
              tr = loop_trace x (ereads s lo ++ ereads s hi ++ ereads s st) (map snd its).
Proof.
  intros Hs H. rewrite exec_cons in H. cbn [exec_stmt] in H.
  destruct (eval s lo) as [l|] eqn:E1; [|discriminate]. destruct (eval s hi) as [h|] eqn:E2; [|discriminate].
  destruct (eval s st) as [t|] eqn:E3; [|discriminate]. destruct (t =? 0) eqn:T0; [discriminate|].
  apply then_run_ok_inv in H as [[s1 [tr1 [tr2 [H1 [H2 ->]]]]]|[N H1]].
  - apply prepend_ok_inv in H1 as [tr0 [H1 ->]].
    destruct (do_loop_iters (exec f body) x l t) with (n := trip_count l h t) (k := 0) (s := s) (s' := s1) (tr := tr0) (c := CNormal)
      as [its [fin [I [-> _]]]]; [|exact H1|].
    + intros s0 s0' tr' c' H0. apply (exec_origin (flat_map swn body) f body s0 Hs (incl_refl _) s0' tr' c' H0).
    + exists its. split.
      * exists l, h, t, fin. repeat split; try assumption. apply Z.eqb_neq, T0.
      * destruct f as [|f']; [discriminate|]. cbn [exec] in H2. inversion H2; subst.
        unfold loop_trace. rewrite app_nil_r. reflexivity.
  - apply prepend_ok_inv in H1 as [tr0 [H1 ->]].
    destruct (do_loop_iters (exec f body) x l t) with (n := trip_count l h t) (k := 0) (s := s) (s' := s') (tr := tr0) (c := c)
      as [its [fin [_ [_ ->]]]]; [|exact H1|contradiction].
    intros s0 s0' tr' c' H0. apply (exec_origin (flat_map swn body) f body s0 Hs (incl_refl _) s0' tr' c' H0).
Qed.

(* every location an iteration touches stems from an access of the body whose subscripts are evaluated in a store
   that agrees with the initial one outside x and the written names and gives x the value of that iteration *)
Lemma iteration_access f body x l t W s n its fin :
  forallb simple body = true -> incl (flat_map swn body) W -> ~ In x W ->
  iters (exec f body) x l t n 0 s = Some (its, fin) ->
  forall p tp, nth_error (map snd its) p = Some tp ->
    (exists sp s2, exec f body sp = Ok s2 tp CNormal) /\
    forall (wr : bool) L, In L (if wr then writes tp else reads tp) ->
      exists ix s1, In (mkAcc wr (fst L) ix) (flat_map sacc body) /\ rel (x :: W) s s1 /\
                    val s1 (x, []) = l + Z.of_nat p * t /\ opt_all (map (eval s1) ix) = Some (snd L).
Proof.
  intros Hs Hw Hx It p tp Np. rewrite nth_error_map in Np.
  destruct (nth_error its p) as [[sp tp']|] eqn:Ip; [|discriminate]. inversion Np; subst tp'. clear Np.
  destruct (iters_props f body x l t W s Hs Hw Hx _ _ _ _ _ It (rel_refl _ _) p sp tp Ip) as [Xp [Rp [s2 Ep]]].
  split; [exists sp, s2; exact Ep|]. intros wr L HL.
  destruct (exec_origin W f body sp Hs Hw s2 tp CNormal Ep) as [_ [Op _]]. rewrite Forall_forall in Op.
  assert (A : acc_at W sp (flat_map sacc body) wr L).
  { destruct wr; [apply in_writes in HL | apply in_reads in HL]; exact (Op _ HL). }
  destruct A as [ix [s1 [A [R1 V]]]]. exists ix, s1. split; [exact A|]. split; [|split; [|exact V]].
  - eapply rel_trans; [exact Rp|]. eapply rel_weaken; [apply incl_tl, incl_refl | exact R1].
  - rewrite (R1 (x, []) Hx). exact Xp.
Qed.

Lemma eacc_reads : forall e a, In a (eacc e) -> a_wr a = false.
Proof.
  induction e as [z|y|arr ix IH|o e1 IH|o l r IHl IHr|f args IH] using expr_ind'; intros a Ha; cbn [eacc] in Ha.
  - destruct Ha.
  - destruct Ha as [<-|[]]. reflexivity.
  - apply in_app_or in Ha as [Ha|[<-|[]]]; [|reflexivity]. apply in_flat_map in Ha as [e [He Ha]].
    rewrite Forall_forall in IH. apply (IH e He a Ha).
  - apply IH, Ha.
  - apply in_app_or in Ha as [Ha|Ha]; [apply IHl, Ha | apply IHr, Ha].
  - apply in_flat_map in Ha as [e [He Ha]]. rewrite Forall_forall in IH. apply (IH e He a Ha).
Qed.

Lemma eacc_list_reads es a : In a (flat_map eacc es) -> a_wr a = false.
Proof. intro H. apply in_flat_map in H as [e [_ H]]. eapply eacc_reads, H. Qed.

(* what a write access of a statement (of a block) writes: an assignment target, which for a scalar access is a
   scalar target, or a DO variable *)
Definition wcase (st : stmt) (v : name) (ix : list expr) : Prop :=
  (In v (sasg st) /\ (ix = [] -> In v (sscal st))) \/ (ix = [] /\ In v (sdovars st)).
Definition wcase_l (ss : list stmt) (v : name) (ix : list expr) : Prop :=
  (In v (flat_map sasg ss) /\ (ix = [] -> In v (flat_map sscal ss))) \/ (ix = [] /\ In v (flat_map sdovars ss)).

Lemma flat_In {A B} (f : A -> list B) l x y : In x l -> In y (f x) -> In y (flat_map f l).
Proof. intros H1 H2. apply in_flat_map. exists x. split; assumption. Qed.

Lemma wacc_block ss v ix :
  Forall (fun st => simple st = true -> forall v ix, In (mkAcc true v ix) (sacc st) -> wcase st v ix) ss ->
  forallb simple ss = true -> In (mkAcc true v ix) (flat_map sacc ss) -> wcase_l ss v ix.
Proof.
  intros IH Hs Ha. rewrite Forall_forall in IH. rewrite forallb_forall in Hs.
  apply in_flat_map in Ha as [st [Hst Ha]]. destruct (IH st Hst (Hs st Hst) v ix Ha) as [[A B]|[A B]].
  - left. split; [exact (flat_In _ _ _ _ Hst A) | intro E; exact (flat_In _ _ _ _ Hst (B E))].
  - right. split; [exact A | exact (flat_In _ _ _ _ Hst B)].
Qed.

Lemma wacc_cases : forall st, simple st = true -> forall v ix, In (mkAcc true v ix) (sacc st) -> wcase st v ix.
Proof.
  induction st as [x ix0 e|c th el IHt IHe|j lo hi stp b IHb| | | |es|r b IHb|d b IHb] using stmt_ind';
    intros Hs v ix Ha; cbn [simple] in Hs; try discriminate; cbn [sacc] in Ha.
  - apply in_app_or in Ha as [Ha|Ha]; [apply eacc_reads in Ha; discriminate|].
    apply in_app_or in Ha as [Ha|[Ha|[]]]; [apply eacc_list_reads in Ha; discriminate|].
    inversion Ha; subst. left. split; [left; reflexivity|]. intros ->. left; reflexivity.
  - (* then and else together *)
    apply in_app_or in Ha as [Ha|Ha]; [apply eacc_reads in Ha; discriminate|]. rewrite <- flat_map_app in Ha.
    unfold wcase. cbn [sasg sscal sdovars]. rewrite <- !flat_map_app.
    apply (wacc_block (th ++ el)); [apply Forall_app; split; assumption | | exact Ha].
    apply andb_true_iff in Hs as [H1 H2]. rewrite forallb_app, H1, H2. reflexivity.
  - destruct Ha as [Ha|[Ha|Ha]]; [inversion Ha; subst; right; split; [reflexivity | left; reflexivity] | discriminate Ha |].
    do 3 (apply in_app_or in Ha as [Ha|Ha]; [apply eacc_reads in Ha; discriminate|]).
    destruct (wacc_block b v ix IHb Hs Ha) as [[A B]|[A B]]; [left; split; assumption|].
    right. split; [exact A | right; exact B].
Qed.

Lemma wacc_cases_list body v ix :
  forallb simple body = true -> In (mkAcc true v ix) (flat_map sacc body) -> wcase_l body v ix.
Proof. apply wacc_block, Forall_forall. intros st _. apply wacc_cases. Qed.

Lemma flat_map_incl {A B} (f g : A -> list B) l :
  Forall (fun x => incl (f x) (g x)) l -> incl (flat_map f l) (flat_map g l).
Proof.
  intros H y Hy. apply in_flat_map in Hy as [x [Hx Hy]]. rewrite Forall_forall in H.
  exact (flat_In g l x y Hx (H x Hx y Hy)).
Qed.

Lemma sasg_swn : forall st, incl (sasg st) (swn st).
Proof.
  induction st as [x ix0 e|c th el IHt IHe|j lo hi stp b IHb| | | |es|r b IHb|d b IHb] using stmt_ind';
    cbn [sasg swn]; try apply incl_refl.
  - apply incl_app_app; apply flat_map_incl; assumption.
  - apply incl_tl, flat_map_incl, IHb.
Qed.

Lemma sasg_swn_list body : incl (flat_map sasg body) (flat_map swn body).
Proof. apply flat_map_incl, Forall_forall. intros st _. apply sasg_swn. Qed.

Lemma insert_sorted_In v n l : In v (insert_sorted n l) <-> n = v \/ In v l.
Proof.
  induction l as [|m r IH]; cbn [insert_sorted]; [reflexivity|].
  destruct (Nat.ltb n m); [reflexivity|]. destruct (Nat.eqb_spec n m) as [->|_]; cbn [In]; [|rewrite IH]; tauto.
Qed.

Lemma sort_names_In v l : In v (sort_names l) <-> In v l.
Proof.
  induction l as [|a l IH]; [reflexivity|]. unfold sort_names in *. cbn [fold_right]. rewrite insert_sorted_In, IH.
  reflexivity.
Qed.

(* what [safe] says, read off its five conjuncts *)
Lemma safe_inv x body : safe x body = true ->
  let W := flat_map swn body in
  let lvs := x :: flat_map sdovars body in
  forallb simple body = true /\ ~ In x W /\
  (forall v, In v (flat_map sasg body) -> ~ In v lvs) /\
  (forall a, In a (flat_map sacc body) -> In (a_name a) W -> Forall (fun e => sub_ok x lvs W e = true) (a_ix a)) /\
  (forall v, In v (flat_map sscal body) -> In v (flat_map sdovars body) \/ scalar_uncond body v = true).
Proof.
  intros H W lvs. unfold safe in H. fold W lvs in H.
  apply andb_true_iff in H as [H Hsc]. apply andb_true_iff in H as [H Hsub].
  apply andb_true_iff in H as [H Hasg]. apply andb_true_iff in H as [Hs Hx].
  rewrite forallb_forall in Hsc, Hsub, Hasg. repeat split.
  - exact Hs.
  - apply memn_false, negb_true_iff, Hx.
  - intros v Hv. apply memn_false, negb_true_iff, Hasg, Hv.
  - intros a Ha HW. apply Forall_forall, forallb_forall.
    destruct (orb_prop _ _ (Hsub a Ha)) as [N|F]; [|exact F].
    apply negb_true_iff, memn_false in N. contradiction.
  - intros v Hv. destruct (orb_prop _ _ (Hsc v Hv)) as [D|U]; [left; apply memn_In, D | right; exact U].
Qed.

Section Sound.
  Variable odist : name -> expr -> expr -> bool.
  Variable oneq : expr -> expr -> bool.
  Variable incr : bool.
  Variable dtab : list (nat * name).

  Hypothesis sympy_solveset_exact : forall x w o,
    odist x w o = true -> tr_exact x w = true -> tr_exact x o = true -> same_only_at x w o.
  Hypothesis sympy_simplify_exact : forall x w o,
    oneq w o = true -> tr_exact x w = true -> tr_exact x o = true -> never_same w o.

  Notation indep_pair := (indep_pair odist oneq incr dtab).
  Notation others := (others odist oneq incr dtab).
  Notation writes_loop := (writes_loop odist oneq incr dtab).
  Notation var_par := (var_par odist oneq incr dtab).
  Notation vars_loop := (vars_loop odist oneq incr dtab).

  Lemma others_par_inv lvs v iw w : forall all io,
    others lvs v iw w all io = Par -> forall o, In o all -> indep_pair lvs w (a_ix o) = Some true.
  Proof.
    induction all as [|o r IH]; intros io H o' Ho; [destruct Ho|]. cbn [Model.others] in H.
    destruct (indep_pair lvs w (a_ix o)) as [[|]|] eqn:E; try discriminate.
    destruct Ho as [<-|Ho]; [exact E | eapply IH; eassumption].
  Qed.

  Lemma writes_loop_par_inv lvs v all : forall rest iw,
    writes_loop lvs v all rest iw = Par ->
    forall w, In w rest -> a_wr w = true -> forall o, In o all -> indep_pair lvs (a_ix w) (a_ix o) = Some true.
  Proof.
    induction rest as [|w0 r IH]; intros iw H w Hw Wr o Ho; [destruct Hw|]. cbn [Model.writes_loop] in H.
    destruct Hw as [<-|Hw].
    - rewrite Wr in H. destruct (others lvs v iw (a_ix w0) all 0) eqn:E; try discriminate.
      eapply others_par_inv; eassumption.
    - destruct (a_wr w0).
      + destruct (others lvs v iw (a_ix w0) all 0) eqn:E; try discriminate. eapply IH; eassumption.
      + eapply IH; eassumption.
  Qed.

  Lemma vars_loop_par_inv lvs accs : forall ns,
    vars_loop lvs accs ns = Par -> forall v, In v ns -> ~ In v lvs -> var_par lvs accs v = Par.
  Proof.
    induction ns as [|n r IH]; intros H v Hv Nv; [destruct Hv|]. cbn [Model.vars_loop] in H.
    destruct (memn n lvs) eqn:M.
    - destruct Hv as [<-|Hv]; [apply memn_In in M; contradiction | apply IH; assumption].
    - destruct (var_par lvs accs n) eqn:E; try discriminate.
      destruct Hv as [<-|Hv]; [exact E | apply IH; assumption].
  Qed.

  (* the pair test the model has passed for a write to an array element and any access to the same array *)
  Lemma can_par_pair x lo hi st body v e0 ixw b ixo :
    can_par odist oneq incr dtab x lo hi st body = Par ->
    In (mkAcc true v (e0 :: ixw)) (flat_map sacc body) -> In (mkAcc b v ixo) (flat_map sacc body) ->
    ~ In v (x :: flat_map sdovars body) ->
    indep_pair (x :: flat_map sdovars body) (e0 :: ixw) ixo = Some true.
  Proof.
    unfold can_par. set (accs := sacc (SDo x lo hi st body)). set (lvs := x :: flat_map sdovars body).
    intros Hpar Aw Ao Hlv.
    assert (Sub : incl (flat_map sacc body) accs).
    { unfold accs. cbn [sacc]. do 2 apply incl_tl. do 3 apply incl_appr. apply incl_refl. }
    assert (Hv : In v (sort_names (map a_name accs))).
    { apply sort_names_In, in_map_iff. exists (mkAcc true v (e0 :: ixw)). split; [reflexivity | apply Sub, Aw]. }
    pose proof (vars_loop_par_inv lvs accs _ Hpar v Hv Hlv) as VP. unfold Model.var_par in VP.
    set (av := filter (fun a => Nat.eqb (a_name a) v) accs) in *.
    assert (In_av : forall a, In a (flat_map sacc body) -> a_name a = v -> In a av).
    { intros a Ha E. apply filter_In. split; [apply Sub, Ha | apply Nat.eqb_eq, E]. }
    pose proof (In_av _ Aw eq_refl) as Aw'. pose proof (In_av _ Ao eq_refl) as Ao'.
    replace (is_array av) with true in VP
      by (symmetry; apply existsb_exists; exists (mkAcc true v (e0 :: ixw)); split; [exact Aw' | reflexivity]).
    unfold array_par in VP.
    replace (read_only av) with false in VP.
    - exact (writes_loop_par_inv lvs v av av 0%nat VP _ Aw' eq_refl _ Ao').
    - symmetry. apply not_true_is_false. intro RO. unfold read_only in RO. rewrite forallb_forall in RO.
      discriminate (RO _ Aw').
  Qed.

  Theorem par_sound x lo hi st body :
    safe x body = true ->
    can_par odist oneq incr dtab x lo hi st body = Par ->
    forall f s its, iterations_of f x lo hi st body s its -> ~ conflict body (map snd its).
  Proof.
    intros Hsafe Hpar f s its [l [h [t [fin [_ [_ [_ [Tn It]]]]]]]] [p [q [tp [tq [L [Npq [Np [Nq [HW [HT NE]]]]]]]]]].
    destruct (safe_inv x body Hsafe) as [Hs [Hx [Hasg [Hsub Hsc]]]].
    set (W := flat_map swn body) in *. set (lvs := x :: flat_map sdovars body) in *.
    pose proof (iteration_access f body x l t W s _ its fin Hs (incl_refl _) Hx It) as Acc.
    (* the write in iteration p, the other access in iteration q *)
    destruct (proj2 (Acc p tp Np) true L HW) as [ixw [s1 [Aw [R1 [X1 Vw]]]]].
    assert (HO : exists b : bool, In L (if b then writes tq else reads tq))
      by (destruct HT; [exists false | exists true]; assumption).
    destruct HO as [b HO]. destruct (proj2 (Acc q tq Nq) b L HO) as [ixo [s2 [Ao [R2 [X2 Vo]]]]].
    destruct (wacc_cases_list body (fst L) ixw Hs Aw) as [[Hasgv Hscal]|[-> Hdo]].
    2:{ (* a DO variable of the body: exempt *)
        apply NE. inversion Vw as [Vw']. split; [symmetry; exact Vw' | left; exact Hdo]. }
    destruct ixw as [|e0 ixw].
    - (* scalar: written before read in every iteration *)
      apply NE. inversion Vw as [Vw']. split; [symmetry; exact Vw'|].
      destruct (Hsc _ (Hscal eq_refl)) as [Hdo|Hun]; [left; exact Hdo | right].
      intros t0 Ht0. apply In_nth_error in Ht0 as [i Hi]. destruct (proj1 (Acc i t0 Hi)) as [sk [sk2 Ek]].
      replace L with (fst L, @nil Z) by (rewrite Vw'; symmetry; apply surjective_pairing).
      eapply scalar_uncond_sound; eassumption.
    - (* array element: the model's pair test *)
      pose proof (can_par_pair x lo hi st body _ _ _ _ _ Hpar Aw Ao (Hasg _ Hasgv)) as IP.
      pose proof (sasg_swn_list body _ Hasgv) as HvW.
      pose proof (indep_sound odist oneq incr dtab sympy_solveset_exact sympy_simplify_exact lvs x W s _ _
                    eq_refl (or_introl eq_refl) IP (Hsub _ Aw HvW) (Hsub _ Ao HvW) s1 s2 (snd L) R1 R2 Vw Vo) as EQ.
      pose proof (eq_trans (eq_sym X1) (eq_trans EQ X2)) as E. apply Npq, Nat2Z.inj. nia.
  Qed.
End Sound.
