(* C08 — what an "independent" answer of _is_loop_carried_dependency means semantically on the safe
   fragment: if the model's pair test answers true for subscript lists w (a write) and o (any access), then
   the two lists can evaluate to the same index vector only in stores that give the parallel loop variable x
   the same value.  First the affine subscripts, decided inside the model: on translation-exact subscripts (no
   division) the form computed by Model.lin_of has denominator 1 and evaluates like the expression, which gives
   lin_dist0 / lin_neq their meaning.  Non-affine subscripts are answered by the oracle; its exactness is a
   Section hypothesis. *)
From Coq Require Import List ZArith Bool Lia PeanoNat.
Import ListNotations.
From PV Require Import Fort.Syntax Fort.Sem Fort.Facts C08.Model C08.Safe C08.SemFacts C08.Origin.
Open Scope Z_scope.

Definition vsum (s : store) (vs : list (name * Z)) : Z :=
  fold_right (fun p acc => snd p * val s (fst p, []) + acc) 0 vs.
Definition lin_val (s : store) (a : lin) : Z := l_c a + vsum s (l_vs a).

Lemma coef_cons p vs v : coef (p :: vs) v = if Nat.eqb (fst p) v then snd p + coef vs v else coef vs v.
Proof. reflexivity. Qed.
Lemma vsum_cons s p vs : vsum s (p :: vs) = snd p * val s (fst p, []) + vsum s vs.
Proof. reflexivity. Qed.
Lemma scale_cons k p vs : scale k (p :: vs) = (fst p, k * snd p) :: scale k vs.
Proof. reflexivity. Qed.

Lemma coef_app a b v : coef (a ++ b) v = coef a v + coef b v.
Proof.
  induction a as [|p a IH]; [reflexivity|]. rewrite <- app_comm_cons, !coef_cons, IH.
  destruct (Nat.eqb (fst p) v); lia.
Qed.

Lemma coef_scale k vs v : coef (scale k vs) v = k * coef vs v.
Proof.
  induction vs as [|p vs IH]; [cbn; lia|]. rewrite scale_cons, !coef_cons, IH. cbn [fst snd].
  destruct (Nat.eqb (fst p) v); lia.
Qed.

Lemma vsum_app s a b : vsum s (a ++ b) = vsum s a + vsum s b.
Proof. induction a as [|p a IH]; [reflexivity|]. rewrite <- app_comm_cons, !vsum_cons, IH. lia. Qed.

Lemma vsum_scale s k vs : vsum s (scale k vs) = k * vsum s vs.
Proof.
  induction vs as [|p vs IH]; [cbn; lia|]. rewrite scale_cons, !vsum_cons, IH. cbn [fst snd]. lia.
Qed.

Definition drop (v : name) (vs : list (name * Z)) := filter (fun p : name * Z => negb (Nat.eqb (fst p) v)) vs.

Lemma drop_cons v p vs : drop v (p :: vs) = if Nat.eqb (fst p) v then drop v vs else p :: drop v vs.
Proof. unfold drop. cbn [filter]. cbv beta. destruct (Nat.eqb (fst p) v); reflexivity. Qed.

Lemma vsum_split s v vs : vsum s vs = coef vs v * val s (v, []) + vsum s (drop v vs).
Proof.
  induction vs as [|p vs IH]; [cbn; lia|]. rewrite vsum_cons, coef_cons, drop_cons, IH.
  destruct (Nat.eqb (fst p) v) eqn:E.
  - apply Nat.eqb_eq in E. rewrite E. lia.
  - rewrite vsum_cons. lia.
Qed.

Lemma coef_drop_same v vs : coef (drop v vs) v = 0.
Proof.
  induction vs as [|p vs IH]; [reflexivity|]. rewrite drop_cons.
  destruct (Nat.eqb (fst p) v) eqn:E; [exact IH|]. rewrite coef_cons, E. exact IH.
Qed.

Lemma coef_drop_other v u vs : u <> v -> coef (drop v vs) u = coef vs u.
Proof.
  intro N. induction vs as [|p vs IH]; [reflexivity|]. rewrite drop_cons, coef_cons.
  destruct (Nat.eqb (fst p) v) eqn:E.
  - apply Nat.eqb_eq in E. destruct (Nat.eqb (fst p) u) eqn:E2; [apply Nat.eqb_eq in E2; congruence | exact IH].
  - rewrite coef_cons, IH. reflexivity.
Qed.

Lemma drop_length v vs : (length (drop v vs) <= length vs)%nat.
Proof. unfold drop. induction vs as [|p vs IH]; cbn [filter length]; [lia|]. destruct (negb _); cbn [length]; lia. Qed.

Lemma in_drop p v vs : In p (drop v vs) -> In p vs /\ fst p <> v.
Proof. unfold drop. rewrite filter_In. intros [H1 H2]. split; [exact H1|]. apply negb_true_iff, Nat.eqb_neq in H2. exact H2. Qed.

(* a form all of whose coefficients vanish has value 0: the name of the first entry contributes nothing
   (vsum_split), and without that name the list is shorter *)
Lemma vsum_zero_coef s vs : (forall v, coef vs v = 0) -> vsum s vs = 0.
Proof.
  assert (G : forall n vs, (length vs <= n)%nat -> (forall v, coef vs v = 0) -> vsum s vs = 0).
  { induction n as [|n IH]; intros [|[v k] r] Hn H; try reflexivity; cbn [length] in Hn; [lia|].
    rewrite (vsum_split s v), (H v), IH; [lia| |].
    - rewrite drop_cons. cbn [fst]. rewrite Nat.eqb_refl. pose proof (drop_length v r). lia.
    - intro u. destruct (Nat.eq_dec u v) as [->|N]; [apply coef_drop_same|].
      rewrite coef_drop_other by exact N. apply H. }
  apply (G (length vs)), le_n.
Qed.

(* the value of a form only depends on its coefficients *)
Lemma vsum_ext_coef s vs1 vs2 : (forall v, coef vs1 v = coef vs2 v) -> vsum s vs1 = vsum s vs2.
Proof.
  intro H. assert (Z : vsum s (vs1 ++ scale (-1) vs2) = 0).
  { apply vsum_zero_coef. intro v. rewrite coef_app, coef_scale, (H v). lia. }
  rewrite vsum_app, vsum_scale in Z. lia.
Qed.

Lemma vsum_agree s1 s2 vs :
  (forall p, In p vs -> val s1 (fst p, []) = val s2 (fst p, [])) -> vsum s1 vs = vsum s2 vs.
Proof.
  induction vs as [|p vs IH]; intro H; [reflexivity|]. rewrite !vsum_cons.
  rewrite IH by (intros q Hq; apply H; right; exact Hq). rewrite (H p) by (left; reflexivity). reflexivity.
Qed.

Lemma coef_nonzero_in vs v : coef vs v <> 0 -> exists p, In p vs /\ fst p = v.
Proof.
  induction vs as [|p vs IH]; [cbn; congruence|]. rewrite coef_cons.
  destruct (Nat.eqb (fst p) v) eqn:E.
  - intros _. apply Nat.eqb_eq in E. exists p. split; [left; reflexivity | exact E].
  - intro H. destruct (IH H) as [q [H1 H2]]. exists q. split; [right; exact H1 | exact H2].
Qed.

Lemma isconst_coefs a : lin_isconst a = true -> forall v, coef (l_vs a) v = 0.
Proof.
  unfold lin_isconst. rewrite forallb_forall. intros H v.
  destruct (Z.eq_dec (coef (l_vs a) v) 0) as [E|N]; [exact E|].
  destruct (coef_nonzero_in _ _ N) as [p [Hp <-]]. apply Z.eqb_eq, H, Hp.
Qed.

Lemma isconst_vsum s a : lin_isconst a = true -> vsum s (l_vs a) = 0.
Proof. intro H. apply vsum_zero_coef, isconst_coefs, H. Qed.

Lemma scale_names k vs : map fst (scale k vs) = map fst vs.
Proof. unfold scale. rewrite map_map. reflexivity. Qed.

(* the names of a form are names of the expression *)
Lemma lin_names : forall e a, lin_of e = Some a -> incl (map fst (l_vs a)) (enames e).
Proof.
  induction e as [z|y|arr ix|o e1 IH|o l IHl r IHr|f args]; intros a H; cbn [lin_of] in H; try discriminate.
  - inversion H; subst. apply incl_nil_l.
  - inversion H; subst. apply incl_refl.
  - destruct o; [|discriminate]. destruct (lin_of e1) as [a1|]; [|discriminate]. inversion H; subst.
    cbn [lin_neg l_vs enames]. rewrite scale_names. apply (IH a1 eq_refl).
  - cbn [enames].
    destruct o; try discriminate; destruct (lin_of l) as [a1|] eqn:E1; try discriminate;
      destruct (lin_of r) as [a2|] eqn:E2; try discriminate.
    + inversion H; subst. cbn [lin_add l_vs]. rewrite map_app, !scale_names.
      apply incl_app_app; [apply (IHl a1 eq_refl) | apply (IHr a2 eq_refl)].
    + inversion H; subst. cbn [lin_sub lin_add lin_neg l_vs l_den]. rewrite map_app, !scale_names.
      apply incl_app_app; [apply (IHl a1 eq_refl) | apply (IHr a2 eq_refl)].
    + unfold lin_mul in H. destruct (lin_isconst a1); [|destruct (lin_isconst a2); [|discriminate]]; inversion H; subst;
        cbn [lin_mulc l_vs]; rewrite scale_names.
      * apply incl_appr, (IHr a2 eq_refl).
      * apply incl_appl, (IHl a1 eq_refl).
    + unfold lin_div in H. destruct (lin_isconst a2); [|discriminate]. destruct (l_c a2); try discriminate; inversion H; subst;
        cbn [lin_mulc l_vs]; rewrite scale_names; apply incl_appl, (IHl a1 eq_refl).
Qed.

(* evaluation of translation-exact affine subscripts *)
Lemma lin_of_eval x s : forall e a, tr_exact x e = true -> lin_of e = Some a ->
  l_den a = 1%positive /\ eval s e = Some (lin_val s a).
Proof.
  induction e as [z|y|arr ix|o e1 IH|o l IHl r IHr|f args]; intros a T H; cbn [lin_of] in H; try discriminate.
  - inversion H; subst. split; [reflexivity|]. unfold lin_val, vsum. cbn [eval l_c l_vs fold_right]. f_equal. lia.
  - inversion H; subst. split; [reflexivity|]. unfold lin_val, vsum. cbn [eval l_c l_vs fold_right fst snd]. f_equal. lia.
  - destruct o; [|discriminate]. cbn [tr_exact] in T. destruct (lin_of e1) as [a1|]; [|discriminate]. inversion H; subst.
    destruct (IH a1 T eq_refl) as [D E]. split; [exact D|]. cbn [eval]. rewrite E. cbn [option_map eval_un].
    f_equal. unfold lin_val. cbn [lin_neg l_c l_vs]. rewrite vsum_scale. lia.
  - destruct o; try discriminate; cbn [tr_exact] in T;
      destruct (lin_of l) as [a1|] eqn:E1; try discriminate; destruct (lin_of r) as [a2|] eqn:E2; try discriminate.
    + apply andb_true_iff in T as [T1 T2]. destruct (IHl a1 T1 eq_refl) as [D1 V1]. destruct (IHr a2 T2 eq_refl) as [D2 V2].
      inversion H; subst. cbn [lin_add l_den]. rewrite D1, D2. split; [reflexivity|].
      cbn [eval]. rewrite V1, V2. cbn [eval_bin]. f_equal. unfold lin_val. cbn [lin_add l_c l_vs l_den].
      rewrite D1, D2, vsum_app, !vsum_scale. lia.
    + apply andb_true_iff in T as [T1 T2]. destruct (IHl a1 T1 eq_refl) as [D1 V1]. destruct (IHr a2 T2 eq_refl) as [D2 V2].
      inversion H; subst. cbn [lin_sub lin_add lin_neg l_den]. rewrite D1, D2. split; [reflexivity|].
      cbn [eval]. rewrite V1, V2. cbn [eval_bin]. f_equal. unfold lin_val. cbn [lin_sub lin_add lin_neg l_c l_vs l_den].
      rewrite D1, D2, vsum_app, !vsum_scale. lia.
    + apply andb_true_iff in T as [T _]. apply andb_true_iff in T as [T1 T2].
      destruct (IHl a1 T1 eq_refl) as [D1 V1]. destruct (IHr a2 T2 eq_refl) as [D2 V2].
      cbn [eval]. rewrite V1, V2. cbn [eval_bin]. unfold lin_mul in H.
      destruct (lin_isconst a1) eqn:C1; [|destruct (lin_isconst a2) eqn:C2; [|discriminate]]; inversion H; subst;
        cbn [lin_mulc l_den]; rewrite D1, D2; (split; [reflexivity|]); f_equal; unfold lin_val; cbn [lin_mulc l_c l_vs]; rewrite vsum_scale.
      * rewrite (isconst_vsum s a1 C1). lia.
      * rewrite (isconst_vsum s a2 C2). lia.
Qed.

Lemma coef_lin_sub a b v :
  coef (l_vs (lin_sub a b)) v = Zpos (l_den b) * coef (l_vs a) v + Zpos (l_den a) * (-1 * coef (l_vs b) v).
Proof. cbn [lin_sub lin_add lin_neg l_vs l_den]. rewrite coef_app, !coef_scale. reflexivity. Qed.

Lemma sub_const_coefs a b : l_den a = 1%positive -> l_den b = 1%positive -> lin_isconst (lin_sub a b) = true ->
  forall v, coef (l_vs a) v = coef (l_vs b) v.
Proof.
  intros D1 D2 C v. pose proof (isconst_coefs _ C v) as H. rewrite coef_lin_sub, D1, D2 in H. lia.
Qed.

Lemma lin_sub_c a b : l_den a = 1%positive -> l_den b = 1%positive -> l_c (lin_sub a b) = l_c a - l_c b.
Proof. intros D1 D2. cbn [lin_sub lin_add lin_neg l_c l_den]. rewrite D1, D2. lia. Qed.

Section Decisions.
  Variables (x : name) (w o : expr) (a b : lin).
  Hypothesis Tw : tr_exact x w = true.
  Hypothesis To : tr_exact x o = true.
  Hypothesis Lw : lin_of w = Some a.
  Hypothesis Lo : lin_of o = Some b.

  Lemma lin_dist0_names : lin_dist0 x a b = true -> In x (enames w) /\ In x (enames o).
  Proof.
    unfold lin_dist0, lin_eq. intro H. apply andb_true_iff in H as [N H]. apply andb_true_iff in H as [_ C].
    apply negb_true_iff, Z.eqb_neq in N.
    destruct (lin_of_eval x (mkStore (fun _ => 0) (fun _ => [])) w a Tw Lw) as [D1 _].
    destruct (lin_of_eval x (mkStore (fun _ => 0) (fun _ => [])) o b To Lo) as [D2 _].
    pose proof (sub_const_coefs a b D1 D2 C x) as E.
    split.
    - rewrite <- E in N. destruct (coef_nonzero_in _ _ N) as [p [Hp <-]]. apply (lin_names w a Lw), in_map, Hp.
    - destruct (coef_nonzero_in _ _ N) as [p [Hp <-]]. apply (lin_names o b Lo), in_map, Hp.
  Qed.

  (* when a and b differ by a constant, they have the same coefficients, and o evaluates like a less that constant *)
  Lemma const_diff_eval s1 s2 v1 v2 :
    lin_isconst (lin_sub a b) = true -> eval s1 w = Some v1 -> eval s2 o = Some v2 ->
    (forall u, coef (l_vs a) u = coef (l_vs b) u) /\ v1 = lin_val s1 a /\ v2 = lin_val s2 a - l_c (lin_sub a b).
  Proof.
    intros C E1 E2.
    destruct (lin_of_eval x s1 w a Tw Lw) as [D1 V1]. destruct (lin_of_eval x s2 o b To Lo) as [D2 V2].
    rewrite V1 in E1. rewrite V2 in E2. inversion E1. inversion E2.
    pose proof (sub_const_coefs a b D1 D2 C) as K. split; [exact K|]. split; [reflexivity|].
    unfold lin_val. rewrite (lin_sub_c a b D1 D2), (vsum_ext_coef s2 _ _ K). lia.
  Qed.

  (* equal affine subscripts with a non-zero coefficient of x: same index only for the same x *)
  Lemma lin_dist0_sem s1 s2 v :
    lin_dist0 x a b = true ->
    (forall n, n <> x -> In n (enames w ++ enames o) -> val s1 (n, []) = val s2 (n, [])) ->
    eval s1 w = Some v -> eval s2 o = Some v -> val s1 (x, []) = val s2 (x, []).
  Proof.
    unfold lin_dist0, lin_eq. intros H A E1 E2. apply andb_true_iff in H as [N H]. apply andb_true_iff in H as [C0 C].
    apply negb_true_iff, Z.eqb_neq in N. apply Z.eqb_eq in C0.
    destruct (const_diff_eval s1 s2 v v C E1 E2) as [K [F1 F2]]. rewrite C0, F1 in F2. rewrite <- (K x) in N.
    unfold lin_val in F2. rewrite (vsum_split s1 x), (vsum_split s2 x) in F2.
    assert (R : vsum s1 (drop x (l_vs a)) = vsum s2 (drop x (l_vs a))).
    { apply vsum_agree. intros p Hp. apply in_drop in Hp as [Hp Np]. apply A; [exact Np|].
      apply in_or_app; left. apply (lin_names w a Lw), in_map, Hp. }
    nia.
  Qed.

  (* affine subscripts differing by a non-zero constant never give the same index *)
  Lemma lin_neq_sem s1 s2 v1 v2 :
    lin_neq a b = true ->
    (forall n, In n (enames w ++ enames o) -> val s1 (n, []) = val s2 (n, [])) ->
    eval s1 w = Some v1 -> eval s2 o = Some v2 -> v1 <> v2.
  Proof.
    unfold lin_neq. intros H A E1 E2. apply andb_true_iff in H as [H _]. apply andb_true_iff in H as [C N].
    apply negb_true_iff, Z.eqb_neq in N.
    destruct (const_diff_eval s1 s2 v1 v2 C E1 E2) as [_ [F1 F2]]. unfold lin_val in F1, F2.
    assert (R : vsum s1 (l_vs a) = vsum s2 (l_vs a)).
    { apply vsum_agree. intros p Hp. apply A. apply in_or_app; left. apply (lin_names w a Lw), in_map, Hp. }
    lia.
  Qed.
End Decisions.

Lemma memn_In x l : memn x l = true <-> In x l.
Proof.
  unfold memn. rewrite existsb_exists. split.
  - intros [y [Hy E]]. apply Nat.eqb_eq in E. subst. exact Hy.
  - intro H. exists x. split; [exact H | apply Nat.eqb_refl].
Qed.

Lemma memn_false x l : memn x l = false <-> ~ In x l.
Proof. rewrite <- memn_In. destruct (memn x l); split; congruence. Qed.

Lemma dedup_In v l : In v (dedup l) <-> In v l.
Proof.
  induction l as [|a l IH]; [reflexivity|]. cbn [dedup]. destruct (memn a l) eqn:E.
  - rewrite IH. cbn [In]. split; [auto|]. intros [<-|H]; [apply memn_In, E | exact H].
  - cbn [In]. rewrite IH. reflexivity.
Qed.

(* what an answer of the analysis claims about two subscripts: [same_only_at x w o], they can evaluate to the same
   index only in stores that give x the same value (given agreement on the other names); [never_same w o], they
   never evaluate to the same index in stores that agree on their names *)
Definition same_only_at (x : name) (w o : expr) : Prop :=
  forall s1 s2 v,
    (forall n ix, n <> x -> In n (enames w ++ enames o) -> val s1 (n, ix) = val s2 (n, ix)) ->
    eval s1 w = Some v -> eval s2 o = Some v -> val s1 (x, []) = val s2 (x, []).
Definition never_same (w o : expr) : Prop :=
  forall s1 s2 v1 v2,
    (forall n ix, In n (enames w ++ enames o) -> val s1 (n, ix) = val s2 (n, ix)) ->
    eval s1 w = Some v1 -> eval s2 o = Some v2 -> v1 <> v2.

Section Decide.
  Variable odist : name -> expr -> expr -> bool.
  Variable oneq : expr -> expr -> bool.
  Variable incr : bool.
  Variable dtab : list (nat * name).

  (* the oracle answers are exact on translation-exact subscripts (premises of the closed theorems) *)
  Hypothesis sympy_solveset_exact : forall x w o,
    odist x w o = true -> tr_exact x w = true -> tr_exact x o = true -> same_only_at x w o.
  Hypothesis sympy_simplify_exact : forall x w o,
    oneq w o = true -> tr_exact x w = true -> tr_exact x o = true -> never_same w o.

  Notation dist0 := (dist0 odist incr dtab).
  Notation neq := (neq oneq).
  Notation multi := (multi odist incr dtab).
  Notation scan := (scan odist oneq incr dtab).
  Notation indep_pair := (indep_pair odist oneq incr dtab).

  Lemma dist0_sem x w o :
    dist0 x w o = Some true -> tr_exact x w = true -> tr_exact x o = true ->
    (In x (enames w) /\ In x (enames o)) /\ same_only_at x w o.
  Proof.
    unfold Model.dist0. intros H Tw To. destruct (negb _); [discriminate|].
    destruct (fresh _ _ _ _ _) as [fr|]; [|discriminate]. inversion H as [H1]. clear H.
    assert (Oracle : memn x (enames w) && memn x (enames o) && odist x w o = true ->
                     (In x (enames w) /\ In x (enames o)) /\ same_only_at x w o).
    { intro O. apply andb_true_iff in O as [M O]. apply andb_true_iff in M as [M1 M2]. apply memn_In in M1, M2.
      split; [split; assumption | apply sympy_solveset_exact; assumption]. }
    destruct (lin_of w) as [a|] eqn:Lw; [destruct (lin_of o) as [b|] eqn:Lo|]; [|exact (Oracle H1)..].
    split; [eapply lin_dist0_names; eassumption|]. intros s1 s2 v A E1 E2.
    eapply (lin_dist0_sem x w o a b); try eassumption. intros n Nn Hn. apply A; assumption.
  Qed.

  Lemma neq_sem x w o : neq w o = true -> tr_exact x w = true -> tr_exact x o = true -> never_same w o.
  Proof.
    unfold Model.neq. intros H Tw To.
    destruct (lin_of w) as [a|] eqn:Lw; [destruct (lin_of o) as [b|] eqn:Lo|];
      [|eapply sympy_simplify_exact; eassumption..].
    intros s1 s2 v1 v2 A E1 E2. eapply (lin_neq_sem x w o a b); try eassumption. intros n Hn. apply A, Hn.
  Qed.

  (* the partition invariant: every group knows the loop variables of its subscripts *)
  Definition part_ok (lvs : list name) (w o : list expr) (p : part) : Prop :=
    forall k, In k (snd p) ->
      (k < length w)%nat /\ (k < length o)%nat /\
      forall v, In v lvs -> In v (enames (sub k w)) \/ In v (enames (sub k o)) -> In v (fst p).

  Lemma lvset_In lvs e v : In v (lvset lvs e) <-> In v lvs /\ In v (enames e).
  Proof. unfold lvset. rewrite filter_In, dedup_In, memn_In. reflexivity. Qed.

  Lemma sub_middle (pw : list expr) e r : sub (length pw) (pw ++ e :: r) = e.
  Proof. unfold sub. apply nth_middle. Qed.

  Lemma init_parts_ok lvs : forall w' o' pw po,
    length pw = length po ->
    Forall (part_ok lvs (pw ++ w') (po ++ o')) (init_parts lvs (length pw) w' o').
  Proof.
    induction w' as [|we w' IH]; intros o' pw po L; cbn [init_parts]; [constructor|].
    destruct o' as [|oe o']; [constructor|]. constructor.
    - intros k [<-|[]]. cbn [fst]. rewrite !app_length. cbn [length]. split; [lia|]. split; [lia|].
      intros v Hv Hn. apply dedup_In, in_or_app. rewrite sub_middle in Hn. rewrite L, sub_middle in Hn.
      destruct Hn as [Hn|Hn]; [left | right]; apply lvset_In; split; assumption.
    - specialize (IH o' (pw ++ [we]) (po ++ [oe])). rewrite !app_length in IH. cbn [length] in IH.
      rewrite <- !app_assoc in IH. cbn [app] in IH. replace (length pw + 1)%nat with (S (length pw)) in IH by lia.
      apply IH. lia.
  Qed.

  Lemma part_ok_union lvs w o p q :
    part_ok lvs w o p -> part_ok lvs w o q -> part_ok lvs w o (dedup (fst p ++ fst q), snd p ++ snd q).
  Proof.
    intros Hp Hq k Hk. cbn [fst snd] in *. apply in_app_or in Hk as [Hk|Hk].
    - destruct (Hp k Hk) as [A [B C]]. split; [exact A|]. split; [exact B|]. intros v Hv Hn.
      apply dedup_In, in_or_app. left. apply C; assumption.
    - destruct (Hq k Hk) as [A [B C]]. split; [exact A|]. split; [exact B|]. intros v Hv Hn.
      apply dedup_In, in_or_app. right. apply C; assumption.
  Qed.

  Lemma absorb_ok lvs w o v : forall rest p0,
    part_ok lvs w o p0 -> Forall (part_ok lvs w o) rest ->
    part_ok lvs w o (fst (absorb v p0 rest)) /\ Forall (part_ok lvs w o) (snd (absorb v p0 rest)).
  Proof.
    induction rest as [|p r IH]; intros p0 H0 Hr; cbn [absorb].
    - split; [exact H0 | constructor].
    - inversion Hr as [|? ? Hp Hr']; subst. destruct (memn v (fst p)).
      + apply IH; [apply part_ok_union; assumption | exact Hr'].
      + destruct (IH p0 H0 Hr') as [A B]. destruct (absorb v p0 r) as [p0' r']. cbn [fst snd] in *.
        split; [exact A | constructor; assumption].
  Qed.

  Lemma merge_var_ok lvs w o v : forall ps, Forall (part_ok lvs w o) ps -> Forall (part_ok lvs w o) (merge_var v ps).
  Proof.
    induction ps as [|p r IH]; intro H; cbn [merge_var]; [constructor|].
    inversion H as [|? ? Hp Hr]; subst. destruct (memn v (fst p)).
    - destruct (absorb_ok lvs w o v r p Hp Hr) as [A B]. destruct (absorb v p r) as [p' r']. constructor; assumption.
    - constructor; [exact Hp | apply IH, Hr].
  Qed.

  Lemma partition_ok lvs w o : Forall (part_ok lvs w o) (partition lvs w o).
  Proof.
    unfold partition.
    assert (G : forall vs ps, Forall (part_ok lvs w o) ps ->
                              Forall (part_ok lvs w o) (fold_left (fun ps v => merge_var v ps) vs ps)).
    { induction vs as [|v vs IH]; intros ps H; cbn [fold_left]; [exact H|]. apply IH, merge_var_ok, H. }
    apply G. apply (init_parts_ok lvs w o [] []). reflexivity.
  Qed.

  Lemma multi_true_inv x w o subs :
    multi x w o subs = Some true -> exists k, In k subs /\ dist0 x (sub k w) (sub k o) = Some true.
  Proof.
    induction subs as [|k r IH]; cbn [Model.multi]; [discriminate|].
    destruct (dist0 x (sub k w) (sub k o)) as [[|]|] eqn:E; try discriminate.
    - intros _. exists k. split; [left; reflexivity | exact E].
    - intro H. destruct (IH H) as [k' [H1 H2]]. exists k'. split; [right; exact H1 | exact H2].
  Qed.

  (* which group made the scan answer "independent", and by which test *)
  Definition decided x w o (ps : list part) : Prop :=
    exists vars subs, In (vars, subs) ps /\
      ((exists k, subs = [k] /\ vars = [] /\ neq (sub k w) (sub k o) = true) \/
       (exists k, In k subs /\ dist0 x (sub k w) (sub k o) = Some true)).

  Lemma scan_true_inv x w o ps : scan x w o ps = Some true -> decided x w o ps.
  Proof.
    induction ps as [|[vars subs] r IH]; cbn [Model.scan]; [discriminate|]. intro H.
    assert (Next : scan x w o r = Some true -> decided x w o ((vars, subs) :: r)).
    { intro H'. destruct (IH H') as [v0 [s0 [A B]]]. exists v0, s0. split; [right; exact A | exact B]. }
    assert (Here : forall k, In k subs -> dist0 x (sub k w) (sub k o) = Some true -> decided x w o ((vars, subs) :: r)).
    { intros k K1 K2. exists vars, subs. split; [left; reflexivity|]. right. exists k. split; assumption. }
    assert (Multi : match multi x w o subs with Some true => Some true | Some false => scan x w o r | None => None end
                    = Some true -> decided x w o ((vars, subs) :: r)).
    { intro H'. destruct (multi x w o subs) as [[|]|] eqn:E; try discriminate; [|apply Next, H'].
      destruct (multi_true_inv _ _ _ _ E) as [k [K1 K2]]. exact (Here k K1 K2). }
    destruct subs as [|k [|k2 r2]]; [exact (Multi H) | | exact (Multi H)].
    destruct vars as [|v1 [|v2 vr]]; [| |discriminate].
    - destruct (neq (sub k w) (sub k o)) eqn:E; [|apply Next, H].
      exists [], [k]. split; [left; reflexivity|]. left. exists k. repeat split. exact E.
    - destruct (dist0 x (sub k w) (sub k o)) as [[|]|] eqn:E; try discriminate; [|apply Next, H].
      exact (Here k (or_introl eq_refl) E).
  Qed.

  Lemma sub_ok_sub x lvs W ix k : Forall (fun e => sub_ok x lvs W e = true) ix -> sub_ok x lvs W (sub k ix) = true.
  Proof.
    intro H. unfold sub. destruct (nth_in_or_default k ix (ELit 0)) as [I | ->].
    - rewrite Forall_forall in H. apply H, I.
    - reflexivity.
  Qed.

  Lemma sub_nth (ix : list expr) k : (k < length ix)%nat -> nth_error ix k = Some (sub k ix).
  Proof. intro H. unfold sub. apply nth_error_nth'. exact H. Qed.

  Lemma eval_sub s ix vs k : opt_all (map (eval s) ix) = Some vs -> (k < length ix)%nat ->
    exists v, eval s (sub k ix) = Some v /\ nth_error vs k = Some v.
  Proof.
    intros H Hk. destruct (opt_all_nth _ _ H k (eval s (sub k ix))) as [v [E N]].
    - rewrite nth_error_map, (sub_nth ix k Hk). reflexivity.
    - exists v. split; assumption.
  Qed.

  Lemma sub_ok_exact x lvs W e : sub_ok x lvs W e = true -> tr_exact x e = true.
  Proof. intro H. apply andb_true_iff in H. apply H. Qed.

  (* the names of a subscript that mentions x, or no loop variable at all, are x or invariant *)
  Lemma sub_ok_names x lvs W e :
    sub_ok x lvs W e = true -> In x (enames e) \/ (forall v, In v lvs -> ~ In v (enames e)) ->
    forall n, In n (enames e) -> n = x \/ ~ In n W.
  Proof.
    unfold sub_ok. intros H C n Hn. apply andb_true_iff in H as [_ H]. destruct (memn x (enames e)) eqn:M.
    - rewrite forallb_forall in H. destruct (orb_prop _ _ (H n Hn)) as [E|N].
      + left. apply Nat.eqb_eq, E.
      + right. apply memn_false, negb_true_iff, N.
    - destruct C as [C|C]; [apply memn_In in C; congruence|].
      replace (existsb (fun v => memn v lvs) (enames e)) with false in H.
      + right. rewrite forallb_forall in H. apply memn_false, negb_true_iff, H, Hn.
      + symmetry. apply not_true_is_false. intro X. apply existsb_exists in X as [v [V1 V2]].
        apply memn_In in V2. exact (C v V2 V1).
  Qed.

  (* stores related to s0 outside x :: W agree on every name that is neither x nor written *)
  Lemma rel_agree x W s0 s1 s2 (ns : list name) :
    rel (x :: W) s0 s1 -> rel (x :: W) s0 s2 -> (forall n, In n ns -> n = x \/ ~ In n W) ->
    forall n ix, n <> x -> In n ns -> val s1 (n, ix) = val s2 (n, ix).
  Proof.
    intros R1 R2 H n ix N Hn. destruct (H n Hn) as [E|NW]; [contradiction|].
    rewrite (R1 (n, ix)), (R2 (n, ix)); [reflexivity| |]; cbn [fst]; intros [E|E]; auto.
  Qed.

  Theorem indep_sound lvs x W s0 w o :
    hd 0%nat lvs = x -> In x lvs ->
    indep_pair lvs w o = Some true ->
    Forall (fun e => sub_ok x lvs W e = true) w -> Forall (fun e => sub_ok x lvs W e = true) o ->
    forall s1 s2 vs, rel (x :: W) s0 s1 -> rel (x :: W) s0 s2 ->
      opt_all (map (eval s1) w) = Some vs -> opt_all (map (eval s2) o) = Some vs ->
      val s1 (x, []) = val s2 (x, []).
  Proof.
    intros Hhd Hx H Fw Fo s1 s2 vs R1 R2 E1 E2. unfold Model.indep_pair in H. rewrite Hhd in H.
    destruct (scan_true_inv _ _ _ _ H) as [vars [subs [Hin D]]].
    pose proof (partition_ok lvs w o) as PO. rewrite Forall_forall in PO. specialize (PO _ Hin).
    pose proof (fun k => sub_ok_sub x lvs W w k Fw) as Sw. pose proof (fun k => sub_ok_sub x lvs W o k Fo) as So.
    (* subscript k of the group: both sides give the same index; its loop variables are the group's *)
    assert (Common : forall k, In k subs ->
              (forall v, In v lvs -> In v (enames (sub k w)) \/ In v (enames (sub k o)) -> In v vars) /\
              exists v, eval s1 (sub k w) = Some v /\ eval s2 (sub k o) = Some v).
    { intros k Hk. destruct (PO k Hk) as [Lw [Lo C]]. split; [exact C|].
      destruct (eval_sub s1 w vs k E1 Lw) as [v1 [V1 N1]]. destruct (eval_sub s2 o vs k E2 Lo) as [v2 [V2 N2]].
      exists v1. split; [exact V1 | congruence]. }
    assert (Agree : forall k,
              (forall e, e = sub k w \/ e = sub k o -> In x (enames e) \/ forall v, In v lvs -> ~ In v (enames e)) ->
              forall n ix, n <> x -> In n (enames (sub k w) ++ enames (sub k o)) -> val s1 (n, ix) = val s2 (n, ix)).
    { intros k C. apply (rel_agree x W s0); [exact R1 | exact R2|]. intros n Hn.
      apply in_app_or in Hn as [Hn|Hn]; [apply (sub_ok_names x lvs W (sub k w)) | apply (sub_ok_names x lvs W (sub k o))]; auto. }
    destruct D as [[k [-> [-> N]]]|[k [Hk D]]].
    - (* a subscript without loop variables whose two sides are never equal *)
      exfalso. destruct (Common k (or_introl eq_refl)) as [C [v [V1 V2]]].
      assert (NoLv : forall e, e = sub k w \/ e = sub k o -> forall u, In u lvs -> ~ In u (enames e)).
      { intros e [->| ->] u Hu Hn; apply (C u Hu); auto. }
      apply (neq_sem x _ _ N (sub_ok_exact _ _ _ _ (Sw k)) (sub_ok_exact _ _ _ _ (So k)) s1 s2 v v);
        [|exact V1|exact V2|reflexivity].
      intros n ix Hn. apply (Agree k); [intros e He; right; apply NoLv, He | | exact Hn].
      intros ->. apply in_app_or in Hn as [Hn|Hn];
        [exact (NoLv _ (or_introl eq_refl) x Hx Hn) | exact (NoLv _ (or_intror eq_refl) x Hx Hn)].
    - (* a subscript in x with dependence distance 0 *)
      destruct (Common k Hk) as [_ [v [V1 V2]]].
      destruct (dist0_sem x _ _ D (sub_ok_exact _ _ _ _ (Sw k)) (sub_ok_exact _ _ _ _ (So k))) as [[Xw Xo] Sem].
      apply (Sem s1 s2 v); [|exact V1|exact V2]. apply (Agree k). intros e [->| ->]; left; assumption.
  Qed.
End Decide.
