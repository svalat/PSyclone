(* C08 — the oracles that answer nothing, and two loops that meet the hypotheses of Sound.par_sound (non-vacuity). *)
From Coq Require Import List ZArith Bool.
Import ListNotations.
From PV Require Import Fort.Syntax Fort.Sem C08.Model C08.Safe C08.Spec C08.Refuted C08.Sound.
Close Scope Z_scope.

Definition no_odist : name -> expr -> expr -> bool := fun _ _ _ => false.
Definition no_oneq : expr -> expr -> bool := fun _ _ => false.

(* non-vacuity 1:   do i = 1, n ; t = b(i) ; a(i) = t + a(i) ; do j = 1, 3 ; d(j, i) = d(j, i) + c(i + 1) ; end do
   names: a=0 b=1 c=2 d=3 i=4 j=5 n=6 t=7 *)
Definition ex_body : list stmt :=
  [SAssign 7 [] (EIdx 1 [EVar 4]);
   SAssign 0 [EVar 4] (EBin Add (EVar 7) (EIdx 0 [EVar 4]));
   SDo 5 (ELit 1) (ELit 3) (ELit 1)
     [SAssign 3 [EVar 5; EVar 4] (EBin Add (EIdx 3 [EVar 5; EVar 4]) (EIdx 2 [EBin Add (EVar 4) (ELit 1)]))]].

Example par_sound_nonvacuous incr :
  safe 4 ex_body = true /\ can_par no_odist no_oneq incr [] 4 (ELit 1) (EVar 6) (ELit 1) ex_body = Par /\
  exists f s its, iterations_of f 4 (ELit 1) (EVar 6) (ELit 1) ex_body s its /\ length its = 3.
Proof.
  split; [vm_compute; reflexivity|]. split; [vm_compute; reflexivity|].
  exists 8, (store_of [((6, []), 3%Z)] []).
  destruct (run_test_sound 8 4 (ELit 1) (EVar 6) (ELit 1) ex_body (store_of [((6, []), 3%Z)] [])
              (fun its => Nat.eqb (length its) 3)) as [its [I L]]; [vm_compute; reflexivity|].
  exists its. split; [exact I | apply Nat.eqb_eq, L].
Qed.

(* non-vacuity 2 (oracle-decided subscripts):   do i = 1, 3 ; d(idx(3), i) = d(idx(3) + 1, i + 1)
   names: d=0 i=1 idx=2.  The first subscripts are not affine (index array): sympy is asked and answers
   "never equal"; idx is not written in the loop, so the loop is in the safe fragment. *)
Definition ex2_body : list stmt :=
  [SAssign 0 [EIdx 2 [ELit 3]; EVar 1]
           (EIdx 0 [EBin Add (EIdx 2 [ELit 3]) (ELit 1); EBin Add (EVar 1) (ELit 1)])].

Example par_sound_oracle_nonvacuous odist oneq incr :
  oneq (EIdx 2 [ELit 3]) (EBin Add (EIdx 2 [ELit 3]) (ELit 1)) = true ->
  safe 1 ex2_body = true /\ can_par odist oneq incr [] 1 (ELit 1) (ELit 3) (ELit 1) ex2_body = Par.
Proof.
  intro O. split; [vm_compute; reflexivity|].
  unfold can_par. cbn. unfold var_par. cbn. unfold array_par. cbn. unfold indep_pair. cbn.
  unfold dist0. cbn. unfold neq. cbn. rewrite ?O.
  (* the write against itself: whatever sympy says of idx(3) against idx(3), the second subscript has distance 0 *)
  destruct (oneq (EIdx 2 [ELit 3]) (EIdx 2 [ELit 3])); reflexivity.
Qed.
