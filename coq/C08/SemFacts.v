(* C08 — facts about Fort.Sem traces beside those of Fort/Facts.v: membership in reads/writes as membership of
   the event, and the element-wise reading of opt_all. *)
From Coq Require Import List ZArith Bool.
Import ListNotations.
From PV Require Import Fort.Syntax Fort.Sem Fort.Facts.
Open Scope Z_scope.

Lemma reads_app t1 t2 : reads (t1 ++ t2) = reads t1 ++ reads t2.
Proof. exact (Facts.reads_app t1 t2). Qed.
Lemma reads_rds ls : reads (rds ls) = ls.
Proof. exact (Facts.reads_rds ls). Qed.
Lemma writes_rds ls : writes (rds ls) = [].
Proof. exact (Facts.writes_rds ls). Qed.
Lemma exec_nil f s : exec (S f) [] s = Ok s [] CNormal.
Proof. reflexivity. Qed.

Lemma in_reads l tr : In l (reads tr) <-> In (Rd l) tr.
Proof. induction tr as [|e tr IH]; [reflexivity|]. destruct e; cbn [reads In]; rewrite IH; intuition congruence. Qed.
Lemma in_writes l tr : In l (writes tr) <-> In (Wr l) tr.
Proof. induction tr as [|e tr IH]; [reflexivity|]. destruct e; cbn [writes In]; rewrite IH; intuition congruence. Qed.

Lemma opt_all_nth {A} (l : list (option A)) vs :
  opt_all l = Some vs -> forall k x, nth_error l k = Some x -> exists v, x = Some v /\ nth_error vs k = Some v.
Proof.
  revert vs. induction l as [|a l IH]; intros vs H k x Hk.
  - destruct k; discriminate.
  - cbn [opt_all] in H. destruct a as [a|]; [|discriminate].
    destruct (opt_all l) as [xs|] eqn:E; [|discriminate]. inversion H; subst.
    destruct k as [|k]; cbn [nth_error] in *.
    + inversion Hk; subst. eauto.
    + eapply IH; [reflexivity | exact Hk].
Qed.
