(* C08 — soundness of the definite-assignment analysis Safe.da_l: if it answers Some true for scalar v from
   "not yet written", every normal execution of the statements writes v and never reads it before. *)
From Coq Require Import List ZArith Bool Lia PeanoNat.
Import ListNotations.
From PV Require Import Fort.Syntax Fort.Sem Fort.Facts C08.Model C08.Safe C08.SemFacts C08.Origin.
Open Scope Z_scope.

Lemma da_l_cons v st rest d :
  da_l v (st :: rest) d = match da_s v st d with Some d1 => da_l v rest d1 | None => None end.
Proof. reflexivity. Qed.

Lemma da_s_if v c th el d :
  da_s v (SIf c th el) d =
  if negb d && ereads_v v c then None
  else match da_l v th d, da_l v el d with Some a, Some b => Some (a && b) | _, _ => None end.
Proof. reflexivity. Qed.

Lemma da_s_do v j lo hi st b d :
  da_s v (SDo j lo hi st b) d =
  if negb d && (ereads_v v lo || ereads_v v hi || ereads_v v st) then None
  else match da_l v b (d || Nat.eqb j v) with Some _ => Some (d || Nat.eqb j v) | None => None end.
Proof. reflexivity. Qed.

Lemma opt_all_nil_inv {A} (l : list (option A)) : opt_all l = Some [] -> l = [].
Proof.
  destruct l as [|a l]; [reflexivity|]. cbn [opt_all]. destruct a; [|discriminate]. destruct (opt_all l); discriminate.
Qed.

Lemma ereads_v_false v s e : ereads_v v e = false -> ~ In (v, []) (ereads s e).
Proof.
  intros H HL. destruct (ereads_origin s e (v, []) HL) as [ix [H1 H2]]. cbn [fst snd] in *.
  apply opt_all_nil_inv in H2. apply map_eq_nil in H2. subst ix.
  assert (ereads_v v e = true); [|congruence]. unfold ereads_v. apply existsb_exists.
  exists (mkAcc false v []). split; [exact H1|]. cbn [a_name a_ix]. rewrite Nat.eqb_refl. reflexivity.
Qed.

Lemma ereads_v_false_list v s es : existsb (ereads_v v) es = false -> ~ In (v, []) (flat_map (ereads s) es).
Proof.
  intros H HL. apply in_flat_map in HL as [e [He HL]].
  assert (ereads_v v e = false).
  { destruct (ereads_v v e) eqn:E; [|reflexivity]. exfalso.
    assert (existsb (ereads_v v) es = true) by (apply existsb_exists; exists e; split; assumption). congruence. }
  eapply ereads_v_false; eassumption.
Qed.

(* P d tr d': starting with "v certainly written = d", the trace tr does not expose v (when d = false) and
   leaves it certainly written when d' = true *)
Definition P (v : name) (d : bool) (tr : list event) (d' : bool) : Prop :=
  (d = false -> ~ In (v, []) (exposed tr)) /\ (d' = true -> d = true \/ In (v, []) (writes tr)).

Lemma P_app v d t1 d1 t2 d2 : P v d t1 d1 -> P v d1 t2 d2 -> P v d (t1 ++ t2) d2.
Proof.
  intros [A1 B1] [A2 B2]. split.
  - intros Hd HE. apply in_exposed_app in HE as [HE|[HW HE]]; [apply (A1 Hd HE)|].
    destruct d1.
    + destruct (B1 eq_refl) as [X|X]; [congruence | contradiction].
    + apply (A2 eq_refl HE).
  - intro H2. rewrite writes_app. destruct (B2 H2) as [X|X].
    + destruct (B1 X) as [Y|Y]; [left; exact Y | right; apply in_or_app; left; exact Y].
    + right. apply in_or_app; right; exact X.
Qed.

Lemma P_rds_guard v d ls : (d = false -> ~ In (v, []) ls) -> P v d (rds ls) d.
Proof.
  intro N. split.
  - intros Hd. rewrite exposed_rds. apply N, Hd.
  - intro H. left. exact H.
Qed.

Lemma P_rds v d ls : ~ In (v, []) ls -> P v d (rds ls) d.
Proof. intro N. apply P_rds_guard. intros _. exact N. Qed.

(* the loop trace never exposes v when the body traces do not (d1 = d || j = v) *)
Lemma do_loop_da v (run : store -> outcome) j l t d1 :
  (forall s s' tr c, run s = Ok s' tr c -> c = CNormal /\ (d1 = false -> ~ In (v, []) (exposed tr))) ->
  forall n k s s' tr c, do_loop run j l t n k s = Ok s' tr c ->
    c = CNormal /\ (exists tr0, tr = Wr (j, []) :: tr0) /\ (d1 = false -> ~ In (v, []) (exposed tr)).
Proof.
  intros Hrun. induction n as [|n IH]; intros k s s' tr c H; cbn [do_loop] in H.
  - inversion H; subst. split; [reflexivity|]. split; [exists []; reflexivity|].
    intros _ HE. unfold exposed in HE. cbn [exposed_from] in HE. exact HE.
  - destruct (run (upd s (j, []) (l + k * t))) as [s2 tr2 c2| |] eqn:E; try discriminate.
    destruct (Hrun _ _ _ _ E) as [-> Q2]. apply prepend_ok_inv in H as [tr0 [H ->]].
    destruct (IH _ _ _ _ _ H) as [-> [_ Q0]]. split; [reflexivity|]. split; [exists (tr2 ++ tr0); reflexivity|].
    intros Hd HE. cbn [app] in HE. apply in_exposed_cons_wr in HE as [_ HE].
    apply in_exposed_app in HE as [HE|[_ HE]]; [apply (Q2 Hd HE) | apply (Q0 Hd HE)].
Qed.

(* one statement, its blocks run with fuel f, for which the claim is known *)
Lemma stmt_da v f st s s1 tr1 c1 d d1 :
  (forall ss s s' tr c d d', exec f ss s = Ok s' tr c -> da_l v ss d = Some d' -> c = CNormal /\ P v d tr d') ->
  exec_stmt (exec f) st s = Ok s1 tr1 c1 -> da_s v st d = Some d1 -> c1 = CNormal /\ P v d tr1 d1.
Proof.
  intros IH H1 D1.
  destruct st as [x ix e|cnd th el|j lo hi stp b| | | |es|r b|dd b]; try discriminate D1; cbn [exec_stmt] in H1.
  - cbn [da_s] in D1.
    destruct (opt_all (map (eval s) ix)) as [vs|] eqn:E1; [|discriminate].
    destruct (eval s e) as [z|] eqn:E2; [|discriminate]. inversion H1; subst. split; [reflexivity|].
    destruct (negb d && (ereads_v v e || existsb (ereads_v v) ix)) eqn:G1; [discriminate|]. inversion D1; subst. clear D1.
    split.
    + intros Hd HE. subst d. cbn [negb andb] in G1. apply orb_false_iff in G1 as [G1 G2].
      apply in_exposed_app in HE as [HE|[_ HE]].
      * rewrite exposed_rds in HE. apply in_app_or in HE as [HE|HE];
          [apply (ereads_v_false v s e G1 HE) | apply (ereads_v_false_list v s ix G2 HE)].
      * unfold exposed in HE. cbn [exposed_from] in HE. exact HE.
    + intro X. apply orb_true_iff in X as [X|X]; [left; exact X|]. right.
      apply andb_true_iff in X as [X1 X2]. apply Nat.eqb_eq in X1. subst x.
      destruct ix; [|discriminate]. cbn [map opt_all] in E1. inversion E1; subst.
      rewrite writes_app. apply in_or_app; right. left; reflexivity.
  - rewrite da_s_if in D1. destruct (negb d && ereads_v v cnd) eqn:G1; [discriminate|].
    destruct (da_l v th d) as [a|] eqn:Da; [|discriminate]. destruct (da_l v el d) as [b|] eqn:Db; [|discriminate].
    inversion D1; subst. clear D1.
    destruct (eval s cnd) as [z|] eqn:E; [|discriminate]. apply prepend_ok_inv in H1 as [tr0 [H1 ->]].
    assert (R : P v d (rds (ereads s cnd)) d).
    { apply P_rds_guard. intros ->. cbn [negb andb] in G1. apply ereads_v_false. exact G1. }
    destruct (z =? 0).
    + destruct (IH _ _ _ _ _ _ _ H1 Db) as [-> Pb]. split; [reflexivity|].
      pose proof (P_app v d _ d _ b R Pb) as [A B]. split; [exact A|]. intro X. apply andb_true_iff in X as [_ X]. apply B, X.
    + destruct (IH _ _ _ _ _ _ _ H1 Da) as [-> Pa]. split; [reflexivity|].
      pose proof (P_app v d _ d _ a R Pa) as [A B]. split; [exact A|]. intro X. apply andb_true_iff in X as [X _]. apply B, X.
  - rewrite da_s_do in D1. destruct (negb d && (ereads_v v lo || ereads_v v hi || ereads_v v stp)) eqn:G1; [discriminate|].
    destruct (da_l v b (d || Nat.eqb j v)) as [db|] eqn:Db; [|discriminate]. inversion D1; subst. clear D1.
    destruct (eval s lo) as [l|] eqn:E1; [|discriminate]. destruct (eval s hi) as [h|] eqn:E2; [|discriminate].
    destruct (eval s stp) as [t|] eqn:E3; [|discriminate]. destruct (t =? 0); [discriminate|].
    apply prepend_ok_inv in H1 as [tr0 [H1 ->]].
    assert (Hrun : forall s0 s0' tr' c', exec f b s0 = Ok s0' tr' c' ->
              c' = CNormal /\ ((d || Nat.eqb j v) = false -> ~ In (v, []) (exposed tr'))).
    { intros s0 s0' tr' c' H0. destruct (IH _ _ _ _ _ _ _ H0 Db) as [-> [A _]]. split; [reflexivity | exact A]. }
    destruct (do_loop_da v (exec f b) j l t (d || Nat.eqb j v) Hrun _ _ _ _ _ _ H1) as [-> [[tr1' ->] Q]].
    split; [reflexivity|].
    assert (R : P v d (rds (ereads s lo ++ ereads s hi ++ ereads s stp)) d).
    { apply P_rds_guard. intros ->. cbn [negb andb] in G1. apply orb_false_iff in G1 as [G1 G3].
      apply orb_false_iff in G1 as [G1 G2]. intro HL. apply in_app_or in HL as [HL|HL]; [|apply in_app_or in HL as [HL|HL]].
      - apply (ereads_v_false v s lo G1 HL).
      - apply (ereads_v_false v s hi G2 HL).
      - apply (ereads_v_false v s stp G3 HL). }
    apply (P_app v d _ d); [exact R|]. split.
    + intros Hd HE. subst d. cbn [orb] in *. destruct (Nat.eqb j v) eqn:J.
      * apply Nat.eqb_eq in J. subst j. apply in_exposed_cons_wr in HE as [N _]. apply N; reflexivity.
      * apply (Q eq_refl HE).
    + intro X. apply orb_true_iff in X as [X|X]; [left; exact X|]. right. apply Nat.eqb_eq in X. subst j.
      cbn [writes]. left; reflexivity.
Qed.

Theorem da_exec v : forall f ss s s' tr c d d',
  exec f ss s = Ok s' tr c -> da_l v ss d = Some d' -> c = CNormal /\ P v d tr d'.
Proof.
  induction f as [|f IH]; intros ss s s' tr c d d' H D; [discriminate|].
  destruct ss as [|st rest].
  - inversion H; subst. cbn [da_l] in D. inversion D; subst. split; [reflexivity|]. split.
    + intros _ HE. exact HE.
    + intro X. left; exact X.
  - rewrite exec_cons in H. rewrite da_l_cons in D. destruct (da_s v st d) as [d1|] eqn:D1; [|discriminate].
    apply then_run_ok_inv in H as [[s1 [tr1 [tr2 [H1 [H2 ->]]]]]|[N H1]].
    + destruct (stmt_da v f st s _ _ _ d d1 IH H1 D1) as [_ P1]. destruct (IH _ _ _ _ _ _ _ H2 D) as [-> P2].
      split; [reflexivity|]. eapply P_app; eassumption.
    + destruct (stmt_da v f st s _ _ _ d d1 IH H1 D1) as [E _]. contradiction.
Qed.

Corollary scalar_uncond_sound body v f s s' tr c :
  scalar_uncond body v = true -> exec f body s = Ok s' tr c ->
  In (v, []) (writes tr) /\ ~ In (v, []) (exposed tr).
Proof.
  unfold scalar_uncond. intros H E. destruct (da_l v body false) as [[|]|] eqn:D; try discriminate.
  destruct (da_exec v _ _ _ _ _ _ _ _ E D) as [_ [A B]]. split.
  - destruct (B eq_refl) as [X|X]; [discriminate | exact X].
  - apply A. reflexivity.
Qed.
