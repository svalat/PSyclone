(* C08 — the full property is FALSE of the faithful model: concrete loops the model (like the implementation)
   reports parallelisable, with an input on which two distinct iterations touch the same location.
   Every witness is replayed against the real implementation by props/C08/check.py (TARGETED). *)
From Coq Require Import List ZArith Bool PeanoNat.
Import ListNotations.
From PV Require Import Fort.Syntax Fort.Sem Fort.Facts C08.Model C08.Spec.
Close Scope Z_scope.   (* names are nat; Z literals are annotated *)

Definition refutes (odist : name -> expr -> expr -> bool) (oneq : expr -> expr -> bool) (incr : bool)
           (x : name) (lo hi st : expr) (body : list stmt) : Prop :=
  can_par odist oneq incr [] x lo hi st body = Par /\
  exists f s its, iterations_of f x lo hi st body s its /\ conflict body (map snd its).

(* Witnesses are found by running the loop.  The run and a boolean test of its iterations are evaluated
   together, so that only the answer, and no store or trace, enters a proof term. *)
Definition run_test (f : nat) (x : name) (lo hi st : expr) (body : list stmt) (s : store)
           (test : list (store * list event) -> bool) : bool :=
  match eval s lo, eval s hi, eval s st with
  | Some l, Some h, Some t =>
      negb (t =? 0)%Z &&
      match iters (exec f body) x l t (trip_count l h t) 0 s with Some (its, _) => test its | None => false end
  | _, _, _ => false
  end.

Lemma run_test_sound f x lo hi st body s test :
  run_test f x lo hi st body s test = true ->
  exists its, iterations_of f x lo hi st body s its /\ test its = true.
Proof.
  unfold run_test. intro H.
  destruct (eval s lo) as [l|] eqn:El; [|discriminate]. destruct (eval s hi) as [h|] eqn:Eh; [|discriminate].
  destruct (eval s st) as [t|] eqn:Et; [|discriminate]. apply andb_true_iff in H as [Nt H].
  destruct (iters _ _ _ _ _ _ _) as [[its fin]|] eqn:E; [|discriminate].
  exists its. split; [|exact H]. exists l, h, t, fin. apply negb_true_iff, Z.eqb_neq in Nt. auto.
Qed.

(* the boolean form of [conflict] for given iterations p, q and location L *)
Definition touches (L : loc) (ls : list loc) : bool := existsb (loc_eqb L) ls.

Definition exempt_b (body : list stmt) (trs : list (list event)) (L : loc) : bool :=
  match snd L with
  | [] => memn (fst L) (flat_map sdovars body)
          || forallb (fun t => touches L (writes t) && negb (touches L (exposed t))) trs
  | _ => false
  end.

Definition conflict_at (body : list stmt) (p q : nat) (L : loc) (trs : list (list event)) : bool :=
  negb (p =? q) && negb (exempt_b body trs L) &&
  match nth_error trs p, nth_error trs q with
  | Some tp, Some tq => touches L (writes tp) && touches L (reads tq ++ writes tq)
  | _, _ => false
  end.

Lemma exempt_b_complete body trs L : exempt body trs L -> exempt_b body trs L = true.
Proof.
  intros [E H]. unfold exempt_b. rewrite E. apply orb_true_iff. destruct H as [H|H]; [left | right].
  - apply existsb_exists. exists (fst L). split; [exact H | apply Nat.eqb_refl].
  - apply forallb_forall. intros t Ht. destruct (H t Ht) as [W X]. apply andb_true_iff. split.
    + apply existsb_loc_eqb, W.
    + apply negb_true_iff, not_true_is_false. intro Y. apply X, existsb_loc_eqb, Y.
Qed.

Lemma conflict_at_sound body p q L trs : conflict_at body p q L trs = true -> conflict body trs.
Proof.
  unfold conflict_at. intro H. apply andb_true_iff in H as [H T]. apply andb_true_iff in H as [N X].
  destruct (nth_error trs p) as [tp|] eqn:Ep; [|discriminate].
  destruct (nth_error trs q) as [tq|] eqn:Eq; [|discriminate].
  apply andb_true_iff in T as [W O]. apply existsb_loc_eqb in W, O.
  exists p, q, tp, tq, L. repeat split; try assumption.
  - apply Nat.eqb_neq, negb_true_iff, N.
  - apply in_app_or, O.
  - intro Ex. rewrite (exempt_b_complete _ _ _ Ex) in X. discriminate X.
Qed.

(* a refutation: the model's verdict, and a run (fuel f, store s) in which iterations p and q conflict at L *)
Lemma refutes_by_run odist oneq incr x lo hi st body f s p q L :
  can_par odist oneq incr [] x lo hi st body = Par ->
  run_test f x lo hi st body s (fun its => conflict_at body p q L (map snd its)) = true ->
  refutes odist oneq incr x lo hi st body.
Proof.
  intros C H. split; [exact C|]. apply run_test_sound in H as [its [I T]].
  exists f, s, its. split; [exact I | exact (conflict_at_sound _ _ _ _ _ T)].
Qed.

(* do i = 2, 3 ; a(i/2) = b(i)          a=0 b=1 i=2 : iterations i=2 and i=3 both write a(1) *)
Definition div_body : list stmt := [SAssign 0 [EBin Div (EVar 2) (ELit 2)] (EIdx 1 [EVar 2])].

(* do i = 1, 2 ; if (b(i) > 0) then ; t = b(i) ; end if ; c(i) = t        b=0 c=1 i=2 t=3, b(2)=1:
   iteration i=2 writes t, iteration i=1 only reads it *)
Definition cond_body : list stmt :=
  [SIf (EBin Gt (EIdx 0 [EVar 2]) (ELit 0)) [SAssign 3 [] (EIdx 0 [EVar 2])] []; SAssign 1 [EVar 2] (EVar 3)].

(* do i = 1, 2 ; a(n*i) = 1      a=0 i=1 n=2, n = 0: both iterations write a(0).  n*i is not affine: the model
   asks the oracle, and sympy answers "distance 0" (solving n*i = n*(i+d) generically, n <> 0). *)
Definition sym_body : list stmt := [SAssign 0 [EBin Mul (EVar 2) (EVar 1)] (ELit 1)].

(* do i = 1, 2 ; k = b(i) ; a(i+k) = 1      a=0 b=1 i=2 k=3, b(1)=1 b(2)=0: both iterations write a(2) *)
Definition wsc_body : list stmt := [SAssign 3 [] (EIdx 1 [EVar 2]); SAssign 0 [EBin Add (EVar 2) (EVar 3)] (ELit 1)].

(* do i = 1, 2 ; do j = 1, 2 ; d(i+j, j) = d(i+j, j+1)      d=0 i=1 j=2:
   iteration i=1 writes d(3,2) (j=2), iteration i=2 reads d(3,2) (j=1) *)
Definition multi_body : list stmt :=
  [SDo 2 (ELit 1) (ELit 2) (ELit 1)
     [SAssign 0 [EBin Add (EVar 1) (EVar 2); EVar 2]
              (EIdx 0 [EBin Add (EVar 1) (EVar 2); EBin Add (EVar 2) (ELit 1)])]].
