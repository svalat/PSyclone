(* C08 — the fresh-name loop of _get_dependency_distance: it diverges without `idx += 1` when the first two
   candidates are taken, and always terminates with it (pigeonhole); lifted to the whole analysis. *)
From Coq Require Import List ZArith Bool PeanoNat Lia.
Import ListNotations.
From PV Require Import Fort.Syntax C08.Model C08.GenSrc.

Lemma fresh_stuck taken : taken 1%nat = true -> forall fuel, fresh false taken fuel 1 1 = None.
Proof. intros H fuel. induction fuel as [|f IH]; [reflexivity|]. cbn [fresh]. rewrite H. exact IH. Qed.

(* with the increment, candidates c, c+1, c+2, ... are tried in turn *)
Lemma fresh_incr_none taken : forall fuel c,
  fresh true taken fuel c (S c) = None -> forall k, (c <= k < c + fuel)%nat -> taken k = true.
Proof.
  induction fuel as [|f IH]; intros c H k Hk; [lia|].
  cbn [fresh] in H. destruct (taken c) eqn:E; [|discriminate].
  destruct (Nat.eq_dec k c) as [->|N]; [exact E|]. apply (IH (S c) H). lia.
Qed.

Lemma fresh_incr_some taken : forall fuel c r,
  fresh true taken fuel c (S c) = Some r -> taken r = false.
Proof.
  induction fuel as [|f IH]; intros c r H; [discriminate|].
  cbn [fresh] in H. destruct (taken c) eqn:E; [apply (IH (S c) r H)|]. inversion H; subst. exact E.
Qed.

Lemma seq_incl_length (n : nat) (l : list nat) : incl (seq 0 n) l -> (n <= length l)%nat.
Proof.
  intro H. rewrite <- (seq_length n 0). apply NoDup_incl_length; [apply seq_NoDup | exact H].
Qed.

(* pigeonhole: with at most [length syms] taken candidates, [S (length syms)] steps find a free one *)
Theorem fresh_incr_terminates taken (syms : list nat) :
  (forall k, taken k = true -> In k syms) ->
  forall fuel, (length syms < fuel)%nat ->
  exists r, fresh true taken fuel 0 1 = Some r /\ taken r = false.
Proof.
  intros H fuel Hf. destruct (fresh true taken fuel 0 1) as [r|] eqn:E.
  - exists r. split; [reflexivity | eapply fresh_incr_some; exact E].
  - exfalso. assert (I : incl (seq 0 fuel) syms).
    { intros k Hk. apply in_seq in Hk. apply H. eapply fresh_incr_none; [exact E | lia]. }
    apply seq_incl_length in I. lia.
Qed.

Lemma taken_in_dtab dtab syms k : taken dtab syms k = true -> In k (map fst dtab).
Proof.
  unfold taken. intro H. apply existsb_exists in H as [p [Hp Hq]]. apply andb_true_iff in Hq as [Hq _].
  apply Nat.eqb_eq in Hq. subst. apply in_map, Hp.
Qed.

Lemma dist0_incr_answers odist dtab x w o : dist0 odist true dtab x w o <> None.
Proof.
  unfold dist0. destruct (negb _); [discriminate|].
  destruct (fresh_incr_terminates (taken dtab (enames w ++ enames o)) (map fst dtab)) with (fuel := fresh_fuel dtab)
    as [r [E _]].
  - intros k. apply taken_in_dtab.
  - unfold fresh_fuel. rewrite map_length. lia.
  - rewrite E. discriminate.
Qed.

Section Incr.
  Variable odist : name -> expr -> expr -> bool.
  Variable oneq : expr -> expr -> bool.
  Variable dtab : list (nat * name).
  Notation d0 := (dist0 odist true dtab).

  (* the step shared by multi and scan: an answered test followed by an answered rest is answered *)
  Lemma step_answers (a next : option bool) :
    a <> None -> next <> None -> match a with None => None | Some true => Some true | Some false => next end <> None.
  Proof. destruct a as [[|]|]; congruence. Qed.

  Lemma multi_answers x w o subs : multi odist true dtab x w o subs <> None.
  Proof.
    induction subs as [|k r IH]; cbn [multi]; [discriminate|].
    apply step_answers; [apply dist0_incr_answers | exact IH].
  Qed.

  Lemma scan_answers x w o ps : scan odist oneq true dtab x w o ps <> None.
  Proof.
    induction ps as [|[vars subs] r IH]; cbn [scan]; [discriminate|].
    destruct subs as [|k [|k2 r2]]; [apply step_answers; [apply multi_answers | exact IH] | |
                                     apply step_answers; [apply multi_answers | exact IH]].
    destruct vars as [|v1 [|v2 vr]]; [| |discriminate].
    - destruct (neq _ _ _); [discriminate | exact IH].
    - apply step_answers; [apply dist0_incr_answers | exact IH].
  Qed.

  Lemma others_answers lvs v iw w all io : others odist oneq true dtab lvs v iw w all io <> Diverges.
  Proof.
    revert io. induction all as [|o r IH]; intro io; cbn [others]; [discriminate|].
    destruct (indep_pair _ _ _ _ _ _ _) as [[|]|] eqn:E; [apply IH | discriminate |].
    exfalso. unfold indep_pair in E. eapply scan_answers; exact E.
  Qed.

  Lemma writes_loop_answers lvs v all rest iw : writes_loop odist oneq true dtab lvs v all rest iw <> Diverges.
  Proof.
    revert iw. induction rest as [|w r IH]; intro iw; cbn [writes_loop]; [discriminate|].
    destruct (a_wr w); [|apply IH].
    destruct (others _ _ _ _ _ _ _ _ _ _) eqn:E; [apply IH | discriminate |].
    exfalso. eapply others_answers; exact E.
  Qed.

  Lemma vars_loop_answers lvs accs ns : vars_loop odist oneq true dtab lvs accs ns <> Diverges.
  Proof.
    induction ns as [|v r IH]; cbn [vars_loop]; [discriminate|].
    destruct (memn v lvs); [exact IH|].
    destruct (var_par _ _ _ _ _ _ _) eqn:E; [exact IH | discriminate |].
    exfalso. unfold var_par in E.
    destruct (is_array _).
    - unfold array_par in E. destruct (read_only _); [discriminate|]. eapply writes_loop_answers; exact E.
    - unfold scalar_par in E. destruct (read_only _); [discriminate|].
      destruct (filter _ accs) as [|a [|b l]]; try discriminate; destruct (a_wr a); discriminate.
  Qed.

  Theorem can_par_incr_answers x lo hi st body : can_par odist oneq true dtab x lo hi st body <> Diverges.
  Proof. unfold can_par. apply vars_loop_answers. Qed.
End Incr.

(* the witness without the increment: do i = 1, 4 ; a(i + d_i + d1_i) = b(i)
       names (alphabetical): a=0 b=1 d1_i=2 d_i=3 i=4 *)
Definition dv_body : list stmt :=
  [SAssign 0 [EBin Add (EBin Add (EVar 4) (EVar 3)) (EVar 2)] (EIdx 1 [EVar 4])].
Definition dv_dtab : list (nat * name) := [(0, 3); (1, 2)]%nat.

Lemma can_par_noincr_diverges odist oneq :
  can_par odist oneq false dv_dtab 4 (ELit 1) (ELit 4) (ELit 1) dv_body = Diverges.
Proof. vm_compute. reflexivity. Qed.

(* and the same loop is answered once idx is incremented *)
Lemma can_par_incr_witness odist oneq :
  can_par odist oneq true dv_dtab 4 (ELit 1) (ELit 4) (ELit 1) dv_body = Par.
Proof. vm_compute. reflexivity. Qed.

(* the statement checked against the source: [src_idx_incremented] is regenerated from the tree under test *)
Definition analysis_answers_statement (incr : bool) : Prop :=
  if incr
  then forall odist oneq dtab x lo hi st body, can_par odist oneq incr dtab x lo hi st body <> Diverges
  else exists dtab x lo hi st body, forall odist oneq, can_par odist oneq incr dtab x lo hi st body = Diverges.
