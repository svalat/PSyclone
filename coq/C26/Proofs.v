(* C26 — proofs about effect skeletons: a safe skeleton that ends in a TransformationError has
   not executed any mutation (for ALL skeletons, states and choice streams); and the lemma by
   which the generated file compares the unsafe pairs of a skeleton with a given list cheaply. *)
From Coq Require Import List Ascii String Bool PArith.
Import ListNotations.
From PV Require Import C26.Skeleton.

Section SkInd.
  Variable P : sk -> Prop.
  Hypothesis HPure : P Pure.
  Hypothesis HRaise : forall l, P (Raise l).
  Hypothesis HMut : forall l, P (Mut l).
  Hypothesis HAbort : P Abort.
  Hypothesis HRet : P Ret.
  Hypothesis HBrk : P Brk.
  Hypothesis HCont : P Cont.
  Hypothesis HSeq : forall l, Forall P l -> P (Seq l).
  Hypothesis HAlt : forall a b, P a -> P b -> P (Alt a b).
  Hypothesis HLoop : forall b, P b -> P (Loop b).
  Hypothesis HTryTE : forall b h, P b -> P h -> P (TryTE b h).
  Hypothesis HTryOther : forall b h, P b -> P h -> P (TryOther b h).
  Hypothesis HFinally : forall b f, P b -> P f -> P (Finally b f).
  Hypothesis HFn : forall n b, P b -> P (Fn n b).

  Fixpoint sk_ind' (s : sk) : P s :=
    match s with
    | Pure => HPure
    | Raise l => HRaise l
    | Mut l => HMut l
    | Abort => HAbort
    | Ret => HRet
    | Brk => HBrk
    | Cont => HCont
    | Seq l => HSeq l ((fix f (l : list sk) : Forall P l :=
                          match l with
                          | [] => Forall_nil P
                          | x :: r => Forall_cons x (sk_ind' x) (f r)
                          end) l)
    | Alt a b => HAlt a b (sk_ind' a) (sk_ind' b)
    | Loop b => HLoop b (sk_ind' b)
    | TryTE b h => HTryTE b h (sk_ind' b) (sk_ind' h)
    | TryOther b h => HTryOther b h (sk_ind' b) (sk_ind' h)
    | Finally b f => HFinally b f (sk_ind' b) (sk_ind' f)
    | Fn n b => HFn n b (sk_ind' b)
    end.
End SkInd.

(* The anonymous inner fixes of Skeleton.v, by name. *)
Fixpoint run_seq (l : list sk) (st : state) (ch : choices) : outcome :=
  match l with
  | [] => (ROk, st, ch)
  | x :: r => match run x st ch with
              | (ROk, st', ch') => run_seq r st' ch'
              | other => other
              end
  end.

Fixpoint run_loop (b : sk) (n : nat) (st : state) (ch : choices) : outcome :=
  match n with
  | 0 => (ROk, st, ch)
  | S n' => match run b st ch with
            | (ROk, st', ch') => run_loop b n' st' ch'
            | (RCont, st', ch') => run_loop b n' st' ch'
            | (RBrk, st', ch') => (ROk, st', ch')
            | other => other
            end
  end.

Fixpoint pairs_l (l : list sk) : list (string * string) :=
  match l with
  | [] => []
  | x :: r => unsafe_pairs x ++ pairs_l r ++ cross (muts x) (flat_map raises r)
  end.

Lemma run_Seq : forall l st ch, run (Seq l) st ch = run_seq l st ch.
Proof.
  induction l as [|x r IH]; intros st ch; [reflexivity|].
  cbn [run run_seq]. destruct (run x st ch) as [[rx stx] chx].
  destruct rx; try reflexivity; apply IH.
Qed.

Lemma run_Loop : forall b st ch,
  run (Loop b) st ch = run_loop b (fst (pop ch)) st (snd (pop ch)).
Proof.
  intros b st ch. cbn [run]. destruct (pop ch) as [n ch0]. cbn [fst snd].
  revert st ch0. induction n as [|n IH]; intros st ch0; [reflexivity|].
  cbn [run_loop]. destruct (run b st ch0) as [[rb stb] chb].
  destruct rb; try reflexivity; apply IH.
Qed.

Lemma raises_Seq : forall l, raises (Seq l) = flat_map raises l.
Proof. induction l as [|x r IH]; [reflexivity|]. cbn [raises flat_map] in *. now rewrite <- IH. Qed.

Lemma muts_Seq : forall l, muts (Seq l) = flat_map muts l.
Proof. induction l as [|x r IH]; [reflexivity|]. cbn [muts flat_map] in *. now rewrite <- IH. Qed.

Lemma pairs_Seq : forall l, unsafe_pairs (Seq l) = pairs_l l.
Proof.
  induction l as [|x r IH]; [reflexivity|].
  cbn [unsafe_pairs pairs_l] in *. rewrite <- IH, <- raises_Seq. reflexivity.
Qed.

Lemma app_nil_iff : forall (A : Type) (a b : list A), a ++ b = [] <-> a = [] /\ b = [].
Proof. intros A a b. split; [apply app_eq_nil | intros [-> ->]; reflexivity]. Qed.

Lemma cross_nil_l : forall rs, cross [] rs = [].
Proof. reflexivity. Qed.

Lemma cross_nil_r : forall ms, cross ms [] = [].
Proof. induction ms as [|m r IH]; [reflexivity|]. unfold cross in *. cbn [flat_map map]. exact IH. Qed.

Lemma cross_nil_iff : forall ms rs, cross ms rs = [] <-> ms = [] \/ rs = [].
Proof.
  intros ms rs. split.
  - destruct ms as [|m ms']; [now left|]. destruct rs; [now right | discriminate].
  - intros [-> | ->]; [apply cross_nil_l | apply cross_nil_r].
Qed.

(* [fits M R P st r st']: a piece of code with no mutation site if M, no raise site that can
   leave it if R and no unsafe pair if P, started in st, may end with result r in state st'. *)
Definition fits (M R P : Prop) (st : state) (r : res) (st' : state) : Prop :=
  exists l, st' = l ++ st
    /\ (M -> l = [])
    /\ (R -> r <> RErr)
    /\ (P -> r = RErr -> l = []).

Lemma fits_weaken {M R P M' R' P' : Prop} {st r r' st'} :
  fits M R P st r st' ->
  (M' -> M) -> (r' = RErr -> r = RErr /\ (R' -> R) /\ (P' -> P)) ->
  fits M' R' P' st r' st'.
Proof. intros (l & E & HM & HR & HP) HM' Hr. exists l. intuition. Qed.

(* one piece after another; the result is that of the second *)
Lemma fits_then {M1 R1 P1 M2 R2 P2 : Prop} {st r1 st1 r2 st2} :
  fits M1 R1 P1 st r1 st1 -> fits M2 R2 P2 st1 r2 st2 ->
  fits (M1 /\ M2) R2 (P2 /\ (M1 \/ R2)) st r2 st2.
Proof.
  intros (l1 & -> & HM1 & _) (l2 & -> & HM2 & HR2 & HP2).
  exists (l2 ++ l1). rewrite app_assoc. split; [reflexivity|]. split; [|split; [exact HR2|]].
  - intros [H1 H2]. now rewrite (HM1 H1), (HM2 H2).
  - intros [H2 [H1 | H]] Hr; [now rewrite (HP2 H2 Hr), (HM1 H1) | destruct (HR2 H Hr)].
Qed.

(* one piece after another; the result is that of the first (a `finally` clause that completes) *)
Lemma fits_after {M1 R1 P1 M2 R2 P2 : Prop} {st r1 st1 r2 st2} :
  fits M1 R1 P1 st r1 st1 -> fits M2 R2 P2 st1 r2 st2 ->
  fits (M1 /\ M2) R1 (P1 /\ (M2 \/ R1)) st r1 st2.
Proof.
  intros (l1 & -> & HM1 & HR1 & HP1) (l2 & -> & HM2 & _).
  exists (l2 ++ l1). rewrite app_assoc. split; [reflexivity|]. split; [|split; [exact HR1|]].
  - intros [H1 H2]. now rewrite (HM1 H1), (HM2 H2).
  - intros [H1 [H2 | H]] Hr; [now rewrite (HP1 H1 Hr), (HM2 H2) | destruct (HR1 H Hr)].
Qed.

(* In [run_fits] the three premises speak of the sites of a compound skeleton: [nil_parts]
   restates them once about its parts, by [app_nil_iff] and [cross_nil_iff]; after that every
   side condition of [fits_weaken] is propositional (with [r = RErr] for a concrete r): [nils]. *)
Lemma fits_iff {M R P M' R' P' : Prop} {st r st'} :
  (M' <-> M) -> (R' <-> R) -> (P' <-> P) -> fits M R P st r st' -> fits M' R' P' st r st'.
Proof. intros HM HR HP H. apply (fits_weaken H); tauto. Qed.

Ltac nil_parts := eapply fits_iff; [rewrite ?app_nil_iff, ?cross_nil_iff; reflexivity .. |].
Ltac nils := cbn [res_of fst]; intuition congruence.

Lemma fits_skip : forall (M R P : Prop) st r, r <> RErr -> fits M R P st r st.
Proof. intros M R P st r Hr. exists []. intuition. Qed.

Lemma run_fits : forall s st ch,
  fits (muts s = []) (raises s = []) (unsafe_pairs s = []) st (res_of (run s st ch)) (state_of (run s st ch)).
Proof.
  induction s as [ | l | l | | | | | l IHl | a b IHa IHb | b IHb | b h IHb IHh | b h IHb IHh
                 | b f IHb IHf | n b IHb ] using sk_ind'; intros st ch;
    try (apply fits_skip; discriminate).
  - (* Raise *) exists []. cbn. intuition congruence.
  - (* Mut *) exists [l]. cbn. intuition congruence.
  - (* Seq *) rewrite run_Seq, muts_Seq, raises_Seq, pairs_Seq. revert st ch.
    induction IHl as [|x r Hx _ IHr]; intros st ch; [apply fits_skip; discriminate|].
    cbn [run_seq flat_map pairs_l]. nil_parts. specialize (Hx st ch).
    destruct (run x st ch) as [[rx stx] chx].
    (* after ROk the rest runs; anything else ends the sequence with the outcome of x *)
    destruct rx; [apply (fits_weaken (fits_then Hx (IHr stx chx))); nils
                 | apply (fits_weaken Hx); nils ..].
  - (* Alt *) cbn [run muts raises unsafe_pairs]. nil_parts. destruct (pop ch) as [[|n] ch'].
    + apply (fits_weaken (IHa st ch')); nils.
    + apply (fits_weaken (IHb st ch')); nils.
  - (* Loop *) rewrite run_Loop. cbn [muts raises unsafe_pairs]. nil_parts.
    generalize (snd (pop ch)) as ch0. generalize (fst (pop ch)) as n. intros n. revert st.
    induction n as [|n IHn]; intros st ch0; [apply fits_skip; discriminate|].
    cbn [run_loop]. specialize (IHb st ch0).
    destruct (run b st ch0) as [[rb stb] chb].
    (* after ROk and RCont it goes on; RErr, ROth, RRet leave the loop, RBrk ends it normally *)
    destruct rb; [apply (fits_weaken (fits_then IHb (IHn stb chb))); nils
                 | apply (fits_weaken IHb); nils ..
                 | apply (fits_weaken (fits_then IHb (IHn stb chb))); nils].
  - (* TryTE *) cbn [run muts raises unsafe_pairs]. nil_parts. specialize (IHb st ch).
    destruct (run b st ch) as [[rb stb] chb].
    (* only RErr is caught: then the handler runs *)
    destruct rb; [apply (fits_weaken IHb); nils
                 | apply (fits_weaken (fits_then IHb (IHh stb chb))); nils
                 | apply (fits_weaken IHb); nils ..].
  - (* TryOther *) cbn [run muts raises unsafe_pairs]. nil_parts. specialize (IHb st ch).
    destruct (run b st ch) as [[rb stb] chb].
    assert (Hh : forall c, fits (muts b = [] /\ muts h = []) (raises b = [] /\ raises h = [])
                             (unsafe_pairs b = [] /\ unsafe_pairs h = [] /\ (muts b = [] \/ raises h = []))
                             st (res_of (run h stb c)) (state_of (run h stb c))).
    { intros c. apply (fits_weaken (fits_then IHb (IHh stb c))); nils. }
    (* RErr passes through, ROth is handled, after any other result the handler may still run *)
    destruct rb; [ | apply (fits_weaken IHb); nils | apply Hh | ..];
      (destruct (pop chb) as [[|n] c]; [apply (fits_weaken IHb); nils | apply Hh]).
  - (* Finally *) cbn [run muts raises unsafe_pairs]. nil_parts. specialize (IHb st ch).
    destruct (run b st ch) as [[rb stb] chb]. specialize (IHf stb chb).
    destruct (run f stb chb) as [[rf stf] chf].
    (* f completes: the result is that of b; otherwise that of f *)
    destruct rf; [apply (fits_weaken (fits_after IHb IHf)); nils
                 | apply (fits_weaken (fits_then IHb IHf)); nils ..].
  - (* Fn *) cbn [run muts raises unsafe_pairs]. specialize (IHb st ch).
    destruct (run b st ch) as [[rb stb] chb].
    destruct rb; apply (fits_weaken IHb); nils.
Qed.

Lemma no_raise_ : forall s, raises s = [] -> forall st ch, res_of (run s st ch) <> RErr.
Proof. intros s H st ch. destruct (run_fits s st ch) as (l & _ & _ & HR & _). exact (HR H). Qed.

Lemma no_mut_ : forall s, muts s = [] -> forall st ch, state_of (run s st ch) = st.
Proof. intros s H st ch. destruct (run_fits s st ch) as (l & E & HM & _). now rewrite E, (HM H). Qed.

Lemma sound_pairs_ : forall s, unsafe_pairs s = [] ->
  forall st ch, res_of (run s st ch) = RErr -> state_of (run s st ch) = st.
Proof.
  intros s H st ch Hr. destruct (run_fits s st ch) as (l & E & _ & _ & HP). now rewrite E, (HP H Hr).
Qed.

Lemma safe_pairs : forall s, safe s = true <-> unsafe_pairs s = [].
Proof.
  intros s. unfold safe. destruct (unsafe_pairs s); split; intros H; try reflexivity; discriminate.
Qed.

Theorem safe_skeleton_sound_ : forall s, safe s = true ->
  forall st ch st' ch', run s st ch = (RErr, st', ch') -> st' = st.
Proof.
  intros s HS st ch st' ch' HR. apply safe_pairs in HS.
  pose proof (sound_pairs_ s HS st ch) as H. rewrite HR in H. apply H. reflexivity.
Qed.

(* "unchanged" really means that no mutation was executed: the log only ever grows *)
Corollary unchanged_iff_no_mutation_ : forall s st ch l,
  state_of (run s st ch) = l ++ st -> (state_of (run s st ch) = st <-> l = []).
Proof.
  intros s st ch l E. rewrite E. split; intros H.
  - exact (app_inv_tail st l [] H).
  - now subst l.
Qed.

(* lifting a generated table of skeletons: every entry whose name is in a list of names that was
   checked safe by computation is covered by the meta-theorem *)
Definition lookup_sk (tbl : list (string * sk)) (n : string) : option sk :=
  match find (fun p => String.eqb (fst p) n) tbl with Some p => Some (snd p) | None => None end.

Definition all_safe (tbl : list (string * sk)) (names : list string) : bool :=
  forallb (fun n => match lookup_sk tbl n with Some s => safe s | None => false end) names.

Theorem table_sound_ : forall tbl names, all_safe tbl names = true ->
  forall n, In n names -> exists s, lookup_sk tbl n = Some s /\
    forall st ch st' ch', run s st ch = (RErr, st', ch') -> st' = st.
Proof.
  intros tbl names H n Hin. unfold all_safe in H. rewrite forallb_forall in H.
  specialize (H n Hin). destruct (lookup_sk tbl n) as [s|]; [|discriminate].
  exists s. split; [reflexivity|]. apply safe_skeleton_sound_. exact H.
Qed.

(* "every skeleton ends a TransformationError with the state unchanged" is refuted by the
   shape found today in ArrayAssignment2LoopsTrans.validate with options={"verbose": True}:
   a comment is attached to the node (a mutation) and then the error is raised. *)
Definition aa2l_verbose_shape : sk :=
  Fn "ArrayAssignment2LoopsTrans.apply"
    (Seq [Fn "ArrayAssignment2LoopsTrans.validate"
            (Seq [Alt (Raise "not an assignment") Pure;
                  Alt (Seq [Alt (Mut "append_preceding_comment") Pure; Raise "unsupported rhs"]) Pure]);
          Mut "replace_with"]).

Example aa2l_shape_unsafe : safe aa2l_verbose_shape = false.
Proof. vm_compute. reflexivity. Qed.

(* the usual shape "self.validate(node); mutate": safe, has a raising path and a mutating path *)
Definition validate_then_mutate : sk :=
  Fn "T.apply"
    (Seq [Fn "T.validate" (Seq [Alt (Raise "bad node") Pure;
                                Loop (Alt (Raise "bad child") Pure);
                                TryOther (Pure) (Raise "lookup failed")]);
          Alt (Seq [Mut "detach"; Ret]) Pure;
          Loop (Seq [Mut "addchild"; Alt Cont Pure; Mut "replace_with"]);
          Mut "new_symbol"]).

Example nonvacuous_safe :
  safe validate_then_mutate = true /\
  (exists ch st' ch', run validate_then_mutate [] ch = (RErr, st', ch')) /\
  (exists ch st' ch', run validate_then_mutate [] ch = (ROk, st', ch') /\ st' <> []).
Proof.
  split; [vm_compute; reflexivity|]. split.
  - exists [1; 2; 1; 0], [], []. vm_compute. reflexivity.
  - exists [1; 0; 0; 1; 1; 1], ["new_symbol"; "replace_with"; "addchild"]%string, [].
    split; [vm_compute; reflexivity | discriminate].
Qed.

(* Lists as sets, over a type with a boolean equality. *)
Section ListSets.
  Variable A : Type.
  Variable eqb : A -> A -> bool.
  Hypothesis eqb_eq : forall x y, eqb x y = true <-> x = y.

  Lemma existsb_eqb : forall x l, existsb (eqb x) l = true <-> In x l.
  Proof.
    intros x l. rewrite existsb_exists. split.
    - intros (y & Hy & E). apply eqb_eq in E. now subst y.
    - intros H. exists x. split; [exact H | now apply eqb_eq].
  Qed.

  (* the distinct elements of l that are not in acc, in front of acc *)
  Fixpoint distinct (acc l : list A) : list A :=
    match l with
    | [] => acc
    | x :: r => distinct (if existsb (eqb x) acc then acc else x :: acc) r
    end.

  Lemma in_distinct : forall x l acc, In x (distinct acc l) <-> In x acc \/ In x l.
  Proof.
    intros x l. induction l as [|y r IH]; intros acc; cbn [distinct In]; [tauto|]. rewrite IH.
    destruct (existsb (eqb y) acc) eqn:E; cbn [In]; [|tauto].
    apply existsb_eqb in E. split; [tauto | intros [H|[->|H]]; auto].
  Qed.

  Definition dedup (l : list A) : list A := distinct [] l.

  Lemma in_dedup : forall x l, In x (dedup l) <-> In x l.
  Proof. intros x l. unfold dedup. rewrite in_distinct. cbn [In]. tauto. Qed.

  (* Comparing two lists of pairs row by row (a row = the second components that go with one
     first component) takes far fewer comparisons than looking every pair up in the other list. *)
  Definition row (P : list (A * A)) (m : A) : list A := map snd (filter (fun p => eqb (fst p) m) P).

  Lemma in_row : forall P m r, In r (row P m) <-> In (m, r) P.
  Proof.
    intros P m r. unfold row. rewrite in_map_iff. split.
    - intros ([m' r'] & <- & H). apply filter_In in H. destruct H as [H E].
      apply eqb_eq in E. cbn [fst snd] in *. now subst m'.
    - intros H. exists (m, r). split; [reflexivity|]. apply filter_In. split; [exact H | now apply eqb_eq].
  Qed.

  Definition subset (a b : list A) : bool := forallb (fun x => existsb (eqb x) b) a.

  Lemma subset_incl : forall a b, subset a b = true <-> incl a b.
  Proof.
    intros a b. unfold subset, incl. rewrite forallb_forall.
    split; intros H x Hx; apply existsb_eqb, H, Hx.
  Qed.

  Definition same_rows (P Q : list (A * A)) : bool :=
    let firsts := dedup (map fst Q) in
    forallb (fun p => existsb (eqb (fst p)) firsts) P &&
    forallb (fun m => subset (row P m) (row Q m) && subset (row Q m) (row P m)) firsts.

  Lemma same_rows_incl : forall P Q, same_rows P Q = true -> incl P Q /\ incl Q P.
  Proof.
    intros P Q H. unfold same_rows in H. apply andb_true_iff in H. destruct H as [HP HR].
    rewrite forallb_forall in HP, HR.
    assert (R : forall m, In m (map fst Q) -> incl (row P m) (row Q m) /\ incl (row Q m) (row P m)).
    { intros m Hm. apply in_dedup, HR, andb_true_iff in Hm. split; apply subset_incl, Hm. }
    split; intros [m r] Hp.
    - assert (Hm : In m (map fst Q)) by apply in_dedup, existsb_eqb, (HP _ Hp).
      apply in_row, (R m Hm), in_row, Hp.
    - apply in_row, (R m (in_map fst Q (m, r) Hp)), in_row, Hp.
  Qed.
End ListSets.

Arguments dedup {A}.
Arguments same_rows {A}.

Lemma pair_eqb_eq : forall p q, pair_eqb p q = true <-> p = q.
Proof.
  intros [a b] [c d]. unfold pair_eqb. cbn [fst snd].
  rewrite andb_true_iff, !String.eqb_eq. split; [intros [-> ->]; reflexivity | intros [= -> ->]; auto].
Qed.

Lemma pairs_same_iff : forall a b, pairs_same a b = true <-> incl a b /\ incl b a.
Proof.
  intros a b. unfold pairs_same. rewrite andb_true_iff.
  split; intros [H1 H2]; split; apply (subset_incl _ pair_eqb pair_eqb_eq); assumption.
Qed.

Fixpoint relabel (f : string -> string) (s : sk) : sk :=
  match s with
  | Raise l => Raise (f l)
  | Mut l => Mut (f l)
  | Seq l => Seq (map (relabel f) l)
  | Alt a b => Alt (relabel f a) (relabel f b)
  | Loop b => Loop (relabel f b)
  | TryTE b h => TryTE (relabel f b) (relabel f h)
  | TryOther b h => TryOther (relabel f b) (relabel f h)
  | Finally b h => Finally (relabel f b) (relabel f h)
  | Fn n b => Fn n (relabel f b)
  | Pure | Abort | Ret | Brk | Cont => s
  end.

Definition both {A B : Type} (f : A -> B) (p : A * A) : B * B := (f (fst p), f (snd p)).

Lemma cross_map : forall f ms rs, cross (map f ms) (map f rs) = map (both f) (cross ms rs).
Proof.
  intros f ms rs. unfold cross. induction ms as [|m ms IH]; [reflexivity|].
  cbn [map flat_map]. now rewrite IH, map_app, !map_map.
Qed.

(* sites and unsafe pairs of the relabelled skeleton are the relabelled sites and pairs *)
Lemma relabel_natural : forall f s,
  muts (relabel f s) = map f (muts s) /\ raises (relabel f s) = map f (raises s) /\
  unsafe_pairs (relabel f s) = map (both f) (unsafe_pairs s).
Proof.
  intros f.
  induction s as [ | l | l | | | | | l IHl | a b (Ma & Ra & Pa) (Mb & Rb & Pb) | b (Mb & Rb & Pb)
                 | b h (Mb & Rb & Pb) (Mh & Rh & Ph) | b h (Mb & Rb & Pb) (Mh & Rh & Ph)
                 | b h (Mb & Rb & Pb) (Mh & Rh & Ph) | n b (Mb & Rb & Pb) ] using sk_ind'.
  8: { cbn [relabel]. rewrite !muts_Seq, !raises_Seq, !pairs_Seq.
       induction IHl as [|x r (Mx & Rx & Px) _ (Mr & Rr & Pr)]; [repeat split; reflexivity|].
       cbn [map flat_map pairs_l]. rewrite Mx, Rx, Px, Mr, Rr, Pr, cross_map, !map_app.
       repeat split; reflexivity. }
  all: cbn [relabel muts raises unsafe_pairs];
    rewrite ?Ma, ?Ra, ?Pa, ?Mb, ?Rb, ?Pb, ?Mh, ?Rh, ?Ph, ?cross_map, ?map_app; repeat split; reflexivity.
Qed.

Lemma pairs_relabel : forall f s, unsafe_pairs (relabel f s) = map (both f) (unsafe_pairs s).
Proof. intros f s. apply relabel_natural. Qed.

(* every unsafe pair is made of a mutation site and a raise site of the skeleton *)
Lemma in_cross : forall m r ms rs, In (m, r) (cross ms rs) <-> In m ms /\ In r rs.
Proof.
  intros m r ms rs. unfold cross. rewrite in_flat_map. split.
  - intros (x & Hx & H). apply in_map_iff in H. destruct H as (y & [= -> ->] & Hy). auto.
  - intros [Hm Hr]. exists m. split; [exact Hm | now apply in_map].
Qed.

Lemma pairs_sites : forall m r s, In (m, r) (unsafe_pairs s) -> In m (muts s) /\ In r (raises s).
Proof.
  intros m r.
  induction s as [ | l | l | | | | | l IHl | a b IHa IHb | b IHb | b h IHb IHh | b h IHb IHh
                 | b h IHb IHh | n b IHb ] using sk_ind'; try contradiction.
  1: { rewrite pairs_Seq, muts_Seq, raises_Seq.
       induction IHl as [|x q Hx _ IH]; [contradiction|].
       cbn [pairs_l flat_map]. rewrite !in_app_iff, in_cross. tauto. }
  all: cbn [unsafe_pairs muts raises]; rewrite ?in_app_iff, ?in_cross; tauto.
Qed.

(* [unsafe_pairs] lists a pair once per pair of sites that carry its two labels, and a site of a
   function that is called twice occurs twice; [upairs] crosses duplicate-free lists. *)
Definition ucross (ms rs : list string) : list (string * string) :=
  cross (dedup String.eqb ms) (dedup String.eqb rs).

Fixpoint upairs (s : sk) : list (string * string) :=
  match s with
  | Pure | Raise _ | Mut _ | Abort | Ret | Brk | Cont => []
  | Seq l => (fix go (l : list sk) : list (string * string) :=
                match l with
                | [] => []
                | x :: r => upairs x ++ go r ++ ucross (muts x) (flat_map raises r)
                end) l
  | Alt a b => upairs a ++ upairs b
  | Loop b => upairs b ++ ucross (muts b) (raises b)
  | TryTE b h => upairs h ++ ucross (muts b) (raises h)
  | TryOther b h => upairs b ++ upairs h ++ ucross (muts b) (raises h)
  | Finally b f => upairs b ++ upairs f ++ ucross (muts b) (raises f) ++ ucross (muts f) (raises b)
  | Fn _ b => upairs b
  end.

Lemma in_ucross : forall p ms rs, In p (ucross ms rs) <-> In p (cross ms rs).
Proof. intros [m r] ms rs. unfold ucross. now rewrite !in_cross, !(in_dedup _ _ String.eqb_eq). Qed.

Lemma in_app_same : forall (A : Type) (p : A) a a' b b',
  (In p a <-> In p a') -> (In p b <-> In p b') -> (In p (a ++ b) <-> In p (a' ++ b')).
Proof. intros A p a a' b b' Ha Hb. rewrite !in_app_iff. tauto. Qed.

(* [upairs] is [unsafe_pairs] with [ucross] for [cross], part by part *)
Lemma in_upairs : forall p s, In p (upairs s) <-> In p (unsafe_pairs s).
Proof.
  intros p.
  induction s as [ | l | l | | | | | l IHl | a b IHa IHb | b IHb | b h IHb IHh | b h IHb IHh
                 | b h IHb IHh | n b IHb ] using sk_ind'; try reflexivity.
  1: { rewrite pairs_Seq. induction IHl as [|x q Hx _ IH]; [reflexivity|].
       change (upairs (Seq (x :: q)))
         with (upairs x ++ upairs (Seq q) ++ ucross (muts x) (flat_map raises q)).
       cbn [pairs_l]. repeat apply in_app_same; trivial; apply in_ucross. }
  all: cbn [upairs unsafe_pairs]; repeat apply in_app_same; trivial; apply in_ucross.
Qed.

(* short codes: the position of a label in a table, written in binary *)
Fixpoint position (T : list string) (l : string) : positive :=
  match T with
  | [] => 1
  | x :: r => if String.eqb x l then 1 else Pos.succ (position r l)
  end.

Fixpoint bits (p : positive) : string :=
  match p with
  | xH => EmptyString
  | xO q => String "0"%char (bits q)
  | xI q => String "1"%char (bits q)
  end.

Definition code (T : list string) (l : string) : string := bits (position T l).

Lemma position_inj : forall T x y, In x T -> position T x = position T y -> x = y.
Proof.
  induction T as [|a T IH]; intros x y Hx E; [contradiction|]. cbn [position] in E.
  destruct (String.eqb_spec a x) as [Ex|Nx], (String.eqb_spec a y) as [Ey|Ny].
  - congruence.
  - destruct (Pos.succ_not_1 _ (eq_sym E)).
  - destruct (Pos.succ_not_1 _ E).
  - destruct Hx as [Hx|Hx]; [contradiction|]. apply (IH x y Hx), Pos.succ_inj, E.
Qed.

(* reading a code back *)
Fixpoint unbits (b : string) : positive :=
  match b with
  | EmptyString => xH
  | String c r => if Ascii.eqb c "0" then xO (unbits r) else xI (unbits r)
  end.

Lemma unbits_bits : forall p, unbits (bits p) = p.
Proof. induction p as [p IH|p IH|]; cbn [bits unbits Ascii.eqb Bool.eqb]; now rewrite ?IH. Qed.

(* The generated pair lists are compared as lists of pairs of numbers, row by row: the pairs of
   the skeleton are computed after its labels have been replaced by their codes, with every pair
   listed once, and read back as numbers, so that two long labels that share a long prefix are
   compared once per site of the skeleton and not once per pair of pairs. *)
Theorem pairs_same_by_codes : forall s L,
  let T := dedup String.eqb (muts s ++ raises s) in
  same_rows Pos.eqb (map (both unbits) (upairs (relabel (code T) s))) (map (both (position T)) L) = true ->
  pairs_same (unsafe_pairs s) L = true.
Proof.
  intros s L T H. apply (same_rows_incl _ _ Pos.eqb_eq) in H. destruct H as [H1 H2].
  apply pairs_same_iff.
  (* the pairs of the skeleton, as numbers, are the pairs computed through the codes *)
  assert (E : forall n, In n (map (both unbits) (upairs (relabel (code T) s)))
                        <-> In n (map (both (position T)) (unsafe_pairs s))).
  { intro n. rewrite !in_map_iff. split.
    - intros (q & <- & Hq). apply in_upairs in Hq. rewrite pairs_relabel in Hq.
      apply in_map_iff in Hq. destruct Hq as (p & <- & Hp). exists p. split; [|exact Hp].
      unfold both, code. cbn [fst snd]. now rewrite !unbits_bits.
    - intros (p & <- & Hp). exists (both (code T) p). split.
      + unfold both, code. cbn [fst snd]. now rewrite !unbits_bits.
      + apply in_upairs. rewrite pairs_relabel. now apply in_map. }
  assert (Inj : forall p q, In p (unsafe_pairs s) ->
                  both (position T) p = both (position T) q -> p = q).
  { intros [m r] [m' r'] Hp [= Em Er]. apply pairs_sites in Hp. destruct Hp as [Hm Hr].
    f_equal; apply (position_inj T); try assumption;
      apply (in_dedup _ _ String.eqb_eq), in_or_app; [left | right]; assumption. }
  split; intros p Hp.
  - destruct (proj1 (in_map_iff _ _ _) (H1 _ (proj2 (E _) (in_map _ _ _ Hp)))) as (q & Eq & Hq).
    now rewrite (Inj p q Hp (eq_sym Eq)).
  - destruct (proj1 (in_map_iff _ _ _) (proj1 (E _) (H2 _ (in_map _ _ _ Hp)))) as (q & Eq & Hq).
    now rewrite <- (Inj q p Hq Eq).
Qed.
