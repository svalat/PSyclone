(* C09 — footprint of one iteration of a body in the safe class (Model.chks):
   every write goes to a privatised scalar (never the loop variable) or to this iteration's slice of
   a written array; every upward-exposed read is of the loop variable, of loop-invariant data, or of
   this iteration's slice; the body completes normally. *)
From Coq Require Import List ZArith Bool Lia.
Import ListNotations.
From PV Require Import Fort.Syntax Fort.Sem Fort.Facts C09.Model.
Open Scope Z_scope.

Lemma memn_In y l : memn y l = true <-> In y l.
Proof.
  unfold memn. rewrite existsb_exists. split.
  - intros [z [Hz E]]. apply Nat.eqb_eq in E. subst. exact Hz.
  - intro H. exists y. split; [exact H | apply Nat.eqb_refl].
Qed.

Lemma memn_false y l : memn y l = false <-> ~ In y l.
Proof.
  split.
  - intros E H. apply memn_In in H. congruence.
  - intro H. destruct (memn y l) eqn:E; [|reflexivity]. apply memn_In in E. contradiction.
Qed.

Lemma opt_all_nth (l : list (option Z)) : forall vs p z,
  opt_all l = Some vs -> nth_error l p = Some (Some z) -> nth_error vs p = Some z.
Proof.
  induction l as [|o l IH]; intros vs p z H1 H2.
  - destruct p; discriminate.
  - cbn [opt_all] in H1. destruct o as [z0|]; [|discriminate].
    destruct (opt_all l) as [vs0|] eqn:E; [|discriminate]. inversion H1; subst.
    destruct p as [|p]; cbn [nth_error] in *.
    + inversion H2; subst. reflexivity.
    + eapply IH; [reflexivity | exact H2].
Qed.

Section FP.
  Variable P : list name.
  Variable x : name.
  Variable SL : slices.
  Variable v : Z.                       (* the value of the loop variable in this iteration *)
  Hypothesis HxP : memn x P = true.

  Definition allowedW (l : loc) : Prop :=
    (memn (fst l) P = true /\ fst l <> x /\ snd l = []) \/
    (memn (fst l) P = false /\ exists p c, slice_of SL (fst l) = Some (p, c) /\ nth_error (snd l) p = Some (v + c)).

  Definition allowedR (D : list name) (l : loc) : Prop :=
    (memn (fst l) P = true -> snd l = [] /\ In (fst l) D) /\
    (memn (fst l) P = false -> forall p c, slice_of SL (fst l) = Some (p, c) -> nth_error (snd l) p = Some (v + c)).

  Definition fp_ok (D : list name) (tr : list event) (D' : list name) : Prop :=
    (forall l, In l (writes tr) -> allowedW l) /\
    (forall l, In l (exposed tr) -> allowedR D l) /\
    (forall y, In y D' -> In y D \/ In (y, []) (writes tr)).

  Lemma is_xoff_eval c e s :
    is_xoff x c e = true -> val s (x, []) = v -> eval s e = Some (v + c).
  Proof.
    intros H Hv.
    (* is_xoff accepts the four shapes  x | x + d | d + x | x - d  and refuses everything else *)
    destruct e as [z|y|a ix|o e1|o l r|f args]; try discriminate H;
      [| destruct o; try discriminate H; destruct l; try discriminate H; destruct r; try discriminate H];
      cbn [is_xoff] in H; apply andb_true_iff in H as [H1 H2]; apply Nat.eqb_eq in H1; apply Z.eqb_eq in H2;
      rewrite H1, H2; cbn [eval eval_bin]; rewrite Hv; f_equal; lia.
  Qed.

  Lemma slice_nth s ix vs p c e1 :
    val s (x, []) = v -> opt_all (map (eval s) ix) = Some vs ->
    nth_error ix p = Some e1 -> is_xoff x c e1 = true -> nth_error vs p = Some (v + c).
  Proof.
    intros Hv Hvs Hn Hx. eapply opt_all_nth; [exact Hvs|].
    rewrite nth_error_map, Hn. cbn [option_map]. f_equal. eapply is_xoff_eval; eassumption.
  Qed.

  Lemma eok_reads D e : forall s, eok P x SL D e = true -> val s (x, []) = v ->
    forall l, In l (ereads s e) -> allowedR D l.
  Proof.
    induction e as [z|y|a ix IH|o e1 IH|o l1 r1 IH1 IH2|f args IH] using expr_ind'; intros s H Hv l Hl;
      cbn [ereads eok] in *.
    - destruct Hl.
    - destruct Hl as [<-|[]]. unfold allowedR. cbn [fst snd]. split.
      + intro E. rewrite E in H. apply memn_In in H. split; [reflexivity | exact H].
      + intros E p c Hs. rewrite E, Hs in H. discriminate.
    - apply andb_true_iff in H as [H H4]. apply andb_true_iff in H as [H H3].
      apply andb_true_iff in H as [H1 H2]. apply negb_true_iff in H1.
      apply in_app_or in Hl as [Hl|Hl].
      + apply in_flat_map in Hl as [e0 [He0 Hl]].
        rewrite Forall_forall in IH. eapply IH; [exact He0| |exact Hv|exact Hl].
        rewrite forallb_forall in H3. apply H3, He0.
      + destruct (opt_all (map (eval s) ix)) as [vs|] eqn:E; [|destruct Hl].
        destruct Hl as [<-|[]]. unfold allowedR. cbn [fst snd]. split; [intro E1; congruence|].
        intros _ p c Hs. rewrite Hs in H4.
        destruct (nth_error ix p) as [e1|] eqn:En; [|discriminate].
        eapply slice_nth; eassumption.
    - eapply IH; eassumption.
    - apply andb_true_iff in H as [H1 H2]. apply in_app_or in Hl as [Hl|Hl]; [eapply IH1|eapply IH2]; eassumption.
    - rewrite Forall_forall in IH. destruct (is_inquiry f).
      + destruct args as [|a0 r]; [destruct Hl|].
        apply in_flat_map in Hl as [e0 [He0 Hl]]. rewrite forallb_forall in H.
        eapply IH; [right; exact He0|apply H, He0|exact Hv|exact Hl].
      + apply in_flat_map in Hl as [e0 [He0 Hl]]. rewrite forallb_forall in H.
        eapply IH; [exact He0|apply H, He0|exact Hv|exact Hl].
  Qed.

  Lemma eoks_reads D es s : forallb (eok P x SL D) es = true -> val s (x, []) = v ->
    forall l, In l (flat_map (ereads s) es) -> allowedR D l.
  Proof.
    intros H Hv l Hl. apply in_flat_map in Hl as [e0 [He0 Hl]].
    rewrite forallb_forall in H. eapply eok_reads; [apply H, He0|exact Hv|exact Hl].
  Qed.

  Lemma allowedR_drop y D l : allowedR (y :: D) l -> l <> (y, []) -> allowedR D l.
  Proof.
    intros [H1 H2] N. split; [|exact H2].
    intro E. destruct (H1 E) as [E1 [E2|E2]]; [|auto].
    exfalso. apply N. destruct l as [n ix]. cbn [fst snd] in *. subst. reflexivity.
  Qed.

  Lemma allowedR_incl D D2 l : allowedR D l -> incl D D2 -> allowedR D2 l.
  Proof. intros [H1 H2] Hi. split; [|exact H2]. intro E. destruct (H1 E). split; auto. Qed.

  Lemma fp_ok_nil D : fp_ok D [] D.
  Proof. split; [intros l []|split; [intros l []|intros y Hy; left; exact Hy]]. Qed.

  Lemma fp_ok_app D t1 D1 t2 D2 : fp_ok D t1 D1 -> fp_ok D1 t2 D2 -> fp_ok D (t1 ++ t2) D2.
  Proof.
    intros [A1 [A2 A3]] [B1 [B2 B3]]. split; [|split].
    - intros l Hl. rewrite writes_app in Hl. apply in_app_or in Hl as [Hl|Hl]; auto.
    - intros l Hl. apply in_exposed_app in Hl as [Hl|[Hn Hl]]; [auto|].
      destruct (B2 l Hl) as [C1 C2]. split; [|exact C2].
      intro E. destruct (C1 E) as [E1 E2]. split; [exact E1|].
      destruct (A3 _ E2) as [Hd|Hw]; [exact Hd|].
      exfalso. apply Hn. destruct l as [n ix]. cbn [fst snd] in *. subst. exact Hw.
    - intros y Hy. rewrite writes_app. destruct (B3 y Hy) as [Hd|Hw].
      + destruct (A3 y Hd) as [Hd'|Hw]; [left; exact Hd'|right; apply in_or_app; left; exact Hw].
      + right. apply in_or_app. right. exact Hw.
  Qed.

  Lemma fp_ok_rds D R tr D' :
    (forall l, In l R -> allowedR D l) -> fp_ok D tr D' -> fp_ok D (rds R ++ tr) D'.
  Proof.
    intros HR [A1 [A2 A3]]. split; [|split].
    - intros l Hl. rewrite writes_rds_app in Hl. auto.
    - intros l Hl. apply in_exposed_app in Hl as [Hl|[_ Hl]]; [|auto].
      rewrite exposed_rds in Hl. auto.
    - intros y Hy. rewrite writes_rds_app. auto.
  Qed.

  Lemma chk_if_eq D c th el :
    chk P x SL D (SIf c th el) =
    if eok P x SL D c then
      match chks P x SL D th, chks P x SL D el with
      | Some D1, Some D2 => Some (D ++ filter (fun y => memn y D2) D1)
      | _, _ => None
      end
    else None.
  Proof. reflexivity. Qed.

  Lemma chk_do_eq D y lo hi st body :
    chk P x SL D (SDo y lo hi st body) =
    if eok P x SL D lo && eok P x SL D hi && eok P x SL D st && memn y P && negb (Nat.eqb y x) then
      match chks P x SL (y :: D) body with Some _ => Some (y :: D) | None => None end
    else None.
  Proof. reflexivity. Qed.

  Definition good (f : nat) : Prop := forall ss D D' s s' tr c,
    chks P x SL D ss = Some D' -> exec f ss s = Ok s' tr c -> val s (x, []) = v ->
    c = CNormal /\ fp_ok D tr D' /\ val s' (x, []) = v.

  Lemma scalar_write_ok y : memn y P = true -> y <> x -> allowedW (y, []).
  Proof. intros H N. left. cbn [fst snd]. auto. Qed.

  Lemma fp_ok_wr_scalar y D : memn y P = true -> y <> x -> fp_ok D [Wr (y, [])] (y :: D).
  Proof.
    intros H N. split; [|split].
    - intros l [<-|[]]. apply scalar_write_ok; assumption.
    - intros l [].
    - intros y0 [<-|Hy0]; [right; left; reflexivity | left; exact Hy0].
  Qed.

  Lemma do_loop_fp f body y D Db l t :
    good f -> memn y P = true -> y <> x -> chks P x SL (y :: D) body = Some Db ->
    forall n k s s1 tr c,
    do_loop (exec f body) y l t n k s = Ok s1 tr c -> val s (x, []) = v ->
    c = CNormal /\ fp_ok D tr (y :: D) /\ val s1 (x, []) = v.
  Proof.
    intros IHf HyP Hyx Hb.
    assert (Nx : (x, @nil Z) <> (y, [])) by (intro E; inversion E; congruence).
    induction n as [|n IHn]; intros k s s1 tr c H Hv.
    - cbn [do_loop] in H. inversion H; subst s1 tr c. split; [reflexivity|]. split.
      + apply fp_ok_wr_scalar; assumption.
      + rewrite val_upd_other by exact Nx. exact Hv.
    - cbn [do_loop] in H.
      destruct (exec f body (upd s (y, []) (l + k * t))) as [s2 trb cb| |] eqn:E; try discriminate.
      assert (Hv2 : val (upd s (y, []) (l + k * t)) (x, []) = v) by (rewrite val_upd_other by exact Nx; exact Hv).
      destruct (IHf _ _ _ _ _ _ _ Hb E Hv2) as [-> [[B1 [B2 B3]] Hv3]].
      apply prepend_ok_inv in H as [tr0 [H ->]].
      destruct (IHn _ _ _ _ _ H Hv3) as [-> [[C1 [C2 C3]] Hv4]].
      split; [reflexivity|]. split; [|exact Hv4].
      split; [|split].
      + intros l0 Hl. change (Wr (y, []) :: trb) with ([Wr (y, [])] ++ trb) in Hl.
        rewrite !writes_app in Hl. cbn [writes] in Hl.
        destruct Hl as [<-|Hl]; [apply scalar_write_ok; assumption|].
        cbn [app] in Hl. apply in_app_or in Hl as [Hl|Hl]; auto.
      + intros l0 Hl. cbn [app] in Hl. apply in_exposed_cons_wr in Hl as [N Hl].
        apply in_exposed_app in Hl as [Hl|[_ Hl]]; [|auto].
        apply allowedR_drop with (y := y); auto.
      + intros y0 [<-|Hy0]; [right; left; reflexivity|left; exact Hy0].
  Qed.

  Lemma stmt_fp f st D D1 s s1 tr1 c1 :
    good f -> chk P x SL D st = Some D1 -> exec_stmt (exec f) st s = Ok s1 tr1 c1 -> val s (x, []) = v ->
    c1 = CNormal /\ fp_ok D tr1 D1 /\ val s1 (x, []) = v.
  Proof.
    intros IHf Hc He Hv.
    destruct st as [y ix e|c th el|y lo hi st body| | | |es|r body|d body]; try discriminate.
    - cbn [exec_stmt] in He.
      destruct (opt_all (map (eval s) ix)) as [vs|] eqn:Evs; [|discriminate].
      destruct (eval s e) as [z|] eqn:Ez; [|discriminate]. inversion He; subst s1 tr1 c1. clear He.
      split; [reflexivity|].
      destruct ix as [|i0 ix0].
      + cbn [chk] in Hc.
        destruct (eok P x SL D e && memn y P && negb (Nat.eqb y x)) eqn:Eg; [|discriminate].
        inversion Hc; subst D1. apply andb_true_iff in Eg as [Eg G3]. apply andb_true_iff in Eg as [G1 G2].
        apply negb_true_iff in G3. apply Nat.eqb_neq in G3.
        cbn [map opt_all] in Evs. inversion Evs; subst vs.
        split.
        * cbn [flat_map]. rewrite app_nil_r.
          apply fp_ok_rds; [intros l Hl; eapply eok_reads; eassumption|].
          apply fp_ok_wr_scalar; assumption.
        * rewrite val_upd_other; [exact Hv|]. intro E. inversion E. congruence.
      + cbn [chk] in Hc.
        destruct (slice_of SL y) as [[p c]|] eqn:Es; [|discriminate].
        match type of Hc with (if ?g then _ else _) = _ => destruct g eqn:Eg; [|discriminate] end.
        inversion Hc; subst D1. clear Hc.
        apply andb_true_iff in Eg as [Eg G4]. apply andb_true_iff in Eg as [Eg G3].
        apply andb_true_iff in Eg as [G1 G2]. apply negb_true_iff in G1.
        destruct (nth_error (i0 :: ix0) p) as [e1|] eqn:En; [|discriminate].
        assert (Hn : nth_error vs p = Some (v + c)) by (eapply slice_nth; eassumption).
        split.
        * rewrite rds_app, <- app_assoc. apply fp_ok_rds; [intros l Hl; eapply eok_reads; eassumption|].
          apply fp_ok_rds; [intros l Hl; eapply eoks_reads; eassumption|].
          split; [|split].
          -- intros l [<-|[]]. right. cbn [fst snd]. split; [exact G1|]. exists p, c. auto.
          -- intros l Hl. cbn in Hl. destruct Hl.
          -- intros y0 Hy0. left. exact Hy0.
        * rewrite val_upd_other; [exact Hv|]. intro E. inversion E. congruence.
    - rewrite chk_if_eq in Hc. destruct (eok P x SL D c) eqn:Ec; [|discriminate].
      destruct (chks P x SL D th) as [Dt|] eqn:Et; [|discriminate].
      destruct (chks P x SL D el) as [De|] eqn:Ee; [|discriminate].
      inversion Hc; subst D1. clear Hc.
      cbn [exec_stmt] in He. destruct (eval s c) as [z|] eqn:Ez; [|discriminate].
      apply prepend_ok_inv in He as [tr0 [He ->]].
      assert (HR : forall l, In l (ereads s c) -> allowedR D l) by (intros l Hl; eapply eok_reads; eassumption).
      assert (Branch : forall blk Db, chks P x SL D blk = Some Db -> exec f blk s = Ok s1 tr0 c1 ->
                (forall y, In y (filter (fun y => memn y De) Dt) -> In y Db) ->
                c1 = CNormal /\ fp_ok D (rds (ereads s c) ++ tr0) (D ++ filter (fun y => memn y De) Dt) /\ val s1 (x, []) = v).
      { intros blk Db Eb Hb Hsub. destruct (IHf _ _ _ _ _ _ _ Eb Hb Hv) as [-> [[B1 [B2 B3]] Hv1]].
        split; [reflexivity|]. split; [|exact Hv1]. apply fp_ok_rds; [exact HR|].
        split; [exact B1|split; [exact B2|]].
        intros y Hy. apply in_app_or in Hy as [Hy|Hy]; [left; exact Hy | auto]. }
      destruct (z =? 0).
      + apply (Branch el De Ee He). intros y Hy. apply filter_In in Hy as [_ Hy]. apply memn_In, Hy.
      + apply (Branch th Dt Et He). intros y Hy. apply filter_In in Hy as [Hy _]. exact Hy.
    - rewrite chk_do_eq in Hc.
      match type of Hc with (if ?g then _ else _) = _ => destruct g eqn:Eg; [|discriminate] end.
      destruct (chks P x SL (y :: D) body) as [Db|] eqn:Eb; [|discriminate].
      inversion Hc; subst D1. clear Hc.
      apply andb_true_iff in Eg as [Eg G5]. apply andb_true_iff in Eg as [Eg G4].
      apply andb_true_iff in Eg as [Eg G3]. apply andb_true_iff in Eg as [G1 G2].
      apply negb_true_iff in G5. apply Nat.eqb_neq in G5.
      cbn [exec_stmt] in He.
      destruct (eval s lo) as [l|] eqn:E1; [|discriminate].
      destruct (eval s hi) as [h|] eqn:E2; [|discriminate].
      destruct (eval s st) as [t|] eqn:E3; [|discriminate].
      destruct (t =? 0); [discriminate|].
      apply prepend_ok_inv in He as [tr0 [He ->]].
      destruct (do_loop_fp f body y D Db l t IHf G4 G5 Eb _ _ _ _ _ _ He Hv) as [-> [Hfp Hv1]].
      split; [reflexivity|]. split; [|exact Hv1].
      apply fp_ok_rds; [|exact Hfp].
      intros l0 Hl. apply in_app_or in Hl as [Hl|Hl]; [exact (eok_reads D lo s G1 Hv l0 Hl)|].
      apply in_app_or in Hl as [Hl|Hl]; [exact (eok_reads D hi s G2 Hv l0 Hl)|exact (eok_reads D st s G3 Hv l0 Hl)].
  Qed.

  Lemma good_all : forall f, good f.
  Proof.
    induction f as [|f IHf]; intros ss D D' s s' tr c Hc He Hv.
    - discriminate.
    - destruct ss as [|st rest].
      + cbn [chks] in Hc. inversion Hc; subst D'. rewrite exec_nil in He. inversion He; subst s' tr c.
        split; [reflexivity|]. split; [apply fp_ok_nil|exact Hv].
      + cbn [chks] in Hc. destruct (chk P x SL D st) as [D1|] eqn:E1; [|discriminate].
        rewrite exec_cons in He. apply then_run_ok_inv in He as [[s1 [tr1 [tr2 [H1 [H2 ->]]]]]|[N H1]].
        * destruct (stmt_fp f st D D1 s s1 tr1 CNormal IHf E1 H1 Hv) as [_ [F1 Hv1]].
          destruct (IHf _ _ _ _ _ _ _ Hc H2 Hv1) as [-> [F2 Hv2]].
          split; [reflexivity|]. split; [|exact Hv2]. eapply fp_ok_app; eassumption.
        * destruct (stmt_fp f st D D1 s s' tr c IHf E1 H1 Hv) as [-> _]. contradiction.
  Qed.

  (* one iteration: started with the loop variable set to v *)
  Theorem iter_fp f body D' s s' tr c :
    chks P x SL [x] body = Some D' -> exec f body s = Ok s' tr c -> val s (x, []) = v ->
    c = CNormal /\ (forall l, In l (writes tr) -> allowedW l) /\ (forall l, In l (exposed tr) -> allowedR [x] l).
  Proof.
    intros Hc He Hv. destruct (good_all f _ _ _ _ _ _ _ Hc He Hv) as [-> [[A1 [A2 _]] _]]. auto.
  Qed.
End FP.
