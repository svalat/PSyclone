(* C09 — proofs: iterations of a loop in the safe class are insensitive to the privatised copies and
   commute modulo the shared part; hence every schedule of omp_exec leaves the shared part of the
   serial run.  The witness loops, stores and schedules of the refutations stated in Properties/C09.v. *)
From Coq Require Import List ZArith Bool Lia Permutation.
Import ListNotations.
From PV Require Import Fort.Syntax Fort.Sem Fort.Facts C09.Model C09.Footprint.
Open Scope Z_scope.

Lemma shared_eq_refl P s : shared_eq P s s.
Proof. split; auto. Qed.

Lemma shared_eq_sym P s1 s2 : shared_eq P s1 s2 -> shared_eq P s2 s1.
Proof. intros [H1 H2]. split; [auto|]. intros l Hl. symmetry. auto. Qed.

Lemma shared_eq_trans P s1 s2 s3 : shared_eq P s1 s2 -> shared_eq P s2 s3 -> shared_eq P s1 s3.
Proof. intros [A1 A2] [B1 B2]. split; [congruence|]. intros l Hl. rewrite A2, B2; auto. Qed.

Lemma shared_eq_mix P a b : shared_eq P (mix P a b) b.
Proof. split; [reflexivity|]. intros l Hl. unfold mix. cbn [val]. rewrite Hl. reflexivity. Qed.

Section Iter.
  Variable P : list name.
  Variable x : name.
  Variable SL : slices.
  Variable f : nat.
  Variable body : list stmt.
  Variable D' : list name.
  Hypothesis HxP : memn x P = true.
  Hypothesis Hchk : chks P x SL [x] body = Some D'.

  Definition R (v : Z) (s : store) : outcome := exec f body (upd s (x, []) v).

  Lemma x_not_shared (l : loc) : memn (fst l) P = false -> l <> (x, []).
  Proof. intros E N. subst l. cbn [fst] in E. congruence. Qed.

  Lemma exposed_agree v tr s s2 :
    (forall l, In l (exposed tr) -> allowedR P SL v [x] l) ->
    (forall l, memn (fst l) P = false -> In l (exposed tr) -> val s2 l = val s l) ->
    forall l, In l (exposed tr) -> val (upd s2 (x, []) v) l = val (upd s (x, []) v) l.
  Proof.
    intros HR Hs l Hl. destruct (HR l Hl) as [A1 _].
    destruct (memn (fst l) P) eqn:E.
    - destruct (A1 eq_refl) as [E1 [E2|[]]]. destruct l as [n ix]. cbn [fst snd] in *. subst.
      rewrite !val_upd_same. reflexivity.
    - rewrite !val_upd_other by (apply x_not_shared; exact E). apply Hs; assumption.
  Qed.

  Lemma iter_unchanged v s s1 tr c (l : loc) :
    R v s = Ok s1 tr c -> memn (fst l) P = false -> ~ In l (writes tr) -> val s1 l = val s l.
  Proof.
    intros H E N. rewrite (exec_unchanged _ _ _ _ _ _ l H N). apply val_upd_other, x_not_shared, E.
  Qed.

  Lemma iter_bnd v s s1 tr c : R v s = Ok s1 tr c -> bnd s1 = bnd s.
  Proof. intro H. exact (eq_trans (exec_bnd _ _ _ _ _ _ H) (bnd_upd _ _ _)). Qed.

  (* iteration v replayed from a store that agrees with the original one on the shared locations the iteration
     reads upward-exposed: same trace, same values written, every other shared location kept *)
  Lemma replay v s s1 tr s2 :
    R v s = Ok s1 tr CNormal -> bnd s2 = bnd s ->
    (forall l, In l (exposed tr) -> allowedR P SL v [x] l) ->
    (forall l, memn (fst l) P = false -> In l (exposed tr) -> val s2 l = val s l) ->
    exists s2', R v s2 = Ok s2' tr CNormal /\ bnd s2' = bnd s2 /\
      (forall l, In l (writes tr) -> val s2' l = val s1 l) /\
      (forall l, memn (fst l) P = false -> ~ In l (writes tr) -> val s2' l = val s2 l).
  Proof.
    intros H Hb HRd Hs. unfold R in *.
    destruct (exec_frame _ _ _ _ _ _ (upd s2 (x, []) v) H) as [s2' [E1 [E2 [E3 E4]]]].
    { rewrite !bnd_upd. exact Hb. }
    { apply exposed_agree; assumption. }
    exists s2'. rewrite bnd_upd in E2. repeat split; try assumption.
    intros l E N. rewrite (E4 l N). apply val_upd_other, x_not_shared, E.
  Qed.

  Lemma iter_footprint v s s1 tr c :
    R v s = Ok s1 tr c ->
    c = CNormal /\ (forall l, In l (writes tr) -> allowedW P x SL v l) /\
    (forall l, In l (exposed tr) -> allowedR P SL v [x] l).
  Proof. intro H. exact (iter_fp P x SL v HxP f body D' _ _ _ _ Hchk H (val_upd_same _ _ _)). Qed.

  (* the shared effect of an iteration does not depend on the privatised part of the store *)
  Lemma iter_insensitive v s s2 s1 tr c :
    shared_eq P s s2 -> R v s = Ok s1 tr c ->
    exists s1', R v s2 = Ok s1' tr c /\ shared_eq P s1 s1' /\ c = CNormal.
  Proof.
    intros [Hb Hs] H. destruct (iter_footprint _ _ _ _ _ H) as [-> [_ HRd]].
    destruct (replay v s s1 tr s2 H (eq_sym Hb) HRd) as [s1' [E1 [E2 [E3 E4]]]].
    { intros l E _. symmetry. apply Hs, E. }
    exists s1'. split; [exact E1|]. split; [|reflexivity]. split.
    - rewrite E2, <- Hb. exact (iter_bnd _ _ _ _ _ H).
    - intros l E. destruct (in_dec loc_eq_dec l (writes tr)) as [Hw|Hw].
      + symmetry. apply E3, Hw.
      + rewrite (E4 l E Hw), (iter_unchanged _ _ _ _ _ l H E Hw). apply Hs, E.
  Qed.

  Lemma slices_disjoint v v' (l : loc) D :
    v <> v' -> memn (fst l) P = false -> allowedW P x SL v l -> allowedR P SL v' D l -> False.
  Proof.
    intros N E [[E1 _]|[_ [p [c [Hs Hn]]]]] [_ A2]; [congruence|].
    specialize (A2 E p c Hs). rewrite Hn in A2. inversion A2. lia.
  Qed.

  Lemma slices_disjoint_w v v' (l : loc) :
    v <> v' -> memn (fst l) P = false -> allowedW P x SL v l -> allowedW P x SL v' l -> False.
  Proof.
    intros N E [[E1 _]|[_ [p [c [Hs Hn]]]]] [[E2 _]|[_ [p' [c' [Hs' Hn']]]]]; try congruence.
    rewrite Hs in Hs'. inversion Hs'; subst. rewrite Hn in Hn'. inversion Hn'. lia.
  Qed.

  (* two different iterations commute modulo the privatised part *)
  Lemma iter_commute v v' s s1 tr1 c1 s2 tr2 c2 :
    v <> v' -> R v s = Ok s1 tr1 c1 -> R v' s1 = Ok s2 tr2 c2 ->
    exists s1' s2', R v' s = Ok s1' tr2 c2 /\ R v s1' = Ok s2' tr1 c1 /\ shared_eq P s2 s2'.
  Proof.
    intros N H1 H2.
    destruct (iter_footprint _ _ _ _ _ H1) as [-> [HW1 HR1]]. destruct (iter_footprint _ _ _ _ _ H2) as [-> [HW2 HR2]].
    pose proof (iter_bnd _ _ _ _ _ H1) as B1.
    pose proof (iter_bnd _ _ _ _ _ H2) as B2.
    (* iteration v' reads nothing shared that v has written: replay it from s *)
    destruct (replay v' s1 s2 tr2 s H2 (eq_sym B1) HR2) as [s1' [F1 [F2 [F3 F4]]]].
    { intros l E Hl. symmetry. apply (iter_unchanged _ _ _ _ _ l H1 E).
      intro Hw. exact (slices_disjoint v v' l [x] N E (HW1 l Hw) (HR2 l Hl)). }
    (* iteration v reads nothing shared that v' has written: replay it from there *)
    destruct (replay v s s1 tr1 s1' H1 F2 HR1) as [s2' [G1 [G2 [G3 G4]]]].
    { intros l E Hl. apply F4; [exact E|].
      intro Hw. exact (slices_disjoint v' v l [x] (not_eq_sym N) E (HW2 l Hw) (HR1 l Hl)). }
    exists s1', s2'. split; [exact F1|]. split; [exact G1|]. split; [congruence|].
    intros l E. destruct (in_dec loc_eq_dec l (writes tr1)) as [Hw1|Hw1].
    - rewrite (G3 l Hw1). apply (iter_unchanged _ _ _ _ _ l H2 E).
      intro Hw2. exact (slices_disjoint_w v v' l N E (HW1 l Hw1) (HW2 l Hw2)).
    - rewrite (G4 l E Hw1). destruct (in_dec loc_eq_dec l (writes tr2)) as [Hw2|Hw2].
      + symmetry. apply F3, Hw2.
      + rewrite (F4 l E Hw2), (iter_unchanged _ _ _ _ _ l H2 E Hw2).
        apply (iter_unchanged _ _ _ _ _ l H1 E Hw1).
  Qed.

  Fixpoint seq_iters (vs : list Z) (s : store) : option store :=
    match vs with
    | [] => Some s
    | v :: r => match R v s with Ok s' _ CNormal => seq_iters r s' | _ => None end
    end.

  Lemma seq_iters_shared vs : forall s s2 s1,
    shared_eq P s s2 -> seq_iters vs s = Some s1 ->
    exists s1', seq_iters vs s2 = Some s1' /\ shared_eq P s1 s1'.
  Proof.
    induction vs as [|v vs IH]; intros s s2 s1 Hs H; cbn [seq_iters] in *.
    - inversion H; subst. eauto.
    - destruct (R v s) as [s' tr c| |] eqn:E; try discriminate.
      destruct (iter_insensitive v s s2 s' tr c Hs E) as [s'' [E2 [Hs2 ->]]].
      rewrite E2. eapply IH; eassumption.
  Qed.

  Lemma seq_iters_perm vs vs' : Permutation vs vs' -> NoDup vs ->
    forall s s2 s1, shared_eq P s s2 -> seq_iters vs s = Some s1 ->
    exists s1', seq_iters vs' s2 = Some s1' /\ shared_eq P s1 s1'.
  Proof.
    induction 1 as [|v l l' Hp IH|a b l|l1 l2 l3 Hp1 IH1 Hp2 IH2]; intros Hnd s s2 s1 Hs H.
    - cbn [seq_iters] in *. inversion H; subst. eauto.
    - cbn [seq_iters] in *. destruct (R v s) as [s' tr c| |] eqn:E; try discriminate.
      destruct (iter_insensitive v s s2 s' tr c Hs E) as [s'' [E2 [Hs2 ->]]].
      rewrite E2. inversion Hnd; subst. eapply IH; eassumption.
    - (* swap: vs = b :: a :: l, vs' = a :: b :: l *)
      cbn [seq_iters] in H.
      destruct (R b s) as [sb trb cb| |] eqn:Eb; try discriminate.
      destruct cb; try discriminate.
      destruct (R a sb) as [sa tra ca| |] eqn:Ea; try discriminate.
      destruct ca; try discriminate.
      assert (Nab : b <> a).
      { inversion Hnd as [|? ? Hni _]; subst. intro E. apply Hni. left. auto. }
      destruct (iter_commute b a s sb trb CNormal sa tra CNormal Nab Eb Ea) as [s1' [s2' [C1 [C2 C3]]]].
      destruct (iter_insensitive a s s2 s1' tra CNormal Hs C1) as [t1 [T1 [Ht1 _]]].
      destruct (iter_insensitive b s1' t1 s2' trb CNormal Ht1 C2) as [t2 [T2 [Ht2 _]]].
      cbn [seq_iters]. rewrite T1, T2.
      eapply seq_iters_shared; [|exact H].
      eapply shared_eq_trans; eassumption.
    - destruct (IH1 Hnd s s s1 (shared_eq_refl P s) H) as [sm [M1 M2]].
      assert (Hnd2 : NoDup l2) by (eapply Permutation_NoDup; eassumption).
      destruct (IH2 Hnd2 s s2 sm Hs M1) as [se [E1 E2]].
      exists se. split; [exact E1|]. eapply shared_eq_trans; eassumption.
  Qed.

  (* the serial loop is the sequence of its iterations, then the final value of the loop variable *)
  Lemma do_loop_seq l t : forall n k s s' tr c,
    do_loop (exec f body) x l t n k s = Ok s' tr c ->
    exists s'', seq_iters (ivals l t k n) s = Some s'' /\ s' = upd s'' (x, []) (l + (k + Z.of_nat n) * t).
  Proof.
    induction n as [|n IH]; intros k s s' tr c H.
    - cbn [do_loop] in H. inversion H; subst. exists s. split; [reflexivity|].
      cbn [Z.of_nat]. rewrite Z.add_0_r. reflexivity.
    - cbn [do_loop] in H.
      destruct (exec f body (upd s (x, []) (l + k * t))) as [s2 trb cb| |] eqn:E; try discriminate.
      destruct (iter_footprint (l + k * t) _ _ _ _ E) as [-> _].
      apply prepend_ok_inv in H as [tr0 [H _]].
      destruct (IH _ _ _ _ _ H) as [s'' [S1 S2]].
      exists s''. split.
      + unfold ivals. cbn [zseq map seq_iters]. unfold R. rewrite E. exact S1.
      + rewrite S2. f_equal. lia.
  Qed.

  (* the parallel run follows the sequence of its iterations in schedule order *)
  Lemma omp_iters_seq l t (sched : list (nat * nat)) : forall sh T ss ss',
    shared_eq P ss sh ->
    seq_iters (map (fun k => l + Z.of_nat k * t) (map snd sched)) ss = Some ss' ->
    exists so, omp_iters (exec f body) x l t P sched sh T = Some so /\ shared_eq P ss' so.
  Proof.
    induction sched as [|[tid k] r IH]; intros sh T ss ss' Hs H.
    - cbn [map seq_iters omp_iters] in *. inversion H; subst. eauto.
    - cbn [map snd seq_iters omp_iters] in *.
      destruct (R (l + Z.of_nat k * t) ss) as [s1 tr c| |] eqn:E; try discriminate.
      assert (Hm : shared_eq P ss (mix P (T tid) sh)).
      { eapply shared_eq_trans; [exact Hs|]. apply shared_eq_sym, shared_eq_mix. }
      destruct (iter_insensitive _ _ _ _ _ _ Hm E) as [s1' [E1 [Hs1 ->]]].
      unfold R in E1. rewrite E1. eapply IH; eassumption.
  Qed.
End Iter.

Lemma zseq_seq n : forall k, zseq (Z.of_nat k) n = map Z.of_nat (seq k n).
Proof.
  induction n as [|n IH]; intro k; cbn [zseq seq map]; [reflexivity|].
  f_equal. rewrite <- IH. f_equal. lia.
Qed.

Lemma ivals_seq l t n : ivals l t 0 n = map (fun k => l + Z.of_nat k * t) (seq 0 n).
Proof. unfold ivals. change 0 with (Z.of_nat 0). rewrite zseq_seq, map_map. reflexivity. Qed.

Lemma nat_count_occ k l : nat_count k l = count_occ Nat.eq_dec l k.
Proof.
  unfold nat_count. induction l as [|a l IH]; [reflexivity|]. cbn [filter count_occ].
  destruct (Nat.eq_dec a k) as [->|N].
  - rewrite Nat.eqb_refl. cbn [length]. rewrite IH. reflexivity.
  - replace (Nat.eqb k a) with false by (symmetry; apply Nat.eqb_neq; congruence). exact IH.
Qed.

(* Model.valid_sched_b decides that the iteration indices of a schedule are a permutation of 0..n-1 *)
Lemma valid_sched_b_perm n sched : valid_sched_b n sched = true <-> Permutation (map snd sched) (seq 0 n).
Proof.
  unfold valid_sched_b. rewrite andb_true_iff, Nat.eqb_eq, forallb_forall. split.
  - intros [L C]. apply Permutation_sym, NoDup_Permutation_bis; [apply seq_NoDup | |].
    { rewrite map_length, seq_length, L. apply le_n. }
    intros k Hk. specialize (C k Hk). apply Nat.eqb_eq in C. unfold nat_count in C.
    destruct (filter (Nat.eqb k) (map snd sched)) as [|k' r] eqn:F; [discriminate C|].
    assert (Hk' : In k' (filter (Nat.eqb k) (map snd sched))) by (rewrite F; left; reflexivity).
    apply filter_In in Hk' as [Hin E]. apply Nat.eqb_eq in E. subst k'. exact Hin.
  - intro Hp. split.
    + rewrite <- (map_length snd), (Permutation_length Hp). apply seq_length.
    + intros k Hk. apply Nat.eqb_eq. rewrite nat_count_occ, (proj1 (Permutation_count_occ Nat.eq_dec _ _) Hp).
      apply NoDup_count_occ'; [apply seq_NoDup | exact Hk].
Qed.

(* a schedule runs every iteration index 0..n-1 exactly once, on any thread, in any order: valid_sched_b for the
   trip count of the loop in store s *)
Definition sched_ok (loop : stmt) (s : store) (sched : list (nat * nat)) : Prop :=
  match loop with
  | SDo x lo hi st _ =>
      match eval s lo, eval s hi, eval s st with
      | Some l, Some h, Some t => Permutation (map snd sched) (seq 0 (trip_count l h t))
      | _, _, _ => False
      end
  | _ => False
  end.

Definition loopvar (loop : stmt) : name := match loop with SDo x _ _ _ _ => x | _ => O end.

Theorem omp_sound_with f cl loop s s' tr c junk sched :
  safe_with cl loop = true ->
  exec (S (S f)) [loop] s = Ok s' tr c ->
  sched_ok loop s sched ->
  exists so, omp_exec (S f) cl loop junk sched s = Some so /\
             shared_eq (privatised (loopvar loop) cl) so s'.
Proof.
  intros Hsafe Hex Hsched.
  destruct loop as [| |x lo hi st body| | | | | |]; try discriminate.
  cbn [safe_with] in Hsafe. cbn [loopvar].
  destruct (choose_slices x body) as [SL|]; [|discriminate].
  set (P := privatised x cl) in *.
  destruct (chks P x SL [x] body) as [D'|] eqn:Hchk; [|discriminate].
  assert (HxP : memn x P = true) by (apply memn_In; left; reflexivity).
  apply exec_do_inv in Hex as [f' [l [h [t [tr0 [Ef [E1 [E2 [E3 [Nt [Hdo _]]]]]]]]]]].
  inversion Ef; subst f'. clear Ef.
  cbn [sched_ok] in Hsched. rewrite E1, E2, E3 in Hsched.
  cbn [omp_exec]. rewrite E1, E2, E3. apply Z.eqb_neq in Nt. rewrite Nt. apply Z.eqb_neq in Nt.
  destruct (do_loop_seq P x SL (S f) body D' HxP Hchk l t _ _ _ _ _ _ Hdo) as [s'' [S1 S2]].
  rewrite Z.add_0_l in S2.
  assert (Hperm : Permutation (ivals l t 0 (trip_count l h t))
                              (map (fun k => l + Z.of_nat k * t) (map snd sched))).
  { rewrite ivals_seq. apply Permutation_map, Permutation_sym, Hsched. }
  destruct (seq_iters_perm P x SL (S f) body D' HxP Hchk _ _ Hperm (ivals_NoDup l t 0 _ Nt)
              s s s'' (shared_eq_refl P s) S1) as [sp [Sp1 Sp2]].
  destruct (omp_iters_seq P x SL (S f) body D' HxP Hchk l t sched s
              (fun tid => mix (c_fpriv cl) s (junk tid)) s sp (shared_eq_refl P s) Sp1) as [so [O1 O2]].
  exists so. split; [exact O1|].
  apply shared_eq_sym. eapply shared_eq_trans; [|exact O2].
  eapply shared_eq_trans; [|exact Sp2].
  subst s'. split; [apply bnd_upd|].
  intros l0 E. apply val_upd_other. intro N. subst l0. cbn [fst] in E. congruence.
Qed.

(* names: a=0 b=1 i=2 j=3 last=4 m=5 t=6 *)
Definition na := 0%nat. Definition nb := 1%nat. Definition ni := 2%nat. Definition nj := 3%nat.
Definition nlast := 4%nat. Definition nm := 5%nat. Definition nt := 6%nat.

Definition a_i : expr := EIdx na [EVar ni].
Definition loop_over (body : list stmt) : stmt := SDo ni (ELit 1) (ELit 3) (ELit 1) body.

(* a = (1, 2, 3); everything else 0 *)
Definition st0 : store := store_of [((na, [1]), 1); ((na, [2]), 2); ((na, [3]), 3)] [].
(* a = (5, -1, 7), t = 9 *)
Definition st1 : store := store_of [((na, [1]), 5); ((na, [2]), -1); ((na, [3]), 7); ((nt, []), 9)] [].
Definition junk0 : nat -> store := fun _ => store_of [] [].

(* do i = 1, 3; last = a(i); end do *)
Definition w_once : stmt := loop_over [SAssign nlast [] a_i].
(* do i = 1, 3; if (a(i) > 0) t = a(i); b(i) = t; end do *)
Definition w_cond : stmt :=
  loop_over [SIf (EBin Gt a_i (ELit 0)) [SAssign nt [] a_i] []; SAssign nb [EVar ni] (EVar nt)].
(* do i = 1, 3; do j = 1, m; t = a(j); end do; b(i) = t; end do   (m = 0: the inner loop never runs) *)
Definition w_inner : stmt :=
  loop_over [SDo nj (ELit 1) (EVar nm) (ELit 1) [SAssign nt [] (EIdx na [EVar nj])]; SAssign nb [EVar ni] (EVar nt)].
(* do i = 1, 3; t = a(i); b(i) = t + 1; end do *)
Definition w_safe : stmt :=
  loop_over [SAssign nt [] a_i; SAssign nb [EVar ni] (EBin Add (EVar nt) (ELit 1))].

Definition final_val (o : outcome) (l : loc) : option Z :=
  match o with Ok s _ CNormal => Some (val s l) | _ => None end.
Definition omp_val (o : option store) (l : loc) : option Z :=
  match o with Some s => Some (val s l) | None => None end.

(* a run ends normally, as a test: evaluating it leaves no store or trace in the proof *)
Definition ends_normally (o : outcome) : bool := match o with Ok _ _ CNormal => true | _ => false end.
Lemma ends_normally_ok o : ends_normally o = true -> exists s' tr, o = Ok s' tr CNormal.
Proof. destruct o as [s' tr []| |]; try discriminate. intros _. exists s', tr. reflexivity. Qed.

Lemma perm_210 : Permutation [2%nat; 1%nat; 0%nat] (seq 0 3).
Proof.
  cbn [seq]. apply Permutation_trans with [1%nat; 2%nat; 0%nat]; [apply perm_swap|].
  apply Permutation_trans with [1%nat; 0%nat; 2%nat]; [apply perm_skip, perm_swap|apply perm_swap].
Qed.

Lemma perm_120 : Permutation [1%nat; 2%nat; 0%nat] (seq 0 3).
Proof.
  cbn [seq]. apply Permutation_trans with [1%nat; 0%nat; 2%nat]; [apply perm_skip, perm_swap|apply perm_swap].
Qed.

Lemma witness_clauses :
  infer_loop w_once = mkClauses [ni] [] /\ infer_loop w_cond = mkClauses [ni] [nt] /\
  infer_loop w_inner = mkClauses [ni; nj; nt] [] /\ infer_loop w_safe = mkClauses [ni; nt] [].
Proof. vm_compute. auto. Qed.
