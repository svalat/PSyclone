(* C09 — array-section assignments  a(lo:hi, i+d) = rhs  on the Coq side.
   No new semantics: a section assignment is DESUGARED into MiniFortran statements exactly as
   props/C09/check.py `desugar` does: element k of the right-hand side is evaluated into a thread-local
   temporary tmp k, then the elements are stored.  (1) [section_assign] and the ordering lemma: in any
   run of the desugared block every write that happens before the stores is to a temporary, and every
   read that happens during the stores is of a temporary or of an index scalar: all right-hand-side
   elements are read before any element is stored (Fortran array-assignment meaning).
   (2) the desugared block is ordinary MiniFortran, so Model.safe_with / omp_sound_with apply to loop
   bodies containing it once the temporaries are listed as private: [omp_sound_sections].
   (3) the overlapping / shifted case  d(2:4,i) = d(3:5,i-1) + 1  is refuted by vm_compute. *)
From Coq Require Import List ZArith Bool Lia Permutation.
Import ListNotations.
From PV Require Import Fort.Syntax Fort.Sem Fort.Facts C09.Model C09.Footprint C09.Proofs.
Open Scope Z_scope.

Inductive sidx := IScal (e : expr) | IRange (lo : Z).      (* lo : lo + n - 1, n given by the statement *)

Inductive sx :=
| XLit (z : Z)
| XVar (x : name)
| XRef (a : name) (ix : list sidx)
| XBin (o : binop) (l r : sx).

Definition idx_elem (k : nat) (i : sidx) : expr :=
  match i with IScal e => e | IRange lo => ELit (lo + Z.of_nat k) end.

Fixpoint sx_elem (k : nat) (e : sx) : expr :=
  match e with
  | XLit z => ELit z
  | XVar x => EVar x
  | XRef a ix => EIdx a (map (idx_elem k) ix)
  | XBin o l r => EBin o (sx_elem k l) (sx_elem k r)
  end.

(* a(ix) = rhs with n elements and temporaries tmp 0 .. tmp (n-1) *)
Definition eval_part (tmp : nat -> name) (rhs : sx) (ks : list nat) : list stmt :=
  map (fun k => SAssign (tmp k) [] (sx_elem k rhs)) ks.
Definition store_part (tmp : nat -> name) (a : name) (ix : list sidx) (ks : list nat) : list stmt :=
  map (fun k => SAssign a (map (idx_elem k) ix) (EVar (tmp k))) ks.
Definition section_assign (tmp : nat -> name) (a : name) (ix : list sidx) (rhs : sx) (n : nat) : list stmt :=
  eval_part tmp rhs (seq 0 n) ++ store_part tmp a ix (seq 0 n).

(* a block with one statement per index of ks, each of which ends normally, writes only in W and reads only in R *)
Lemma exec_each (mk : nat -> stmt) (W R : loc -> Prop) ks :
  (forall k run s s1 tr1 c1, In k ks -> exec_stmt run (mk k) s = Ok s1 tr1 c1 ->
     c1 = CNormal /\ (forall l, In l (writes tr1) -> W l) /\ (forall l, In l (reads tr1) -> R l)) ->
  forall f s s' tr c, exec f (map mk ks) s = Ok s' tr c ->
    (forall l, In l (writes tr) -> W l) /\ (forall l, In l (reads tr) -> R l).
Proof.
  intro H1. induction ks as [|k ks IH]; intros f s s' tr c H; (destruct f; [discriminate|]); cbn [map] in H.
  - rewrite exec_nil in H. inversion H; subst. split; intros l [].
  - rewrite exec_cons in H. apply then_run_ok_inv in H as [[s1 [tr1 [tr2 [E1 [E2 ->]]]]]|[N E1]].
    + destruct (H1 k _ _ _ _ _ (or_introl eq_refl) E1) as [_ [Wk Rk]].
      destruct (IH (fun k' run s s1 tr1 c1 Hk => H1 k' run s s1 tr1 c1 (or_intror Hk)) _ _ _ _ _ E2) as [Wr Rr].
      split; intros l Hl; [rewrite writes_app in Hl | rewrite reads_app in Hl]; apply in_app_or in Hl as [Hl|Hl]; auto.
    + destruct (H1 k _ _ _ _ _ (or_introl eq_refl) E1) as [E _]. contradiction.
Qed.

Lemma eval_part_writes tmp rhs ks : forall f s s' tr c,
  exec f (eval_part tmp rhs ks) s = Ok s' tr c ->
  forall l, In l (writes tr) -> exists k, In k ks /\ l = (tmp k, []).
Proof.
  intros f s s' tr c H. refine (proj1 (exec_each _ _ (fun _ => True) ks _ f s s' tr c H)).
  intros k run s0 s1 tr1 c1 Hk H1. cbn [exec_stmt map opt_all] in H1.
  destruct (eval s0 (sx_elem k rhs)) as [z|]; [|discriminate]. inversion H1; subst.
  split; [reflexivity|]. split; [|auto]. intros l Hl. rewrite writes_app, writes_rds in Hl.
  destruct Hl as [<-|[]]. exists k. split; [exact Hk | reflexivity].
Qed.

(* index expressions of the stored elements read only locations in I *)
Definition idx_reads_in (I : loc -> Prop) (ix : list sidx) : Prop :=
  forall k e s l, In e (map (idx_elem k) ix) -> In l (ereads s e) -> I l.

Lemma store_part_reads tmp a ix (I : loc -> Prop) ks : idx_reads_in I ix -> forall f s s' tr c,
  exec f (store_part tmp a ix ks) s = Ok s' tr c ->
  forall l, In l (reads tr) -> (exists k, In k ks /\ l = (tmp k, [])) \/ I l.
Proof.
  intros HI f s s' tr c H. refine (proj2 (exec_each _ (fun _ => True) _ ks _ f s s' tr c H)).
  intros k run s0 s1 tr1 c1 Hk H1. cbn [exec_stmt eval] in H1.
  destruct (opt_all (map (eval s0) (map (idx_elem k) ix))) as [vs|]; [|discriminate]. inversion H1; subst.
  split; [reflexivity|]. split; [auto|]. intros l Hl. cbn [reads] in Hl.
  destruct Hl as [<-|Hl]; [left; exists k; split; [exact Hk | reflexivity]|].
  rewrite reads_app, reads_rds in Hl. cbn [reads] in Hl. rewrite app_nil_r in Hl.
  right. apply in_flat_map in Hl as [e [He Hle]]. eapply HI; eassumption.
Qed.

(* Fortran array-assignment meaning of the desugared block: its trace splits into an evaluation phase
   that writes nothing but temporaries and a store phase that reads nothing but temporaries (and index
   scalars): no element of the left-hand side is stored before every right-hand-side element is read *)
Theorem section_assign_order tmp a ix rhs n (I : loc -> Prop) f s s' tr c :
  idx_reads_in I ix ->
  exec f (section_assign tmp a ix rhs n) s = Ok s' tr c ->
  exists tr1 tr2, tr = tr1 ++ tr2 /\
    (forall l, In l (writes tr1) -> exists k, (k < n)%nat /\ l = (tmp k, [])) /\
    (forall l, In l (reads tr2) -> (exists k, (k < n)%nat /\ l = (tmp k, [])) \/ I l).
Proof.
  intros HI H. unfold section_assign in H.
  apply exec_app_inv in H as [[s1 [tr1 [tr2 [H1 [H2 ->]]]]]|[N H1]].
  - exists tr1, tr2. split; [reflexivity|]. split.
    + intros l Hl. destruct (eval_part_writes _ _ _ _ _ _ _ _ H1 l Hl) as [k [Hk ->]].
      exists k. split; [apply in_seq in Hk; lia|reflexivity].
    + intros l Hl. destruct (store_part_reads _ _ _ I _ HI _ _ _ _ _ H2 l Hl) as [[k [Hk ->]]|Hi]; [left|right; exact Hi].
      exists k. split; [apply in_seq in Hk; lia|reflexivity].
  - exists tr, []. split; [rewrite app_nil_r; reflexivity|]. split.
    + intros l Hl. destruct (eval_part_writes _ _ _ _ _ _ _ _ H1 l Hl) as [k [Hk ->]].
      exists k. split; [apply in_seq in Hk; lia|reflexivity].
    + intros l [].
Qed.

(* the temporaries are compiler temporaries: thread-local, i.e. additional private scalars *)
Definition with_temps (cl : clauses) (temps : list name) : clauses :=
  mkClauses (c_priv cl ++ temps) (c_fpriv cl).

(* any loop (its body may contain section_assign blocks) in the safe class w.r.t. the clauses extended
   with the temporaries: every schedule leaves the serial shared part.  For a section assignment
   a(lo:hi, i+d) = ... a(lo':hi', i+d) ... the class demands what Model.chks demands of its element
   statements: the loop-variable subscripts of all accesses to the written array are identical
   (distance 0) and sit in one dimension; the section dimension is free. *)
Theorem omp_sound_sections f cl temps loop s s' tr c (junk : nat -> store) sched :
  safe_with (with_temps cl temps) loop = true ->
  exec (S (S f)) [loop] s = Ok s' tr c ->
  sched_ok loop s sched ->
  exists so, omp_exec (S f) (with_temps cl temps) loop junk sched s = Some so /\
             shared_eq (privatised (loopvar loop) (with_temps cl temps)) so s'.
Proof. apply omp_sound_with. Qed.

(* names: d=0 e=1 i=2 zt0=3 zt1=4 zt2=5 *)
Definition nd := 0%nat. Definition ne := 1%nat. Definition nI := 2%nat.
Definition ztmp (k : nat) : name := (3 + k)%nat.

(* do i = 1, 3;  d(2:4, i) = d(3:5, i) * 2 + e(2:4, i);  end do     (backward overlap inside one column) *)
Definition sec_ok_body : list stmt :=
  section_assign ztmp nd [IRange 2; IScal (EVar nI)]
    (XBin Add (XBin Mul (XRef nd [IRange 3; IScal (EVar nI)]) (XLit 2)) (XRef ne [IRange 2; IScal (EVar nI)])) 3.
Definition sec_ok : stmt := SDo nI (ELit 1) (ELit 3) (ELit 1) sec_ok_body.

(* do i = 2, 4;  d(2:4, i) = d(3:5, i-1) + 1;  end do              (carried through overlapping sections) *)
Definition sec_bad_body : list stmt :=
  section_assign ztmp nd [IRange 2; IScal (EVar nI)]
    (XBin Add (XRef nd [IRange 3; IScal (EBin Sub (EVar nI) (ELit 1))]) (XLit 1)) 3.
Definition sec_bad : stmt := SDo nI (ELit 2) (ELit 4) (ELit 1) sec_bad_body.

Definition sec_cl : clauses := mkClauses [nI] [].
Definition sec_temps : list name := [ztmp 0; ztmp 1; ztmp 2].

(* d(r, c) = 10 r + c for r, c in 1..5; e = 1 *)
Definition sec_store : store :=
  mkStore (fun l => match l with
                    | (O, [r; c]) => 10 * r + c
                    | (S O, _) => 1
                    | _ => 0 end) (fun _ => []).

(* non-vacuity: the independent section loop is in the safe class, runs serially, and the conclusion
   evaluated on a 2-thread schedule in reverse order gives d(2,1) = 2*d(3,1) + e(2,1) = 63 *)
Lemma sections_nonvacuous_ :
  safe_with (with_temps sec_cl sec_temps) sec_ok = true /\
  (exists s' tr, exec 60 [sec_ok] sec_store = Ok s' tr CNormal) /\
  sched_ok sec_ok sec_store [(0%nat, 2%nat); (1%nat, 1%nat); (0%nat, 0%nat)] /\
  omp_val (omp_exec 59 (with_temps sec_cl sec_temps) sec_ok junk0 [(0%nat, 2%nat); (1%nat, 1%nat); (0%nat, 0%nat)] sec_store) (nd, [2; 1]) = Some 63 /\
  final_val (exec 60 [sec_ok] sec_store) (nd, [2; 1]) = Some 63.
Proof.
  split; [vm_compute; reflexivity|]. split; [apply ends_normally_ok; vm_compute; reflexivity|].
  split; [exact perm_210|]. split; vm_compute; reflexivity.
Qed.

(* (3) the shifted / overlapping case is outside the class and really fails: with iterations 2, 3, 4 on
   two threads in the order 3, 2, 4 the element d(2,3) = d(3,2) + 1 is computed from the OLD d(3,2) = 32
   (33) while serially iteration 2 has already stored d(3,2) = d(4,1) + 1 = 42 (43) *)
Lemma sections_refuted_ :
  safe_with (with_temps sec_cl sec_temps) sec_bad = false /\
  exists sched l vs vo,
    sched_ok sec_bad sec_store sched /\
    memn (fst l) (privatised (loopvar sec_bad) (with_temps sec_cl sec_temps)) = false /\
    final_val (exec 60 [sec_bad] sec_store) l = Some vs /\
    omp_val (omp_exec 59 (with_temps sec_cl sec_temps) sec_bad junk0 sched sec_store) l = Some vo /\ vs <> vo.
Proof.
  split; [vm_compute; reflexivity|].
  exists [(1%nat, 1%nat); (0%nat, 0%nat); (1%nat, 2%nat)], (nd, [2; 3]), 43, 33.
  split; [cbn [sched_ok sec_bad eval]; cbn; apply perm_swap|].
  split; [vm_compute; reflexivity|]. split; [vm_compute; reflexivity|].
  split; [vm_compute; reflexivity|]. discriminate.
Qed.
