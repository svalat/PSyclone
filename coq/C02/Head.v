(* C02 — the writer as it is on /repo HEAD (rules_patch = commits e6f4996 + e4d8bb1):
   a position-aware, computable predicate `nobad` that names the remaining failure classes
   exactly; `nobad -> round trip` for all well-formed trees of any size (induction), and
   `round trip <-> nobad` on a finite domain swept by vm_compute.  Plus an instance of the order
   embedding of the generated precedence table (Facts.v). *)
From Coq Require Import List NArith Bool String Ascii Arith Lia.
Import ListNotations.
From PV Require Import C02.Syntax C02.Gen C02.Model C02.Facts C02.ParseProof C02.Shape.

Open Scope nat_scope.

(* non-vacuity of Facts.prec_order_*: the order is strict across the eight levels and ties inside a level *)
Example prec_order_example :
  prec_bin Eqv < prec_bin Or /\ prec_bin Or < prec_bin And /\ prec_bin And < prec_un Not /\
  prec_un Not < prec_bin Eq /\ prec_bin Ge < prec_bin Sub /\ prec_bin Add < prec_bin Div /\
  prec_bin Mul < prec_bin Pow /\ prec_bin Eqv = prec_bin Neqv /\ prec_bin Lt = prec_bin Ne /\
  prec_un Neg = prec_bin Add /\ prec_bin Mul = prec_bin Div.
Proof. vm_compute. repeat split; repeat constructor. Qed.

(* nobad R p e: no sub-tree of e, written at the position it really has, is
   (a) a unary operator that is the UNBRACKETED left operand of a binary operator binding tighter
       than it (sign left of * / ** : the shape PSyclone's test pins; .NOT. left of a relational
       or arithmetic operator), or
   (b) an equal-level left operand of ** or of a relational operator where the rules do not
       bracket it (not possible once r_pow_left / r_rel_left hold).  Without those two rules (b)
       also rejects a left operand that the writer brackets because it equals its right sibling,
       (a**b)**(a**b): there the predicate is sufficient, not exact. *)
Fixpoint nobad (R : rules) (p : pos) (e : expr) {struct e} : bool :=
  match e with
  | Lit _ => true
  | Acc _ ix sub =>
      forallb (nobad R PTop) ix && match sub with None => true | Some s => nobad R PTop s end
  | Call _ args => forallb (nobad R PTop) args
  | Named _ x => nobad R PTop x
  | Rng lo hi st => nobad R PTop lo && nobad R PTop hi && nobad R PTop st
  | Un u x => nobad R (PUn u) x
  | Bin o l r =>
      let g := gleft R p o in
      nobad R (PBinL o r g) l && nobad R (PBinR o) r &&
      match l with
      | Un u _ => un_paren R u (PBinL o r g) || (lvl o <=? pre_max u)
      | Bin ol _ _ =>
          negb ((lvl ol =? lvl o) && (((lvl o =? 8) && negb (r_pow_left R)) ||
                                      (rel_level o && negb (r_rel_left R))))
      | _ => true
      end
  end.
Definition no_bad_shape (R : rules) (e : expr) : bool := nobad R PTop e.
Definition R_head : rules := rules_patch.
Definition no_bad_shape_head (e : expr) : bool := no_bad_shape R_head e.

(* nobad is Shape.tight with the two conditions on the left operand spelt out *)
Lemma nobad_tight R : forall e p, nobad R p e = true -> tight R p e = true.
Proof.
  induction e as [l|n ix sub Hix Hsub|fn args Hargs|n e IHe|lo hi st IHlo IHhi IHst|u e IHe|o l r IHl IHr]
    using expr_ind2; intros p Hs; cbn [nobad] in Hs.
  - reflexivity.
  - cbn [tight]. apply andb_true_iff in Hs as [Hsix Hssub].
    rewrite (items_tight R (nobad R) ix Hix Hsix).
    destruct sub as [s|]; [exact (Hsub PTop Hssub) | reflexivity].
  - exact (items_tight R (nobad R) args Hargs Hs).
  - exact (IHe PTop Hs).
  - cbn [tight]. apply andb_true_iff in Hs as [Hs Hsst]. apply andb_true_iff in Hs as [Hslo Hshi].
    rewrite (IHlo PTop Hslo), (IHhi PTop Hshi), (IHst PTop Hsst). reflexivity.
  - exact (IHe (PUn u) Hs).
  - apply andb_true_iff in Hs as [Hs Hsh]. apply andb_true_iff in Hs as [Hsl Hsr].
    apply tight_bin. split; [exact (IHl _ Hsl)|]. split; [exact (IHr _ Hsr)|].
    pose proof (lvl_le8 o) as L8.
    destruct l as [| | | | |u x|ol l1 l2]; cbn [theta after]; try lia.
    + destruct (un_paren R u (PBinL o r (gleft R p o))); [lia|].
      apply Nat.leb_le in Hsh. rewrite pre_rbp_spec. lia.
    + exact (bin_left_tight R o r (gleft R p o) ol l1 l2 Hsh).
Qed.

(* <- direction of the characterisation, every rule set, trees of any size *)
Theorem no_bad_shape_roundtrip R e :
  wf e = true -> no_bad_shape R e = true -> parse (write R e) = Some e.
Proof. intros Hw Hs. apply parse_write_tight; [exact Hw | apply nobad_tight, Hs]. Qed.

Open Scope string_scope.
Definition unops : list unop := [Neg; Pos; Not].
Definition binops : list binop := [Add; Sub; Mul; Div; Pow; Eq; Ne; Lt; Le; Gt; Ge; And; Or; Eqv; Neqv].
Definition level1 (x y : string) : list expr :=
  v x :: map (fun u => Un u (v x)) unops ++ map (fun o => Bin o (v x) (v y)) binops.
(* every tree with at most two operator levels over all 18 operators (5472 trees) *)
Definition small_trees : list expr :=
  flat_map (fun u => map (Un u) (level1 "a" "b")) unops ++
  flat_map (fun o => flat_map (fun x => map (Bin o x) (level1 "c" "d")) (level1 "a" "b")) binops.
(* every operator chain of length 3: at each level a unary operator, or a binary operator whose
   other operand is a name (33^3 = 35937 trees, three operator levels) *)
Definition steps (n : string) : list (expr -> expr) :=
  map Un unops ++ map (fun o x => Bin o x (v n)) binops ++ map (fun o x => Bin o (v n) x) binops.
Definition chains3 : list expr :=
  flat_map (fun f1 => flat_map (fun f2 => map (fun f3 => f1 (f2 (f3 (v "a")))) (steps "d")) (steps "c")) (steps "b").

(* The writer and the parser run only on the trees with a bad shape (1288 of the 41409): for the
   others the round trip is no_bad_shape_roundtrip.  An `if`, so that the second branch is left
   alone both by vm_compute and by the kernel's lazy machine.  `expr_eqb e e` stands there so that
   exact_iff needs no proof that expr_eqb is reflexive: whichever value it has, the branch is false
   once the tree is read back. *)
Definition exact_on (R : rules) (e : expr) : bool :=
  if no_bad_shape R e then true else expr_eqb e e && negb (model_rt R e).
Lemma sweep_small : forallb (exact_on R_head) small_trees = true.
Proof. vm_compute. reflexivity. Qed.
(* the chains one operator at a time, so that the list of 35937 trees is never built *)
Lemma sweep_chains :
  forallb (fun f1 => forallb (fun f2 => forallb (fun f3 =>
    exact_on R_head (f1 (f2 (f3 (v "a"))))) (steps "d")) (steps "c")) (steps "b") = true.
Proof. vm_compute. reflexivity. Qed.

Lemma exact_iff R e : wf e = true -> exact_on R e = true ->
  (parse (write R e) = Some e <-> no_bad_shape R e = true).
Proof.
  intros Hw H. split; [|exact (no_bad_shape_roundtrip R e Hw)].
  intros Hp. unfold exact_on, model_rt in H. rewrite Hp in H.
  destruct (no_bad_shape R e); [reflexivity|]. destruct (expr_eqb e e); discriminate H.
Qed.

(* the swept trees are names under operators, hence well formed *)
Lemma wf_level1 x y e : In e (level1 x y) -> wf e = true.
Proof.
  intros [<-|H]; [reflexivity|].
  apply in_app_or in H as [H|H]; apply in_map_iff in H as [? [<- _]]; reflexivity.
Qed.
Lemma wf_steps n f : In f (steps n) -> forall e, wf (f e) = wf e.
Proof.
  intros H e. apply in_app_or in H as [H|H]; [|apply in_app_or in H as [H|H]];
    apply in_map_iff in H as [? [<- _]]; [reflexivity | apply andb_true_r | reflexivity].
Qed.
Lemma wf_small e : In e small_trees -> wf e = true.
Proof.
  intros H. apply in_app_or in H as [H|H].
  - apply in_flat_map in H as [u [_ H]]. apply in_map_iff in H as [x [<- Hx]].
    exact (wf_level1 _ _ _ Hx).
  - apply in_flat_map in H as [o [_ H]]. apply in_flat_map in H as [x [Hx H]].
    apply in_map_iff in H as [y [<- Hy]].
    cbn [wf]. rewrite (wf_level1 _ _ _ Hx), (wf_level1 _ _ _ Hy). reflexivity.
Qed.
Lemma chains3_inv e : In e chains3 -> exists f1 f2 f3,
  In f1 (steps "b") /\ In f2 (steps "c") /\ In f3 (steps "d") /\ e = f1 (f2 (f3 (v "a"))).
Proof.
  intros H. apply in_flat_map in H as [f1 [H1 H]]. apply in_flat_map in H as [f2 [H2 H]].
  apply in_map_iff in H as [f3 [<- H3]]. exists f1, f2, f3. auto.
Qed.

(* for counting the two domains *)
Lemma flat_map_length_const {A B} (f : A -> list B) n l :
  (forall a, List.length (f a) = n) -> List.length (flat_map f l) = List.length l * n.
Proof.
  intros H. induction l as [|a l IH]; [reflexivity|].
  cbn [flat_map List.length]. rewrite app_length, H, IH. reflexivity.
Qed.
