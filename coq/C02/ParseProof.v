(* C02 — the parser reads back what the writer wrote, for every tree that satisfies the local
   side conditions `ok` (no size bound; induction on the tree, explicit fuel). *)
From Coq Require Import List NArith Bool String Ascii Arith Lia.
Import ListNotations.
From PV Require Import C02.Syntax C02.Gen C02.Model C02.Facts.
Notation length := List.length.   (* not String.length *)

Definition oall (P : expr -> Prop) (o : option expr) : Prop :=
  match o with Some s => P s | None => True end.
Section ExprInd.
  Variable P : expr -> Prop.
  Hypothesis HLit : forall l, P (Lit l).
  Hypothesis HAcc : forall n ix sub, Forall P ix -> oall P sub -> P (Acc n ix sub).
  Hypothesis HCall : forall f args, Forall P args -> P (Call f args).
  Hypothesis HNamed : forall n e, P e -> P (Named n e).
  Hypothesis HRng : forall lo hi st, P lo -> P hi -> P st -> P (Rng lo hi st).
  Hypothesis HUn : forall u e, P e -> P (Un u e).
  Hypothesis HBin : forall o l r, P l -> P r -> P (Bin o l r).
  Fixpoint expr_ind2 (e : expr) : P e :=
    match e with
    | Lit l => HLit l
    | Acc n ix sub =>
        HAcc n ix sub
             ((fix go (l : list expr) : Forall P l :=
                 match l with [] => Forall_nil _ | x :: r => Forall_cons _ (expr_ind2 x) (go r) end) ix)
             (match sub as o return oall P o with Some s => expr_ind2 s | None => I end)
    | Call f args =>
        HCall f args
              ((fix go (l : list expr) : Forall P l :=
                  match l with [] => Forall_nil _ | x :: r => Forall_cons _ (expr_ind2 x) (go r) end) args)
    | Named n e => HNamed n e (expr_ind2 e)
    | Rng lo hi st => HRng lo hi st (expr_ind2 lo) (expr_ind2 hi) (expr_ind2 st)
    | Un u e => HUn u e (expr_ind2 e)
    | Bin o l r => HBin o l r (expr_ind2 l) (expr_ind2 r)
    end.
End ExprInd.

Definition rest_ok (rest : list token) : Prop :=
  match rest with
  | [] => True
  | (TOp _ | TRP | TComma | TColon) :: _ => True
  | _ => False
  end.
Definition follow (th : nat) (rest : list token) : Prop :=
  match rest with
  | TOp t :: _ => match bin_of t with Some o => lvl o < th | None => True end
  | _ => True
  end.
Definition stops (m mx : nat) (rest : list token) : Prop :=
  match rest with
  | TOp t :: _ => match bin_of t with Some o => ~ (m <= lvl o /\ lvl o <= mx) | None => True end
  | _ => True
  end.
Definition closes (rest : list token) : Prop :=
  match rest with (TRP | TComma) :: _ => True | _ => False end.

Lemma ploop_stop m mx lhs rest : stops m mx rest ->
  forall f, 1 <= f -> ploop f m mx lhs rest = Some (lhs, rest).
Proof.
  intros H f Hf. destruct f as [|f]; [lia|]. cbn [ploop].
  destruct rest as [|t r]; [reflexivity|]. destruct t; try reflexivity.
  cbn [stops] in H. destruct (bin_of o) as [b|]; [|reflexivity].
  destruct (m <=? lvl b) eqn:E1; [|reflexivity]. destruct (lvl b <=? mx) eqn:E2; [|reflexivity].
  apply Nat.leb_le in E1, E2. exfalso. apply H. split; assumption.
Qed.

Lemma follow_stops m mx rest : follow m rest -> stops m mx rest.
Proof.
  destruct rest as [|t r]; [exact (fun _ => I)|]. destruct t; try exact (fun _ => I). cbn [follow stops].
  destruct (bin_of o); [|exact (fun _ => I)]. intros H [H1 _]. lia.
Qed.
Lemma follow_mono a b rest : a <= b -> follow a rest -> follow b rest.
Proof.
  intros L. destruct rest as [|t r]; [exact (fun x => x)|]. destruct t; try exact (fun x => x). cbn [follow].
  destruct (bin_of o); [|exact (fun x => x)]. lia.
Qed.
Lemma follow_9 rest : follow 9 rest.
Proof.
  destruct rest as [|t r]; [exact I|]. destruct t; try exact I. cbn [follow].
  destruct (bin_of o) as [b|]; [|exact I]. pose proof (lvl_le8 b). lia.
Qed.
Lemma closes_rest_ok rest : closes rest -> rest_ok rest.
Proof. destruct rest as [|[] r]; cbn; tauto. Qed.
Lemma closes_follow th rest : closes rest -> follow th rest.
Proof. destruct rest as [|[] r]; cbn; tauto. Qed.

(* ok R m p e  ->  m is at most the absorption threshold of e *)
Lemma follow_theta R m p e rest : ok R m p e = true -> follow m rest -> follow (theta R p e) rest.
Proof.
  intros Hok Hf. destruct e; try apply follow_9.
  - (* Un *) cbn [theta]. cbn [ok] in Hok. destruct (un_paren R o p); [apply follow_9|].
    apply andb_true_iff in Hok as [H1 _]. apply Nat.leb_le in H1.
    eapply follow_mono; [|exact Hf]. rewrite pre_rbp_spec. lia.
  - (* Bin *) cbn [theta]. cbn [ok] in Hok. destruct (bin_paren R o p (Bin o e1 e2)); [apply follow_9|].
    repeat (apply andb_true_iff in Hok as [Hok ?]). apply Nat.leb_le in Hok.
    eapply follow_mono; [|exact Hf]. rewrite rbp_spec. destruct (lvl o =? 8) eqn:E.
    + apply Nat.eqb_eq in E. lia.
    + lia.
Qed.

Lemma pexpr_prefix f m u r :
  pexpr (S f) m (TOp (utok u) :: r) =
  if m <=? pre_max u then
    match pexpr f (pre_rbp u) r with
    | Some (x, r') => ploop f m (pre_max u) (Un u x) r'
    | None => None
    end
  else None.
Proof. cbn [pexpr]. rewrite prefix_of_utok. reflexivity. Qed.

(* Each unfolding of one of the six parser functions is dear to check (the kernel compares the
   whole block with itself), so the case analysis on the head tokens is done on a match over
   variables and the unfolding happens once. *)
Definition not_op (ts : list token) : Prop := match ts with TOp _ :: _ => False | _ => True end.
Lemma not_op_match {X} ts (A : optok -> list token -> X) (B : X) : not_op ts ->
  match ts with TOp t :: r => A t r | _ => B end = B.
Proof. intros H. destruct ts as [|[] r]; try reflexivity. destruct H. Qed.
Lemma pexpr_prim f m ts : not_op ts ->
  pexpr (S f) m ts = match pprim f ts with Some (x, r') => ploop f m 8 x r' | None => None end.
Proof. intros H. cbn [pexpr]. apply not_op_match, H. Qed.

(* pprim hands a name to pacc, unless it is an intrinsic followed by a bracket *)
Lemma pprim_name f n ts :
  match ts with TLP :: _ => is_intrinsic n = false | _ => True end ->
  pprim (S f) (TName n :: ts) = pacc f (TName n :: ts).
Proof. intros H. cbn [pprim]. destruct ts as [|[] ts]; try reflexivity. rewrite H. reflexivity. Qed.

Lemma ploop_step f m mx lhs o r : m <= lvl o -> lvl o <= mx ->
  ploop (S f) m mx lhs (TOp (btok o) :: r) =
  match pexpr f (rbp o) r with
  | Some (x, r') => ploop f m (mx_after o) (Bin o lhs x) r'
  | None => None
  end.
Proof.
  intros H1 H2. cbn [ploop]. rewrite bin_of_btok.
  apply Nat.leb_le in H1, H2. rewrite H1, H2. reflexivity.
Qed.

Definition no_assign (ts : list token) : Prop := forall n r, ts <> TName n :: TAssign :: r.
Lemma no_assign_match {X} ts (A : string -> list token -> X) (B : X) : no_assign ts ->
  match ts with TName n :: TAssign :: r => A n r | _ => B end = B.
Proof. intros H. destruct ts as [|[] [|[] ts]]; try reflexivity. exfalso. eapply H. reflexivity. Qed.
Lemma pitem_plain f ts : no_assign ts ->
  pitem (S f) ts =
  match pexpr f 0 ts with
  | Some (lo, TColon :: r1) =>
      match pexpr f 0 r1 with
      | Some (hi, TColon :: r2) =>
          match pexpr f 0 r2 with
          | Some (st, r3) => Some (Rng lo hi st, r3)
          | None => None
          end
      | Some (hi, r2) => Some (Rng lo hi one_lit, r2)
      | None => None
      end
  | Some (x, r1) => Some (x, r1)
  | None => None
  end.
Proof. intros H. cbn [pitem]. apply no_assign_match, H. Qed.

Lemma no_assign_wr R : forall e m p rest, ok R m p e = true -> rest_ok rest -> no_assign (wr R p e ++ rest).
Proof.
  induction e as [l|n ix sub _ _|f args _|n e _|lo hi st _ _ _|u e _|o l r IHl _] using expr_ind2;
    intros m p rest Hok Hr k t E.
  - cbn [ok] in Hok. rewrite (wr_lit R p l Hok) in E. discriminate.
  - rewrite wr_acc in E. cbn [app] in E. injection E as _ E.
    destruct ix as [|x ix]; [|discriminate]. cbn [app] in E.
    destruct sub; [discriminate|]. cbn [app] in E. subst rest. exact Hr.
  - rewrite wr_call in E. discriminate.
  - discriminate Hok.
  - discriminate Hok.
  - rewrite wr_un in E. destruct (un_paren R u p); discriminate.
  - rewrite wr_bin in E. cbn [ok] in Hok. repeat (apply andb_true_iff in Hok as [Hok ?]).
    destruct (bin_paren R o p (Bin o l r)); [discriminate|]. cbn [tparens] in E.
    rewrite <- app_assoc in E. cbn [app] in E.
    eapply (IHl _ _ (TOp (btok o) :: wr R (PBinR o) r ++ rest)); [eassumption|exact I|exact E].
Qed.

(* The three statements proved together.  Pexpr is in continuation form: on the text of e, pexpr
   returns whatever the operator loop returns when it is started on e itself (K); so the operator
   that follows an operand is handled by the loop of the enclosing node, as in the parser.
   Fuel is counted as fuel_of counts it: twelve units for every token written.  Each node's own
   token pays for the calls made on its behalf (at most ten: a bracketed binary operator). *)
Definition Pexpr (e : expr) : Prop := forall R p m rest K N,
  ok R m p e = true -> rest_ok rest -> follow (theta R p e) rest ->
  (forall f, N <= f -> ploop f m (after R p e) e rest = K) ->
  forall f, N + 12 * length (wr R p e) <= f -> pexpr f m (wr R p e ++ rest) = K.
Definition Pitem (e : expr) : Prop := forall R rest f,
  item_ok R e = true -> closes rest -> 3 + 12 * length (wr R PTop e) <= f ->
  pitem f (wr R PTop e ++ rest) = Some (e, rest).
Definition Pacc (e : expr) : Prop := forall R rest f,
  is_acc e = true -> ok R 0 PTop e = true -> rest_ok rest -> 12 * length (wr R PTop e) <= f + 2 ->
  pacc f (wr R PTop e ++ rest) = Some (e, rest).
Definition Pall (e : expr) : Prop := Pexpr e /\ Pitem e /\ Pacc e.

(* a complete expression followed by something that cannot continue it *)
Lemma Pexpr_stop e : Pexpr e -> forall R p m rest f,
  ok R m p e = true -> rest_ok rest -> follow m rest -> 1 + 12 * length (wr R p e) <= f ->
  pexpr f m (wr R p e ++ rest) = Some (e, rest).
Proof.
  intros HP R p m rest f Hok Hr Hf Hfuel.
  eapply (HP R p m rest _ 1); try eassumption.
  - eapply follow_theta; eassumption.
  - intros f0 Hf0. apply ploop_stop; [apply follow_stops; exact Hf | exact Hf0].
Qed.

(* a complete expression as an element of an index or argument list *)
Lemma Pexpr_closed e : Pexpr e -> forall R rest f,
  ok R 0 PTop e = true -> closes rest -> 1 + 12 * length (wr R PTop e) <= f ->
  pexpr f 0 (wr R PTop e ++ rest) = Some (e, rest).
Proof.
  intros HP R rest f Hok Hc. exact (Pexpr_stop e HP R PTop 0 rest f Hok (closes_rest_ok _ Hc) (closes_follow _ _ Hc)).
Qed.

Lemma Pitem_plain e : Pexpr e -> (forall R, item_ok R e = ok R 0 PTop e) -> Pitem e.
Proof.
  intros HP Hi R rest f Hok Hc Hfuel. rewrite Hi in Hok.
  destruct f as [|f]; [lia|]. rewrite pitem_plain.
  - rewrite (Pexpr_closed e HP R rest f Hok Hc) by lia.
    destruct rest as [|[] rest']; try destruct Hc; reflexivity.
  - eapply no_assign_wr; [exact Hok | apply closes_rest_ok, Hc].
Qed.

(* a node that is an operand like any other: no item form of its own, no access *)
Lemma Pall_operand e :
  Pexpr e -> (forall R, item_ok R e = ok R 0 PTop e) -> is_acc e = false -> Pall e.
Proof.
  intros HP Hi Ha. split; [exact HP|]. split; [exact (Pitem_plain e HP Hi)|].
  intros R rest f H. rewrite Ha in H. discriminate H.
Qed.

(* Named and Rng: never operands *)
Lemma Pall_item e : (forall R m p, ok R m p e = false) -> is_acc e = false -> Pitem e -> Pall e.
Proof.
  intros Hno Ha HI. split; [|split; [exact HI|]].
  - intros R p m rest K N Hok. rewrite Hno in Hok. discriminate Hok.
  - intros R rest f H. rewrite Ha in H. discriminate H.
Qed.

Lemma pitems_wr R xs : Forall Pitem xs -> forallb (item_ok R) xs = true -> xs <> [] ->
  forall rest f, 12 * length (sepcat [TComma] (wr R PTop) xs) + 4 <= f ->
  pitems f (sepcat [TComma] (wr R PTop) xs ++ TRP :: rest) = Some (xs, TRP :: rest).
Proof.
  induction 1 as [|x r Hx Hr IH]; intros Hok Hne rest f Hfuel; [congruence|].
  cbn [forallb] in Hok. apply andb_true_iff in Hok as [Hox Hor].
  destruct f as [|f]; [lia|]. cbn [pitems sepcat] in Hfuel |- *.
  destruct r as [|y r']; rewrite app_length in Hfuel.
  - rewrite app_nil_r. rewrite (Hx R (TRP :: rest) f Hox I) by lia. reflexivity.
  - rewrite <- app_assoc. cbn [app length] in Hfuel |- *.
    rewrite (Hx R (TComma :: sepcat [TComma] (wr R PTop) (y :: r') ++ TRP :: rest) f Hox I) by lia.
    rewrite (IH Hor ltac:(discriminate) rest f) by lia. reflexivity.
Qed.

Lemma Pall_Pitem xs : Forall Pall xs -> Forall Pitem xs.
Proof. apply Forall_impl. intros a [_ [Ha _]]. exact Ha. Qed.

Lemma ok_acc R m p n ix sub :
  ok R m p (Acc n ix sub) =
  forallb (item_ok R) ix && negb (nonempty ix && is_intrinsic n) &&
  match sub with None => true | Some s => is_acc s && ok R 0 PTop s end.
Proof. reflexivity. Qed.
Lemma ok_call R m p f args :
  ok R m p (Call f args) = is_intrinsic f && nonempty args && forallb (item_ok R) args.
Proof. reflexivity. Qed.

Lemma Pexpr_lit l : Pexpr (Lit l).
Proof.
  intros R p m rest K N Hok Hr Hf HK f Hfuel. cbn [ok] in Hok. rewrite (wr_lit R p l Hok) in Hfuel |- *.
  cbn [length] in Hfuel. destruct f as [|f]; [lia|]. cbn [app]. rewrite pexpr_prim by exact I.
  destruct f as [|f]; [lia|]. cbn [pprim]. rewrite (lit_roundtrip l Hok).
  apply HK. lia.
Qed.

Lemma Pacc_acc n ix sub : Forall Pall ix -> oall Pall sub -> Pacc (Acc n ix sub).
Proof.
  intros Hix Hsub R rest f _ Hok Hr Hfuel. rewrite ok_acc in Hok.
  apply andb_true_iff in Hok as [Hok Hs]. apply andb_true_iff in Hok as [Hitems Hintr].
  apply Pall_Pitem in Hix.
  rewrite wr_acc in Hfuel |- *.
  destruct f as [|f]; [cbn [length] in Hfuel; lia|].
  destruct ix as [|x ix], sub as [s|];
    cbn [app length] in Hfuel; rewrite ?app_length in Hfuel; cbn [length] in Hfuel; cbn [app].
  - cbn [app pacc]. apply andb_true_iff in Hs as [Hacc Hoks]. destruct Hsub as [_ [_ Hps]].
    rewrite (Hps R rest f Hacc Hoks Hr) by lia. reflexivity.
  - cbn [app pacc]. destruct rest as [|[] rest']; try destruct Hr; reflexivity.
  - rewrite <- !app_assoc. cbn [app pacc].
    apply andb_true_iff in Hs as [Hacc Hoks]. destruct Hsub as [_ [_ Hps]].
    rewrite (pitems_wr R (x :: ix) Hix Hitems ltac:(discriminate)) by lia. cbv iota.
    rewrite (Hps R rest f Hacc Hoks Hr) by lia. reflexivity.
  - rewrite <- !app_assoc. cbn [app pacc].
    rewrite (pitems_wr R (x :: ix) Hix Hitems ltac:(discriminate)) by lia.
    destruct rest as [|[] rest']; try destruct Hr; reflexivity.
Qed.

Lemma Pexpr_acc n ix sub : Pacc (Acc n ix sub) -> Pexpr (Acc n ix sub).
Proof.
  intros HA R p m rest K N Hok Hr Hf HK f Hfuel.
  change (wr R p (Acc n ix sub)) with (wr R PTop (Acc n ix sub)) in Hfuel |- *.
  assert (Hlen : 1 <= length (wr R PTop (Acc n ix sub))) by (rewrite wr_acc; cbn [length]; lia).
  destruct f as [|[|f]]; [lia|lia|].
  rewrite pexpr_prim by (rewrite wr_acc; exact I).
  pose proof (HA R rest f eq_refl Hok Hr ltac:(lia)) as Hpa.
  rewrite wr_acc in Hpa |- *. cbn [app] in Hpa |- *. rewrite pprim_name, Hpa; [apply HK; lia|].
  rewrite ok_acc in Hok. apply andb_true_iff in Hok as [Hok _].
  apply andb_true_iff in Hok as [_ Hintr]. apply negb_true_iff in Hintr.
  destruct ix as [|x ix']; [|exact Hintr].
  destruct sub as [s|]; [exact I|]. destruct rest as [|[] rest']; try destruct Hr; exact I.
Qed.

Lemma Pexpr_call fn args : Forall Pall args -> Pexpr (Call fn args).
Proof.
  intros Hargs R p m rest K N Hok Hr Hf HK f Hfuel. rewrite ok_call in Hok.
  apply andb_true_iff in Hok as [Hok Hitems]. apply andb_true_iff in Hok as [Hintr Hne].
  apply Pall_Pitem in Hargs.
  rewrite wr_call in Hfuel |- *. cbn [length] in Hfuel. rewrite app_length in Hfuel. cbn [length] in Hfuel.
  destruct f as [|f]; [lia|]. cbn [app]. rewrite pexpr_prim by exact I.
  destruct f as [|f]; [lia|]. cbn [pprim]. rewrite Hintr. rewrite <- app_assoc. cbn [app].
  assert (Hne' : args <> []) by (destruct args; [discriminate Hne|discriminate]).
  rewrite (pitems_wr R args Hargs Hitems Hne') by lia.
  apply HK. lia.
Qed.

Lemma Pitem_named n e : Pexpr e -> Pitem (Named n e).
Proof.
  intros HPe R rest f Hok Hc Hfuel. cbn [item_ok] in Hok.
  rewrite wr_named in Hfuel |- *. cbn [length] in Hfuel. destruct f as [|f]; [lia|]. cbn [app pitem].
  rewrite (Pexpr_closed e HPe R rest f Hok Hc) by lia.
  reflexivity.
Qed.

Lemma Pitem_rng lo hi st : Pexpr lo -> Pexpr hi -> Pexpr st -> Pitem (Rng lo hi st).
Proof.
  intros HPlo HPhi HPst R rest f Hok Hc Hfuel. cbn [item_ok] in Hok.
  apply andb_true_iff in Hok as [Hok Hstep]. apply andb_true_iff in Hok as [Hok Hst].
  apply andb_true_iff in Hok as [Hlo Hhi].
  rewrite wr_rng in Hfuel |- *. rewrite app_length in Hfuel. cbn [length] in Hfuel. rewrite app_length in Hfuel.
  destruct f as [|f]; [lia|].
  rewrite <- app_assoc. cbn [app]. rewrite <- app_assoc.
  rewrite pitem_plain by (exact (no_assign_wr R lo 0 PTop (TColon :: _) Hlo I)).
  rewrite (Pexpr_stop lo HPlo R PTop 0 (TColon :: _) f Hlo I I) by lia.
  destruct (unit_step st) eqn:Eu; cbn [length] in Hfuel.
  - (* the step is not written, and is read as 1: ok asks that it was the literal 1 *)
    cbn [app].
    rewrite (Pexpr_closed hi HPhi R rest f Hhi Hc) by lia.
    assert (st = one_lit).
    { destruct st; try discriminate Eu. cbn [expr_eqb one_lit] in Hstep.
      apply lit_eqb_eq in Hstep. subst. reflexivity. }
    subst st. destruct rest as [|[] rest']; try destruct Hc; reflexivity.
  - cbn [app].
    rewrite (Pexpr_stop hi HPhi R PTop 0 (TColon :: _) f Hhi I I) by lia.
    rewrite (Pexpr_closed st HPst R rest f Hst Hc) by lia.
    reflexivity.
Qed.

(* An operator node in brackets is a primary.  [inner] is what holds of the text between the
   brackets, which ends at the closing bracket whatever the loop there would accept. *)
Lemma pexpr_parens body x mx rest m K N M :
  (forall K' N', (forall f, N' <= f -> ploop f 0 mx x (TRP :: rest) = K') ->
     forall f, N' + M <= f -> pexpr f 0 (body ++ TRP :: rest) = K') ->
  (forall f, N <= f -> ploop f m 8 x rest = K) ->
  forall f, N + M + 3 <= f -> pexpr f m ((TLP :: body ++ [TRP]) ++ rest) = K.
Proof.
  intros inner HK f Hfuel. destruct f as [|f]; [lia|]. cbn [app]. rewrite pexpr_prim by exact I.
  destruct f as [|f]; [lia|]. cbn [pprim]. rewrite <- app_assoc. cbn [app].
  rewrite (inner (Some (x, TRP :: rest)) 1 (ploop_stop 0 mx x (TRP :: rest) I)) by lia.
  apply HK. lia.
Qed.

(* the text of a unary operator, without brackets *)
Lemma pexpr_un u e : Pexpr e -> forall R m rest K N,
  m <= pre_max u -> ok R (pre_rbp u) (PUn u) e = true -> rest_ok rest -> follow (pre_rbp u) rest ->
  (forall f, N <= f -> ploop f m (pre_max u) (Un u e) rest = K) ->
  forall f, N + (12 * length (wr R (PUn u) e) + 3) <= f ->
  pexpr f m ((TOp (utok u) :: wr R (PUn u) e) ++ rest) = K.
Proof.
  intros HPe R m rest K N Hm Hoke Hr Hf HK f Hfuel. destruct f as [|f]; [lia|]. cbn [app].
  rewrite pexpr_prefix. apply Nat.leb_le in Hm. rewrite Hm.
  rewrite (Pexpr_stop e HPe R (PUn u) (pre_rbp u) rest f Hoke Hr Hf) by lia.
  apply HK. lia.
Qed.

Lemma Pexpr_un u e : Pexpr e -> Pexpr (Un u e).
Proof.
  intros HPe R p m rest K N Hok Hr Hf HK f Hfuel. cbn [ok] in Hok. cbn [theta] in Hf. cbn [after] in HK.
  apply andb_true_iff in Hok as [Hm Hoke]. apply Nat.leb_le in Hm.
  rewrite wr_un in Hfuel |- *.
  destruct (un_paren R u p); cbn [tparens] in Hfuel |- *.
  - cbn [length] in Hfuel. rewrite app_length in Hfuel. cbn [length] in Hfuel.
    apply (pexpr_parens _ (Un u e) (pre_max u) rest m K N (12 * length (wr R (PUn u) e) + 3)); [|exact HK|lia].
    intros K' N' HK'. exact (pexpr_un u e HPe R 0 (TRP :: rest) K' N' Hm Hoke I I HK').
  - cbn [length] in Hfuel. apply (pexpr_un u e HPe R m rest K N Hm Hoke Hr Hf HK). lia.
Qed.

(* the text of a binary operator, without brackets: the left operand is read up to the operator
   (theta), the loop that read it takes the operator (after) and then the right operand *)
Lemma pexpr_bin o l r : Pexpr l -> Pexpr r -> forall R g m rest K N,
  m <= lvl o -> ok R m (PBinL o r g) l = true ->
  lvl o < theta R (PBinL o r g) l -> lvl o <= after R (PBinL o r g) l ->
  ok R (rbp o) (PBinR o) r = true ->
  rest_ok rest -> follow (rbp o) rest ->
  (forall f, N <= f -> ploop f m (mx_after o) (Bin o l r) rest = K) ->
  forall f, N + (12 * length (wr R (PBinL o r g) l) + 12 * length (wr R (PBinR o) r) + 4) <= f ->
  pexpr f m ((wr R (PBinL o r g) l ++ TOp (btok o) :: wr R (PBinR o) r) ++ rest) = K.
Proof.
  intros HPl HPr R g m rest K N Hm Hokl Hth Haf Hokr Hr Hf HK f Hfuel.
  rewrite <- app_assoc. cbn [app].
  eapply (HPl R (PBinL o r g) m _ K (N + 12 * length (wr R (PBinR o) r) + 2)); try assumption.
  - exact I.
  - cbn [follow]. rewrite bin_of_btok. exact Hth.
  - intros f0 Hf0. destruct f0 as [|f0]; [lia|]. rewrite ploop_step by assumption.
    rewrite (Pexpr_stop r HPr R (PBinR o) (rbp o) rest f0 Hokr Hr Hf) by lia.
    apply HK. lia.
  - lia.
Qed.

Lemma Pexpr_bin o l r : Pexpr l -> Pexpr r -> Pexpr (Bin o l r).
Proof.
  intros HPl HPr R p m rest K N Hok Hr Hf HK f Hfuel. cbn [ok] in Hok. cbn [theta] in Hf. cbn [after] in HK.
  apply andb_true_iff in Hok as [Hok Hokr]. apply andb_true_iff in Hok as [Hok Haf].
  apply andb_true_iff in Hok as [Hok Hth]. apply andb_true_iff in Hok as [Hm Hokl].
  apply Nat.leb_le in Hm, Haf. apply Nat.ltb_lt in Hth.
  rewrite wr_bin in Hfuel |- *.
  destruct (bin_paren R o p (Bin o l r)); cbn [tparens] in Hfuel |- *;
    rewrite ?app_length in Hfuel; cbn [length] in Hfuel; rewrite ?app_length in Hfuel; cbn [length] in Hfuel.
  - apply (pexpr_parens _ (Bin o l r) (mx_after o) rest m K N
             (12 * length (wr R (PBinL o r (gleft R p o)) l) + 12 * length (wr R (PBinR o) r) + 4));
      [|exact HK|lia].
    intros K' N' HK'.
    exact (pexpr_bin o l r HPl HPr R (gleft R p o) 0 (TRP :: rest) K' N' Hm Hokl Hth Haf Hokr I I HK').
  - apply (pexpr_bin o l r HPl HPr R (gleft R p o) m rest K N Hm Hokl Hth Haf Hokr Hr Hf HK). lia.
Qed.

Theorem all_exprs : forall e, Pall e.
Proof.
  induction e as [l|n ix sub Hix Hsub|fn args Hargs|n e [HPe _]|lo hi st [HPlo _] [HPhi _] [HPst _]
                  |u e [HPe _]|o l r [HPl _] [HPr _]] using expr_ind2.
  - apply Pall_operand; [apply Pexpr_lit | reflexivity | reflexivity].
  - pose proof (Pacc_acc n ix sub Hix Hsub) as HA.
    split; [exact (Pexpr_acc n ix sub HA)|]. split; [|exact HA].
    apply Pitem_plain; [exact (Pexpr_acc n ix sub HA) | reflexivity].
  - apply Pall_operand; [exact (Pexpr_call fn args Hargs) | reflexivity | reflexivity].
  - apply Pall_item; [reflexivity | reflexivity | exact (Pitem_named n e HPe)].
  - apply Pall_item; [reflexivity | reflexivity | exact (Pitem_rng lo hi st HPlo HPhi HPst)].
  - apply Pall_operand; [exact (Pexpr_un u e HPe) | reflexivity | reflexivity].
  - apply Pall_operand; [exact (Pexpr_bin o l r HPl HPr) | reflexivity | reflexivity].
Qed.

Theorem parse_write_safe : forall R e, safe R e = true -> parse (write R e) = Some e.
Proof.
  intros R e Hs. unfold parse, write, safe in *.
  destruct (all_exprs e) as [HP _].
  pose proof (Pexpr_stop e HP R PTop 0 [] (fuel_of (wr R PTop e)) Hs I I) as H.
  rewrite app_nil_r in H. rewrite H; [reflexivity|].
  unfold fuel_of. lia.
Qed.
