(* C02 — what it is for a tree or a literal to refute the round trip, and the concrete witnesses
   (vm_compute) that Properties/C02.v does not state itself. *)
From Coq Require Import List NArith String.
Import ListNotations.
From PV Require Import C02.Syntax C02.Gen C02.Model C02.Facts C02.ParseProof C02.Shape.
Open Scope string_scope.

Definition refutes (R : rules) (e : expr) : Prop := wf e = true /\ parse (write R e) <> Some e.

Ltac refute := split; [vm_compute; reflexivity | vm_compute; discriminate].

(* a - (+b)*c is written  a - +b * c, which is not a Fortran expression *)
Lemma refuted_plus_mul : refutes rules_orig w_plus_mul /\ parse (write rules_orig w_plus_mul) = None.
Proof. split; [refute | vm_compute; reflexivity]. Qed.

(* the witness trees under the complete repair *)
Lemma fixed_witnesses :
  forallb (fun e => match parse (write rules_fixed e) with Some t => expr_eqb t e | None => false end)
          [w_pow; w_neg_mul; w_not_rel; w_rel_chain; w_sign_deep; w_plus_mul] = true.
Proof. vm_compute. reflexivity. Qed.

(* literals the reader does not give back (both rule sets: the repair does not touch literal_node) *)
Definition lit_refutes (l : lit) : Prop :=
  read_lit (write_lit l) <> l \/ toks (lit_doc l) <> [TLit (write_lit l)].
Lemma refuted_lit_real_int : read_lit (write_lit (mkLit KReal "3" PUndef)) = mkLit KInt "3" PUndef.
Proof. vm_compute. reflexivity. Qed.
Lemma refuted_lit_exp_default :
  read_lit (write_lit (mkLit KReal "1.5e3" PUndef)) = mkLit KReal "1.5e3" PSingle.
Proof. vm_compute. reflexivity. Qed.
Lemma refuted_lit_int_double : read_lit (write_lit (mkLit KInt "3" PDouble)) = mkLit KInt "3" PUndef.
Proof. vm_compute. reflexivity. Qed.
Lemma refuted_step_kind : forall R,
  parse (write R w_step_kind) = Some (Acc "v" [Rng (v "i") (v "n") one_lit] None).
Proof. intros [[] [] [] [] []]; vm_compute; reflexivity. Qed.
