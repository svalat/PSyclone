(* C02 — `ok` is a local tightness condition plus thresholds that follow from the position
   (tight_ok: the one induction; Head.v uses its consequence parse_write_tight).  The writer's bracket decisions are tight
   except in three syntactic shapes; with the repaired decisions (rules_fixed) no shape is excluded.
   Witnesses for the shapes. *)
From Coq Require Import List NArith Bool String Ascii Arith Lia.
Import ListNotations.
From PV Require Import C02.Syntax C02.Gen C02.Model C02.Facts C02.ParseProof.

(* the decisions, in terms of the grammar levels (uses the table facts proved by computation) *)
Lemma bin_paren_lvl R o p self :
  bin_paren R o p self =
  match p with
  | PTop => false
  | PUn u => lvl o <=? pre_max u
  | PBinR po => lvl o <=? lvl po
  | PBinL po sib _ =>
      (lvl o <? lvl po) ||
      ((lvl o =? lvl po) &&
       (expr_eqb sib self || (r_pow_left R && (lvl o =? 8)) || (r_rel_left R && (lvl o =? 4))))
  end.
Proof.
  unfold bin_paren. destruct p;
    [reflexivity | apply prec_bu_le
     | rewrite prec_bb_lt, prec_bb_eq, prec_pow, prec_rel; reflexivity | apply prec_bb_le].
Qed.
Lemma un_paren_lvl R u p :
  un_paren R u p =
  match p with
  | PTop => false
  | PUn _ => true
  | PBinR _ => true
  | PBinL po _ g =>
      ((lvl po =? 8) && is_neg u) || (r_un_left R && (pre_max u <? lvl po))
      || (g && (is_neg u || (r_plus R && is_pos u)))
  end.
Proof.
  unfold un_paren. destruct p; [reflexivity | reflexivity | | reflexivity].
  rewrite str_pow, str_neg, str_pos, prec_ub_lt. reflexivity.
Qed.

(* relation between the minimum level a node is parsed at and its position *)
Definition posinv (R : rules) (m : nat) (p : pos) (e : expr) : Prop :=
  match p with
  | PTop => m = 0
  | PUn u => m = pre_rbp u
  | PBinR po => m = rbp po
  | PBinL po _ _ => m <= lvl po /\ lvl po < theta R p e /\ lvl po <= after R p e
  end.

(* tight R p e: at every binary node of e, written where it stands, the text of the left operand
   ends before the operator (theta) and the loop that read it still accepts the operator (after).
   This is `ok` without its thresholds m, which follow from the position (posinv). *)
Fixpoint tight (R : rules) (p : pos) (e : expr) {struct e} : bool :=
  match e with
  | Lit _ => true
  | Acc _ ix sub =>
      forallb (tight R PTop) ix && match sub with None => true | Some s => tight R PTop s end
  | Call _ args => forallb (tight R PTop) args
  | Named _ x => tight R PTop x
  | Rng lo hi st => tight R PTop lo && tight R PTop hi && tight R PTop st
  | Un u x => tight R (PUn u) x
  | Bin o l r =>
      let q := PBinL o r (gleft R p o) in
      tight R q l && tight R (PBinR o) r && ((lvl o <? theta R q l) && (lvl o <=? after R q l))
  end.
Lemma tight_bin R p o l r : let q := PBinL o r (gleft R p o) in
  tight R p (Bin o l r) = true <->
  tight R q l = true /\ tight R (PBinR o) r = true /\ lvl o < theta R q l /\ lvl o <= after R q l.
Proof.
  cbn [tight]. rewrite !andb_true_iff, Nat.ltb_lt, Nat.leb_le. tauto.
Qed.

Definition Texpr (R : rules) (e : expr) : Prop := forall m p,
  wf e = true -> tight R p e = true -> posinv R m p e -> ok R m p e = true.
Definition Titem (R : rules) (e : expr) : Prop :=
  item_wf e = true -> tight R PTop e = true -> item_ok R e = true.

Lemma wf_acc n ix sub :
  wf (Acc n ix sub) = forallb item_wf ix && negb (nonempty ix && is_intrinsic n) &&
                      match sub with None => true | Some s => is_acc s && wf s end.
Proof. reflexivity. Qed.
Lemma wf_call f args : wf (Call f args) = is_intrinsic f && nonempty args && forallb item_wf args.
Proof. reflexivity. Qed.

Lemma items_ok R xs : Forall (fun x => Texpr R x /\ Titem R x) xs ->
  forallb item_wf xs = true -> forallb (tight R PTop) xs = true -> forallb (item_ok R) xs = true.
Proof.
  induction 1 as [|x r [_ Hx] _ IH]; intros Hw Hs; [reflexivity|].
  cbn [forallb] in *. apply andb_true_iff in Hw as [Hw1 Hw2]. apply andb_true_iff in Hs as [Hs1 Hs2].
  rewrite (Hx Hw1 Hs1), (IH Hw2 Hs2). reflexivity.
Qed.

Lemma plain_item R e : (item_wf e = wf e) -> (item_ok R e = ok R 0 PTop e) ->
  Texpr R e -> Texpr R e /\ Titem R e.
Proof.
  intros E1 E2 H. split; [exact H|]. intros Hw Hs. rewrite E1 in Hw. rewrite E2.
  apply H; [exact Hw | exact Hs | reflexivity].
Qed.

(* a unary operator is bracketed wherever the threshold of its position could be too high *)
Lemma Texpr_un R u e : Texpr R e -> Texpr R (Un u e).
Proof.
  intros He m p Hw Hs Hp. cbn [wf tight] in Hw, Hs. cbn [ok].
  rewrite (He (pre_rbp u) (PUn u) Hw Hs eq_refl), andb_true_r. apply Nat.leb_le.
  destruct (un_paren R u p) eqn:Epar; [lia|].
  destruct p as [|u'|po sib g|po]; cbn [posinv] in Hp.
  - lia.
  - rewrite un_paren_lvl in Epar. discriminate.
  - destruct Hp as [H1 [_ H3]]. cbn [after] in H3. rewrite Epar in H3. lia.
  - rewrite un_paren_lvl in Epar. discriminate.
Qed.

(* an unbracketed binary operator is never below the threshold of its position *)
Lemma Texpr_bin R o l r : Texpr R l -> Texpr R r -> Texpr R (Bin o l r).
Proof.
  intros Hl Hr m p Hw Hs Hp. cbn [wf] in Hw. apply andb_true_iff in Hw as [Hwl Hwr].
  apply tight_bin in Hs as [Hsl [Hsr [Hth Haf]]].
  cbn [ok].
  set (m' := if bin_paren R o p (Bin o l r) then 0 else m).
  assert (C1 : m' <= lvl o).
  { subst m'. destruct (bin_paren R o p (Bin o l r)) eqn:Epar; [lia|].
    rewrite bin_paren_lvl in Epar.
    destruct p as [|u'|po sib g|po]; cbn [posinv] in Hp.
    - lia.
    - apply Nat.leb_gt in Epar. rewrite Hp, pre_rbp_spec. lia.
    - apply orb_false_iff in Epar as [E1 _]. apply Nat.ltb_ge in E1. lia.
    - apply Nat.leb_gt in Epar. rewrite Hp, rbp_spec. destruct (Nat.eqb_spec (lvl po) 8); lia. }
  rewrite (Hl m' _ Hwl Hsl (conj C1 (conj Hth Haf))), (Hr (rbp o) (PBinR o) Hwr Hsr eq_refl).
  apply Nat.leb_le in C1, Haf. apply Nat.ltb_lt in Hth. rewrite C1, Hth, Haf. reflexivity.
Qed.

Theorem tight_ok R : forall e, Texpr R e /\ Titem R e.
Proof.
  induction e as [l|n ix sub Hix Hsub|fn args Hargs|n e [He _]|lo hi st [Hlo _] [Hhi _] [Hst _]
                  |u e [He _]|o l r [Hl _] [Hr _]] using expr_ind2.
  - apply plain_item; [reflexivity | reflexivity |]. intros m p Hw _ _. exact Hw.
  - apply plain_item; [reflexivity | reflexivity |].
    intros m p Hw Hs _. rewrite wf_acc in Hw. rewrite ok_acc. cbn [tight] in Hs.
    apply andb_true_iff in Hw as [Hw Hwsub]. apply andb_true_iff in Hw as [Hwix Hintr].
    apply andb_true_iff in Hs as [Hsix Hssub].
    rewrite (items_ok R ix Hix Hwix Hsix), Hintr. cbn [andb].
    destruct sub as [s|]; [|reflexivity]. apply andb_true_iff in Hwsub as [Ha Hws].
    rewrite Ha. cbn [andb]. destruct Hsub as [Hsub _]. apply Hsub; [exact Hws | exact Hssub | reflexivity].
  - apply plain_item; [reflexivity | reflexivity |].
    intros m p Hw Hs _. rewrite wf_call in Hw. rewrite ok_call. cbn [tight] in Hs.
    apply andb_true_iff in Hw as [Hw Hwargs]. rewrite Hw. cbn [andb].
    apply (items_ok R args Hargs Hwargs Hs).
  - split; [intros m p Hw; discriminate Hw|].
    intros Hw Hs. cbn [item_wf item_ok tight] in *. apply He; [exact Hw|exact Hs|reflexivity].
  - split; [intros m p Hw; discriminate Hw|].
    intros Hw Hs. cbn [item_wf item_ok tight] in *.
    apply andb_true_iff in Hw as [Hw Hstep]. apply andb_true_iff in Hw as [Hw Hwst].
    apply andb_true_iff in Hw as [Hwlo Hwhi].
    apply andb_true_iff in Hs as [Hs Hsst]. apply andb_true_iff in Hs as [Hslo Hshi].
    rewrite (Hlo 0 PTop Hwlo Hslo eq_refl), (Hhi 0 PTop Hwhi Hshi eq_refl), (Hst 0 PTop Hwst Hsst eq_refl).
    exact Hstep.
  - apply plain_item; [reflexivity | reflexivity | exact (Texpr_un R u e He)].
  - apply plain_item; [reflexivity | reflexivity | exact (Texpr_bin R o l r Hl Hr)].
Qed.

Theorem tight_safe R e : wf e = true -> tight R PTop e = true -> safe R e = true.
Proof. intros Hw Hs. destruct (tight_ok R e) as [H _]. apply H; [exact Hw | exact Hs | reflexivity]. Qed.

(* the round trip of every well-formed tight tree; shape_ok here and Head.nobad imply tightness *)
Theorem parse_write_tight R e : wf e = true -> tight R PTop e = true -> parse (write R e) = Some e.
Proof. intros Hw Ht. apply parse_write_safe, tight_safe; assumption. Qed.

(* index and argument lists inherit a side condition that implies tightness *)
Lemma items_tight R (f : pos -> expr -> bool) xs :
  Forall (fun x => forall p, f p x = true -> tight R p x = true) xs ->
  forallb (f PTop) xs = true -> forallb (tight R PTop) xs = true.
Proof.
  induction 1 as [|x r Hx _ IH]; [reflexivity|]. cbn [forallb]. rewrite !andb_true_iff.
  intros [H1 H2]. split; [exact (Hx PTop H1) | exact (IH H2)].
Qed.

(* a binary left operand: the condition shape_ok and Head.nobad share *)
Lemma bin_left_tight R o r g ol l1 l2 :
  negb ((lvl ol =? lvl o) && (((lvl o =? 8) && negb (r_pow_left R)) ||
                              (rel_level o && negb (r_rel_left R)))) = true ->
  lvl o < theta R (PBinL o r g) (Bin ol l1 l2) /\ lvl o <= after R (PBinL o r g) (Bin ol l1 l2).
Proof.
  intros Hsh. pose proof (lvl_le8 o) as L8. cbn [theta after].
  destruct (bin_paren R ol (PBinL o r g) (Bin ol l1 l2)) eqn:Epar; [lia|].
  rewrite bin_paren_lvl in Epar. apply orb_false_iff in Epar as [E1 E2].
  apply Nat.ltb_ge in E1. rewrite rbp_spec, mx_after_spec.
  apply negb_true_iff in Hsh. unfold rel_level in Hsh.
  destruct (Nat.eqb_spec (lvl ol) (lvl o)) as [Eeq|Ene].
  - cbn [andb] in E2, Hsh. rewrite Eeq in *.
    apply orb_false_iff in E2 as [E2 E4]. apply orb_false_iff in E2 as [_ E3].
    apply orb_false_iff in Hsh as [S1 S2].
    destruct (Nat.eqb_spec (lvl o) 8) as [E8|N8].
    + exfalso. cbn [andb] in S1. apply negb_false_iff in S1. rewrite S1 in E3. discriminate.
    + destruct (Nat.eqb_spec (lvl o) 4) as [E44|N4].
      * exfalso. cbn [andb] in S2. apply negb_false_iff in S2. rewrite S2 in E4. discriminate.
      * lia.
  - destruct (Nat.eqb_spec (lvl ol) 8); destruct (Nat.eqb_spec (lvl ol) 4); lia.
Qed.

(* outside the three shapes the left operand of every binary node is tight *)
Lemma shape_tight R : forall e p, shape_ok R e = true -> tight R p e = true.
Proof.
  induction e as [l|n ix sub Hix Hsub|fn args Hargs|n e IHe|lo hi st IHlo IHhi IHst|u e IHe|o l r IHl IHr]
    using expr_ind2; intros p Hs; cbn [shape_ok] in Hs.
  - reflexivity.
  - cbn [tight]. apply andb_true_iff in Hs as [Hsix Hssub].
    rewrite (items_tight R (fun _ => shape_ok R) ix Hix Hsix).
    destruct sub as [s|]; [exact (Hsub PTop Hssub) | reflexivity].
  - exact (items_tight R (fun _ => shape_ok R) args Hargs Hs).
  - exact (IHe PTop Hs).
  - cbn [tight]. apply andb_true_iff in Hs as [Hs Hsst]. apply andb_true_iff in Hs as [Hslo Hshi].
    rewrite (IHlo PTop Hslo), (IHhi PTop Hshi), (IHst PTop Hsst). reflexivity.
  - exact (IHe (PUn u) Hs).
  - apply andb_true_iff in Hs as [Hs Hsh]. apply andb_true_iff in Hs as [Hsl Hsr].
    apply tight_bin. split; [exact (IHl _ Hsl)|]. split; [exact (IHr _ Hsr)|].
    pose proof (lvl_le8 o) as L8.
    destruct l as [| | | | |u x|ol l1 l2]; cbn [theta after]; try lia.
    + (* unary left operand *)
      destruct (un_paren R u (PBinL o r (gleft R p o))) eqn:Epar; [lia|].
      rewrite un_paren_lvl in Epar. apply orb_false_iff in Epar as [Epar _].
      apply orb_false_iff in Epar as [Ep1 Ep2]. rewrite pow_neg_lvl in Hsh.
      rewrite Ep1, orb_false_r in Hsh. rewrite pre_rbp_spec.
      destruct (lvl o <=? pre_max u) eqn:Ele.
      * apply Nat.leb_le in Ele. lia.
      * cbn [orb] in Hsh. rewrite Hsh in Ep2. cbn [andb] in Ep2.
        apply Nat.ltb_ge in Ep2. apply Nat.leb_gt in Ele. lia.
    + (* binary left operand *)
      exact (bin_left_tight R o r (gleft R p o) ol l1 l2 Hsh).
Qed.

(* the last clause of Model.agrees, which the check evaluates case by case *)
Theorem wf_shape_safe R e : wf e = true -> shape_ok R e = true -> safe R e = true.
Proof. intros Hw Hs. apply tight_safe; [exact Hw | apply shape_tight, Hs]. Qed.

(* with the three left-operand decisions repaired no shape is excluded *)
Definition complete (R : rules) : bool := r_pow_left R && r_rel_left R && r_un_left R.
Lemma shape_ok_complete R : complete R = true -> forall e, shape_ok R e = true.
Proof.
  intros HR. unfold complete in HR. apply andb_true_iff in HR as [HR Hu]. apply andb_true_iff in HR as [Hp Hr].
  induction e as [l|n ix sub Hix Hsub|fn args Hargs|n e IHe|lo hi st IHlo IHhi IHst|u e IHe|o l r IHl IHr]
    using expr_ind2; cbn [shape_ok].
  - reflexivity.
  - apply andb_true_iff. split.
    + apply forallb_forall. rewrite Forall_forall in Hix. exact Hix.
    + destruct sub; [exact Hsub | reflexivity].
  - apply forallb_forall. rewrite Forall_forall in Hargs. exact Hargs.
  - exact IHe.
  - rewrite IHlo, IHhi, IHst. reflexivity.
  - exact IHe.
  - rewrite IHl, IHr. cbn [andb]. destruct l; try reflexivity.
    + rewrite Hu, orb_true_r. reflexivity.
    + rewrite Hp, Hr. cbn [negb]. rewrite !andb_false_r. reflexivity.
Qed.

Theorem parse_write_shape R e : wf e = true -> shape_ok R e = true -> parse (write R e) = Some e.
Proof. intros Hw Hs. apply parse_write_tight; [exact Hw | apply shape_tight, Hs]. Qed.

Theorem parse_write_complete R e : complete R = true -> wf e = true -> parse (write R e) = Some e.
Proof. intros HR Hw. apply parse_write_shape; [exact Hw | apply shape_ok_complete, HR]. Qed.

Theorem parse_write_fixed e : wf e = true -> parse (write rules_fixed e) = Some e.
Proof. apply parse_write_complete. reflexivity. Qed.

Open Scope string_scope.
Definition v (s : string) : expr := Acc s [] None.
Definition w_pow := Bin Pow (Bin Pow (v "a") (v "b")) (v "c").           (* (a**b)**c *)
Definition w_neg_mul := Bin Mul (Un Neg (v "a")) (v "b").                 (* (-a)*b *)
Definition w_not_rel := Bin Eqv (Bin Eq (Un Not (v "a")) (v "b")) (v "c").  (* ((.NOT.a)==b).EQV.c *)
Definition w_rel_chain := Bin Eq (Bin Lt (v "a") (v "b")) (v "c").        (* (a<b)==c *)
Definition w_sign_deep := Bin Add (v "a") (Bin Mul (Bin Mul (Un Neg (v "b")) (v "c")) (v "d")).
Definition w_plus_mul := Bin Sub (v "a") (Bin Mul (Un Pos (v "b")) (v "c")).  (* a - (+b)*c *)
Definition w_lit_double := Lit (mkLit KReal "1.0" PDouble).
Definition w_lit_signed := Bin Mul (v "a") (Lit (mkLit KReal "-1.0" PUndef)).
Definition w_lit_real_int := Lit (mkLit KReal "3" PUndef).
Definition w_step_kind := Acc "v" [Rng (v "i") (v "n") (Lit (mkLit KInt "1" (PKind 8)))] None.

(* a non-trivial tree satisfying every hypothesis of the partial theorem under the unchanged rules *)
Definition w_good :=
  Bin Or (Bin Lt (Bin Add (Un Neg (v "a")) (Bin Mul (v "b") (Bin Pow (v "c") (Bin Pow (v "d") (Un Neg (v "x"))))))
                 (Call "MAX" [v "a"; Bin Sub (v "b") (Bin Sub (v "c") (v "d")); Named "dim" (Lit (mkLit KInt "1" PUndef))]))
         (Un Not (Bin And (Acc "f" [] (Some (Acc "vals" [Rng (v "i") (Bin Add (v "n") (Lit (mkLit KInt "1" (PKind 8)))) (Lit (mkLit KInt "2" PUndef));
                                                           Lit (mkLit KReal "1.5e3" PDouble)] None)))
                          (Bin Eqv (Lit (mkLit KBool "true" PUndef)) (Bin Ne (Lit (mkLit KChar "it's" (PSym "ck"))) (v "y"))))).
