(* C10 — histories: operations that never create a gap node keep the tree gap-free, so whatever
   the writer accepts after such a history satisfies WF. *)
From Coq Require Import List Bool Arith.
Import ListNotations.
From PV Require Import C10.Kinds C10.Gen C10.Model C10.Cover C10.Lemmas C10.Proofs C10.Proofs2.

(* all subtrees (pre-order), without contexts *)
Fixpoint subs (t : tree) : list tree :=
  t :: match t with
       | Loop b | If b | Dir _ _ b => flat_map subs b
       | _ => []
       end.
Definition subs_l (b : list tree) : list tree := flat_map subs b.

Lemma map_snd_flat_nodes : forall b c, (forall x, In x b -> forall a, map snd (nodes a x) = subs x) ->
  map snd (flat_map (nodes c) b) = flat_map subs b.
Proof.
  induction b as [| x b IHb]; intros c H; [reflexivity |]. simpl. rewrite map_app.
  rewrite (H x (or_introl eq_refl)). f_equal. apply IHb. intros y Hy. apply H. right; assumption.
Qed.

Lemma subs_nodes : forall t a, map snd (nodes a t) = subs t.
Proof.
  induction t as [l | b H | b H | d c b H | s] using tree_ind'; intro a; rewrite nodes_unfold; simpl;
    try reflexivity; f_equal; apply map_snd_flat_nodes; rewrite Forall_forall in H; exact H.
Qed.

Lemma subs_rnodes : forall r, map snd (rnodes r) = subs_l r.
Proof.
  induction r as [| t r IH]; [reflexivity |]. unfold rnodes, subs_l in *. simpl.
  rewrite map_app, subs_nodes, IH. reflexivity.
Qed.

Definition lab_ok (n : tree) : bool := negb (gap_label n).

Lemma gap_free_subs : forall r, gap_free r = forallb lab_ok (subs_l r).
Proof.
  intro r. unfold gap_free. rewrite <- subs_rnodes. induction (rnodes r) as [| p l IH]; [reflexivity |].
  simpl. rewrite IH. reflexivity.
Qed.

Lemma lab_ok_set_body : forall t b, lab_ok (set_body t b) = lab_ok t.
Proof. intros t b; destruct t; reflexivity. Qed.

Lemma subs_set_body : forall t b, has_body t = true -> subs (set_body t b) = set_body t b :: subs_l b.
Proof. intros t b H; destruct t; try discriminate H; reflexivity. Qed.

Lemma subs_has_body : forall t, has_body t = true -> subs t = t :: subs_l (body_of t).
Proof. intros t H; destruct t; try discriminate H; reflexivity. Qed.

Lemma subs_l_app : forall a b, subs_l (a ++ b) = subs_l a ++ subs_l b.
Proof. intros; unfold subs_l; apply flat_map_app. Qed.

Lemma forallb_subs_nth : forall l i t, forallb lab_ok (subs_l l) = true -> nth_error l i = Some t ->
  forallb lab_ok (subs t) = true.
Proof.
  induction l as [| y l IH]; intros i t H Hn; [destruct i; discriminate Hn |].
  unfold subs_l in H. simpl in H. rewrite forallb_app in H. apply andb_true_iff in H as [H1 H2].
  destruct i; simpl in Hn; [inversion Hn; subst; assumption | eapply IH; eassumption].
Qed.

Lemma forallb_subs_replace : forall l i x, forallb lab_ok (subs_l l) = true -> forallb lab_ok (subs x) = true ->
  forallb lab_ok (subs_l (replace_nth i x l)) = true.
Proof.
  induction l as [| y l IH]; intros i x H Hx; [destruct i; reflexivity |].
  unfold subs_l in *. simpl in H. rewrite forallb_app in H. apply andb_true_iff in H as [H1 H2].
  destruct i; simpl; rewrite forallb_app; apply andb_true_iff; split; auto.
Qed.

Lemma forallb_subs_firstn : forall n l, forallb lab_ok (subs_l l) = true -> forallb lab_ok (subs_l (firstn n l)) = true.
Proof.
  induction n as [| n IH]; intros l H; [reflexivity |]. destruct l as [| y l]; [reflexivity |].
  unfold subs_l in *. simpl in *. rewrite forallb_app in *. apply andb_true_iff in H as [H1 H2].
  apply andb_true_iff; split; auto.
Qed.

Lemma forallb_subs_skipn : forall n l, forallb lab_ok (subs_l l) = true -> forallb lab_ok (subs_l (skipn n l)) = true.
Proof.
  induction n as [| n IH]; intros l H; [assumption |]. destruct l as [| y l]; [reflexivity |].
  unfold subs_l in *. simpl in *. rewrite forallb_app in H. apply andb_true_iff in H as [H1 H2]. auto.
Qed.

Lemma update_at_lab : forall p f b b0, body_at p b = Some b0 -> forallb lab_ok (subs_l b) = true ->
  (forallb lab_ok (subs_l b0) = true -> forallb lab_ok (subs_l (f b0)) = true) ->
  forallb lab_ok (subs_l (update_at p f b)) = true.
Proof.
  induction p as [| i p IH]; intros f b b0 Hb H Hf; simpl in *.
  - inversion Hb; subst. auto.
  - destruct (nth_error b i) as [t |] eqn:En; [| assumption].
    destruct (has_body t) eqn:Hh; [| discriminate Hb].
    apply forallb_subs_replace; [assumption |].
    pose proof (forallb_subs_nth _ _ _ H En) as Ht. rewrite (subs_has_body t Hh) in Ht.
    simpl in Ht. apply andb_true_iff in Ht as [Ht1 Ht2].
    rewrite (subs_set_body t _ Hh). simpl. rewrite lab_ok_set_body, Ht1. simpl.
    eapply IH; eassumption.
Qed.

(* an operation that cannot create a gap node: it inserts no ACC parallel/kernels region, and no
   collapse clause on an `omp loop` / `acc loop` directive *)
Definition op_safe (o : op) : bool :=
  match created_tab (o_trans o) with
  | Some d => negb (mem (ND d) acc_compute) &&
              (negb (mem (ND d) [ND OMPLoop; ND ACCLoop]) || match o_collapse o with None => true | Some _ => false end)
  | None => true
  end.

(* such an operation edits a list of gap-free children into one *)
Lemma edit_lab : forall o b b', edit o b b' -> op_safe o = true ->
  forallb lab_ok (subs_l b) = true -> forallb lab_ok (subs_l b') = true.
Proof.
  intros o b b' He Hs Hb. unfold op_safe in Hs.
  destruct He as [i n d c Hn Ec Hc | lo hi d Ec _ | i s |]; try rewrite Ec in Hs;
    try (apply andb_true_iff in Hs as [Hs1 Hs2]; apply negb_true_iff in Hs1).
  - apply forallb_subs_replace; [exact Hb |]. cbn [subs flat_map forallb]. rewrite app_nil_r.
    rewrite (forallb_subs_nth _ _ _ Hb Hn), andb_true_r. unfold lab_ok, gap_label. cbn [kind_of]. rewrite Hs1.
    destruct c as [c |]; [| reflexivity]. destruct Hc as [Hc | Hc]; [discriminate Hc |]. rewrite <- Hc in Hs2.
    rewrite orb_false_r in Hs2. cbn [orb]. rewrite Hs2. reflexivity.
  - rewrite subs_l_app, forallb_app. unfold subs_l at 2. cbn [flat_map subs]. rewrite forallb_app. cbn [forallb].
    unfold lab_ok at 2, gap_label. cbn [kind_of]. rewrite Hs1. cbn [orb negb andb].
    rewrite !andb_true_iff. auto using forallb_subs_firstn, forallb_subs_skipn.
  - unfold insert_at. rewrite subs_l_app, forallb_app. unfold subs_l at 2. cbn [flat_map subs app forallb].
    rewrite !andb_true_iff. unfold lab_ok at 2. cbn. auto using forallb_subs_firstn, forallb_subs_skipn.
  - exact Hb.
Qed.

Lemma apply_op_gap_free : forall o r r', apply_op o r = Accepted r' -> op_safe o = true ->
  gap_free r = true -> gap_free r' = true.
Proof.
  intros o r r' H Hs Hg. rewrite gap_free_subs in *.
  destruct (apply_op_inv _ _ _ H) as [p [b [f [Hb [He ->]]]]].
  eapply update_at_lab; [exact Hb | exact Hg | exact (edit_lab _ _ _ He Hs)].
Qed.

Lemma forallb_subs_l : forall b, (forall x, In x b -> forallb lab_ok (subs x) = true) -> forallb lab_ok (subs_l b) = true.
Proof.
  induction b as [| x b IH]; intro H; [reflexivity |]. unfold subs_l in *. cbn [flat_map]. rewrite forallb_app.
  rewrite (H x (or_introl eq_refl)). apply IH. intros y Hy. apply H. right; exact Hy.
Qed.

Lemma directive_free_lab : forall t, directive_free t = true -> forallb lab_ok (subs t) = true.
Proof.
  induction t as [l | b IH | b IH | d c b IH | s] using tree_ind'; intro H; try discriminate H; [reflexivity | |].
  all: cbn [directive_free] in H; rewrite forallb_forall in H; rewrite Forall_forall in IH.
  all: change (forallb lab_ok (subs_l b) = true); apply forallb_subs_l; intros x Hx; apply IH; [exact Hx | apply H, Hx].
Qed.

Lemma directive_free_gap_free : forall r, forallb directive_free r = true -> gap_free r = true.
Proof.
  intros r H. rewrite gap_free_subs. rewrite forallb_forall in H. apply forallb_subs_l.
  intros t Ht. apply directive_free_lab, H, Ht.
Qed.

Lemma run_gap_free : forall ops r r', run ops r = Some r' -> forallb op_safe ops = true ->
  gap_free r = true -> gap_free r' = true.
Proof.
  induction ops as [| o ops IH]; intros r r' H Hs Hg; simpl in H.
  - inversion H; subst; assumption.
  - simpl in Hs. apply andb_true_iff in Hs as [Hs1 Hs2].
    destruct (apply_op o r) as [r1 | |] eqn:E; [| eapply IH; eassumption | discriminate H].
    eapply IH; [exact H | assumption |]. eapply apply_op_gap_free; eassumption.
Qed.

(* non-vacuity of C10_history_WF_partial: a concrete accepted history whose result the writer accepts *)
Definition ex_start : routine := [Loop [Loop [Leaf LAssign]]; Leaf LAssign].
Definition ex_ops : list op :=
  [Build_op TOMPDo (TNode [] 0) (Some 2) true; Build_op TOMPParallel (TRange [] 0 2) None true].
