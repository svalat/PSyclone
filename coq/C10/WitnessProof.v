From Coq Require Import List Bool Arith.
Import ListNotations.
From PV Require Import C10.Kinds C10.Gen C10.Model C10.Compiler C10.Cover C10.Corr C10.Witness C10.GenWitness.

(* the conclusion of [witness_holds] is decidable and does not depend on its premises *)
Definition shows_b (w : witness) : bool :=
  forallb directive_free (w_start w) && expect_b (w_expect w) (w_final w).

Lemma shows_b_holds w : shows_b w = true -> witness_holds w.
Proof. intros H _ _. apply andb_true_iff, H. Qed.

