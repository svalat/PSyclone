(* C10 — declarative specification WF, the sufficient condition gap_free, shape preservation of
   every transformation, and the collapse lemmas. *)
From Coq Require Import List Bool Arith.
Import ListNotations.
From PV Require Import C10.Kinds C10.Gen C10.Model C10.Cover C10.Lemmas C10.Proofs.

Definition has_anc (ks anc : list nkind) : Prop := exists a, In a anc /\ In a ks.

Inductive perfect_nest : nat -> list tree -> Prop :=
| PN0 : forall l, perfect_nest 0 l
| PNS : forall c b, perfect_nest c b -> perfect_nest (S c) [Loop b].

(* the three named conditions of the property, for the node n with ancestor kinds anc in a
   routine whose node kinds are rk *)
Definition WF_node (rk anc : list nkind) (n : tree) : Prop :=
  (* 1. no work-sharing / loop directive outside a parallel region *)
  (In (kind_of n) [ND OMPDo; ND OMPSingle; ND OMPMaster; ND OMPTaskloop; NS OMPTaskwait] -> has_anc omp_par anc) /\
  (kind_of n = ND OMPLoop -> has_anc (ND OMPTarget :: omp_par) anc) /\
  (kind_of n = ND ACCLoop -> has_anc acc_compute anc \/ In (NS ACCRoutine) rk) /\
  (* 2. no nested parallel region *)
  (In (kind_of n) omp_par -> ~ has_anc omp_par anc) /\
  (In (kind_of n) acc_compute -> ~ has_anc acc_compute anc) /\
  (* 3. every collapse count is matched by perfectly nested loops *)
  (forall d c b, n = Dir d (Some c) b -> carries_collapse d = true -> perfect_nest c b).

Definition WF (r : routine) : Prop :=
  forall anc n, In (anc, n) (rnodes r) -> WF_node (rkinds r) anc n.

Lemma perfect_b_iff : forall c b, perfect_b c b = true <-> perfect_nest c b.
Proof.
  induction c as [| c IH]; intro b; split; intro H.
  - constructor.
  - reflexivity.
  - simpl in H. destruct b as [| [| b' | | |] [|]]; try discriminate H. constructor. apply IH; assumption.
  - inversion H; subst. simpl. apply IH; assumption.
Qed.

Lemma any_in_has_anc : forall ks anc, any_in ks anc = true <-> has_anc ks anc.
Proof. intros; apply any_in_spec. Qed.

Lemma guard_iff : forall (a b : bool) (A B : Prop), (a = true <-> A) -> (b = true <-> B) ->
  (a && negb b = false <-> (A -> B)) /\ (a && b = false <-> (A -> ~ B)).
Proof. intros [] [] A B HA HB; simpl; intuition congruence. Qed.

(* each of the three boolean tests of wf_node fails exactly when its clauses of WF_node hold *)
Lemma orphan_b_false : forall rk anc k, orphan_b rk anc k = false <->
  (In k [ND OMPDo; ND OMPSingle; ND OMPMaster; ND OMPTaskloop; NS OMPTaskwait] -> has_anc omp_par anc) /\
  (k = ND OMPLoop -> has_anc (ND OMPTarget :: omp_par) anc) /\
  (k = ND ACCLoop -> has_anc acc_compute anc \/ In (NS ACCRoutine) rk).
Proof.
  intros rk anc k. unfold orphan_b. rewrite <- andb_assoc, <- negb_orb.
  assert (B3 : any_in acc_compute anc || mem (NS ACCRoutine) rk = true <->
               has_anc acc_compute anc \/ In (NS ACCRoutine) rk)
    by (rewrite orb_true_iff, any_in_has_anc, mem_In; reflexivity).
  pose proof (proj1 (guard_iff _ _ _ _ (mem_In k [ND OMPDo; ND OMPSingle; ND OMPMaster; ND OMPTaskloop; NS OMPTaskwait])
                               (any_in_has_anc omp_par anc))) as G1.
  pose proof (proj1 (guard_iff _ _ _ _ (mem_one k (ND OMPLoop)) (any_in_has_anc (ND OMPTarget :: omp_par) anc))) as G2.
  pose proof (proj1 (guard_iff _ _ _ _ (mem_one k (ND ACCLoop)) B3)) as G3.
  rewrite !orb_false_iff. split.
  - intros [[H1 H2] H3]. split; [apply G1, H1 | split; [apply G2, H2 | apply G3, H3]].
  - intros [H1 [H2 H3]]. split; [split; [apply G1, H1 | apply G2, H2] | apply G3, H3].
Qed.

Lemma nested_b_false : forall anc k, nested_b anc k = false <->
  (In k omp_par -> ~ has_anc omp_par anc) /\ (In k acc_compute -> ~ has_anc acc_compute anc).
Proof.
  intros anc k. unfold nested_b.
  pose proof (proj2 (guard_iff _ _ _ _ (mem_In k omp_par) (any_in_has_anc omp_par anc))) as G1.
  pose proof (proj2 (guard_iff _ _ _ _ (mem_In k acc_compute) (any_in_has_anc acc_compute anc))) as G2.
  rewrite orb_false_iff. split; (intros [H1 H2]; split; [apply G1, H1 | apply G2, H2]).
Qed.

Lemma collapse_bad_false : forall n, collapse_bad n = false <->
  forall d c b, n = Dir d (Some c) b -> carries_collapse d = true -> perfect_nest c b.
Proof.
  intro n. split.
  - intros H d c b -> Hc. simpl in H. rewrite Hc in H. apply perfect_b_iff, negb_false_iff, H.
  - intro H. destruct n as [| | | d [c |] b |]; try reflexivity. simpl.
    destruct (carries_collapse d) eqn:Ec; [| reflexivity].
    apply negb_false_iff, perfect_b_iff. exact (H d c b eq_refl Ec).
Qed.

Lemma wf_node_none_iff : forall rk anc n, wf_node rk (anc, n) = None <-> WF_node rk anc n.
Proof.
  intros rk anc n. unfold wf_node, WF_node. cbn [fst snd].
  split.
  - intro H.
    destruct (orphan_b rk anc (kind_of n)) eqn:E1; [discriminate H |]. apply orphan_b_false in E1.
    destruct (nested_b anc (kind_of n)) eqn:E2; [discriminate H |]. apply nested_b_false in E2.
    destruct (collapse_bad n) eqn:E3; [discriminate H |]. rewrite collapse_bad_false in E3. tauto.
  - intro H.
    replace (orphan_b rk anc (kind_of n)) with false by (symmetry; apply orphan_b_false; tauto).
    replace (nested_b anc (kind_of n)) with false by (symmetry; apply nested_b_false; tauto).
    replace (collapse_bad n) with false by (symmetry; apply collapse_bad_false; tauto). reflexivity.
Qed.

Lemma wf_viol_in : forall r cl k, In (cl, k) (wf_viol r) <->
  exists anc n, In (anc, n) (rnodes r) /\ wf_node (rkinds r) (anc, n) = Some cl /\ kind_of n = k.
Proof.
  intros r cl k. unfold wf_viol. rewrite in_flat_map. split.
  - intros [[anc n] [Hp Hin]]. destruct (wf_node (rkinds r) (anc, n)) eqn:E; [| contradiction].
    destruct Hin as [Hin | []]. inversion Hin; subst. exists anc, n. auto.
  - intros [anc [n [Hp [Hw Hk]]]]. exists (anc, n). split; [assumption |]. rewrite Hw. left. simpl. congruence.
Qed.

Lemma wf_b_WF : forall r, wf_b r = true <-> WF r.
Proof.
  intro r. unfold wf_b, WF. split.
  - intros H anc n Hp. apply wf_node_none_iff.
    destruct (wf_node (rkinds r) (anc, n)) eqn:E; [| reflexivity].
    assert (Hin : In (w, kind_of n) (wf_viol r)) by (apply wf_viol_in; exists anc, n; auto).
    destruct (wf_viol r); [contradiction | discriminate H].
  - intro H. destruct (wf_viol r) as [| [cl k] l] eqn:E; [reflexivity |].
    assert (Hin : In (cl, k) (wf_viol r)) by (rewrite E; left; reflexivity).
    apply wf_viol_in in Hin as [anc [n [Hp [Hw _]]]].
    apply H in Hp. apply wf_node_none_iff in Hp. congruence.
Qed.

(* a node on which the unchanged code checks nothing for one of the clauses *)
Definition gap_label (n : tree) : bool :=
  mem (kind_of n) acc_compute ||
  match n with Dir d (Some _) _ => mem (ND d) [ND OMPLoop; ND ACCLoop] | _ => false end.

Definition gap_free (r : routine) : bool := forallb (fun p => negb (gap_label (snd p))) (rnodes r).

Lemma wf_node_collapse : forall rk anc n, wf_node rk (anc, n) = Some WCollapse -> collapse_bad n = true.
Proof.
  intros rk anc n H. unfold wf_node in H. cbn [fst snd] in H.
  destruct (orphan_b rk anc (kind_of n)); [discriminate H |].
  destruct (nested_b anc (kind_of n)); [discriminate H |].
  destruct (collapse_bad n); [reflexivity | discriminate H].
Qed.

Theorem gen_ok_WF_partial_ : forall r, gen_ok r = true -> gap_free r = true -> WF r.
Proof.
  intros r Hg Hf anc n Hp. apply wf_node_none_iff.
  destruct (wf_node (rkinds r) (anc, n)) as [cl |] eqn:E; [| reflexivity]. exfalso.
  pose proof (gen_ok_wf_gaps_ r Hg anc n cl Hp E) as Hk.
  unfold gap_free in Hf. rewrite forallb_forall in Hf. specialize (Hf _ Hp). cbn [snd] in Hf.
  apply negb_true_iff in Hf. unfold gap_label in Hf. apply orb_false_iff in Hf as [Hf1 Hf2].
  destruct Hk as [Hk | [Hk | [Hk | [Hk | []]]]]; inversion Hk as [[Hc Hkind]]; subst cl.
  - rewrite <- Hkind in Hf1. discriminate Hf1.
  - rewrite <- Hkind in Hf1. discriminate Hf1.
  - apply wf_node_collapse in E. destruct n as [| | | d [c |] b |]; try discriminate E.
    simpl in Hkind. inversion Hkind; subst d. discriminate Hf2.
  - apply wf_node_collapse in E. destruct n as [| | | d [c |] b |]; try discriminate E.
    simpl in Hkind. inversion Hkind; subst d. discriminate Hf2.
Qed.

(* ParallelLoopTrans.validate only follows loop_body[0]: it accepts collapse=2 on a nest that is
   not perfect, for each transformation whose directive carries the clause *)
Definition imperfect2 : tree := Loop [Loop [Leaf LAssign]; Leaf LAssign].

Lemma erase_set_body : forall t b, flat_map erase b = flat_map erase (body_of t) -> erase (set_body t b) = erase t.
Proof. intros t b H. destruct t; simpl in *; try reflexivity; rewrite H; reflexivity. Qed.

Lemma erase_replace_nth : forall l i x n, nth_error l i = Some n -> erase x = erase n ->
  flat_map erase (replace_nth i x l) = flat_map erase l.
Proof.
  induction l as [| y l IH]; intros i x n Hn He; [destruct i; discriminate Hn |].
  destruct i as [| i]; simpl in *.
  - inversion Hn; subst. rewrite He. reflexivity.
  - rewrite (IH i x n Hn He). reflexivity.
Qed.

Lemma update_at_erase : forall p f b b0, body_at p b = Some b0 ->
  flat_map erase (f b0) = flat_map erase b0 -> flat_map erase (update_at p f b) = flat_map erase b.
Proof.
  induction p as [| i p IH]; intros f b b0 Hb Hf; simpl in *.
  - inversion Hb; subst. assumption.
  - destruct (nth_error b i) as [t |] eqn:En; [| reflexivity].
    destruct (has_body t) eqn:Hh; [| discriminate Hb].
    eapply erase_replace_nth; [exact En |]. apply erase_set_body. eapply IH; eassumption.
Qed.

Lemma skipn_skipn_ : forall (A : Type) a b (l : list A), skipn a (skipn b l) = skipn (b + a) l.
Proof.
  intros A a b. induction b as [| b IH]; intro l; [reflexivity |].
  destruct l as [| x l]; [destruct a; reflexivity | apply IH].
Qed.

Lemma firstn_skipn_mid : forall (A : Type) (b : list A) lo hi, lo <= hi ->
  firstn lo b ++ firstn (hi - lo) (skipn lo b) ++ skipn hi b = b.
Proof.
  intros A b lo hi Hle.
  replace (skipn hi b) with (skipn (hi - lo) (skipn lo b)).
  - rewrite firstn_skipn. apply firstn_skipn.
  - rewrite skipn_skipn_. f_equal. rewrite Nat.add_comm. apply Nat.sub_add, Hle.
Qed.

Lemma region_erase : forall d b lo hi, firstn (hi - lo) (skipn lo b) <> [] ->
  flat_map erase (firstn lo b ++ Dir d None (firstn (hi - lo) (skipn lo b)) :: skipn hi b) = flat_map erase b.
Proof.
  intros d b lo hi Hne.
  assert (Hle : lo <= hi).
  { destruct (le_lt_dec lo hi) as [H | H]; [assumption |]. exfalso. apply Hne.
    rewrite (proj2 (Nat.sub_0_le hi lo) (Nat.lt_le_incl _ _ H)). reflexivity. }
  transitivity (flat_map erase (firstn lo b ++ firstn (hi - lo) (skipn lo b) ++ skipn hi b)).
  - rewrite !flat_map_app. simpl. reflexivity.
  - rewrite firstn_skipn_mid by assumption. reflexivity.
Qed.

Lemma insert_erase : forall i s b, flat_map erase (insert_at i (SDir s) b) = flat_map erase b.
Proof.
  intros i s b. unfold insert_at. rewrite flat_map_app. simpl. rewrite <- flat_map_app.
  rewrite firstn_skipn. reflexivity.
Qed.

(* the ways an accepted transformation changes the children b of one container: a directive around child i
   (loop transformations), a directive around a non-empty range of children (region transformations), a
   stand-alone directive inserted (ACCEnterDataTrans, ACCRoutineTrans), nothing (ACCRoutineTrans again) *)
Inductive edit (o : op) (b : list tree) : list tree -> Prop :=
| EWrap : forall i n d c, nth_error b i = Some n -> created_tab (o_trans o) = Some d ->
    c = None \/ c = o_collapse o -> edit o b (replace_nth i (Dir d c [n]) b)
| ERegion : forall lo hi d, created_tab (o_trans o) = Some d -> firstn (hi - lo) (skipn lo b) <> [] ->
    edit o b (firstn lo b ++ Dir d None (firstn (hi - lo) (skipn lo b)) :: skipn hi b)
| EInsert : forall i s, edit o b (insert_at i (SDir s) b)
| ESame : edit o b b.

Lemma region_inv : forall t r anc sel (k : dkind -> routine) r',
  match validate_region t r anc sel with
  | Err => Refused
  | Crash => Crashed
  | Ok => match created_tab t with None => Crashed | Some d => Accepted (k d) end
  end = Accepted r' ->
  sel <> [] /\ exists d, created_tab t = Some d /\ r' = k d.
Proof.
  intros t r anc sel k r' H. destruct (validate_region t r anc sel) eqn:Ev; try discriminate H.
  destruct (created_tab t) as [d |]; [| discriminate H]. injection H as <-.
  split; [intros ->; discriminate Ev | exists d; split; reflexivity].
Qed.

(* every accepted transformation is such an edit of the children of the container at some path *)
Lemma apply_op_inv : forall o r r', apply_op o r = Accepted r' ->
  exists p b f, body_at p r = Some b /\ edit o b (f b) /\ r' = update_at p f r.
Proof.
  intros o r r' H. unfold apply_op in H.
  destruct (o_target o) as [p i | p lo hi | p] eqn:Et.
  - destruct (negb (is_loop_trans (o_trans o))); [discriminate H |].
    destruct (body_at p r) as [b |] eqn:Eb; [| discriminate H].
    destruct (nth_error b i) as [n |] eqn:En; [| discriminate H].
    destruct (validate_loop (o_trans o) n o); try discriminate H.
    destruct (apply_loop (o_trans o) n o) as [dn |] eqn:Ea; [| discriminate H].
    injection H as <-. exists p, b, (replace_nth i dn). split; [exact Eb |]. split; [| reflexivity].
    unfold apply_loop in Ea. destruct (created_tab (o_trans o)) as [d |] eqn:Ec; [| discriminate Ea].
    destruct (o_collapse o) as [[| c] |] eqn:Eo; destruct (collapse_tab (o_trans o)); inversion Ea; subst dn;
      (apply EWrap; [exact En | exact Ec | auto]).
  - destruct (body_at p r) as [b |] eqn:Eb; [| discriminate H].
    destruct (o_trans o) eqn:Etr; cbv beta iota zeta delta [is_loop_trans] in H; try discriminate H.
    all: apply region_inv in H as [Hne [d [Ec ->]]]; exists p, b; eexists; split; [exact Eb |]; split; [| reflexivity].
    all: apply ERegion; [rewrite Etr; exact Ec | exact Hne].
  - destruct (body_at p r) as [b |] eqn:Eb; [| discriminate H].
    destruct (o_trans o) eqn:Etr; cbv beta iota zeta delta [is_loop_trans] in H; try discriminate H.
    all: try (apply region_inv in H as [Hne [d [Ec ->]]]; exists p, b; eexists; split; [exact Eb |]; split; [| reflexivity];
              apply (ERegion o b 0 (length b)); [rewrite Etr; exact Ec | exact Hne]).
    + destruct (any_in [ND ACCData; NS ACCEnterData] (walks b)); [discriminate H |].
      injection H as <-. exists p, b; eexists; split; [exact Eb |]; split; [| reflexivity]. apply EInsert.
    + destruct p as [| i0 p0]; [| discriminate H].
      destruct (mem (NLeaf LCodeBlock) (rkinds r)); [discriminate H |]. injection H as <-.
      inversion Eb; subst b. destruct (mem (NS ACCRoutine) (map kind_of r)).
      * exists [], r, (fun b => b). repeat split. apply ESame.
      * exists [], r, (insert_at 0 (SDir ACCRoutine)). repeat split. apply EInsert.
Qed.

Lemma edit_erase : forall o b b', edit o b b' -> flat_map erase b' = flat_map erase b.
Proof.
  intros o b b' [i n d c Hn _ _ | lo hi d _ Hne | i s |].
  - eapply erase_replace_nth; [exact Hn |]. simpl. apply app_nil_r.
  - apply region_erase, Hne.
  - apply insert_erase.
  - reflexivity.
Qed.

Theorem apply_op_erase_ : forall o r r', apply_op o r = Accepted r' -> rerase r' = rerase r.
Proof.
  intros o r r' H. destruct (apply_op_inv _ _ _ H) as [p [b [f [Hb [He ->]]]]].
  eapply update_at_erase; [exact Hb | exact (edit_erase _ _ _ He)].
Qed.

Theorem run_erase_ : forall ops r r', run ops r = Some r' -> rerase r' = rerase r.
Proof.
  induction ops as [| o ops IH]; intros r r' H; simpl in H.
  - inversion H; reflexivity.
  - destruct (apply_op o r) as [r1 | |] eqn:E; [| apply IH; assumption | discriminate H].
    rewrite (IH _ _ H). eapply apply_op_erase_; eassumption.
Qed.
