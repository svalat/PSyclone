(* C10 — basic facts about trees, nodes-with-ancestors and the generation-time check. *)
From Coq Require Import List Bool Arith.
Import ListNotations.
From PV Require Import C10.Kinds C10.Gen C10.Model C10.Cover.

Section TreeInd.
  Variable P : tree -> Prop.
  Hypothesis HLeaf : forall l, P (Leaf l).
  Hypothesis HLoop : forall b, Forall P b -> P (Loop b).
  Hypothesis HIf : forall b, Forall P b -> P (If b).
  Hypothesis HDir : forall d c b, Forall P b -> P (Dir d c b).
  Hypothesis HSDir : forall s, P (SDir s).

  Fixpoint tree_ind' (t : tree) : P t :=
    let fix go (l : list tree) : Forall P l :=
      match l with
      | [] => Forall_nil P
      | x :: r => Forall_cons x (tree_ind' x) (go r)
      end in
    match t with
    | Leaf l => HLeaf l
    | Loop b => HLoop b (go b)
    | If b => HIf b (go b)
    | Dir d c b => HDir d c b (go b)
    | SDir s => HSDir s
    end.
End TreeInd.

Lemma dkind_eqb_eq : forall a b, dkind_eqb a b = true <-> a = b.
Proof. intros a b; split; [destruct a, b; simpl; intro H; try reflexivity; discriminate H | intros ->; destruct b; reflexivity]. Qed.

Lemma skind_eqb_eq : forall a b, skind_eqb a b = true <-> a = b.
Proof. intros a b; split; [destruct a, b; simpl; intro H; try reflexivity; discriminate H | intros ->; destruct b; reflexivity]. Qed.

Lemma leaf_eqb_eq : forall a b, leaf_eqb a b = true <-> a = b.
Proof. intros a b; split; [destruct a, b; simpl; intro H; try reflexivity; discriminate H | intros ->; destruct b; reflexivity]. Qed.

Lemma nkind_eqb_eq : forall a b, nkind_eqb a b = true <-> a = b.
Proof.
  intros a b; split.
  - destruct a, b; simpl; intro H; try reflexivity; try discriminate H.
    + apply leaf_eqb_eq in H; congruence.
    + apply dkind_eqb_eq in H; congruence.
    + apply skind_eqb_eq in H; congruence.
  - intros ->. destruct b; simpl; try reflexivity.
    + apply leaf_eqb_eq; reflexivity.
    + apply dkind_eqb_eq; reflexivity.
    + apply skind_eqb_eq; reflexivity.
Qed.

Lemma mem_In : forall k l, mem k l = true <-> In k l.
Proof.
  intros k l; unfold mem; rewrite existsb_exists; split.
  - intros [x [Hx He]]. apply nkind_eqb_eq in He. subst; assumption.
  - intro H. exists k; split; [assumption | apply nkind_eqb_eq; reflexivity].
Qed.

Lemma any_in_spec : forall ks l, any_in ks l = true <-> exists a, In a l /\ In a ks.
Proof.
  intros ks l; unfold any_in; rewrite existsb_exists; split.
  - intros [a [Ha Hm]]. exists a; split; [assumption | apply mem_In; assumption].
  - intros [a [Ha Hm]]. exists a; split; [assumption | apply mem_In; assumption].
Qed.

Lemma any_in_mono : forall ks l l', (forall x, In x l -> In x l') -> any_in ks l = true -> any_in ks l' = true.
Proof.
  intros ks l l' Hs H. apply any_in_spec in H as [a [Ha Hk]]. apply any_in_spec. exists a; auto.
Qed.

Lemma sub_spec : forall a b, sub a b = true -> forall x, In x a -> In x b.
Proof.
  intros a b H x Hx. unfold sub in H. rewrite forallb_forall in H. apply mem_In. apply H; assumption.
Qed.

Lemma nodes_unfold : forall a t,
  nodes a t = (a, t) :: match t with
                        | Loop b => flat_map (nodes (NLoop :: a)) b
                        | If b => flat_map (nodes (NIf :: a)) b
                        | Dir d _ b => flat_map (nodes (ND d :: a)) b
                        | _ => []
                        end.
Proof. intros a t; destruct t; reflexivity. Qed.

Definition child_ctx (a : list nkind) (t : tree) : list nkind := kind_of t :: a.

Lemma nodes_children : forall a t p,
  In p (nodes a t) -> p = (a, t) \/ exists x, In x (body_of t) /\ In p (nodes (child_ctx a t) x).
Proof.
  intros a t p H. rewrite nodes_unfold in H. destruct H as [H | H]; [left; auto |].
  right. destruct t; simpl in H; try contradiction;
    apply in_flat_map in H as [x [Hx Hp]]; exists x; split; assumption.
Qed.

Lemma nodes_children_inv : forall a t x p,
  In x (body_of t) -> In p (nodes (child_ctx a t) x) -> In p (nodes a t).
Proof.
  intros a t x p Hx Hp. rewrite nodes_unfold. right.
  destruct t; simpl in Hx; try contradiction; apply in_flat_map; exists x; split; assumption.
Qed.

Lemma nodes_self : forall a t, In (a, t) (nodes a t).
Proof. intros; rewrite nodes_unfold; left; reflexivity. Qed.

(* induction over trees through body_of: one case for every kind of node *)
Lemma tree_body_ind (P : tree -> Prop) : (forall t, Forall P (body_of t) -> P t) -> forall t, P t.
Proof. intros H t. induction t using tree_ind'; apply H; simpl; auto. Qed.

Lemma nodes_anc_sup : forall t a anc n, In (anc, n) (nodes a t) -> forall x, In x a -> In x anc.
Proof.
  induction t as [t IH] using tree_body_ind; intros a anc n Hin x Hx. rewrite Forall_forall in IH.
  apply nodes_children in Hin as [E | [y [Hy Hp]]].
  - inversion E; subst; assumption.
  - eapply (IH y Hy); [exact Hp | right; exact Hx].
Qed.

(* every ancestor kind is in the initial context or is the kind of a node of the subtree whose
   own ancestors are all ancestors of n *)
Lemma nodes_anc_node : forall t a anc n, In (anc, n) (nodes a t) -> forall k, In k anc ->
  In k a \/ exists anc' m, In (anc', m) (nodes a t) /\ kind_of m = k /\ (forall x, In x anc' -> In x anc).
Proof.
  induction t as [t IH] using tree_body_ind; intros a anc n Hin k Hk. rewrite Forall_forall in IH.
  apply nodes_children in Hin as [E | [y [Hy Hp]]].
  - inversion E; subst. left; assumption.
  - destruct (IH y Hy _ _ _ Hp k Hk) as [[Hc | Hc] | [anc' [m [Hm [Hkm Hs]]]]].
    + right. exists a, t. split; [apply nodes_self | split; [exact Hc |]].
      intros x Hx. eapply nodes_anc_sup; [exact Hp | right; exact Hx].
    + left; assumption.
    + right. exists anc', m. split; [eapply nodes_children_inv; [exact Hy | exact Hm] | split; assumption].
Qed.

Lemma rnodes_in : forall r p, In p (rnodes r) <-> exists t, In t r /\ In p (nodes [NRoutine] t).
Proof. intros; unfold rnodes; apply in_flat_map. Qed.

Lemma rnodes_anc_node : forall r anc n, In (anc, n) (rnodes r) -> forall k, In k anc ->
  k = NRoutine \/ exists anc' m, In (anc', m) (rnodes r) /\ kind_of m = k /\ (forall x, In x anc' -> In x anc).
Proof.
  intros r anc n Hin k Hk. apply rnodes_in in Hin as [t [Ht Hp]].
  destruct (nodes_anc_node _ _ _ _ Hp k Hk) as [[E | []] | [anc' [m [Hm [Hkm Hs]]]]].
  - left; auto.
  - right. exists anc', m; split; [apply rnodes_in; exists t; auto | auto].
Qed.

Lemma first_fail_ok : forall l, first_fail l = Ok -> forall o, In o l -> o = Ok.
Proof.
  induction l as [| x l IH]; intros H o Ho; [contradiction |].
  simpl in H. destruct x; try discriminate H. destruct Ho as [<- | Ho]; [reflexivity | apply IH; assumption].
Qed.

Lemma gen_ok_nodes : forall r, gen_ok r = true -> forall p, In p (rnodes r) -> node_check (rkinds r) p = Ok.
Proof.
  intros r H p Hp. unfold gen_ok, write_outcome in H.
  destruct (first_fail (map (node_check (rkinds r)) (rnodes r))) eqn:E; try discriminate H.
  eapply first_fail_ok; [exact E | apply in_map; exact Hp].
Qed.

Lemma rules_eval_ok : forall rk anc n rs, rules_eval rk anc n rs = Ok -> forall ru, In ru rs -> rule_eval rk anc n ru = Ok.
Proof.
  induction rs as [| x rs IH]; intros H ru Hr; [contradiction |].
  simpl in H. destruct (rule_eval rk anc n x) eqn:E; try discriminate H.
  destruct Hr as [<- | Hr]; [assumption | apply IH; assumption].
Qed.

Lemma gen_ok_rule : forall r, gen_ok r = true -> forall anc n, In (anc, n) (rnodes r) ->
  forall ru, In ru (gen_rules (kind_of n)) -> rule_eval (rkinds r) anc n ru = Ok.
Proof.
  intros r H anc n Hp ru Hr. pose proof (gen_ok_nodes r H _ Hp) as Hc. unfold node_check in Hc. simpl in Hc.
  destruct (rules_eval (rkinds r) anc n (gen_rules (kind_of n))) eqn:E; try discriminate Hc.
  eapply rules_eval_ok; eassumption.
Qed.
