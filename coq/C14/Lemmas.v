(* C14 — list, state and parent-chain lemmas used by Proofs.v *)
From Coq Require Import List ZArith Bool Lia Arith.
Import ListNotations.
From PV Require Import C14.Model.
Local Open Scope Z_scope.

Lemma remove_at_split {A} (l1 l2 : list A) y : remove_at (length l1) (l1 ++ y :: l2) = l1 ++ l2.
Proof.
  unfold remove_at. induction l1 as [|a l1 IH]; simpl; [reflexivity | f_equal; exact IH].
Qed.
Lemma set_at_split {A} (l1 l2 : list A) y x : set_at (length l1) x (l1 ++ y :: l2) = l1 ++ x :: l2.
Proof.
  unfold set_at. induction l1 as [|a l1 IH]; simpl; [reflexivity | f_equal; exact IH].
Qed.

Lemma nth_error_app_two {A} (l1 l2 : list A) i :
  nth_error (l1 ++ l2) i = if (i <? length l1)%nat then nth_error l1 i else nth_error l2 (i - length l1).
Proof.
  destruct (Nat.ltb_spec i (length l1)) as [H|H];
    [apply nth_error_app1 | apply nth_error_app2]; exact H.
Qed.
(* the element [j] places after the end of [l1] *)
Lemma nth_error_after {A} (l1 l2 : list A) j : nth_error (l1 ++ l2) (length l1 + j) = nth_error l2 j.
Proof. rewrite nth_error_app2 by lia. f_equal. lia. Qed.

Lemma nth_error_rev {A} (l : list A) i :
  (i < length l)%nat -> nth_error (rev l) i = nth_error l (length l - S i).
Proof.
  intro H. destruct l as [|a l]; [simpl in H; lia|]. remember (a :: l) as L.
  rewrite (nth_error_nth' (rev L) a) by (rewrite rev_length; exact H).
  rewrite (nth_error_nth' L a) by lia. f_equal. apply rev_nth. exact H.
Qed.

Lemma insert_at_app {A} (l : list A) k x : (k <= length l)%nat ->
  exists l1 l2, l = l1 ++ l2 /\ length l1 = k /\ insert_at k x l = l1 ++ x :: l2.
Proof.
  intro H. exists (firstn k l), (skipn k l). split; [symmetry; apply firstn_skipn|].
  split; [apply firstn_length_le; exact H | reflexivity].
Qed.

Lemma memb_In x l : memb x l = true <-> In x l.
Proof.
  unfold memb. rewrite existsb_exists. split.
  - intros [y [Hy E]]. apply Nat.eqb_eq in E. subst. exact Hy.
  - intro H. exists x. split; [exact H | apply Nat.eqb_refl].
Qed.
Lemma memb_false x l : memb x l = false <-> ~ In x l.
Proof.
  rewrite <- memb_In. destruct (memb x l); split; intro H; try congruence;
    try (exfalso; apply H; reflexivity); try (intro; congruence).
Qed.
Lemma memb_spec x l : reflect (In x l) (memb x l).
Proof. apply iff_reflect. symmetry. apply memb_In. Qed.
Lemma memb_app z l1 l2 : memb z (l1 ++ l2) = memb z l1 || memb z l2.
Proof. apply existsb_app. Qed.
Lemma has_dup_false l : has_dup l = false <-> NoDup l.
Proof.
  induction l as [|x l IH]; simpl.
  - split; [constructor | reflexivity].
  - rewrite orb_false_iff, IH, memb_false. split.
    + intros [H1 H2]. constructor; assumption.
    + intro H. inversion H; subst. split; assumption.
Qed.

Lemma NoDup_app_iff {A} (l1 l2 : list A) :
  NoDup (l1 ++ l2) <-> NoDup l1 /\ NoDup l2 /\ (forall z, In z l1 -> In z l2 -> False).
Proof.
  induction l1 as [|a l1 IH]; simpl.
  - split; [intro H; repeat split; [constructor | exact H | intros z []] | intros [_ [H _]]; exact H].
  - rewrite !NoDup_cons_iff, IH, in_app_iff. split.
    + intros [Ha [N1 [N2 D]]]. repeat split; try tauto.
      intros z [<-|Hz] Hz2; [tauto | exact (D z Hz Hz2)].
    + intros [[Ha N1] [N2 D]]. repeat split; try assumption.
      * intros [H|H]; [exact (Ha H) | exact (D a (or_introl eq_refl) H)].
      * intros z Hz. apply D. right. exact Hz.
Qed.

Lemma index_of_spec x l j0 j :
  index_of x l j0 = Some j -> (j0 <= j)%nat /\ nth_error l (j - j0) = Some x.
Proof.
  revert j0; induction l as [|y l IH]; intros j0 H; simpl in H; [discriminate|].
  destruct (Nat.eqb_spec y x) as [E|E].
  - inversion H; subst. rewrite Nat.sub_diag. split; [lia | reflexivity].
  - destruct (IH _ H) as [H1 H2]. split; [lia|].
    replace (j - j0)%nat with (S (j - S j0)) by lia. exact H2.
Qed.
Lemma index_of_In x l j0 : In x l -> exists j, index_of x l j0 = Some j.
Proof.
  revert j0; induction l as [|y l IH]; intros j0 H; simpl in *; [contradiction|].
  destruct (Nat.eqb_spec y x) as [E|E]; [eauto|].
  destruct H as [H|H]; [congruence | apply IH; exact H].
Qed.

Lemma NoDup_nth_error_inj (l : list nat) i j x :
  NoDup l -> nth_error l i = Some x -> nth_error l j = Some x -> i = j.
Proof.
  intros ND Hi Hj. apply (proj1 (NoDup_nth_error l) ND).
  - apply nth_error_Some. congruence.
  - congruence.
Qed.

Lemma kids_set_kids s c l d : kids (set_kids s c l) d = if Nat.eqb d c then l else kids s d.
Proof. reflexivity. Qed.
Lemma par_set_kids s c l x : par (set_kids s c l) x = par s x.
Proof. reflexivity. Qed.
Lemma kids_set_par s x p d : kids (set_par s x p) d = kids s d.
Proof. reflexivity. Qed.
Lemma par_set_par s x p y : par (set_par s x p) y = if Nat.eqb y x then p else par s y.
Proof. reflexivity. Qed.
Lemma kids_set_par_many s xs p d : kids (set_par_many s xs p) d = kids s d.
Proof. revert s; induction xs as [|x xs IH]; intro s; simpl; [reflexivity | rewrite IH; reflexivity]. Qed.
Lemma par_set_par_many s xs p y :
  par (set_par_many s xs p) y = if memb y xs then p else par s y.
Proof.
  revert s; induction xs as [|x xs IH]; intro s; simpl; [reflexivity|].
  rewrite IH, par_set_par. destruct (Nat.eqb y x); simpl; [|reflexivity].
  destruct (memb y xs); reflexivity.
Qed.

Lemma state_eq_refl s : state_eq s s.
Proof. split; reflexivity. Qed.
Lemma state_eq_sym s s' : state_eq s s' -> state_eq s' s.
Proof. intros [A B]. split; intro; symmetry; [apply A | apply B]. Qed.
Lemma Inv_state_eq E s s' : state_eq s s' -> Inv E s -> Inv E s'.
Proof.
  intros [Hk Hp] [P1 [P2 [P3 P4]]]. unfold Inv. repeat split.
  - intros c x. rewrite <- Hk, <- Hp. apply P1.
  - intro c. rewrite <- Hk. apply P2.
  - intros x c. rewrite <- Hk, <- Hp. apply P3.
  - intros c i x. rewrite <- Hk. apply P4.
Qed.

(* The shape of the state after every successful ChildrenList method: the nodes [out] have lost
   their parent, the children of c are L', the nodes [new] have parent c.  (The states written in
   Model.v are convertible to instances of it: [set_par_many s [x] p] computes to [set_par s x p].) *)
Definition relink (s : state) (c : nat) (out new L' : list nat) : state :=
  set_par_many (set_kids (set_par_many s out None) c L') new (Some c).
Lemma kids_relink s c out new L' d :
  kids (relink s c out new L') d = if Nat.eqb d c then L' else kids s d.
Proof. unfold relink. rewrite kids_set_par_many, kids_set_kids, kids_set_par_many. reflexivity. Qed.
Lemma par_relink s c out new L' z :
  par (relink s c out new L') z = if memb z new then Some c else if memb z out then None else par s z.
Proof. unfold relink. rewrite par_set_par_many, par_set_kids, par_set_par_many. reflexivity. Qed.

Lemma climbs_mono f s c : climbs f s c = false -> climbs (S f) s c = false.
Proof.
  revert c; induction f as [|f IH]; intros c H; [discriminate|].
  simpl in *. destruct (par s c) as [p|]; [apply IH in H; exact H | reflexivity].
Qed.

(* the walk from c is not lengthened by resetting parent pointers and by linking nodes that are
   not on it *)
Lemma climbs_upd f s s' c :
  (forall y, par s' y = par s y \/ par s' y = None \/ (exists g, on_chain g s c y = Some false)) ->
  climbs f s c = false -> climbs f s' c = false.
Proof.
  revert c. induction f as [|f IH]; intros c HL H; [discriminate|].
  simpl in *. destruct (HL c) as [E|[E|[g Hg]]].
  - rewrite E. destruct (par s c) as [p|] eqn:Ep; [|reflexivity].
    apply IH; [|exact H]. intro y. destruct (HL y) as [Ey|[Ey|[g Hg]]]; [left; exact Ey | right; left; exact Ey|].
    right. right. destruct g as [|g]; [discriminate|]. simpl in Hg.
    destruct (Nat.eqb c y); [discriminate|]. rewrite Ep in Hg. exists g. exact Hg.
  - rewrite E. reflexivity.
  - destruct g as [|g]; [discriminate|]. simpl in Hg. rewrite Nat.eqb_refl in Hg. discriminate.
Qed.

(* a state whose parent pointers are those of s except that some are reset to None *)
Definition par_cut (s s' : state) : Prop := forall y, par s' y = par s y \/ par s' y = None.

Lemma climbs_cut f s s' c : par_cut s s' -> climbs f s c = false -> climbs f s' c = false.
Proof. intro HC. apply climbs_upd. intro y. destruct (HC y); auto. Qed.
Lemma on_chain_cut f s s' c x : par_cut s s' -> on_chain f s c x = Some false -> on_chain f s' c x = Some false.
Proof.
  intro HC. revert c; induction f as [|f IH]; intros c H; [discriminate|].
  simpl in *. destruct (Nat.eqb c x); [discriminate|].
  destruct (HC c) as [E|E]; rewrite E; [|reflexivity].
  destruct (par s c) as [p|]; [apply IH; exact H | reflexivity].
Qed.

Lemma on_chain_false_climbs f s c x : on_chain f s c x = Some false -> climbs f s c = false.
Proof.
  revert c; induction f as [|f IH]; intros c H; [discriminate|].
  simpl in *. destruct (Nat.eqb c x); [discriminate|].
  destruct (par s c) as [p|]; [apply IH; exact H | reflexivity].
Qed.

Lemma climbs_link f s s' c :
  (forall y, par s' y = par s y \/ (exists g, on_chain g s c y = Some false)) ->
  climbs f s c = false -> climbs f s' c = false.
Proof. intro HL. apply climbs_upd. intro y. destruct (HL y); auto. Qed.

(* a terminating chain does not pass through a child of its start *)
Lemma on_chain_true_step f s c y :
  on_chain f s c y = Some true -> c <> y -> forall g, climbs (S g) s c = false -> climbs g s y = false.
Proof.
  revert c; induction f as [|f IH]; intros c H Hne g Hc; [discriminate|].
  simpl in H. destruct (Nat.eqb_spec c y) as [E|E]; [contradiction|].
  simpl in Hc. destruct (par s c) as [p|] eqn:Ep; [|discriminate].
  destruct (Nat.eq_dec p y) as [Epy|Epy]; [subst; exact Hc|].
  destruct g as [|g]; [discriminate|].
  apply climbs_mono. apply (IH p H Epy g Hc).
Qed.
Lemma no_child_on_chain_aux s c y : par s y = Some c ->
  forall n f, on_chain f s c y = Some true -> climbs n s c = false -> False.
Proof.
  intro Hp. induction n as [n IHn] using lt_wf_ind. intros f H Hc.
  destruct n as [|n]; [discriminate|].
  destruct (Nat.eq_dec c y) as [E|E].
  - subst. simpl in Hc. rewrite Hp in Hc.
    apply (IHn n (Nat.lt_succ_diag_r _) f H Hc).
  - pose proof (on_chain_true_step f s c y H E n Hc) as Hy.
    destruct n as [|n]; [discriminate|]. simpl in Hy. rewrite Hp in Hy.
    apply (IHn n) with (f := f); [lia | exact H | exact Hy].
Qed.
Lemma on_chain_total f s c x : climbs f s c = false -> on_chain f s c x <> None.
Proof.
  revert c; induction f as [|f IH]; intros c H; [discriminate|].
  simpl in *. destruct (Nat.eqb c x); [discriminate|].
  destruct (par s c) as [p|]; [apply IH; exact H | discriminate].
Qed.
Lemma no_child_on_chain f s c y :
  par s y = Some c -> climbs f s c = false -> on_chain f s c y = Some false.
Proof.
  intros Hp Hc. destruct (on_chain f s c y) as [[|]|] eqn:E.
  - exfalso. exact (no_child_on_chain_aux s c y Hp f f E Hc).
  - reflexivity.
  - exfalso. exact (on_chain_total f s c y Hc E).
Qed.

Lemma py_norm_Some len i k : py_norm len i = Some k ->
  Z.of_nat k < len /\ (0 <= i -> Z.of_nat k = i) /\ (i < 0 -> Z.of_nat k = i + len).
Proof.
  unfold py_norm. destruct (Z.ltb_spec i 0) as [Hi|Hi];
  match goal with |- context[(0 <=? ?j) && (?j <? len)] =>
    destruct (Z.leb_spec 0 j); destruct (Z.ltb_spec j len); simpl; intro HH; inversion HH; subst end;
  rewrite Z2Nat.id by lia; repeat split; lia.
Qed.
Lemma py_clamp_le len i : 0 <= len -> Z.of_nat (py_clamp len i) <= len.
Proof.
  intro H. unfold py_clamp. destruct (i <? 0); rewrite Z2Nat.id; lia.
Qed.
Lemma py_get_nat {A} (l : list A) (j : nat) : (j < length l)%nat -> py_get l (Z.of_nat j) = nth_error l j.
Proof.
  intro H. unfold py_get, py_norm, zlen.
  destruct (Z.ltb_spec (Z.of_nat j) 0); [lia|].
  destruct (Z.leb_spec 0 (Z.of_nat j)); [|lia].
  destruct (Z.ltb_spec (Z.of_nat j) (Z.of_nat (length l))); [|lia].
  simpl. rewrite Nat2Z.id. reflexivity.
Qed.
Lemma py_get_beyond {A} (l : list A) (j : Z) : zlen l <= j -> py_get l j = None.
Proof.
  intro H. unfold py_get, py_norm, zlen in *.
  destruct (Z.ltb_spec j 0); [lia|].
  destruct (Z.leb_spec 0 j); destruct (Z.ltb_spec j (Z.of_nat (length l))); simpl; try reflexivity; lia.
Qed.

(* the displaced-sibling loop: positions pos .. pos+n-1 (natural numbers) were validated *)
Lemma validate_range_ok E c L n (pos : nat) shift :
  validate_range E c L n (Z.of_nat pos) shift = None ->
  forall j y, (pos <= j < pos + n)%nat -> nth_error L j = Some y ->
              validate E c (Z.of_nat j + shift) y = true.
Proof.
  revert pos; induction n as [|n IH]; intros pos H j y Hj Hy; [lia|].
  simpl in H.
  assert (Hlt : (j < length L)%nat) by (apply nth_error_Some; congruence).
  destruct (Nat.lt_ge_cases pos (length L)) as [Hp|Hp].
  - rewrite py_get_nat in H by exact Hp.
    destruct (nth_error L pos) as [y0|] eqn:E0; [|discriminate].
    destruct (validate E c (Z.of_nat pos + shift) y0) eqn:Ev; [|discriminate].
    destruct (Nat.eq_dec j pos) as [Ej|Ej].
    + subst. congruence.
    + replace (Z.of_nat pos + 1) with (Z.of_nat (S pos)) in H by lia.
      apply (IH (S pos) H j y); [lia | exact Hy].
  - lia.
Qed.
