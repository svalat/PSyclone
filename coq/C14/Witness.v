(* C14 — the starting forest and the longer histories used by the refutation and non-vacuity
   theorems of Properties/C14.v. *)
From Coq Require Import List ZArith.
Import ListNotations.
From PV Require Import C14.Model C14.Model2.
Local Open Scope Z_scope.

Definition env_of (ks : list kind) : env :=
  mkEnv (fun x => nth x ks KReturn) (fun _ => O) valid_ref (fun k => kind_eqb k KCall).
(* the forest of orphans: every history of the correspondence starts from (an image of) it *)
Definition s0 : state := mkSt (fun _ => []) (fun _ => None).

Lemma inv_s0 E : Inv E s0.
Proof.
  unfold Inv, s0. simpl. repeat split.
  - intros c x [].
  - intro c. constructor.
  - intros x c H. discriminate.
  - intros c [|i] x H; discriminate.
Qed.

(* negative index in pop / __delitem__: Loop [Literal, Literal, Literal, Schedule], index -2 *)
Definition w_pop_kinds := [KLoop; KLiteral; KLiteral; KLiteral; KSchedule].
Definition w_pop_ops := [OExtend 0 [1; 2; 3; 4]%nat; OPop 0 (-2)].
Definition w_del_ops := [OExtend 0 [1; 2; 3; 4]%nat; ODelItem 0 (-2)].

(* a history inside the safe fragment of the as-found code that really edits a Loop, an
   Assignment and a Schedule (non-negative and -1 indices, replace, detach, reverse, setter) *)
Definition nv_kinds :=
  [KLoop; KLiteral; KLiteral; KLiteral; KSchedule; KAssignment; KReference; KLiteral; KReturn; KLiteral].
Definition nv_ops :=
  [OExtend 0 [1; 2; 3; 4]%nat; OExtend 5 [6; 7]%nat; OAppend 4 5; OAddChild 4 8 (Some 0);
   OPop 0 2 (* refused: Schedule would move to position 2 *); OPop 0 (-1); OSetItem 0 1 9;
   OInsert 0 3 4; OReplaceWith 9 2; OReverse 4; ODetach 8; OSetChildren 4 [8; 5]%nat; OPopLast 4].

