(* C14 — facts about the GENERATED table coq/C14/Gen.v (re-checked after every translation) *)
From Coq Require Import List ZArith Bool Lia.
Import ListNotations.
From PV Require Import C14.Model C14.Gen.
Local Open Scope Z_scope.

Lemma forall_kinds (f : kind -> bool) : forallb f all_kinds = true -> forall k, f k = true.
Proof.
  intros H k. cbn [forallb all_kinds] in H.
  repeat (apply andb_prop in H; destruct H as [? H]). destruct k; assumption.
Qed.

(* Both tables look at the position only through comparisons with constants up to 4, so every
   position from 4 on is treated like position 4 ... *)
Lemma same_from_4 ck pos xk : 4 <= pos ->
  valid_child ck pos xk = valid_child ck 4 xk /\ valid_ref ck pos xk = valid_ref ck 4 xk.
Proof.
  intro H.
  assert (Eq : forall k, k < 4 -> (pos =? k) = false) by (intros; apply Z.eqb_neq; lia).
  assert (Lt : forall k, k <= 4 -> (pos <? k) = false) by (intros; apply Z.ltb_ge; lia).
  assert (Le : forall k, k < 4 -> (pos <=? k) = false) by (intros; apply Z.leb_gt; lia).
  assert (Gt : forall k, k < 4 -> (k <? pos) = true) by (intros; apply Z.ltb_lt; lia).
  assert (Ge : forall k, k <= 4 -> (k <=? pos) = true) by (intros; apply Z.leb_le; lia).
  destruct ck; cbv [valid_child valid_ref cmp_eval]; rewrite ?Eq, ?Lt, ?Le, ?Gt, ?Ge by easy;
    split; reflexivity.
Qed.

(* ... and on positions 0 .. 4 the 20 x 20 pairs of kinds are compared by evaluation. *)
Lemma refines_upto_4 :
  forallb (fun pos => forallb (fun ck => forallb (fun xk =>
    implb (valid_child ck pos xk) (valid_ref ck pos xk)) all_kinds) all_kinds) [0; 1; 2; 3; 4] = true.
Proof. vm_compute. reflexivity. Qed.

(* whatever a node class accepts at a (real, non-negative) position, the frozen reference table
   accepts too: a relaxed _validate_child breaks this proof *)
Theorem valid_child_refines_reference_ :
  forall ck pos xk, 0 <= pos -> valid_child ck pos xk = true -> valid_ref ck pos xk = true.
Proof.
  intros ck pos xk Hp.
  assert (H : exists p, In p [0; 1; 2; 3; 4] /\
                        valid_child ck pos xk = valid_child ck p xk /\ valid_ref ck pos xk = valid_ref ck p xk).
  { destruct (Z.lt_ge_cases pos 4).
    - exists pos. split; [simpl; lia | split; reflexivity].
    - exists 4. split; [simpl; tauto | apply same_from_4; assumption]. }
  destruct H as [p [Hin [-> ->]]].
  pose proof (proj1 (forallb_forall _ _) refines_upto_4 p Hin) as R.
  apply forall_kinds with (k := ck) in R. apply forall_kinds with (k := xk) in R.
  destruct (valid_child ck p xk); [intros _; exact R | discriminate].
Qed.

(* Call is the only class with argument_names, as the reference environment [ref_env] assumes *)
Theorem argn_src_is_call_ : forall k, argn_src k = kind_eqb k KCall.
Proof. intro k. destruct k; reflexivity. Qed.

(* the invariant stated with the classes' own rules implies the invariant stated with the frozen
   reference table (which is what the harness evaluates on the real tree) *)
Theorem inv_reference_ : forall Kf Af s,
  Inv (mkEnv Kf Af valid_child argn_src) s -> Inv (mkEnv Kf Af valid_ref argn_src) s.
Proof.
  intros Kf Af s [P1 [P2 [P3 P4]]]. unfold Inv. repeat split; try assumption.
  intros c i x Hn. simpl. apply valid_child_refines_reference_; [lia|]. apply (P4 c i x Hn).
Qed.
