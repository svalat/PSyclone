(* C14 — every operation inside the safe fragment preserves the invariant, and a failed operation
   leaves the forest unchanged ([step_safe_]); every operation is inside the fragment for repaired
   parameters ([fixed_reason]); the same for the extended operation set of Model2.v ([step2_safe_],
   [okb2_reason]).  The lifting to histories is in Properties/C14.v. *)
From Coq Require Import List ZArith Bool Lia Arith.
Import ListNotations.
From PV Require Import C14.Model C14.Lemmas C14.Model2.
Local Open Scope Z_scope.

(* One argument for all methods: L' has no duplicates, lists the new nodes and the old children
   that were not taken out, the new nodes were orphans, every node of L' is valid where it stands. *)
Lemma inv_relink E s c out new L' :
  Inv E s -> NoDup L' ->
  (forall z, In z L' <-> In z new \/ In z (kids s c) /\ ~ In z out) ->
  (forall z, In z out -> In z (kids s c)) ->
  (forall z, In z new -> par s z = None) ->
  (forall i z, nth_error L' i = Some z -> validate E c (Z.of_nat i) z = true) ->
  Inv E (relink s c out new L').
Proof.
  intros [P1 [P2 [P3 P4]]] ND HL Hout Hnew Hv. unfold Inv. repeat split.
  - intros d x Hin. rewrite kids_relink in Hin. rewrite par_relink.
    destruct (Nat.eqb_spec d c) as [->|Hdc].
    + destruct (memb_spec x new) as [En|En]; [reflexivity|].
      apply HL in Hin. destruct Hin as [Hin|[Hin Ho]]; [contradiction|].
      destruct (memb_spec x out); [contradiction | apply P1; exact Hin].
    + pose proof (P1 _ _ Hin) as Hp.
      destruct (memb_spec x new) as [En|En]; [rewrite (Hnew _ En) in Hp; discriminate|].
      destruct (memb_spec x out) as [Eo|Eo]; [|exact Hp].
      apply Hout, P1 in Eo. congruence.
  - intro d. rewrite kids_relink. destruct (Nat.eqb d c); [exact ND | apply P2].
  - intros x d. rewrite kids_relink, par_relink. destruct (memb_spec x new) as [En|En].
    + intro H; inversion H; subst d. rewrite Nat.eqb_refl. apply HL. left. exact En.
    + destruct (memb_spec x out) as [Eo|Eo]; [discriminate|]. intro Hp. apply P3 in Hp.
      destruct (Nat.eqb_spec d c) as [->|]; [|exact Hp]. apply HL. right. split; assumption.
  - intros d i x. rewrite kids_relink. destruct (Nat.eqb_spec d c) as [->|]; [apply Hv | apply P4].
Qed.

(* The methods other than reverse replace a segment [out] of the children by [new]. *)
Lemma inv_splice E s c l1 out new l2 :
  Inv E s -> kids s c = l1 ++ out ++ l2 -> NoDup new -> (forall z, In z new -> par s z = None) ->
  (forall j z, nth_error (new ++ l2) j = Some z -> validate E c (Z.of_nat (length l1 + j)) z = true) ->
  Inv E (relink s c out new (l1 ++ new ++ l2)).
Proof.
  intros HI EL NDn Hnew Hv. pose proof HI as [P1 [P2 [_ P4]]].
  assert (Hfresh : forall z, In z new -> In z (kids s c) -> False).
  { intros z Hz Hin. apply P1 in Hin. rewrite (Hnew z Hz) in Hin. discriminate. }
  assert (In1 : forall z, In z l1 -> In z (kids s c)) by (intros z Hz; rewrite EL, !in_app_iff; auto).
  assert (In2 : forall z, In z l2 -> In z (kids s c)) by (intros z Hz; rewrite EL, !in_app_iff; auto).
  specialize (P2 c). rewrite EL in P2.
  apply NoDup_app_iff in P2. destruct P2 as [N1 [P2 D1]].
  apply NoDup_app_iff in P2. destruct P2 as [_ [N2 D2]].
  apply inv_relink; try assumption.
  - apply NoDup_app_iff. split; [exact N1 | split].
    + apply NoDup_app_iff. split; [exact NDn | split; [exact N2|]].
      intros z Hz Hz2. exact (Hfresh z Hz (In2 z Hz2)).
    + intros z Hz Hz2. apply in_app_or in Hz2. destruct Hz2 as [Hz2|Hz2].
      * exact (Hfresh z Hz2 (In1 z Hz)).
      * apply (D1 z Hz), in_or_app. right. exact Hz2.
  - intro z. rewrite EL, !in_app_iff. split.
    + intros [H|[H|H]]; [right | left; exact H | right]; (split; [auto|]); intro Ho.
      * apply (D1 z H), in_or_app. left. exact Ho.
      * exact (D2 z Ho H).
    + intros [H|[[H|[H|H]] Ho]]; auto. contradiction.
  - intros z Hz. rewrite EL, !in_app_iff. auto.
  - intros i z. rewrite nth_error_app_two. destruct (Nat.ltb_spec i (length l1)) as [Hi|Hi].
    + intro Hn. apply P4. rewrite EL, nth_error_app1 by exact Hi. exact Hn.
    + intro Hn. apply Hv in Hn. replace (length l1 + (i - length l1))%nat with i in Hn by lia. exact Hn.
Qed.

Definition Good (E : env) (s : state) (r : res) : Prop :=
  Inv E (fst r) /\ (snd r <> None -> state_eq (fst r) s).

Lemma good_same E s o : Inv E s -> Good E s (s, o).
Proof. intro H. split; [exact H | intros _; apply state_eq_refl]. Qed.
Lemma good_none E s s' : Inv E s' -> Good E s (s', None).
Proof. intro H. split; [exact H | intro Hn; exfalso; apply Hn; reflexivity]. Qed.
Lemma good_signal E s fuel s' c : Inv E s' -> climbs fuel s' c = false -> Good E s (signal fuel s' c).
Proof. intros H Hc. unfold signal. rewrite Hc. apply good_none. exact H. Qed.

Lemma climbs_relink f s c out new L' :
  (forall z, In z new -> on_chain f s c z = Some false) ->
  climbs f s c = false -> climbs f (relink s c out new L') c = false.
Proof.
  intro Hn. apply climbs_upd. intro y. rewrite par_relink.
  destruct (memb_spec y new) as [En|_]; [right; right; exists f; apply Hn; exact En|].
  destruct (memb y out); [right; left | left]; reflexivity.
Qed.

Lemma good_splice E fuel s c l1 out new l2 :
  Inv E s -> kids s c = l1 ++ out ++ l2 -> NoDup new ->
  (forall z, In z new -> par s z = None /\ on_chain fuel s c z = Some false) ->
  (forall j z, nth_error (new ++ l2) j = Some z -> validate E c (Z.of_nat (length l1 + j)) z = true) ->
  climbs fuel s c = false ->
  Good E s (signal fuel (relink s c out new (l1 ++ new ++ l2)) c).
Proof.
  intros HI EL ND Hn Hv Hc. apply good_signal.
  - apply inv_splice; try assumption. intros z Hz. apply Hn, Hz.
  - apply climbs_relink; [|exact Hc]. intros z Hz. apply Hn, Hz.
Qed.

(* one orphan x, off the parent chain of c, takes the place of [out] (append, insert, __setitem__) *)
Lemma good_link_one E fuel s c l1 out x l2 :
  Inv E s -> kids s c = l1 ++ out ++ l2 -> par s x = None -> on_chain fuel s c x = Some false ->
  validate E c (Z.of_nat (length l1)) x = true ->
  (forall j z, nth_error l2 j = Some z -> validate E c (Z.of_nat (length l1 + S j)) z = true) ->
  Good E s (signal fuel (relink s c out [x] (l1 ++ x :: l2)) c).
Proof.
  intros HI EL Hx Hch Hv Hd. apply (good_splice E fuel s c l1 out [x] l2); try assumption.
  - constructor; [intros [] | constructor].
  - intros z [<-|[]]. split; assumption.
  - intros [|j] z Hj; [inversion Hj; subst; rewrite Nat.add_0_r; exact Hv | exact (Hd j z Hj)].
  - exact (on_chain_false_climbs _ _ _ _ Hch).
Qed.

(* the k-th child leaves (pop, __delitem__, remove); [pi] is the `positiveindex` of the method: the
   siblings from pi + 1 on were validated one position lower *)
Lemma good_remove_at E fuel s c k y pi :
  Inv E s -> nth_error (kids s c) k = Some y ->
  validate_range E c (kids s c) (range_count (pi + 1) (zlen (kids s c))) (pi + 1) (-1) = None ->
  pi = Z.of_nat k \/ Z.of_nat k + 1 = zlen (kids s c) -> climbs fuel s c = false ->
  Good E s (signal fuel (set_kids (set_par s y None) c (remove_at k (kids s c))) c).
Proof.
  intros HI Hk Er Hpi Hc. destruct (nth_error_split _ _ Hk) as [l1 [l2 [EL Hl]]].
  replace (remove_at k (kids s c)) with (l1 ++ [] ++ l2) by (rewrite EL, <- Hl; symmetry; apply remove_at_split).
  apply (good_splice E fuel s c l1 [y] [] l2); try assumption; [constructor | intros z [] |].
  intros j z Hj. simpl in Hj.
  assert (Hn : nth_error (kids s c) (S (k + j)) = Some z).
  { rewrite EL, <- Hl, <- Nat.add_succ_r, nth_error_after. exact Hj. }
  assert (Hlt : (S (k + j) < length (kids s c))%nat) by (apply nth_error_Some; congruence).
  destruct Hpi as [->|Hlast]; [|unfold zlen in Hlast; lia].
  replace (Z.of_nat k + 1) with (Z.of_nat (S k)) in Er by lia.
  rewrite Hl. replace (Z.of_nat (k + j)) with (Z.of_nat (S (k + j)) + -1) by lia.
  apply (validate_range_ok _ _ _ _ _ _ Er); [|exact Hn].
  unfold zlen, range_count. lia.
Qed.

Lemma first_reason_cons r t : first_reason (r :: t) = R_SAFE -> r = R_SAFE /\ first_reason t = R_SAFE.
Proof.
  simpl. destruct (Nat.eqb_spec r R_SAFE) as [E|E]; intro H; [split; assumption | contradiction].
Qed.
Lemma first_reason_all l : first_reason l = R_SAFE -> forall r, In r l -> r = R_SAFE.
Proof.
  induction l as [|a l IH]; intros H r Hin; [contradiction|].
  apply first_reason_cons in H. destruct H as [H1 H2].
  destruct Hin as [<-|Hin]; [exact H1 | apply IH; assumption].
Qed.
Lemma first_reason_two a b : first_reason [a; b] = R_SAFE -> a = R_SAFE /\ b = R_SAFE.
Proof. intro H. split; apply (first_reason_all _ H); simpl; auto. Qed.
Lemma if_safe (b : bool) r : r <> R_SAFE -> (if b then R_SAFE else r) = R_SAFE -> b = true.
Proof. destruct b; [reflexivity | contradiction]. Qed.
Lemma depth_reason_safe fuel s c : depth_reason fuel s c = R_SAFE -> climbs fuel s c = false.
Proof. unfold depth_reason. destruct (climbs fuel s c); [discriminate | reflexivity]. Qed.

Lemma link_safe P fuel s c x :
  link_reason P fuel s c x = R_SAFE -> check_orphan P fuel s c x = None ->
  par s x = None /\ on_chain fuel s c x = Some false.
Proof.
  unfold link_reason, check_orphan. destruct (par s x); [discriminate|].
  destruct (on_chain fuel s c x) as [[|]|]; destruct (f_cycle_check P); try discriminate; auto.
Qed.

Lemma good_append P E fuel s c x :
  Inv E s -> link_reason P fuel s c x = R_SAFE -> Good E s (ch_append P E fuel s c x).
Proof.
  intros HI HR. unfold ch_append.
  destruct (validate E c (zlen (kids s c)) x) eqn:Ev; simpl; [|apply good_same; exact HI].
  destruct (check_orphan P fuel s c x) eqn:Eo; [apply good_same; exact HI|].
  destruct (link_safe _ _ _ _ _ HR Eo) as [Hx Hch].
  apply (good_link_one E fuel s c (kids s c) [] x []); try assumption.
  - symmetry. apply app_nil_r.
  - intros [|j] z Hj; discriminate.
Qed.

Lemma good_insert P E fuel s c i x :
  Inv E s -> insert_reason P fuel s c i x = R_SAFE -> Good E s (ch_insert P E fuel s c i x).
Proof.
  intros HI HR. destruct (first_reason_two _ _ HR) as [Hidx HR2].
  apply if_safe in Hidx; [|destruct (i <? 0); discriminate].
  apply Z.eqb_eq in Hidx. unfold ch_insert. rewrite Hidx.
  assert (Hk : (py_clamp (zlen (kids s c)) i <= length (kids s c))%nat).
  { pose proof (py_clamp_le (zlen (kids s c)) i) as H. unfold zlen in H at 1 3. lia. }
  set (k := py_clamp (zlen (kids s c)) i) in *.
  destruct (validate E c (Z.of_nat k) x) eqn:Ev; simpl; [|apply good_same; exact HI].
  destruct (check_orphan P fuel s c x) eqn:Eo; [apply good_same; exact HI|].
  destruct (link_safe _ _ _ _ _ HR2 Eo) as [Hx Hch].
  destruct (validate_range E c (kids s c) (range_count (Z.of_nat k) (zlen (kids s c))) (Z.of_nat k) 1) eqn:Er;
    [apply good_same; exact HI|].
  destruct (insert_at_app (kids s c) k x Hk) as [l1 [l2 [EL [Hl EI]]]]. rewrite EI.
  apply (good_link_one E fuel s c l1 [] x l2); try assumption; [rewrite Hl; exact Ev|].
  intros j z Hj.
  assert (Hn : nth_error (kids s c) (k + j) = Some z) by (rewrite EL, <- Hl, nth_error_after; exact Hj).
  assert (Hlt : (k + j < length (kids s c))%nat) by (apply nth_error_Some; congruence).
  rewrite Hl. replace (Z.of_nat (k + S j)) with (Z.of_nat (k + j) + 1) by lia.
  apply (validate_range_ok _ _ _ _ _ _ Er); [|exact Hn]. unfold zlen, range_count. lia.
Qed.

Lemma good_setitem P E fuel s c i x :
  Inv E s -> setitem_reason P fuel s c i x = R_SAFE -> Good E s (ch_setitem P E fuel s c i x).
Proof.
  intros HI HR. destruct (first_reason_two _ _ HR) as [Hidx HR2].
  apply if_safe in Hidx; [|discriminate]. unfold set_idx_ok in Hidx. unfold ch_setitem.
  destruct (validate E c (ieval (ie_set P) (zlen (kids s c)) i) x) eqn:Ev; simpl; [|apply good_same; exact HI].
  destruct (check_orphan P fuel s c x) eqn:Eo; [apply good_same; exact HI|].
  destruct (link_safe _ _ _ _ _ HR2 Eo) as [Hx Hch].
  destruct (py_norm (zlen (kids s c)) i) as [k|]; [|apply good_same; exact HI].
  apply Z.eqb_eq in Hidx. rewrite Hidx in Ev.
  destruct (nth_error (kids s c) k) as [old|] eqn:Eold; [|apply good_same; exact HI].
  destruct (nth_error_split _ _ Eold) as [l1 [l2 [EL <-]]]. rewrite EL, set_at_split.
  apply (good_link_one E fuel s c l1 [old] x l2); try assumption.
  intros j z Hj. destruct HI as [_ [_ [_ P4]]]. apply P4.
  rewrite EL, (nth_error_after l1 (old :: l2) (S j)). exact Hj.
Qed.

Lemma good_unlink_at P E fuel s c ie i :
  Inv E s -> unlink_idx_ok ie (zlen (kids s c)) i = true -> climbs fuel s c = false ->
  Good E s (ch_unlink_at P E fuel s c ie i).
Proof.
  intros HI Hidx Hc. unfold ch_unlink_at.
  destruct (validate_range E c (kids s c)
              (range_count (ieval ie (zlen (kids s c)) i + 1) (zlen (kids s c)))
              (ieval ie (zlen (kids s c)) i + 1) (-1)) eqn:Er; [apply good_same; exact HI|].
  unfold unlink_idx_ok in Hidx.
  destruct (py_norm (zlen (kids s c)) i) as [k|]; [|apply good_same; exact HI].
  destruct (nth_error (kids s c) k) as [y|] eqn:Ey; [|apply good_same; exact HI].
  apply (good_remove_at E fuel s c k y _ HI Ey Er); [|exact Hc].
  apply orb_true_iff in Hidx. destruct Hidx as [H|H]; apply Z.eqb_eq in H; auto.
Qed.

Lemma good_pop P E fuel s c i :
  Inv E s -> pop_reason P fuel s c i = R_SAFE -> Good E s (ch_pop P E fuel s c i).
Proof.
  intros HI HR. destruct (first_reason_two _ _ HR) as [Hidx HR2].
  apply if_safe in Hidx; [|discriminate].
  apply good_unlink_at; [exact HI | exact Hidx | apply depth_reason_safe; exact HR2].
Qed.

Lemma unlink_last_ok ie len : unlink_idx_ok ie len (-1) = true.
Proof.
  unfold unlink_idx_ok. destruct (py_norm len (-1)) as [k|] eqn:En; [|reflexivity].
  apply py_norm_Some in En. destruct En as [H1 [_ H3]]. specialize (H3 ltac:(lia)).
  apply orb_true_iff. right. apply Z.eqb_eq. lia.
Qed.

Lemma good_remove P E fuel s c x :
  Inv E s -> reason P E fuel s (ORemove c x) = R_SAFE -> Good E s (ch_remove P E fuel s c x).
Proof.
  intros HI HR. destruct (first_reason_two _ _ HR) as [HR1 HR2]. apply depth_reason_safe in HR2.
  unfold ch_remove.
  destruct (find_eq fuel E s (kids s c) x 0) as [j| |]; try (apply good_same; exact HI).
  destruct (validate_range E c (kids s c) (range_count (Z.of_nat j + 1) (zlen (kids s c)))
              (Z.of_nat j + 1) (-1)) eqn:Er; [apply good_same; exact HI|].
  destruct (nth_error (kids s c) j) as [y|] eqn:Ey; [|apply good_same; exact HI].
  assert (Hu : (if f_remove_unlink P then y else x) = y).
  { destruct (f_remove_unlink P); [reflexivity|].
    destruct (Nat.eqb_spec y x) as [->|]; [reflexivity | discriminate]. }
  rewrite Hu. apply (good_remove_at E fuel s c j y _ HI Ey Er); auto.
Qed.

(* what the validation loop of extend checks: every item valid at its future position and accepted
   by _check_is_orphan; with the duplicate check, no item twice *)
Lemma extend_checks_None P E fuel s c base xs : forall seen,
  extend_checks P E fuel s c base seen xs = None <->
  (forall j x, nth_error xs j = Some x ->
               validate E c (base + zlen seen + Z.of_nat j) x = true /\ check_orphan P fuel s c x = None) /\
  (f_extend_dup P = true -> NoDup xs /\ forall x, In x xs -> ~ In x seen).
Proof.
  induction xs as [|x r IH]; intro seen.
  { split; [|reflexivity]. intros _.
    split; [intros [|j] y Hn; discriminate | intros _; split; [constructor | intros y []]]. }
  assert (Hshift : forall j, base + zlen (seen ++ [x]) + Z.of_nat j = base + zlen seen + Z.of_nat (S j))
    by (intro j; unfold zlen; rewrite app_length; simpl; lia).
  cbn [extend_checks]. split.
  - destruct (validate E c (base + zlen seen) x) eqn:Ev; [|discriminate].
    destruct (check_orphan P fuel s c x) eqn:Eo; [discriminate|].
    destruct (f_extend_dup P && memb x seen) eqn:Ed; [discriminate|].
    cbn [negb]. intro H. apply IH in H. destruct H as [A B]. split.
    + intros [|j] y Hn; [inversion Hn; subst y; rewrite Z.add_0_r; auto|].
      rewrite <- Hshift. exact (A j y Hn).
    + intro Hf. rewrite Hf in Ed. apply memb_false in Ed. destruct (B Hf) as [N1 N2]. split.
      * constructor; [|exact N1]. intro Hin. apply (N2 x Hin), in_or_app. right. left. reflexivity.
      * intros y [<-|Hy]; [exact Ed|]. intro Hs. apply (N2 y Hy), in_or_app. left. exact Hs.
  - intros [A B]. destruct (A O x eq_refl) as [V0 O0]. rewrite Z.add_0_r in V0. rewrite V0, O0. cbn [negb].
    assert (Ed : f_extend_dup P && memb x seen = false).
    { destruct (f_extend_dup P); [|reflexivity]. apply memb_false, B; [reflexivity | left; reflexivity]. }
    rewrite Ed. apply IH. split.
    + intros j y Hn. rewrite Hshift. exact (A (S j) y Hn).
    + intro Hf. destruct (B Hf) as [N1 N2]. inversion N1; subst. split; [assumption|].
      intros y Hy Hin. apply in_app_or in Hin. destruct Hin as [Hin|[<-|[]]].
      * exact (N2 y (or_intror Hy) Hin).
      * contradiction.
Qed.
Lemma extend_checks_err P E fuel s c base seen xs e :
  extend_checks P E fuel s c base seen xs = Some e -> e = EGen \/ e = EHang.
Proof.
  revert seen; induction xs as [|x r IH]; intros seen H; simpl in H; [discriminate|].
  destruct (validate E c (base + zlen seen) x); simpl in H; [|inversion H; auto].
  unfold check_orphan in H.
  destruct (par s x); [inversion H; auto|].
  destruct (f_cycle_check P).
  - destruct (on_chain fuel s c x) as [[|]|]; try (inversion H; auto; fail).
    destruct (f_extend_dup P && memb x seen); [inversion H; auto | apply (IH _ H)].
  - destruct (f_extend_dup P && memb x seen); [inversion H; auto | apply (IH _ H)].
Qed.

(* extend either succeeds or fails before touching anything *)
Lemma extend_result P E fuel s c xs :
  Inv E s -> extend_reason P fuel s c xs = R_SAFE ->
  (exists s2, ch_extend P E fuel s c xs = (s2, None) /\ Inv E s2) \/
  (exists e, ch_extend P E fuel s c xs = (s, Some e) /\ (e = EGen \/ e = EHang)).
Proof.
  intros HI HR. unfold extend_reason in HR.
  apply first_reason_cons in HR. destruct HR as [HR1 HR2].
  apply first_reason_cons in HR2. destruct HR2 as [HR2 HR3]. apply depth_reason_safe in HR2.
  unfold ch_extend. destruct (extend_checks P E fuel s c (zlen (kids s c)) [] xs) eqn:Ec.
  { right. exists e. split; [reflexivity | apply (extend_checks_err _ _ _ _ _ _ _ _ _ Ec)]. }
  left. destruct (proj1 (extend_checks_None _ _ _ _ _ _ _ _) Ec) as [C1 C2].
  assert (ND : NoDup xs).
  { destruct (f_extend_dup P) eqn:Ef; [apply C2; reflexivity|].
    simpl in HR1. destruct (has_dup xs) eqn:Eh; [discriminate|]. apply has_dup_false. exact Eh. }
  assert (Hx : forall x, In x xs -> par s x = None /\ on_chain fuel s c x = Some false).
  { intros x Hin. destruct (In_nth_error _ _ Hin) as [j Hj]. destruct (C1 j x Hj) as [_ Ho].
    apply (link_safe P); [|exact Ho]. apply (first_reason_all _ HR3). apply in_map. exact Hin. }
  change (set_par_many (set_kids s c (kids s c ++ xs)) xs (Some c)) with (relink s c [] xs (kids s c ++ xs)).
  unfold signal. rewrite climbs_relink; [|intros z Hz; apply Hx, Hz | exact HR2].
  eexists. split; [reflexivity|].
  replace (kids s c ++ xs) with (kids s c ++ xs ++ []) by (rewrite app_nil_r; reflexivity).
  apply inv_splice; try assumption.
  - symmetry. apply app_nil_r.
  - intros z Hz. apply Hx, Hz.
  - intros j z Hj. rewrite app_nil_r in Hj. destruct (C1 j z Hj) as [Hv _].
    unfold zlen in Hv. simpl in Hv. rewrite Z.add_0_r, <- Nat2Z.inj_add in Hv. exact Hv.
Qed.

Lemma good_extend P E fuel s c xs :
  Inv E s -> extend_reason P fuel s c xs = R_SAFE -> Good E s (ch_extend P E fuel s c xs).
Proof.
  intros HI HR. destruct (extend_result P E fuel s c xs HI HR) as [[s2 [-> HI2]]|[e [-> _]]].
  - apply good_none. exact HI2.
  - apply good_same. exact HI.
Qed.

Lemma inv_clear E s c : Inv E s -> Inv E (relink s c (kids s c) [] []).
Proof.
  intro HI. apply (inv_splice E s c [] (kids s c) [] []); try assumption.
  - symmetry. apply app_nil_r.
  - constructor.
  - intros z [].
  - intros [|j] z Hj; discriminate.
Qed.
Lemma good_clear E fuel s c : Inv E s -> climbs fuel s c = false -> Good E s (ch_clear fuel s c).
Proof.
  intros HI Hc. apply (good_signal E s fuel (relink s c (kids s c) [] [])); [apply inv_clear; exact HI|].
  apply climbs_relink; [intros z [] | exact Hc].
Qed.

Lemma reverse_checks_ok E c len j l :
  reverse_checks E c len (Z.of_nat j) l = None ->
  forall i y, nth_error l i = Some y -> validate E c (len - Z.of_nat (j + i) - 1) y = true.
Proof.
  revert j; induction l as [|a l IH]; intros j H i y Hn; [destruct i; discriminate|].
  simpl in H. destruct (validate E c (len - Z.of_nat j - 1) a) eqn:Ev; [|discriminate].
  destruct i as [|i]; simpl in Hn.
  - inversion Hn; subst. rewrite Nat.add_0_r. exact Ev.
  - replace (Z.of_nat j + 1) with (Z.of_nat (S j)) in H by lia.
    replace (j + S i)%nat with (S j + i)%nat by lia. apply (IH (S j) H i y Hn).
Qed.
Lemma good_reverse E fuel s c : Inv E s -> climbs fuel s c = false -> Good E s (ch_reverse E fuel s c).
Proof.
  intros HI Hc. unfold ch_reverse.
  destruct (reverse_checks E c (zlen (kids s c)) 0 (kids s c)) eqn:Er; [apply good_same; exact HI|].
  apply (good_signal E s fuel (relink s c [] [] (rev (kids s c)))); [|apply climbs_relink; [intros z [] | exact Hc]].
  apply inv_relink; try assumption.
  - apply NoDup_rev, HI.
  - intro z. rewrite <- in_rev. simpl. tauto.
  - intros z [].
  - intros z [].
  - intros i z Hn.
    assert (Hi : (i < length (kids s c))%nat) by (rewrite <- rev_length; apply nth_error_Some; congruence).
    rewrite nth_error_rev in Hn by exact Hi.
    pose proof (reverse_checks_ok E c (zlen (kids s c)) 0 (kids s c) Er _ _ Hn) as Hv.
    replace (Z.of_nat i) with (zlen (kids s c) - Z.of_nat (0 + (length (kids s c) - S i)) - 1)
      by (unfold zlen; lia).
    exact Hv.
Qed.

Lemma good_detach P E fuel s x :
  Inv E s -> reason P E fuel s (ODetach x) = R_SAFE -> Good E s (nd_detach P E fuel s x).
Proof.
  intros HI HR. cbn [reason] in HR. unfold nd_detach.
  destruct (par s x) as [p|]; [|apply good_same; exact HI].
  destruct (index_of x (kids s p) 0) as [j|]; [|apply good_same; exact HI].
  apply good_pop; assumption.
Qed.
Lemma good_replace_with P E fuel s x y :
  Inv E s -> reason P E fuel s (OReplaceWith x y) = R_SAFE -> Good E s (nd_replace_with P E fuel s x y).
Proof.
  intros HI HR. cbn [reason] in HR. unfold nd_replace_with.
  destruct (par s x) as [p|]; [|apply good_same; exact HI].
  destruct (par s y); [apply good_same; exact HI|].
  destruct (index_of x (kids s p) 0) as [j|]; [|apply good_same; exact HI].
  destruct (argn E (K E p) && Nat.eqb j 0 && Nat.eqb (length (kids s p)) 1); [apply good_same; exact HI|].
  apply good_setitem; assumption.
Qed.

(* s1 is s with the children of c cleared (pointwise: the pop loop builds it node by node) *)
Definition Cleared (s : state) (c : nat) (s1 : state) : Prop :=
  (forall d, kids s1 d = if Nat.eqb d c then [] else kids s d) /\
  (forall z, par s1 z = if memb z (kids s c) then None else par s z).

Lemma py_norm_last (n : nat) : py_norm (Z.of_nat (S n)) (-1) = Some n.
Proof.
  unfold py_norm. change (-1 <? 0) with true. cbv beta iota zeta.
  rewrite Nat2Z.inj_succ.
  destruct (Z.leb_spec 0 (-1 + Z.succ (Z.of_nat n))); [|lia].
  destruct (Z.ltb_spec (-1 + Z.succ (Z.of_nat n)) (Z.succ (Z.of_nat n))); [|lia].
  cbn [andb]. f_equal. lia.
Qed.

Lemma pop_last_step P E fuel s c ie l y :
  kids s c = l ++ [y] -> pop_last_ok ie (zlen (kids s c)) = true -> climbs fuel s c = false ->
  ch_unlink_at P E fuel s c ie (-1) = (relink s c [y] [] l, None).
Proof.
  intros EL Hok Hc. unfold ch_unlink_at. unfold pop_last_ok in Hok. apply Z.leb_le in Hok.
  replace (range_count (ieval ie (zlen (kids s c)) (-1) + 1) (zlen (kids s c))) with O
    by (unfold range_count; lia).
  cbn [validate_range].
  assert (Hlen : zlen (kids s c) = Z.of_nat (S (length l))).
  { unfold zlen. rewrite EL, app_length. simpl. f_equal. lia. }
  rewrite Hlen, py_norm_last.
  assert (Hn : nth_error (kids s c) (length l) = Some y).
  { rewrite EL, nth_error_app2 by lia. rewrite Nat.sub_diag. reflexivity. }
  rewrite Hn.
  assert (ER : remove_at (length l) (kids s c) = l).
  { rewrite EL. rewrite remove_at_split. apply app_nil_r. }
  rewrite ER. unfold signal.
  change (set_kids (set_par s y None) c l) with (relink s c [y] [] l).
  rewrite climbs_relink; [reflexivity | intros z [] | exact Hc].
Qed.

Lemma cleared_nil s c : kids s c = [] -> Cleared s c s.
Proof.
  intro H. split.
  - intro d. destruct (Nat.eqb_spec d c) as [->|]; [exact H | reflexivity].
  - intro z. rewrite H. reflexivity.
Qed.

Lemma forallb_seq_le (f : nat -> bool) a n m :
  (m <= n)%nat -> forallb f (seq a n) = true -> forallb f (seq a m) = true.
Proof.
  intros Hm H. apply forallb_forall. intros x Hx. rewrite forallb_forall in H. apply H.
  apply in_seq in Hx. apply in_seq. lia.
Qed.

Lemma pop_all_loop_spec P E fuel c : forall n s,
  (length (kids s c) <= n)%nat ->
  forallb (fun l => pop_last_ok (ie_pop P) (Z.of_nat l)) (seq 1 (length (kids s c))) = true ->
  climbs fuel s c = false ->
  exists s1, nd_pop_all_loop n P E fuel s c = (s1, None) /\ Cleared s c s1.
Proof.
  induction n as [|n IH]; intros s Hn Hall Hc.
  - exists s. split; [reflexivity|]. apply cleared_nil. destruct (kids s c); [reflexivity | simpl in Hn; lia].
  - cbn [nd_pop_all_loop]. destruct (kids s c) as [|a t] eqn:EK.
    + exists s. split; [reflexivity | apply cleared_nil; exact EK].
    + destruct (@exists_last _ (a :: t) ltac:(discriminate)) as [l [y EL]].
      assert (EK' : kids s c = l ++ [y]) by congruence.
      assert (Hlen : length (kids s c) = S (length l)) by (rewrite EK', app_length; simpl; lia).
      assert (Hok : pop_last_ok (ie_pop P) (zlen (kids s c)) = true).
      { rewrite <- EK in Hall. rewrite forallb_forall in Hall. unfold zlen. apply Hall. apply in_seq. lia. }
      unfold ch_pop. rewrite (pop_last_step P E fuel s c (ie_pop P) l y EK' Hok Hc).
      set (s' := relink s c [y] [] l).
      assert (Hk' : kids s' c = l) by (unfold s'; rewrite kids_relink, Nat.eqb_refl; reflexivity).
      destruct (IH s') as [s1 [E1 [C1 C2]]].
      * rewrite Hk'. rewrite <- EK in Hn. lia.
      * rewrite Hk'. rewrite <- EK in Hall. apply (forallb_seq_le _ 1 (length (kids s c))); [lia | exact Hall].
      * apply climbs_relink; [intros z [] | exact Hc].
      * exists s1. split; [exact E1|]. split.
        -- intro d. rewrite C1. unfold s'. rewrite kids_relink. destruct (Nat.eqb d c); reflexivity.
        -- intro z. rewrite C2, Hk'. unfold s'. rewrite par_relink, EK', memb_app. simpl.
           rewrite orb_false_r. destruct (memb z l); simpl; [reflexivity|]. destruct (Nat.eqb z y); reflexivity.
Qed.

Lemma pop_all_spec P E fuel s c :
  pop_all_reason P (length (kids s c)) = R_SAFE -> climbs fuel s c = false ->
  exists s1, nd_pop_all P E fuel s c = (s1, None) /\ Cleared s c s1.
Proof.
  intros HR Hc. unfold nd_pop_all. apply pop_all_loop_spec; [lia | | exact Hc].
  apply if_safe in HR; [exact HR | discriminate].
Qed.

Lemma cleared_inv E s c s1 : Inv E s -> Cleared s c s1 -> Inv E s1.
Proof.
  intros HI [C1 C2]. apply (Inv_state_eq E (relink s c (kids s c) [] [])); [|apply inv_clear; exact HI].
  split; [intro d; rewrite C1, kids_relink | intro z; rewrite C2, par_relink]; reflexivity.
Qed.
Lemma cleared_cut s c s1 : Cleared s c s1 -> par_cut s s1.
Proof. intros [_ C2] z. rewrite C2. destruct (memb z (kids s c)); [right | left]; reflexivity. Qed.

Lemma good_pop_all P E fuel s c :
  Inv E s -> reason P E fuel s (OPopAll c) = R_SAFE -> Good E s (nd_pop_all P E fuel s c).
Proof.
  intros HI HR. destruct (first_reason_two _ _ HR) as [HR1 HR2]. apply depth_reason_safe in HR2.
  destruct (pop_all_spec P E fuel s c HR1 HR2) as [s1 [E1 HC]]. rewrite E1.
  apply good_none. exact (cleared_inv E s c s1 HI HC).
Qed.

(* the repaired setter's `except` branch: extending the emptied container by its old children
   passes every check (they were valid where they stood, are orphans now, and no child of c is an
   ancestor of c) and rebuilds the state *)
Lemma restore_ok P E fuel s c s1 :
  Inv E s -> Cleared s c s1 -> climbs fuel s c = false ->
  state_eq (fst (ch_extend P E fuel s1 c (kids s c))) s.
Proof.
  intros HI [C1 C2] Hc. pose proof HI as [P1 [P2 [P3 P4]]].
  assert (K1 : kids s1 c = []) by (rewrite C1, Nat.eqb_refl; reflexivity).
  unfold ch_extend. rewrite K1.
  assert (Ec : extend_checks P E fuel s1 c (zlen (@nil nat)) [] (kids s c) = None).
  { apply extend_checks_None. split; [|intros _; split; [apply P2 | intros x _ []]].
    intros j x Hn. split.
    - unfold validate. simpl. apply P4. exact Hn.
    - assert (Hin : In x (kids s c)) by (eapply nth_error_In; exact Hn).
      unfold check_orphan. rewrite C2. rewrite (proj2 (memb_In x (kids s c)) Hin).
      destruct (f_cycle_check P); [|reflexivity].
      rewrite (on_chain_cut fuel s s1 c x); [reflexivity | | ].
      + apply (cleared_cut s c). split; assumption.
      + apply no_child_on_chain; [apply P1; exact Hin | exact Hc]. }
  rewrite Ec. unfold signal. cbn [fst]. split.
  - intro d. rewrite kids_set_par_many, kids_set_kids. destruct (Nat.eqb_spec d c) as [->|Hd]; [reflexivity|].
    rewrite C1. destruct (Nat.eqb_spec d c); [contradiction | reflexivity].
  - intro z. rewrite par_set_par_many, par_set_kids, C2.
    destruct (memb z (kids s c)) eqn:Em; [|reflexivity].
    symmetry. apply P1. apply memb_In. exact Em.
Qed.

Lemma good_set_children P E fuel s c xs :
  Inv E s -> reason P E fuel s (OSetChildren c xs) = R_SAFE -> Good E s (nd_set_children P E fuel s c xs).
Proof.
  intros HI HR. cbn [reason] in HR.
  apply first_reason_cons in HR. destruct HR as [HR1 HR2].
  apply first_reason_cons in HR2. destruct HR2 as [HR2 HR3]. apply depth_reason_safe in HR2.
  destruct (first_reason_two _ _ HR3) as [HR3' HR4].
  destruct (pop_all_spec P E fuel s c HR1 HR2) as [s1 [E1 HC]].
  rewrite E1 in HR4. cbn [fst] in HR4.
  pose proof (cleared_inv E s c s1 HI HC) as HI1.
  unfold nd_set_children in *. rewrite E1 in *.
  destruct (extend_result P E fuel s1 c xs HI1 HR4) as [[s2 [Ex HI2]]|[e [Ex He]]]; rewrite Ex in *.
  - apply good_none. exact HI2.
  - destruct (f_setter_atomic P).
    + assert (G : Good E s (fst (ch_extend P E fuel s1 c (kids s c)), Some e)).
      { pose proof (restore_ok P E fuel s c s1 HI HC HR2) as SE. split.
        - apply (Inv_state_eq E s); [apply state_eq_sym; exact SE | exact HI].
        - intros _. exact SE. }
      destruct He as [-> | ->]; exact G.
    + exfalso. destruct He as [-> | ->]; simpl in HR3'; discriminate.
Qed.

Theorem step_safe_ P E fuel s o :
  Inv E s -> op_safe P E fuel s o = true ->
  Inv E (fst (step P E fuel s o)) /\
  (snd (step P E fuel s o) <> None -> state_eq (fst (step P E fuel s o)) s).
Proof.
  intros HI HS. unfold op_safe in HS. apply Nat.eqb_eq in HS. change (Good E s (step P E fuel s o)).
  destruct o as [c x|c i x|c i x|c i|c x|c i|c|c xs|c|c|c|c x [i|]|x|x y|c|c xs]; cbn [step].
  - apply good_append; assumption.
  - apply good_insert; assumption.
  - apply good_setitem; assumption.
  - destruct (first_reason_two _ _ HS) as [H1 H2]. apply if_safe in H1; [|discriminate].
    apply good_unlink_at; [exact HI | exact H1 | apply depth_reason_safe; exact H2].
  - apply good_remove; assumption.
  - apply good_pop; assumption.
  - apply good_unlink_at; [exact HI | apply unlink_last_ok | apply depth_reason_safe; exact HS].
  - apply good_extend; assumption.
  - apply good_clear; [exact HI | apply depth_reason_safe; exact HS].
  - apply good_reverse; [exact HI | apply depth_reason_safe; exact HS].
  - apply good_same; exact HI.
  - apply good_insert; assumption.
  - apply good_append; assumption.
  - apply good_detach; assumption.
  - apply good_replace_with; assumption.
  - apply good_pop_all; assumption.
  - apply good_set_children; assumption.
Qed.

Lemma cmp_eqb_eq a b : cmp_eqb a b = true -> a = b.
Proof. destruct a, b; simpl; intro H; try discriminate; reflexivity. Qed.
Lemma iexpr_eqb_eq : forall a b, iexpr_eqb a b = true -> a = b.
Proof.
  induction a; destruct b; simpl; intro H; try discriminate; try reflexivity;
    repeat (apply andb_true_iff in H; destruct H as [H ?]); f_equal;
    auto using cmp_eqb_eq, (proj1 (Z.eqb_eq _ _)).
Qed.
Lemma P_okb_fixed P : P_okb P = true -> P = P_fixed.
Proof.
  destruct P as [a b c d f1 f2 f3 f4]. unfold P_okb. simpl. intro H.
  repeat (apply andb_true_iff in H; destruct H as [H ?]).
  apply iexpr_eqb_eq in H. repeat match goal with X : iexpr_eqb _ _ = true |- _ => apply iexpr_eqb_eq in X end.
  subst. reflexivity.
Qed.

Lemma first_reason_safe l : (forall r, In r l -> r = R_SAFE) -> first_reason l = R_SAFE.
Proof.
  induction l as [|a l IH]; intro H; [reflexivity|]. simpl.
  rewrite (H a (or_introl eq_refl)). simpl. apply IH. intros r Hr. apply H. right. exact Hr.
Qed.
Lemma depth_reason_of fuel s c : climbs fuel s c = false -> depth_reason fuel s c = R_SAFE.
Proof. intro H. unfold depth_reason. rewrite H. reflexivity. Qed.
Lemma fixed_link fuel s c x : link_reason P_fixed fuel s c x = R_SAFE.
Proof. unfold link_reason. destruct (on_chain fuel s c x) as [[|]|]; reflexivity. Qed.

(* the repaired index expressions compute the position Python uses *)
Lemma norm_eval len i k : py_norm len i = Some k -> ieval ie_norm len i = Z.of_nat k.
Proof.
  intro En. apply py_norm_Some in En. destruct En as [_ [H2 H3]].
  unfold ie_norm. cbn [ieval cmp_eval]. destruct (Z.leb_spec 0 i); lia.
Qed.
Lemma norm_unlink_ok len i : unlink_idx_ok ie_norm len i = true.
Proof.
  unfold unlink_idx_ok. destruct (py_norm len i) as [k|] eqn:En; [|reflexivity].
  rewrite (norm_eval _ _ _ En), Z.eqb_refl. reflexivity.
Qed.
Lemma norm_set_ok len i : set_idx_ok ie_norm len i = true.
Proof.
  unfold set_idx_ok. destruct (py_norm len i) as [k|] eqn:En; [|reflexivity].
  rewrite (norm_eval _ _ _ En). apply Z.eqb_refl.
Qed.
Lemma clamp_insert_ok len i : 0 <= len -> insert_idx_ok ie_clamp len i = true.
Proof.
  intro H. unfold insert_idx_ok, py_clamp. apply Z.eqb_eq. unfold ie_clamp, ie_norm. cbn [ieval cmp_eval].
  destruct (Z.leb_spec 0 i); destruct (Z.ltb_spec i 0); try lia; rewrite Z2Nat.id; lia.
Qed.
Lemma fixed_pop_all n : pop_all_reason P_fixed n = R_SAFE.
Proof.
  unfold pop_all_reason.
  replace (forallb (fun l => pop_last_ok (ie_pop P_fixed) (Z.of_nat l)) (seq 1 n)) with true; [reflexivity|].
  symmetry. apply forallb_forall. intros l _. unfold pop_last_ok. apply Z.leb_le.
  simpl. lia.
Qed.

Lemma fixed_insert fuel s c i x : insert_reason P_fixed fuel s c i x = R_SAFE.
Proof.
  unfold insert_reason. cbn [ie_insert P_fixed]. rewrite clamp_insert_ok by (unfold zlen; lia).
  rewrite fixed_link. reflexivity.
Qed.
Lemma fixed_setitem fuel s c i x : setitem_reason P_fixed fuel s c i x = R_SAFE.
Proof. unfold setitem_reason. cbn [ie_set P_fixed]. rewrite norm_set_ok, fixed_link. reflexivity. Qed.
Lemma fixed_pop fuel s c i : climbs fuel s c = false -> pop_reason P_fixed fuel s c i = R_SAFE.
Proof.
  intro H. unfold pop_reason. cbn [ie_pop P_fixed]. rewrite norm_unlink_ok, depth_reason_of by exact H.
  reflexivity.
Qed.
Lemma fixed_extend fuel s c xs : climbs fuel s c = false -> extend_reason P_fixed fuel s c xs = R_SAFE.
Proof.
  intro H. unfold extend_reason. apply first_reason_safe. intros r [<-|[<-|Hr]].
  - reflexivity.
  - apply depth_reason_of. exact H.
  - apply in_map_iff in Hr. destruct Hr as [x [<- _]]. apply fixed_link.
Qed.

Lemma fixed_reason E fuel s o : depth_ok fuel s o = true -> reason P_fixed E fuel s o = R_SAFE.
Proof.
  intro HD.
  destruct o as [c x|c i x|c i x|c i|c x|c i|c|c xs|c|c|c|c x [i|]|x|x y|c|c xs]; cbn [reason depth_ok] in *;
    try (apply negb_true_iff in HD).
  - apply fixed_link.
  - apply fixed_insert.
  - apply fixed_setitem.
  - cbn [ie_del P_fixed]. rewrite norm_unlink_ok, depth_reason_of by exact HD. reflexivity.
  - rewrite depth_reason_of by exact HD. destruct (find_eq fuel E s (kids s c) x 0); reflexivity.
  - apply fixed_pop. exact HD.
  - apply depth_reason_of; exact HD.
  - apply fixed_extend. exact HD.
  - apply depth_reason_of; exact HD.
  - apply depth_reason_of; exact HD.
  - reflexivity.
  - apply fixed_insert.
  - apply fixed_link.
  - destruct (par s x) as [p|]; [|reflexivity]. apply negb_true_iff in HD.
    destruct (index_of x (kids s p) 0) as [j|]; [apply fixed_pop; exact HD | reflexivity].
  - destruct (par s x) as [p|]; [|reflexivity].
    destruct (index_of x (kids s p) 0) as [j|]; [apply fixed_setitem | reflexivity].
  - rewrite fixed_pop_all, depth_reason_of by exact HD. reflexivity.
  - rewrite fixed_pop_all, depth_reason_of by exact HD. cbn [first_reason Nat.eqb R_SAFE].
    rewrite fixed_extend; [reflexivity|].
    destruct (pop_all_spec P_fixed E fuel s c (fixed_pop_all _) HD) as [s1 [E1 HC]]. rewrite E1. cbn [fst].
    apply (climbs_cut fuel s); [apply (cleared_cut _ _ _ HC) | exact HD].
Qed.

Lemma inv_set_kids_same E s c l : l = kids s c -> Inv E s -> Inv E (set_kids s c l).
Proof.
  intros -> HI. apply (Inv_state_eq E s); [|exact HI]. split; [|reflexivity].
  intro d. rewrite kids_set_kids. destruct (Nat.eqb_spec d c) as [->|]; reflexivity.
Qed.

(* as found, `+=` and `*=` are plain list operations: inside the safe fragment only when they leave
   the list as it is *)
Theorem step2_safe_ P E fuel s o :
  Inv E s -> op_safe2 P E fuel s o = true ->
  Inv E (fst (step2 P E fuel s o)) /\
  (snd (step2 P E fuel s o) <> None -> state_eq (fst (step2 P E fuel s o)) s).
Proof.
  intros HI HS. unfold op_safe2 in HS. apply Nat.eqb_eq in HS.
  destruct o as [o|c xs|c n|c|c xs|c]; cbn [step2 reason2] in *; try (apply good_same; exact HI).
  - apply step_safe_; [exact HI | unfold op_safe; rewrite HS; reflexivity].
  - destruct (f_iadd P); [apply (good_extend (base P) E fuel s c xs HI HS)|].
    destruct xs; [|discriminate]. apply good_none, inv_set_kids_same; [apply app_nil_r | exact HI].
  - destruct (f_imul P); [apply good_same; exact HI|]. apply good_none, inv_set_kids_same; [|exact HI].
    destruct (Z.eqb_spec n 1) as [->|Hn]; simpl in HS; [apply app_nil_r|].
    destruct (kids s c); [|discriminate]. induction (Z.to_nat n); simpl; auto.
Qed.

Lemma okb2_reason P E fuel s o : P2_okb P = true -> depth_ok2 fuel s o = true -> reason2 P E fuel s o = R_SAFE.
Proof.
  unfold P2_okb. intros HP HD. apply andb_true_iff in HP. destruct HP as [HP H3].
  apply andb_true_iff in HP. destruct HP as [HP H2]. apply P_okb_fixed in HP.
  destruct o as [o|c xs|c n|c|c xs|c]; cbn [reason2 depth_ok2] in *; try reflexivity.
  - rewrite HP. apply fixed_reason. exact HD.
  - rewrite H2, HP. apply fixed_extend. apply negb_true_iff. exact HD.
  - rewrite H3. reflexivity.
Qed.
