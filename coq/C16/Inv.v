(* C16 -- association lists, lookup = innermost-first search, table invariants and their
   preservation by the primitive updates (add, rename, remove, heap writes). *)
From Coq Require Import List Arith Bool String Ascii NArith Lia Permutation.
Import ListNotations.
From PV Require Import C16.GenTables C16.Model C16.Names.
Open Scope string_scope.
Open Scope list_scope.

Lemma find_key_In : forall k l s, find_key k l = Some s -> In (k, s) l.
Proof.
  induction l as [|[k' s'] l IH]; intros s H; simpl in H; [discriminate|].
  destruct (String.eqb_spec k k') as [E|E].
  - inversion H; subst. left; reflexivity.
  - right. apply IH. exact H.
Qed.

Lemma find_key_None : forall k l, find_key k l = None <-> ~ In k (map fst l).
Proof.
  induction l as [|[k' s'] l IH]; simpl; [tauto|].
  destruct (String.eqb_spec k k') as [E|E].
  - subst. split; [discriminate | intros H; exfalso; apply H; left; reflexivity].
  - rewrite IH. split; [intros H [H'|H']; [congruence | tauto] | tauto].
Qed.

Lemma has_key_true : forall k l, has_key k l = true <-> In k (map fst l).
Proof.
  intros k l. unfold has_key. destruct (find_key k l) eqn:E.
  - split; [intros _ | reflexivity]. apply find_key_In in E. apply in_map_iff. exists (k, s). auto.
  - apply find_key_None in E. split; [discriminate | tauto].
Qed.

Lemma has_key_false : forall k l, has_key k l = false <-> ~ In k (map fst l).
Proof.
  intros k l. rewrite <- has_key_true. destruct (has_key k l); split; intro H; congruence.
Qed.

Lemma find_key_app : forall k l1 l2,
    find_key k (l1 ++ l2) = match find_key k l1 with Some s => Some s | None => find_key k l2 end.
Proof.
  induction l1 as [|[k' s'] l1 IH]; intros l2; simpl; [reflexivity|].
  destruct (String.eqb k k'); [reflexivity | apply IH].
Qed.

Lemma find_key_NoDup_In : forall k s l, NoDup (map fst l) -> In (k, s) l -> find_key k l = Some s.
Proof.
  induction l as [|[k' s'] l IH]; intros Hnd Hin; simpl in *; [tauto|].
  inversion Hnd as [|? ? Hnot Hnd']; subst.
  destruct Hin as [Hin|Hin].
  - inversion Hin; subst. rewrite String.eqb_refl. reflexivity.
  - destruct (String.eqb_spec k k') as [E|E]; [|apply IH; assumption].
    subst. exfalso. apply Hnot. apply in_map_iff. exists (k', s). auto.
Qed.

Lemma del_key_In : forall k k' s l, In (k', s) (del_key k l) <-> In (k', s) l /\ k <> k'.
Proof.
  intros k k' s l. unfold del_key. rewrite filter_In. simpl.
  destruct (String.eqb_spec k k') as [E|E]; simpl; split; intros [H1 H2]; try split; auto; try congruence.
Qed.

Lemma del_key_keys : forall k l x, In x (map fst (del_key k l)) <-> In x (map fst l) /\ k <> x.
Proof.
  intros k l x. split.
  - intros H. apply in_map_iff in H as [[k' s] [E H]]. simpl in E. subst.
    apply del_key_In in H as [H1 H2]. split; [apply in_map_iff; exists (x, s); auto | exact H2].
  - intros [H Hne]. apply in_map_iff in H as [[k' s] [E H]]. simpl in E. subst.
    apply in_map_iff. exists (x, s). split; [reflexivity | apply del_key_In; auto].
Qed.

Lemma NoDup_map_filter {A B} (f : A -> B) (p : A -> bool) (l : list A) :
  NoDup (map f l) -> NoDup (map f (filter p l)).
Proof.
  induction l as [|x l IH]; simpl; intros H; [constructor|].
  apply NoDup_cons_iff in H as [Hn Hd].
  destruct (p x); simpl; [constructor; [|auto] | auto].
  intro Hin. apply Hn. apply in_map_iff in Hin as [y [E Hy]]. apply filter_In in Hy as [Hy _].
  apply in_map_iff. exists y; auto.
Qed.

Lemma del_key_NoDup_keys : forall k l, NoDup (map fst l) -> NoDup (map fst (del_key k l)).
Proof. intros. apply NoDup_map_filter. assumption. Qed.

Lemma del_key_NoDup_sids : forall k l, NoDup (map snd l) -> NoDup (map snd (del_key k l)).
Proof. intros. apply NoDup_map_filter. assumption. Qed.

Lemma filter_all {A} (p : A -> bool) (l : list A) :
  (forall x, In x l -> p x = true) -> filter p l = l.
Proof.
  induction l as [|x l IH]; simpl; intros H; [reflexivity|].
  rewrite (H x (or_introl eq_refl)). f_equal. apply IH. intros y Hy. apply H. right; exact Hy.
Qed.

Lemma del_key_perm : forall k s l, NoDup (map fst l) -> In (k, s) l ->
                                   Permutation l ((k, s) :: del_key k l).
Proof.
  induction l as [|[k' s'] l IH]; intros Hnd Hin; simpl in *; [tauto|].
  inversion Hnd as [|? ? Hnot Hnd']; subst.
  destruct Hin as [Hin|Hin].
  - inversion Hin; subst. rewrite String.eqb_refl. simpl.
    assert (E : del_key k l = l).
    { unfold del_key. apply filter_all. intros [k2 s2] H2. simpl.
      destruct (String.eqb_spec k k2) as [E|E]; [|reflexivity].
      subst. exfalso. apply Hnot. apply in_map_iff. exists (k2, s2). auto. }
    rewrite E. apply Permutation_refl.
  - destruct (String.eqb_spec k k') as [E|E].
    + subst. exfalso. apply Hnot. apply in_map_iff. exists (k', s). auto.
    + simpl. eapply perm_trans; [apply perm_skip; apply IH; assumption | apply perm_swap].
Qed.

Lemma mem_sid_In : forall s l, mem_sid s l = true <-> In s l.
Proof.
  intros s l; induction l as [|x l IH]; simpl; [split; [discriminate | tauto]|].
  destruct (Nat.eqb_spec s x) as [E|E].
  - subst; split; auto.
  - rewrite IH. split; [auto | intros [H|H]; [congruence | exact H]].
Qed.

Lemma mem_sid_false : forall s l, mem_sid s l = false <-> ~ In s l.
Proof. intros s l. rewrite <- mem_sid_In. destruct (mem_sid s l); split; intro H; congruence. Qed.

Lemma NoDup_app_one {A} (l : list A) (x : A) : NoDup l -> ~ In x l -> NoDup (l ++ [x]).
Proof.
  intros Hl Hx. apply NoDup_rev in Hl. rewrite <- (rev_involutive (l ++ [x])).
  apply NoDup_rev. rewrite rev_app_distr. simpl. constructor; [rewrite <- in_rev; exact Hx | exact Hl].
Qed.

Lemma find_key_add_missing : forall k l acc,
    find_key k (add_missing acc l) =
    match find_key k acc with Some s => Some s | None => find_key k l end.
Proof.
  induction l as [|[k' s'] l IH]; intros acc; simpl.
  - destruct (find_key k acc); reflexivity.
  - destruct (has_key k' acc) eqn:Hk.
    + rewrite IH. destruct (find_key k acc) eqn:E; [reflexivity|].
      destruct (String.eqb_spec k k') as [E'|E']; [|reflexivity].
      subst. unfold has_key in Hk. rewrite E in Hk. discriminate.
    + rewrite IH, find_key_app. simpl. destruct (find_key k acc) eqn:E; [reflexivity|].
      destruct (String.eqb k k'); reflexivity.
Qed.

(* [f] is the dictionary searched: t_syms for lookup, t_tags for lookup_with_tag *)
Section Chain.
  Variable f : table -> list (string * sid).

  Fixpoint first_in (k : string) (Ts : list table) : option sid :=
    match Ts with
    | [] => None
    | T :: r => match find_key k (f T) with Some s => Some s | None => first_in k r end
    end.

  (* the merged dictionary built by get_symbols()/get_tags() answers like the innermost-first search *)
  Lemma find_key_merged : forall k Ts acc,
      find_key k (fold_left (fun acc T => add_missing acc (f T)) Ts acc) =
      match find_key k acc with Some s => Some s | None => first_in k Ts end.
  Proof.
    induction Ts as [|T Ts IH]; intros acc; simpl.
    - destruct (find_key k acc); reflexivity.
    - rewrite IH, find_key_add_missing. destruct (find_key k acc); reflexivity.
  Qed.

  Lemma first_in_none : forall k Ts,
      first_in k Ts = None <-> forall P, In P Ts -> ~ In k (map fst (f P)).
  Proof.
    induction Ts as [|T Ts IH]; simpl; [split; [intros _ P [] | reflexivity]|].
    destruct (find_key k (f T)) eqn:E.
    - split; [discriminate|]. intros H. exfalso. apply (H T (or_introl eq_refl)).
      apply find_key_In in E. apply in_map_iff. exists (k, s); auto.
    - rewrite IH. apply find_key_None in E. split.
      + intros H P [HP|HP]; [subst; exact E | apply H; exact HP].
      + intros H P HP. apply H. right; exact HP.
  Qed.

  Lemma first_in_spec : forall k Ts s,
      first_in k Ts = Some s <->
      exists pre T post, Ts = pre ++ T :: post /\ (forall P, In P pre -> ~ In k (map fst (f P))) /\
                         find_key k (f T) = Some s.
  Proof.
    intros k Ts s. split.
    - revert s. induction Ts as [|T Ts IH]; intros s H; simpl in H; [discriminate|].
      destruct (find_key k (f T)) eqn:E.
      + inversion H; subst. exists [], T, Ts. split; [reflexivity|]. split; [intros ? []|exact E].
      + destruct (IH s H) as [pre [T0 [post [E0 [Hpre Hf]]]]]. exists (T :: pre), T0, post. subst Ts.
        split; [reflexivity|]. split; [|exact Hf]. apply find_key_None in E.
        intros P [HP|HP]; [subst; exact E | apply Hpre; exact HP].
    - intros [pre [T [post [E [Hpre Hf]]]]]. subst Ts. induction pre as [|P pre IH]; simpl.
      + rewrite Hf. reflexivity.
      + rewrite (proj2 (find_key_None k (f P))) by (apply Hpre; left; reflexivity).
        apply IH. intros Q HQ. apply Hpre. right; exact HQ.
  Qed.
End Chain.

Lemma get_symbols_find : forall k T anc, find_key k (get_symbols T anc) = first_in t_syms k (T :: anc).
Proof. intros. apply (find_key_merged t_syms k (T :: anc) []). Qed.

Lemma get_tags_find : forall k T anc, find_key k (get_tags T anc) = first_in t_tags k (T :: anc).
Proof. intros. apply (find_key_merged t_tags k (T :: anc) []). Qed.

Lemma get_symbols_keys : forall k T anc,
    In k (map fst (get_symbols T anc)) <-> exists T', In T' (T :: anc) /\ In k (keys T').
Proof.
  intros k T anc. rewrite <- has_key_true. unfold has_key. rewrite get_symbols_find.
  destruct (first_in t_syms k (T :: anc)) eqn:E.
  - split; [intros _ | reflexivity].
    apply first_in_spec in E as [pre [T' [post [H [_ Hf]]]]]. exists T'. split.
    + rewrite H. apply in_or_app; right; left; reflexivity.
    + apply find_key_In in Hf. unfold keys. apply in_map_iff. exists (k, s); auto.
  - split; [discriminate|]. intros [T' [HT' Hk]]. exfalso.
    rewrite first_in_none in E. apply (E T' HT' Hk).
Qed.

Lemma get_tags_keys_self : forall k T anc,
    In k (map fst (t_tags T)) -> has_key k (get_tags T anc) = true.
Proof.
  intros k T anc H. unfold has_key. rewrite get_tags_find. simpl.
  destruct (find_key k (t_tags T)) eqn:E; [reflexivity|]. apply find_key_None in E. contradiction.
Qed.

Lemma hset_length : forall h s v, List.length (hset h s v) = List.length h.
Proof. induction h as [|x h IH]; intros [|s] v; simpl; auto. Qed.

Lemma hget_hset_same : forall h s v, s < List.length h -> hget (hset h s v) s = v.
Proof.
  unfold hget. induction h as [|x h IH]; intros [|s] v H; simpl in *; try lia; [reflexivity|].
  apply IH. lia.
Qed.

Lemma hget_hset_other : forall h s s' v, s <> s' -> hget (hset h s v) s' = hget h s'.
Proof.
  unfold hget. induction h as [|x h IH]; intros [|s] [|s'] v H; simpl in *; try congruence; try reflexivity.
  apply IH. congruence.
Qed.

Lemma hget_app_old : forall h v s, s < List.length h -> hget (h ++ [v]) s = hget h s.
Proof. intros. unfold hget. apply app_nth1. assumption. Qed.

Lemma hget_app_new : forall h v, hget (h ++ [v]) (List.length h) = v.
Proof. intros. unfold hget. rewrite app_nth2; [|lia]. rewrite Nat.sub_diag. reflexivity. Qed.

Definition names_ok (h : heap) (T : table) : Prop :=
  forall k s, In (k, s) (t_syms T) -> k = normalize (s_name (hget h s)) /\ s < List.length h.

Definition TOK (h : heap) (T : table) : Prop :=
  NoDup (keys T) /\ NoDup (sids T) /\ names_ok h T.

Definition tags_ok (T : table) : Prop :=
  NoDup (map fst (t_tags T)) /\ forall tg s, In (tg, s) (t_tags T) -> In s (sids T).

Lemma in_sids : forall T s, In s (sids T) <-> exists k, In (k, s) (t_syms T).
Proof.
  intros T s. unfold sids. rewrite in_map_iff. split.
  - intros [[k s'] [E H]]. simpl in E. subst. eauto.
  - intros [k H]. exists (k, s). auto.
Qed.

Lemma in_keys : forall T k, In k (keys T) <-> exists s, In (k, s) (t_syms T).
Proof.
  intros T k. unfold keys. rewrite in_map_iff. split.
  - intros [[k' s] [E H]]. simpl in E. subst. eauto.
  - intros [s H]. exists (k, s). auto.
Qed.

Lemma names_ok_frame : forall h h' T,
    names_ok h T -> List.length h <= List.length h' ->
    (forall s, In s (sids T) -> s_name (hget h' s) = s_name (hget h s)) -> names_ok h' T.
Proof.
  intros h h' T H Hlen Hn k s Hin. destruct (H k s Hin) as [E Hs]. split; [|lia].
  rewrite Hn; [exact E | apply in_sids; eauto].
Qed.

Lemma TOK_frame : forall h h' T,
    TOK h T -> List.length h <= List.length h' ->
    (forall s, In s (sids T) -> s_name (hget h' s) = s_name (hget h s)) -> TOK h' T.
Proof.
  intros h h' T [H1 [H2 H3]] Hl Hn. split; [exact H1|]. split; [exact H2|].
  eapply names_ok_frame; eauto.
Qed.

Lemma TOK_entry_unique : forall h T k s k' s',
    TOK h T -> In (k, s) (t_syms T) -> In (k', s') (t_syms T) -> s = s' -> k = k'.
Proof.
  intros h T k s k' s' [_ [_ Hn]] H1 H2 E. subst.
  destruct (Hn _ _ H1) as [E1 _]. destruct (Hn _ _ H2) as [E2 _]. congruence.
Qed.

Lemma TOK_find : forall h T s, TOK h T -> In s (sids T) ->
                               find_key (normalize (s_name (hget h s))) (t_syms T) = Some s.
Proof.
  intros h T s [Hk [_ Hn]] Hin. apply in_sids in Hin as [k Hin].
  destruct (Hn _ _ Hin) as [E _]. subst. apply find_key_NoDup_In; assumption.
Qed.

Lemma TOK_names_unique : forall h T k1 s1 k2 s2,
    TOK h T -> In (k1, s1) (t_syms T) -> In (k2, s2) (t_syms T) ->
    normalize (s_name (hget h s1)) = normalize (s_name (hget h s2)) -> s1 = s2.
Proof.
  intros h T k1 s1 k2 s2 [Hk [_ Hn]] H1 H2 E.
  destruct (Hn _ _ H1) as [E1 _]. destruct (Hn _ _ H2) as [E2 _].
  assert (k1 = k2) by congruence. subst k2.
  pose proof (find_key_NoDup_In _ _ _ Hk H1) as F1.
  pose proof (find_key_NoDup_In _ _ _ Hk H2) as F2. congruence.
Qed.

(* the table invariant, as property (1) states it *)
Lemma TOK_unique_names : forall h T,
    TOK h T ->
    NoDup (keys T) /\ NoDup (sids T) /\
    (forall k s, In (k, s) (t_syms T) -> k = normalize (s_name (hget h s))) /\
    (forall k1 s1 k2 s2, In (k1, s1) (t_syms T) -> In (k2, s2) (t_syms T) ->
                         normalize (s_name (hget h s1)) = normalize (s_name (hget h s2)) -> s1 = s2).
Proof.
  intros h T HT. split; [apply HT|]. split; [apply HT|]. split.
  - intros k s Hin. apply (proj2 (proj2 HT) _ _ Hin).
  - intros. eapply TOK_names_unique; eauto.
Qed.

Lemma tbl_add_spec : forall h T anc s tag T',
    tbl_add h T anc s tag = inl T' ->
    let key := normalize (s_name (hget h s)) in
    ~ In key (keys T) /\ t_syms T' = (t_syms T ++ [(key, s)])%list /\ t_args T' = t_args T /\
    ((tag = "" /\ t_tags T' = t_tags T) \/
     (tag <> "" /\ has_key tag (get_tags T anc) = false /\ t_tags T' = (t_tags T ++ [(tag, s)])%list)).
Proof.
  intros h T anc s tag T' H key. unfold tbl_add in H. fold key in H.
  destruct (has_key key (t_syms T)) eqn:Hk; [discriminate|].
  apply has_key_false in Hk. split; [exact Hk|].
  destruct (String.eqb_spec tag "") as [E|E].
  - inversion H; subst; simpl. auto.
  - destruct (has_key tag (get_tags T anc)) eqn:Ht; [discriminate|].
    inversion H; subst; simpl. split; [reflexivity|]. split; [reflexivity|]. right. auto.
Qed.

Lemma tbl_add_err : forall h T anc s tag e, tbl_add h T anc s tag = inr e -> e = EKey.
Proof.
  intros h T anc s tag e H. unfold tbl_add in H.
  destruct (has_key _ (t_syms T)); [inversion H; reflexivity|].
  destruct (String.eqb tag ""); [discriminate|].
  destruct (has_key tag _); [inversion H; reflexivity | discriminate].
Qed.

Lemma tbl_add_TOK : forall h T anc s tag T',
    tbl_add h T anc s tag = inl T' -> TOK h T -> ~ In s (sids T) -> s < List.length h ->
    TOK h T' /\ sids T' = (sids T ++ [s])%list.
Proof.
  intros h T anc s tag T' H [Hk [Hs Hn]] Hns Hlt.
  apply tbl_add_spec in H as [Hkey [Hsyms [_ _]]].
  unfold TOK, keys, sids, names_ok. rewrite Hsyms, !map_app. simpl.
  split; [|reflexivity]. split; [|split].
  - apply NoDup_app_one; assumption.
  - apply NoDup_app_one; assumption.
  - intros k s0 Hin. apply in_app_or in Hin as [Hin|[Hin|[]]]; [apply Hn; exact Hin|].
    inversion Hin; subst. auto.
Qed.

Lemma tbl_add_tags_ok : forall h T anc s tag T',
    tbl_add h T anc s tag = inl T' -> tags_ok T -> tags_ok T'.
Proof.
  intros h T anc s tag T' H [Hnd Hin].
  apply tbl_add_spec in H as [_ [Hsyms [_ Ht]]].
  assert (Hsub : forall x, In x (sids T) -> In x (sids T')).
  { intros x Hx. unfold sids. rewrite Hsyms, map_app. apply in_or_app. left. exact Hx. }
  destruct Ht as [[_ Ht]|[Hne [Hfree Ht]]]; unfold tags_ok; rewrite Ht.
  - split; [exact Hnd | intros tg s0 H0; apply Hsub; eapply Hin; eauto].
  - split.
    + rewrite map_app. simpl. apply NoDup_app_one; [exact Hnd|].
      intro Hc. apply (get_tags_keys_self _ _ anc) in Hc. congruence.
    + intros tg s0 H0. apply in_app_or in H0 as [H0|[H0|[]]]; [apply Hsub; eapply Hin; eauto|].
      inversion H0; subst. unfold sids. rewrite Hsyms, map_app. apply in_or_app. right. left. reflexivity.
Qed.

Lemma rename_check_ok : forall h T s name,
    rename_check h T s name = None ->
    In s (sids T) /\ ~ In (normalize name) (keys T) /\
    is_container (hget h s) = false /\ is_import (hget h s) = false /\ is_unres (hget h s) = false /\
    is_arg (hget h s) = false /\ is_common (hget h s) = false.
Proof.
  intros h T s name H. unfold rename_check in H.
  destruct (mem_sid s (sids T)) eqn:Hm; simpl in H; [|discriminate].
  apply mem_sid_In in Hm.
  destruct (is_container (hget h s)); [discriminate|].
  destruct (is_import (hget h s)); [discriminate|].
  destruct (is_unres (hget h s)); [discriminate|].
  destruct (is_arg (hget h s)); [discriminate|].
  destruct (is_common (hget h s)); [discriminate|].
  destruct (has_key (normalize name) (t_syms T)) eqn:Hk; [discriminate|].
  apply has_key_false in Hk. repeat split; auto.
Qed.

Lemma rename_symbol_spec : forall h T s name h' T',
    rename_symbol h T s name = inl (h', T') ->
    rename_check h T s name = None /\
    h' = hset h s (set_name (hget h s) name) /\
    t_syms T' = (del_key (normalize (s_name (hget h s))) (t_syms T) ++ [(normalize name, s)])%list /\
    t_tags T' = t_tags T /\ t_args T' = t_args T.
Proof.
  intros h T s name h' T' H. unfold rename_symbol in H.
  destruct (rename_check h T s name) eqn:Hc; [discriminate|]. split; [reflexivity|].
  unfold rename_do in H. destruct (has_key _ (t_syms T)); [|discriminate].
  inversion H; subst; simpl. auto.
Qed.

Lemma rename_symbol_TOK : forall h T s name h' T',
    rename_symbol h T s name = inl (h', T') -> TOK h T ->
    TOK h' T' /\ Permutation (sids T') (sids T) /\ List.length h' = List.length h /\
    In s (sids T) /\ hget h' s = set_name (hget h s) name /\
    (forall s', s' <> s -> hget h' s' = hget h s').
Proof.
  intros h T s name h' T' H HT.
  apply rename_symbol_spec in H as [Hc [Hh [Hsyms _]]].
  apply rename_check_ok in Hc as [Hin [Hfree _]].
  destruct HT as [Hk [Hs Hn]].
  set (old := normalize (s_name (hget h s))) in *.
  assert (Hent : In (old, s) (t_syms T)).
  { apply in_sids in Hin as [k Hk']. destruct (Hn _ _ Hk') as [E _]. subst k. exact Hk'. }
  assert (Hlt : s < List.length h) by (apply (Hn _ _ Hent)).
  pose proof (del_key_perm _ _ _ Hk Hent) as Hperm.
  assert (Hp2 : Permutation (sids T') (sids T)).
  { unfold sids. rewrite Hsyms, map_app. simpl.
    eapply perm_trans; [apply Permutation_app_comm|]. simpl.
    apply Permutation_sym. change (s :: map snd (del_key old (t_syms T))) with (map snd ((old, s) :: del_key old (t_syms T))).
    apply Permutation_map. exact Hperm. }
  assert (Hother : forall s', s' <> s -> hget h' s' = hget h s').
  { intros s' Hne. subst h'. apply hget_hset_other. congruence. }
  assert (Hlen : List.length h' = List.length h) by (subst h'; apply hset_length).
  assert (Hs' : hget h' s = set_name (hget h s) name) by (subst h'; apply hget_hset_same; exact Hlt).
  refine (conj _ (conj Hp2 (conj Hlen (conj Hin (conj Hs' Hother))))).
  split; [|split].
  - unfold keys. rewrite Hsyms, map_app. simpl. apply NoDup_app_one.
    + apply del_key_NoDup_keys. exact Hk.
    + intro Hc. apply del_key_keys in Hc as [Hc _]. contradiction.
  - eapply Permutation_NoDup; [apply Permutation_sym; exact Hp2 | exact Hs].
  - intros k s0 Hin0. rewrite Hsyms in Hin0. apply in_app_or in Hin0 as [Hin0|[Hin0|[]]].
    + apply del_key_In in Hin0 as [Hin0 Hne]. destruct (Hn _ _ Hin0) as [E Hl].
      assert (s0 <> s).
      { intro E'. subst s0. apply Hne. subst k. reflexivity. }
      rewrite Hother, Hlen by assumption. split; [exact E | exact Hl].
    + inversion Hin0; subst k s0. rewrite Hs', Hlen. split; [reflexivity | exact Hlt].
Qed.

Lemma tbl_remove_spec : forall h T s T',
    tbl_remove h T s = inl T' ->
    let k := normalize (s_name (hget h s)) in
    find_key k (t_syms T) = Some s /\ t_syms T' = del_key k (t_syms T) /\
    t_tags T' = filter (fun e => negb (Nat.eqb (snd e) s)) (t_tags T) /\ t_args T' = t_args T.
Proof.
  intros h T s T' H k. unfold tbl_remove in H. fold k in H.
  (* the tests shared by the five classes other than DataSymbol first, the class last *)
  destruct (find_key k (t_syms T)) as [s'|]; [|destruct (s_kind _); discriminate].
  destruct (Nat.eqb_spec s' s) as [E|E]; cbn [negb] in H; [subst s' | destruct (s_kind _); discriminate].
  destruct (is_container (hget h s) && _); [destruct (s_kind _); discriminate|].
  destruct (is_routine (hget h s) && _); [destruct (s_kind _); discriminate|].
  destruct (s_kind (hget h s)); try discriminate; inversion H; subst; simpl; auto.
Qed.

Lemma tbl_remove_TOK : forall h T s T',
    tbl_remove h T s = inl T' -> TOK h T -> tags_ok T ->
    TOK h T' /\ tags_ok T' /\ incl (sids T') (sids T).
Proof.
  intros h T s T' H [Hk [Hs Hn]] [Htd Hti].
  apply tbl_remove_spec in H as [Hf [Hsyms [Htags _]]].
  set (k := normalize (s_name (hget h s))) in *.
  assert (Hincl : incl (sids T') (sids T)).
  { intros x Hx. apply in_sids in Hx as [k' Hx]. rewrite Hsyms in Hx. apply del_key_In in Hx as [Hx _].
    apply in_sids. eauto. }
  split; [|split; [|exact Hincl]].
  - split; [|split].
    + unfold keys. rewrite Hsyms. apply del_key_NoDup_keys. exact Hk.
    + unfold sids. rewrite Hsyms. apply del_key_NoDup_sids. exact Hs.
    + intros k' s' Hin. rewrite Hsyms in Hin. apply del_key_In in Hin as [Hin _]. apply Hn. exact Hin.
  - unfold tags_ok. rewrite Htags. split.
    + apply NoDup_map_filter. exact Htd.
    + intros tg s' Hin. apply filter_In in Hin as [Hin Hne]. simpl in Hne.
      apply negb_true_iff in Hne. apply Nat.eqb_neq in Hne.
      pose proof (Hti _ _ Hin) as Hs'. apply in_sids in Hs' as [k' Hk'].
      apply in_sids. exists k'. rewrite Hsyms. apply del_key_In. split; [exact Hk'|].
      intro E. subst k'. apply find_key_In in Hf.
      pose proof (find_key_NoDup_In _ _ _ Hk Hk') as F1.
      pose proof (find_key_NoDup_In _ _ _ Hk Hf) as F2. congruence.
Qed.
