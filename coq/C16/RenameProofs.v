(* C16 -- merge renames only on clashes, positive part: if no key of the receiving table is a key
   of the other table, no symbol is renamed by merge (whatever its outcome). *)
From Coq Require Import List Arith Bool String Ascii NArith Lia Permutation.
Import ListNotations.
From PV Require Import C16.GenTables C16.Model C16.Names C16.Inv C16.MergeProofs.
Open Scope string_scope.
Open Scope list_scope.

Section NoClash.
  Variable h1 : heap.
  Variables T0 O0 : table.
  Variable anc : list table.
  Hypothesis HO : TOK h1 O0.
  (* an imported symbol is not a ContainerSymbol *)
  Hypothesis Himp : forall s, In s (sids O0) -> is_import (hget h1 s) = true -> is_container (hget h1 s) = false.

  Definition key1 (s : sid) : string := normalize (s_name (hget h1 s)).

  Definition same_nm (m : mst) : Prop := forall s, s_name (hget (m_heap m) s) = s_name (hget h1 s).

  Definition is_cont1 (s : sid) : bool := is_container (hget h1 s).

  (* nothing has been renamed, and the key of a symbol of the other table is in the receiving table
     only once the symbol itself has been moved there: every rename of a merge is triggered by finding
     the key of a symbol that has not been moved yet *)
  Definition NR (m : mst) : Prop :=
    same_nm m /\ forall s, In s (sids O0) -> In (key1 s) (keys (m_self m)) -> In s (sids (m_self m)).

  Lemma key1_inj : forall a b, In a (sids O0) -> In b (sids O0) -> key1 a = key1 b -> a = b.
  Proof.
    intros a b Ha Hb E. apply in_sids in Ha as [ka Ha]. apply in_sids in Hb as [kb Hb].
    eapply TOK_names_unique; eauto.
  Qed.

  Lemma NR_free : forall m s,
      NR m -> In s (sids O0) -> ~ In s (sids (m_self m)) ->
      find_key (normalize (s_name (hget (m_heap m) s))) (t_syms (m_self m)) = None.
  Proof.
    intros m s [Hnm Hk] Hs Hn. apply find_key_None. rewrite Hnm. intro Hc. apply Hn. apply Hk; assumption.
  Qed.

  Lemma tbl_add_fresh : forall m s,
      NR m -> In s (sids O0) -> ~ In s (sids (m_self m)) ->
      exists T', tbl_add (m_heap m) (m_self m) anc s "" = inl T' /\ NR (mkM (m_heap m) T' (m_other m)) /\
                 sids T' = sids (m_self m) ++ [s].
  Proof.
    intros m s HN Hs Hn. pose proof (NR_free m s HN Hs Hn) as Hf. destruct HN as [Hnm Hk].
    unfold tbl_add, has_key. rewrite Hf. simpl. eexists. split; [reflexivity|].
    split; [|unfold sids; simpl; apply map_app].
    split; [exact Hnm|]. unfold keys, sids. simpl. intros x Hx Hc. rewrite map_app in *.
    apply in_app_or in Hc as [Hc|[Hc|[]]]; apply in_or_app.
    - left. apply Hk; assumption.
    - right. left. simpl in *. rewrite Hnm in Hc. apply key1_inj; assumption.
  Qed.

  Lemma madd_self_fresh : forall m s,
      NR m -> In s (sids O0) -> ~ In s (sids (m_self m)) ->
      exists m', madd_self m anc s = (m', None) /\ NR m' /\ m_heap m' = m_heap m /\ m_other m' = m_other m /\
                 sids (m_self m') = sids (m_self m) ++ [s].
  Proof.
    intros m s HN Hs Hn. destruct (tbl_add_fresh _ _ HN Hs Hn) as [T' [Ea [HN' Hsids]]].
    unfold madd_self. rewrite Ea. eexists. split; [reflexivity|]. split; [exact HN'|].
    split; [reflexivity|]. split; [reflexivity | exact Hsids].
  Qed.

  Lemma fix_imports_fresh : forall li m csym m' oe,
      NR m -> (forall s, In s li -> In s (sids O0) /\ ~ In s (sids (m_self m))) ->
      fix_imports m anc csym li = (m', oe) -> NR m'.
  Proof.
    induction li as [|isym li IH]; intros m csym m' oe HN Hli H; simpl in H.
    - inversion H; subst. exact HN.
    - destruct (Hli isym (or_introl eq_refl)) as [HiO Hin].
      rewrite (NR_free m isym HN HiO Hin) in H.
      destruct (lookup (m_self m) anc (s_name (hget (m_heap m) csym))) as [c'|]; [|inversion H; subst; exact HN].
      apply IH in H; [exact H | | intros s Hs; apply Hli; right; exact Hs].
      split; [|apply HN]. intros s. simpl. rewrite (hset_field _ s_name) by reflexivity. apply HN.
  Qed.

  Lemma container_one_fresh : forall m csym l m' oe,
      MI h1 T0 O0 m -> m_other m = O0 -> pend h1 O0 m (csym :: l) ->
      In csym (sids O0) -> is_container (hget h1 csym) = true -> NR m ->
      container_one m anc csym = (m', oe) -> NR m'.
  Proof.
    intros m csym l m' oe HM HOt [Hp1 Hp2] HcO Hcc HN H. unfold container_one in H.
    assert (Hcn : ~ In csym (sids (m_self m))) by (apply Hp1; left; reflexivity).
    rewrite (NR_free m csym HN HcO Hcn) in H.
    destruct (madd_self_fresh _ _ HN HcO Hcn) as [m1 [Ea [HN1 [Hh1 [Ho1 Hsids]]]]]. rewrite Ea in H.
    destruct (lookup (m_other m1) [] (s_name (hget (m_heap m1) csym))) as [c0|];
      [|inversion H; subst; exact HN1].
    destruct (negb (Nat.eqb c0 csym)); [inversion H; subst; exact HN1|].
    eapply fix_imports_fresh; [exact HN1 | | exact H].
    (* a symbol imported from csym is no container, so it is still in the other table only *)
    intros s Hs. unfold imported_from in Hs. apply filter_In in Hs as [Hs1 Hs2].
    rewrite Ho1, HOt in Hs1. split; [exact Hs1|].
    assert (Hi : is_import (hget h1 s) = true).
    { destruct (mi_ifc _ _ _ _ HM s) as [E _]. rewrite <- E, <- Hh1. unfold is_import.
      destruct (s_iface (hget (m_heap m1) s)); congruence. }
    pose proof (Himp s Hs1 Hi) as Hnc. intro Hin.
    rewrite Hsids in Hin. apply in_app_or in Hin as [Hin|[Hin|[]]].
    - apply (Hp2 s Hs1 Hnc Hin).
    - subst s. congruence.
  Qed.

  Lemma add_one_fresh : forall skip m os l m' oe,
      MI h1 T0 O0 m -> pend_add h1 m (os :: l) -> In os (sids O0) -> NR m ->
      add_one m anc skip os = (m', oe) -> NR m'.
  Proof.
    intros skip m os l m' oe HM Hp HinO HN H. unfold add_one in H.
    destruct (mem_sid os skip); simpl in H; [inversion H; subst; exact HN|].
    destruct (is_container (hget (m_heap m) os)) eqn:Ec; [inversion H; subst; exact HN|].
    rewrite (is_container_stable h1 T0 O0 m os HM) in Ec.
    destruct (tbl_add_fresh m os HN HinO) as [T' [Ea [HN' _]]]; [apply Hp; [left; reflexivity | exact Ec]|].
    rewrite Ea in H. inversion H; subst. exact HN'.
  Qed.
End NoClash.

Theorem merge_no_clash_no_rename_ : forall h T anc Ot skip m ph oe,
    TOK h T -> TOK h Ot -> (forall s, In s (sids T) -> ~ In s (sids Ot)) ->
    (forall s, In s (sids Ot) -> is_import (hget h s) = true -> is_container (hget h s) = false) ->
    (forall k, In k (keys T) -> ~ In k (keys Ot)) ->
    merge h T anc Ot skip = (m, ph, oe) ->
    forall s, s_name (hget (m_heap m) s) = s_name (hget h s).
Proof.
  intros h T anc Ot skip m ph oe HT HOt Hdisj Himp Hnc H.
  destruct (check_for_clashes h T anc Ot skip) as [h1 oe0] eqn:Ec.
  pose proof (check_for_clashes_checked _ _ _ _ _ _ _ Ec) as Hck.
  pose proof (checked_TOK _ _ _ Hck HT) as HT1. pose proof (checked_TOK _ _ _ Hck HOt) as HO1.
  destruct Hck as [[_ Hnm] [Hif Hco]].
  destruct oe0 as [e|]; [unfold merge in H; rewrite Ec in H; inversion H; subst; exact Hnm|].
  assert (Himp1 : forall s, In s (sids Ot) -> is_import (hget h1 s) = true -> is_container (hget h1 s) = false).
  { intros s Hs Hi. rewrite Hco. apply Himp; [exact Hs|]. unfold is_import in *. rewrite <- Hif. exact Hi. }
  assert (HN0 : NR h1 Ot (mkM h1 T Ot)).
  { split; [intros s; reflexivity|]. simpl. intros s Hs Hc. destruct (Hnc _ Hc).
    apply in_sids in Hs as [k Hk]. destruct (proj2 (proj2 HO1) _ _ Hk) as [Ek _].
    unfold key1. rewrite <- Ek. apply in_keys. eauto. }
  destruct (merge_passes _ _ _ _ _ _ (NR h1 Ot) _ _ _ Ec HT1 HO1 Hdisj (container_one_fresh h1 T Ot anc HO1 Himp1)
                         (add_one_fresh h1 T Ot anc HO1 skip) HN0 H) as [_ [HN _]].
  intros s. rewrite (proj1 HN s). apply Hnm.
Qed.
