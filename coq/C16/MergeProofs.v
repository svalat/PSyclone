(* C16 -- merge: the invariant kept by every micro-step of _add_container_symbols_from_table and
   _add_symbols_from_table (whether or not the step raises), and what a completed merge achieves. *)
From Coq Require Import List Arith Bool String Ascii NArith Lia Permutation.
Import ListNotations.
From PV Require Import C16.GenTables C16.Model C16.Names C16.Inv.
Open Scope string_scope.
Open Scope list_scope.

Definition same_names (h h' : heap) : Prop :=
  List.length h' = List.length h /\ forall s, s_name (hget h' s) = s_name (hget h s).

Definition same_kinds (h h' : heap) : Prop := forall s, s_kind (hget h' s) = s_kind (hget h s).

(* import-ness and unresolved-ness of every symbol are the same in both heaps *)
Definition same_ifc (h h' : heap) : Prop :=
  forall s, is_import (hget h' s) = is_import (hget h s) /\ is_unres (hget h' s) = is_unres (hget h s).

Lemma same_ifc_refl : forall h, same_ifc h h. Proof. intros h s; split; reflexivity. Qed.
Lemma same_ifc_trans : forall a b c, same_ifc a b -> same_ifc b c -> same_ifc a c.
Proof. intros a b c H1 H2 s. destruct (H1 s), (H2 s). split; congruence. Qed.

Lemma hget_hset_cases : forall h s v s',
    hget (hset h s v) s' = if Nat.eqb s s' then (if Nat.ltb s (List.length h) then v else hget h s') else hget h s'.
Proof.
  intros h s v s'. destruct (Nat.eqb_spec s s') as [E|E].
  - subst s'. destruct (Nat.ltb_spec s (List.length h)) as [L|L].
    + apply hget_hset_same; exact L.
    + unfold hget. revert s L. induction h as [|x h IH]; intros [|s] L; simpl in *; try reflexivity; try lia.
      apply IH. lia.
  - apply hget_hset_other; exact E.
Qed.

Lemma hset_field : forall (A : Type) (f : sym -> A) h s v,
    f v = f (hget h s) -> forall s', f (hget (hset h s v) s') = f (hget h s').
Proof.
  intros A f h s v Hv s'. rewrite hget_hset_cases.
  destruct (Nat.eqb_spec s s') as [E|E]; [|reflexivity].
  destruct (Nat.ltb s (List.length h)); [subst; exact Hv | reflexivity].
Qed.

(* the heap after check_for_clashes: same names, interfaces and container-ness; classes may
   have been specialised *)
Definition checked (h h1 : heap) : Prop :=
  same_names h h1 /\ (forall x, s_iface (hget h1 x) = s_iface (hget h x)) /\
  (forall x, is_container (hget h1 x) = is_container (hget h x)).

Lemma checked_refl : forall h, checked h h.
Proof. intros h. repeat split. Qed.

Lemma checked_trans : forall a b c, checked a b -> checked b c -> checked a c.
Proof.
  intros a b c [[L1 N1] [I1 C1]] [[L2 N2] [I2 C2]].
  split; [split|split]; [congruence | intros x; rewrite N2; apply N1
                        | intros x; rewrite I2; apply I1 | intros x; rewrite C2; apply C1].
Qed.

Lemma checked_TOK : forall h h1 T, checked h h1 -> TOK h T -> TOK h1 T.
Proof.
  intros h h1 T [[Hlen Hnm] _] HT. eapply TOK_frame; [exact HT | lia | intros s _; apply Hnm].
Qed.

Lemma specialise_checked : forall h s h', specialise_intrinsic h s = inl h' -> checked h h'.
Proof.
  intros h s h' H. unfold specialise_intrinsic in H.
  destruct (s_kind (hget h s)) eqn:E; inversion H; subst;
    (split; [split; [apply hset_length | apply hset_field; reflexivity]|]);
    (split; apply hset_field; [reflexivity | unfold is_container; simpl; rewrite E; reflexivity]).
Qed.

(* "Take this opportunity to specialise the symbol(s)": the one place where check_for_clashes writes
   to the heap, reached only for an unresolved symbol of the receiving table named like an intrinsic *)
Definition intrinsic_unresolved_in (h : heap) (T : table) : Prop :=
  exists ts, In ts (sids T) /\ is_unres (hget h ts) = true /\ is_intrinsic_name (s_name (hget h ts)) = true.

Lemma check_one_heap : forall h self other skip sw ow os h' oe,
    check_one h self other skip sw ow os = (h', oe) ->
    h' = h \/ (checked h h' /\ intrinsic_unresolved_in h self).
Proof.
  intros h self other skip sw ow os h' oe H. unfold check_one in H.
  destruct (find_key _ (t_syms self)) as [ts|] eqn:Ef; [|inversion H; auto].
  destruct (mem_sid os skip); [inversion H; auto|].
  destruct (is_container (hget h ts) && is_container (hget h os)); [inversion H; auto|].
  destruct (is_intrinsic_sym (hget h ts) && is_intrinsic_sym (hget h os)); [inversion H; auto|].
  destruct (is_import (hget h os) && is_import (hget h ts)).
  { destruct (import_eq _ _ _); inversion H; auto. }
  destruct (is_unres (hget h os) && is_unres (hget h ts)) eqn:Eu.
  2:{ destruct (rename_check h self ts "") as [[]|]; try (inversion H; auto; fail).
      destruct (rename_check h other os ""); inversion H; auto. }
  destruct (inter_nonempty sw ow && subset_str sw ow && subset_str ow sw); [inversion H; auto|].
  destruct (_ && is_intrinsic_name (s_name (hget h ts))) eqn:En; [|inversion H; auto].
  right. split.
  - assert (Hopt : forall (b : bool) a s a1,
               (if b then inl a else specialise_intrinsic a s) = inl a1 -> checked a a1).
    { intros [|] a s a1 E; [inversion E; apply checked_refl | eapply specialise_checked; eauto]. }
    destruct (if is_intrinsic_sym (hget h ts) then _ else _) as [h1|e1] eqn:E1;
      [|inversion H; apply checked_refl].
    apply Hopt in E1.
    destruct (if is_intrinsic_sym (hget h1 os) then _ else _) as [h2|e2] eqn:E2;
      inversion H; subst; [eapply checked_trans; [exact E1 | eapply Hopt; eauto] | exact E1].
  - exists ts. apply andb_true_iff in Eu as [_ Eu]. apply andb_true_iff in En as [_ En].
    split; [apply find_key_In in Ef; apply in_sids; eauto | auto].
Qed.

Lemma check_loop_heap : forall l h self other skip sw ow h' oe,
    check_loop h self other skip sw ow l = (h', oe) ->
    h' = h \/ (checked h h' /\ intrinsic_unresolved_in h self).
Proof.
  induction l as [|os l IH]; intros h self other skip sw ow h' oe H; simpl in H.
  - inversion H; auto.
  - destruct (check_one h self other skip sw ow os) as [h1 [e|]] eqn:E;
      apply check_one_heap in E; [inversion H; subst; exact E|].
    apply IH in H. destruct E as [E|[Hc1 Hw]]; [subst h1; exact H|].
    right. split; [|exact Hw].
    destruct H as [H|[Hc _]]; [subst h'; exact Hc1 | eapply checked_trans; eauto].
Qed.

Lemma check_for_clashes_checked : forall h self anc other skip h1 oe,
    check_for_clashes h self anc other skip = (h1, oe) -> checked h h1.
Proof.
  intros h self anc other skip h1 oe H. unfold check_for_clashes in H.
  apply check_loop_heap in H as [H|[H _]]; [subst; apply checked_refl | exact H].
Qed.

Lemma import_not_unres : forall y, is_import y = true -> is_unres y = false.
Proof. intros y H. unfold is_import, is_unres in *. destruct (s_iface y); congruence. Qed.

Lemma imported_from_incl : forall h T c s, In s (imported_from h T c) -> In s (sids T).
Proof. intros h T c s H. unfold imported_from in H. apply filter_In in H as [H _]. exact H. Qed.

Section MergeInv.
  Variable h0 : heap.
  Variables T0 O0 : table.
  Variable anc : list table.

  Record MI (m : mst) : Prop := mkMI {
    mi_tok : TOK (m_heap m) (m_self m);
    mi_len : List.length (m_heap m) = List.length h0;
    mi_sub : forall s, In s (sids (m_self m)) -> In s (sids T0) \/ In s (sids O0);
    mi_sup : forall s, In s (sids T0) -> In s (sids (m_self m));
    mi_tags : t_tags (m_self m) = t_tags T0;
    mi_args : t_args (m_self m) = t_args T0;
    mi_frame : forall s, ~ In s (sids T0) -> ~ In s (sids O0) -> hget (m_heap m) s = hget h0 s;
    mi_kind : same_kinds h0 (m_heap m);
    mi_ifc : same_ifc h0 (m_heap m)
  }.

  Definition grows (m m' : mst) : Prop := forall s, In s (sids (m_self m)) -> In s (sids (m_self m')).

  Lemma grows_refl : forall m, grows m m. Proof. intros m s H; exact H. Qed.
  Lemma grows_trans : forall a b c, grows a b -> grows b c -> grows a c.
  Proof. intros a b c H1 H2 s H. apply H2, H1, H. Qed.

  (* a heap write to a symbol of one of the two tables that keeps its class and import-/unresolved-ness,
     and its name if it is in the receiving table; the other table is not constrained by MI *)
  Lemma MI_hset : forall m s v O',
      MI m -> (In s (sids (m_self m)) -> s_name v = s_name (hget (m_heap m) s)) ->
      s_kind v = s_kind (hget (m_heap m) s) ->
      is_import v = is_import (hget (m_heap m) s) -> is_unres v = is_unres (hget (m_heap m) s) ->
      (In s (sids T0) \/ In s (sids O0)) ->
      MI (mkM (hset (m_heap m) s v) (m_self m) O').
  Proof.
    intros m s v O' HM Hn Hk Hi Hu Hin. destruct HM as [Htok Hlen Hsub Hsup Htags Hargs Hframe Hkind Hifc].
    constructor; simpl; auto.
    - eapply TOK_frame; [exact Htok | rewrite hset_length; lia |].
      intros s' Hs'. destruct (Nat.eq_dec s s') as [E|E].
      + subst s'. apply (hset_field _ s_name). apply Hn. exact Hs'.
      + rewrite hget_hset_other by exact E. reflexivity.
    - rewrite hset_length. exact Hlen.
    - intros s' H1 H2. rewrite hget_hset_other; [apply Hframe; assumption|].
      intro E; subst s'. destruct Hin; contradiction.
    - intros s'. rewrite (hset_field _ s_kind) by exact Hk. apply Hkind.
    - intros s'. rewrite (hset_field _ is_import) by exact Hi. rewrite (hset_field _ is_unres) by exact Hu. apply Hifc.
  Qed.

  Lemma MI_rename_self : forall m s nm h' T',
      MI m -> rename_symbol (m_heap m) (m_self m) s nm = inl (h', T') ->
      MI (mkM h' T' (m_other m)) /\
      (forall x, In x (sids T') <-> In x (sids (m_self m))).
  Proof.
    intros m s nm h' T' HM H. destruct HM as [Htok Hlen Hsub Hsup Htags Hargs Hframe Hkind Hifc].
    pose proof (rename_symbol_TOK _ _ _ _ _ _ H Htok) as [Htok' [Hperm [Hlen' [Hin [Hs Hother]]]]].
    apply rename_symbol_spec in H as [_ [Hh [_ [Ht Ha]]]].
    assert (Hiff : forall x, In x (sids T') <-> In x (sids (m_self m))).
    { intros x; split; intro Hx; [eapply Permutation_in; [exact Hperm | exact Hx] |
                                   eapply Permutation_in; [apply Permutation_sym; exact Hperm | exact Hx]]. }
    split; [|exact Hiff].
    constructor; simpl.
    - exact Htok'.
    - congruence.
    - intros x Hx. apply Hsub. apply Hiff. exact Hx.
    - intros x Hx. apply Hiff. apply Hsup. exact Hx.
    - congruence.
    - congruence.
    - intros x H1 H2. rewrite Hother; [apply Hframe; assumption|].
      intro E; subst x. destruct (Hsub _ Hin); contradiction.
    - intros x. destruct (Nat.eq_dec x s) as [E|E].
      + subst x. rewrite Hs. simpl. apply Hkind.
      + rewrite Hother by exact E. apply Hkind.
    - intros x. destruct (Nat.eq_dec x s) as [E|E].
      + subst x. rewrite Hs. apply Hifc.
      + rewrite Hother by exact E. apply Hifc.
  Qed.

  Lemma MI_rename_other : forall m s nm h' O',
      MI m -> rename_symbol (m_heap m) (m_other m) s nm = inl (h', O') ->
      In s (sids O0) -> ~ In s (sids (m_self m)) ->
      MI (mkM h' (m_self m) O').
  Proof.
    intros m s nm h' O' HM H HinO Hnot. apply rename_symbol_spec in H as [_ [Hh _]]. subst h'.
    apply MI_hset; [exact HM | intros Hc; contradiction | reflexivity | reflexivity | reflexivity | right; exact HinO].
  Qed.

  Lemma MI_add : forall m s T',
      MI m -> tbl_add (m_heap m) (m_self m) anc s "" = inl T' ->
      In s (sids O0) -> ~ In s (sids (m_self m)) -> s < List.length h0 ->
      MI (mkM (m_heap m) T' (m_other m)) /\ sids T' = sids (m_self m) ++ [s].
  Proof.
    intros m s T' HM H HinO Hnot Hlt. destruct HM as [Htok Hlen Hsub Hsup Htags Hargs Hframe Hkind Hifc].
    assert (Hlt' : s < List.length (m_heap m)) by lia.
    pose proof (tbl_add_TOK _ _ _ _ _ _ H Htok Hnot Hlt') as [Htok' Hs].
    apply tbl_add_spec in H as [_ [_ [Ha Ht]]].
    split; [|exact Hs].
    constructor; simpl; auto.
    - intros x Hx. rewrite Hs in Hx. apply in_app_or in Hx as [Hx|[Hx|[]]]; [apply Hsub; exact Hx | subst; right; exact HinO].
    - intros x Hx. rewrite Hs. apply in_or_app. left. apply Hsup. exact Hx.
    - destruct Ht as [[_ Ht]|[Hne _]]; [congruence | congruence].
    - congruence.
  Qed.

  Definition keeps (m m' : mst) : Prop :=
    MI m' /\ m_other m' = m_other m /\ (forall x, In x (sids (m_self m')) <-> In x (sids (m_self m))).

  Lemma keeps_refl : forall m, MI m -> keeps m m.
  Proof. intros m HM. split; [exact HM | split; [reflexivity | tauto]]. Qed.

  Lemma rename_fresh_MI : forall m s root m' oe,
      MI m -> rename_fresh m anc s root = (m', oe) -> keeps m m'.
  Proof.
    intros m s root m' oe HM H. unfold rename_fresh in H.
    destruct (next_available_name (m_self m) anc root false (Some (m_other m))) as [nm|];
      [|inversion H; subst; apply keeps_refl; exact HM].
    destruct (rename_symbol (m_heap m) (m_self m) s nm) as [[h' T']|e] eqn:E;
      [|inversion H; subst; apply keeps_refl; exact HM].
    inversion H; subst. pose proof (MI_rename_self _ _ _ _ _ HM E) as [HM' Hiff].
    split; [exact HM' | split; [reflexivity | exact Hiff]].
  Qed.

  (* adding s of the other table after a step m -> m1 that moved no symbol: s is the only symbol that
     can have come in *)
  Lemma madd_after : forall m m1 s m' oe,
      MI m1 -> (forall x, In x (sids (m_self m1)) <-> In x (sids (m_self m))) ->
      In s (sids O0) -> ~ In s (sids (m_self m)) -> s < List.length h0 ->
      madd_self m1 anc s = (m', oe) ->
      MI m' /\ m_other m' = m_other m1 /\ grows m m' /\
      (forall x, In x (sids (m_self m')) -> In x (sids (m_self m)) \/ x = s) /\
      (oe = None -> In s (sids (m_self m'))).
  Proof.
    intros m m1 s m' oe HM1 Hiff HinO Hnot Hlt H. unfold madd_self in H.
    destruct (tbl_add (m_heap m1) (m_self m1) anc s "") as [T'|e] eqn:E; inversion H; subst; unfold grows; simpl.
    - assert (Hn1 : ~ In s (sids (m_self m1))) by (rewrite Hiff; exact Hnot).
      destruct (MI_add _ _ _ HM1 E HinO Hn1 Hlt) as [HM' Hs]. rewrite Hs.
      split; [exact HM'|]. split; [reflexivity|].
      split; [intros x Hx; apply in_or_app; left; apply Hiff; exact Hx|]. split.
      + intros x Hx. apply in_app_or in Hx as [Hx|[Hx|[]]]; [left; apply Hiff; exact Hx | right; auto].
      + intros _. apply in_or_app. right; left; reflexivity.
    - split; [exact HM1|]. split; [reflexivity|]. split; [intros x Hx; apply Hiff; exact Hx|].
      split; [intros x Hx; left; apply Hiff; exact Hx | discriminate].
  Qed.

  (* what is known about symbols of the other table that have not been moved yet *)
  Definition pend (m : mst) (l : list sid) : Prop :=
    (forall s, In s l -> ~ In s (sids (m_self m))) /\
    (forall s, In s (sids O0) -> is_container (hget h0 s) = false -> ~ In s (sids (m_self m))).

  Hypothesis O0_lt : forall s, In s (sids O0) -> s < List.length h0.

  Lemma is_container_stable : forall m s, MI m -> is_container (hget (m_heap m) s) = is_container (hget h0 s).
  Proof. intros m s HM. unfold is_container. rewrite (mi_kind _ HM). reflexivity. Qed.

  Lemma fix_imports_MI : forall l m csym m' oe,
      MI m -> (forall s, In s l -> In s (sids O0) /\ is_import (hget h0 s) = true) ->
      fix_imports m anc csym l = (m', oe) -> keeps m m'.
  Proof.
    induction l as [|isym l IH]; intros m csym m' oe HM Hl H; simpl in H.
    - inversion H; subst. apply keeps_refl. exact HM.
    - (* making room for isym: at most a rename inside the receiving table *)
      match type of H with (match ?X with _ => _ end) = _ => destruct X as [m1 oe1] eqn:E1 end.
      assert (Hstep : keeps m m1).
      { destruct (find_key _ (t_syms (m_self m))) as [osym|]; [|inversion E1; subst; apply keeps_refl; exact HM].
        destruct (is_import (hget (m_heap m) osym)); [inversion E1; subst; apply keeps_refl; exact HM|].
        eapply rename_fresh_MI; eauto. }
      destruct oe1 as [e1|]; [inversion H; subst; exact Hstep|].
      destruct (lookup (m_self m1) anc (s_name (hget (m_heap m1) csym))) as [c'|];
        [|inversion H; subst; exact Hstep].
      destruct Hstep as [HM1 [Ho1 Hiff1]].
      (* the interface of isym is replaced by another ImportInterface *)
      destruct (Hl isym (or_introl eq_refl)) as [HiO Hii].
      assert (Hii1 : is_import (hget (m_heap m1) isym) = true).
      { destruct (mi_ifc _ HM1 isym) as [E _]. rewrite E. exact Hii. }
      apply IH in H as [HM' [Ho' Hiff']]; [|clear H|intros s Hs; apply Hl; right; exact Hs].
      + split; [exact HM'|]. split; [simpl in Ho'; congruence|].
        intros x. rewrite Hiff'. simpl. apply Hiff1.
      + apply (MI_hset m1 isym); [exact HM1 | reflexivity | reflexivity | | | right; exact HiO].
        * rewrite Hii1. reflexivity.
        * rewrite (import_not_unres _ Hii1). reflexivity.
  Qed.

  Lemma container_one_MI : forall m csym l m' oe,
      MI m -> m_other m = O0 -> pend m (csym :: l) -> NoDup (csym :: l) ->
      In csym (sids O0) -> is_container (hget h0 csym) = true ->
      container_one m anc csym = (m', oe) ->
      MI m' /\ m_other m' = O0 /\ grows m m' /\ (oe = None -> pend m' l).
  Proof.
    intros m csym l m' oe HM HO [Hp1 Hp2] Hnd HcO Hcc H. unfold container_one in H.
    inversion Hnd as [|? ? Hnotl Hndl]; subst.
    assert (Hcnot : ~ In csym (sids (m_self m))) by (apply Hp1; left; reflexivity).
    (* first part: make room / add the container symbol; csym is the only symbol that can come in *)
    match type of H with (match ?X with _ => _ end) = _ => destruct X as [m1 oe1] eqn:E1 end.
    assert (Hstep : MI m1 /\ m_other m1 = O0 /\ grows m m1 /\
                    (forall x, In x (sids (m_self m1)) -> In x (sids (m_self m)) \/ x = csym)).
    { assert (Hadd : forall m2, keeps m m2 -> madd_self m2 anc csym = (m1, oe1) ->
                                MI m1 /\ m_other m1 = O0 /\ grows m m1 /\
                                (forall x, In x (sids (m_self m1)) -> In x (sids (m_self m)) \/ x = csym)).
      { intros m2 [HM2 [Ho2 Hiff2]] Ha.
        destruct (madd_after m m2 csym m1 oe1 HM2 Hiff2 HcO Hcnot (O0_lt _ HcO) Ha) as [A [B [C [D _]]]].
        split; [exact A | split; [congruence | split; [exact C | exact D]]]. }
      destruct (find_key _ (t_syms (m_self m))) as [scs|] eqn:Ef; [|apply (Hadd m (keeps_refl m HM) E1)].
      destruct (negb (is_container (hget (m_heap m) scs))) eqn:Ec.
      - destruct (rename_fresh m anc scs (s_name (hget (m_heap m) csym))) as [m2 [e2|]] eqn:Er;
          pose proof (rename_fresh_MI _ _ _ _ _ HM Er) as Hk; [|apply (Hadd m2 Hk E1)].
        inversion E1; subst. destruct Hk as [HM2 [Ho2 Hiff2]].
        split; [exact HM2|]. split; [congruence|].
        split; intros x Hx; [|left]; apply Hiff2; exact Hx.
      - assert (Hscs : In scs (sids (m_self m))) by (apply find_key_In in Ef; apply in_sids; eauto).
        destruct (s_wild (hget (m_heap m) csym)); inversion E1; subst.
        + split; [|split; [simpl; exact HO | split; [intros x Hx; exact Hx | intros x Hx; left; exact Hx]]].
          apply MI_hset; [exact HM | reflexivity | reflexivity | reflexivity | reflexivity | apply (mi_sub _ HM); exact Hscs].
        + split; [exact HM | split; [exact HO | split; [apply grows_refl | intros x Hx; left; exact Hx]]]. }
    destruct Hstep as [HM1 [Ho1 [Hg1 Hnew]]].
    (* an exception from here on leaves m1 *)
    assert (Hexit : forall e : err, MI m1 /\ m_other m1 = O0 /\ grows m m1 /\ (Some e = None -> pend m1 l))
      by (intros e; split; [exact HM1 | split; [exact Ho1 | split; [exact Hg1 | discriminate]]]).
    destruct oe1 as [e1|]; [inversion H; subst; apply Hexit|].
    assert (Hpend1 : pend m1 l).
    { split.
      - intros s Hs Hc. destruct (Hnew _ Hc) as [Hc'|Hc'].
        + apply (Hp1 s); [right; exact Hs | exact Hc'].
        + subst s. contradiction.
      - intros s Hs Hk Hc. destruct (Hnew _ Hc) as [Hc'|Hc'].
        + apply (Hp2 s); assumption.
        + subst s. congruence. }
    (* second part: the interfaces of the symbols imported from csym; no symbol moves *)
    destruct (lookup (m_other m1) [] (s_name (hget (m_heap m1) csym))) as [c0|]; [|inversion H; subst; apply Hexit].
    destruct (negb (Nat.eqb c0 csym)); [inversion H; subst; apply Hexit|].
    assert (Hl : forall s, In s (imported_from (m_heap m1) (m_other m1) csym) ->
                           In s (sids O0) /\ is_import (hget h0 s) = true).
    { intros s Hs. split; [apply imported_from_incl in Hs; rewrite Ho1 in Hs; exact Hs|].
      unfold imported_from in Hs. apply filter_In in Hs as [_ Hs].
      destruct (mi_ifc _ HM1 s) as [E _]. rewrite <- E. unfold is_import.
      destruct (s_iface (hget (m_heap m1) s)); congruence. }
    destruct (fix_imports_MI _ _ _ _ _ HM1 Hl H) as [HM' [Ho' Hiff']].
    split; [exact HM'|]. split; [congruence|]. split.
    + intros x Hx. apply Hiff'. apply Hg1. exact Hx.
    + intros _. destruct Hpend1 as [Hq1 Hq2]. split.
      * intros s Hs Hc. apply (Hq1 s Hs). apply Hiff'. exact Hc.
      * intros s Hs Hk Hc. apply (Hq2 s Hs Hk). apply Hiff'. exact Hc.
  Qed.

  (* Q: any further property of the merge state that one round of the pass keeps (none for merge_spec) *)
  Lemma container_loop_MI : forall (Q : mst -> Prop),
      (forall m c l m' oe, MI m -> m_other m = O0 -> pend m (c :: l) -> In c (sids O0) ->
                           is_container (hget h0 c) = true -> Q m -> container_one m anc c = (m', oe) -> Q m') ->
      forall l m m' oe,
      MI m -> m_other m = O0 -> pend m l -> NoDup l ->
      (forall s, In s l -> In s (sids O0) /\ is_container (hget h0 s) = true) -> Q m ->
      container_loop m anc l = (m', oe) ->
      MI m' /\ m_other m' = O0 /\ grows m m' /\ (oe = None -> pend m' []) /\ Q m'.
  Proof.
    intros Q HQ. induction l as [|c l IH]; intros m m' oe HM HO Hp Hnd Hl Hq H; simpl in H.
    - inversion H; subst.
      split; [exact HM | split; [exact HO | split; [apply grows_refl | split; [intros _; exact Hp | exact Hq]]]].
    - destruct (Hl c (or_introl eq_refl)) as [HcO Hcc].
      destruct (container_one m anc c) as [m1 oe1] eqn:E1.
      pose proof (HQ _ _ _ _ _ HM HO Hp HcO Hcc Hq E1) as Hq1.
      destruct (container_one_MI _ _ _ _ _ HM HO Hp Hnd HcO Hcc E1) as [HM1 [Ho1 [Hg1 Hp1]]].
      destruct oe1 as [e1|];
        [inversion H; subst; split; [exact HM1 | split; [exact Ho1 | split; [exact Hg1 | split; [discriminate | exact Hq1]]]]|].
      inversion Hnd; subst.
      destruct (IH m1 m' oe HM1 Ho1 (Hp1 eq_refl) ltac:(assumption)
                   (fun s Hs => Hl s (or_intror Hs)) Hq1 H) as [HM' [Ho' [Hg' [Hp' Hq']]]].
      split; [exact HM' | split; [exact Ho' | split; [eapply grows_trans; eauto | split; [exact Hp' | exact Hq']]]].
  Qed.

  Definition pend_add (m : mst) (l : list sid) : Prop :=
    forall s, In s l -> is_container (hget h0 s) = false -> ~ In s (sids (m_self m)).

  (* outcome of adding the symbol [os] of the other table, outright or through the clash handling *)
  Definition clash_post (m m' : mst) (os : sid) (oe : option err) : Prop :=
    MI m' /\ grows m m' /\
    (forall x, In x (sids (m_self m')) -> In x (sids (m_self m)) \/ x = os) /\
    (oe = None -> In os (sids (m_self m')) \/ is_import (hget (m_heap m) os) = true
                  \/ is_unres (hget (m_heap m) os) = true).

  Lemma clash_post_same : forall m os e, MI m -> clash_post m m os (Some e).
  Proof.
    intros m os e HM. split; [exact HM | split; [apply grows_refl | split; [intros x Hx; left; exact Hx | discriminate]]].
  Qed.

  Lemma clash_post_madd : forall m m1 os m' oe,
      MI m1 -> In os (sids O0) -> ~ In os (sids (m_self m)) ->
      (forall x, In x (sids (m_self m1)) <-> In x (sids (m_self m))) ->
      madd_self m1 anc os = (m', oe) -> clash_post m m' os oe.
  Proof.
    intros m m1 os m' oe HM1 HinO Hnot Hiff H.
    destruct (madd_after m m1 os m' oe HM1 Hiff HinO Hnot (O0_lt _ HinO) H) as [A [_ [C [D E]]]].
    split; [exact A | split; [exact C | split; [exact D | intros Eo; left; apply E; exact Eo]]].
  Qed.

  Lemma handle_clash_rename_MI : forall m os m' oe,
      MI m -> In os (sids O0) -> ~ In os (sids (m_self m)) ->
      handle_clash_rename m anc os = (m', oe) -> clash_post m m' os oe.
  Proof.
    intros m os m' oe HM HinO Hnot H. unfold handle_clash_rename in H.
    destruct (lookup (m_self m) anc (s_name (hget (m_heap m) os))) as [ss|];
      [|inversion H; subst; apply clash_post_same; exact HM].
    destruct (is_unres (hget (m_heap m) os) && is_unres (hget (m_heap m) ss)) eqn:Eu.
    { inversion H; subst. split; [exact HM | split; [apply grows_refl | split; [intros x Hx; left; exact Hx|]]].
      intros _. right; right. apply andb_true_iff in Eu as [Eu _]. exact Eu. }
    destruct (next_available_name (m_self m) anc (s_name (hget (m_heap m) os)) false (Some (m_other m))) as [nm|];
      [|inversion H; subst; apply clash_post_same; exact HM].
    destruct (rename_symbol (m_heap m) (m_other m) os nm) as [[h1 O1]|e1] eqn:Er.
    - pose proof (MI_rename_other _ _ _ _ _ HM Er HinO Hnot) as HM1.
      eapply (clash_post_madd m (mkM h1 (m_self m) O1)); eauto. simpl. tauto.
    - destruct e1; try (inversion H; subst; apply clash_post_same; exact HM).
      destruct (rename_symbol (m_heap m) (m_self m) ss nm) as [[h2 T2]|e2] eqn:Er2;
        [|inversion H; subst; apply clash_post_same; exact HM].
      pose proof (MI_rename_self _ _ _ _ _ HM Er2) as [HM2 Hiff2].
      eapply (clash_post_madd m (mkM h2 T2 (m_other m))); eauto.
  Qed.

  Lemma handle_clash_MI : forall m os m' oe,
      MI m -> In os (sids O0) -> ~ In os (sids (m_self m)) ->
      handle_clash m anc os = (m', oe) -> clash_post m m' os oe.
  Proof.
    intros m os m' oe HM HinO Hnot H. unfold handle_clash in H.
    destruct (s_iface (hget (m_heap m) os)) eqn:Ei;
      try (eapply handle_clash_rename_MI; eauto; fail).
    destruct (lookup (m_self m) anc (s_name (hget (m_heap m) c))) as [sc|];
      [|inversion H; subst; apply clash_post_same; exact HM].
    destruct (Nat.eqb sc c); inversion H; subst; [|apply clash_post_same; exact HM].
    split; [exact HM | split; [apply grows_refl | split; [intros x Hx; left; exact Hx|]]].
    intros _. right; left. unfold is_import. rewrite Ei. reflexivity.
  Qed.

  (* what the add pass has done about symbol s of the other table: skipped it, left it to the container
     pass, moved it, or taken it for a symbol already present (imported / unresolved) *)
  Definition settled (skip : list sid) (m : mst) (s : sid) : Prop :=
    In s skip \/ is_container (hget h0 s) = true \/ In s (sids (m_self m))
    \/ is_import (hget h0 s) = true \/ is_unres (hget h0 s) = true.

  Lemma settled_grows : forall skip m m' s, grows m m' -> settled skip m s -> settled skip m' s.
  Proof. intros skip m m' s Hg [R|[R|[R|R]]]; unfold settled; auto. Qed.

  Lemma add_one_MI : forall m skip os l m' oe,
      MI m -> pend_add m (os :: l) -> NoDup (os :: l) -> In os (sids O0) ->
      add_one m anc skip os = (m', oe) ->
      MI m' /\ grows m m' /\ (oe = None -> pend_add m' l /\ settled skip m' os).
  Proof.
    intros m skip os l m' oe HM Hp Hnd HinO H. unfold add_one in H.
    inversion Hnd as [|? ? Hnotl Hndl]; subst.
    assert (Htail : pend_add m l) by (intros s Hs; apply Hp; right; exact Hs).
    destruct (mem_sid os skip || is_container (hget (m_heap m) os)) eqn:Es; rewrite (is_container_stable _ _ HM) in Es.
    { inversion H; subst. split; [exact HM | split; [apply grows_refl | intros _; split; [exact Htail|]]].
      apply orb_true_iff in Es as [Es|Es]; [left; apply mem_sid_In; exact Es | right; left; exact Es]. }
    apply orb_false_iff in Es as [_ Ec].
    assert (Hnot : ~ In os (sids (m_self m))) by (apply Hp; [left; reflexivity | exact Ec]).
    (* added outright, or after the clash handling, or an exception that leaves m *)
    assert (Hc : clash_post m m' os oe).
    { destruct (tbl_add (m_heap m) (m_self m) anc os "") as [T'|e] eqn:Ea.
      - apply (clash_post_madd m m); [exact HM | exact HinO | exact Hnot | tauto|].
        unfold madd_self. rewrite Ea. exact H.
      - destruct e; try (inversion H; subst; apply clash_post_same; exact HM).
        eapply handle_clash_MI; eauto. }
    destruct Hc as [HM' [Hg [Hnew Hres]]].
    split; [exact HM' | split; [exact Hg | intros E; split]].
    - intros s Hs Hk Hc. destruct (Hnew _ Hc) as [Hc'|Hc']; [apply (Htail s Hs Hk Hc') | subst s; contradiction].
    - destruct (mi_ifc _ HM os) as [Ei Eu]. rewrite Ei, Eu in Hres. unfold settled.
      destruct (Hres E) as [R|[R|R]]; auto.
  Qed.

  Lemma add_loop_MI : forall (Q : mst -> Prop) skip,
      (forall m os l m' oe, MI m -> pend_add m (os :: l) -> In os (sids O0) -> Q m ->
                            add_one m anc skip os = (m', oe) -> Q m') ->
      forall l m m' oe,
      MI m -> pend_add m l -> NoDup l -> (forall s, In s l -> In s (sids O0)) -> Q m ->
      add_loop m anc skip l = (m', oe) ->
      MI m' /\ grows m m' /\ (oe = None -> forall s, In s l -> settled skip m' s) /\ Q m'.
  Proof.
    intros Q skip HQ. induction l as [|os l IH]; intros m m' oe HM Hp Hnd Hl Hq H; simpl in H.
    - inversion H; subst. split; [exact HM | split; [apply grows_refl | split; [intros _ s [] | exact Hq]]].
    - destruct (add_one m anc skip os) as [m1 oe1] eqn:E1.
      pose proof (HQ _ _ _ _ _ HM Hp (Hl os (or_introl eq_refl)) Hq E1) as Hq1.
      destruct (add_one_MI _ _ _ _ _ _ HM Hp Hnd (Hl os (or_introl eq_refl)) E1) as [HM1 [Hg1 Hr1]].
      destruct oe1 as [e1|];
        [inversion H; subst; split; [exact HM1 | split; [exact Hg1 | split; [discriminate | exact Hq1]]]|].
      destruct (Hr1 eq_refl) as [Hp1 Hs1]. inversion Hnd; subst.
      destruct (IH m1 m' oe HM1 Hp1 ltac:(assumption) (fun s Hs => Hl s (or_intror Hs)) Hq1 H)
        as [HM' [Hg' [Hr' Hq']]].
      split; [exact HM' | split; [eapply grows_trans; eauto | split; [|exact Hq']]].
      intros E s [Hs|Hs]; [subst s; eapply settled_grows; eauto | apply Hr'; assumption].
  Qed.
End MergeInv.

Lemma MI_init : forall h1 T Ot, TOK h1 T -> MI h1 T Ot (mkM h1 T Ot).
Proof.
  intros h1 T Ot HT. constructor; simpl; auto.
  - intros s; reflexivity.
  - intros s; split; reflexivity.
Qed.

(* the ContainerSymbols of the other table, in table order: what the container pass iterates over *)
Definition containers_of (h : heap) (Ot : table) : list sid :=
  filter (fun s => is_container (hget h s)) (sids Ot).

(* where the two passes start, once check_for_clashes has returned the heap h1 *)
Lemma merge_start : forall h1 T Ot,
    TOK h1 T -> TOK h1 Ot -> (forall s, In s (sids T) -> ~ In s (sids Ot)) ->
    (forall s, In s (sids Ot) -> s < List.length h1) /\
    MI h1 T Ot (mkM h1 T Ot) /\ pend h1 Ot (mkM h1 T Ot) (containers_of h1 Ot) /\
    NoDup (containers_of h1 Ot) /\
    (forall s, In s (containers_of h1 Ot) -> In s (sids Ot) /\ is_container (hget h1 s) = true).
Proof.
  intros h1 T Ot HT HO Hdisj. split; [|split; [|split; [|split]]].
  - intros s Hs. apply in_sids in Hs as [k Hk]. destruct HO as [_ [_ Hn]]. apply (Hn _ _ Hk).
  - apply MI_init. exact HT.
  - split; simpl.
    + intros s Hs Hc. apply filter_In in Hs as [Hs _]. apply (Hdisj _ Hc Hs).
    + intros s Hs _ Hc. apply (Hdisj _ Hc Hs).
  - apply NoDup_filter. apply HO.
  - intros s Hs. apply filter_In in Hs. exact Hs.
Qed.

(* the two passes of a merge that got past check_for_clashes with heap h1, run to the end or to an
   exception: MI holds of what they leave, and so does any Q that one round of either pass keeps *)
Lemma merge_passes : forall h T anc Ot skip h1 (Q : mst -> Prop) m ph oe,
    check_for_clashes h T anc Ot skip = (h1, None) ->
    TOK h1 T -> TOK h1 Ot -> (forall s, In s (sids T) -> ~ In s (sids Ot)) ->
    (forall m c l m' oe, MI h1 T Ot m -> m_other m = Ot -> pend h1 Ot m (c :: l) -> In c (sids Ot) ->
                         is_container (hget h1 c) = true -> Q m -> container_one m anc c = (m', oe) -> Q m') ->
    (forall m os l m' oe, MI h1 T Ot m -> pend_add h1 m (os :: l) -> In os (sids Ot) -> Q m ->
                          add_one m anc skip os = (m', oe) -> Q m') ->
    Q (mkM h1 T Ot) ->
    merge h T anc Ot skip = (m, ph, oe) ->
    MI h1 T Ot m /\ Q m /\
    match ph with
    | MRejected => False
    | MPartial => oe <> None
    | MDone => oe = None /\ forall s, In s (sids Ot) -> settled h1 skip m s
    end.
Proof.
  intros h T anc Ot skip h1 Q m ph oe Ec HT1 HO1 Hdisj HQc HQa HQ0 H. unfold merge in H. rewrite Ec in H.
  destruct (merge_start h1 T Ot HT1 HO1 Hdisj) as [Hlt [HM0 [Hpend0 [Hndc Hlc]]]].
  unfold add_containers in H. simpl in H. fold (containers_of h1 Ot) in H.
  destruct (container_loop (mkM h1 T Ot) anc (containers_of h1 Ot)) as [m1 oe1] eqn:E1.
  destruct (container_loop_MI h1 T Ot anc Hlt Q HQc _ _ _ _ HM0 eq_refl Hpend0 Hndc Hlc HQ0 E1)
    as [HM1 [Ho1 [_ [Hp1 HQ1]]]].
  destruct oe1 as [e1|]; [inversion H; subst; split; [exact HM1 | split; [exact HQ1 | discriminate]]|].
  unfold add_symbols in H. rewrite Ho1 in H. clear Ho1.
  assert (Hpa : pend_add h1 m1 (sids Ot)).
  { intros s Hs Hk. apply (proj2 (Hp1 eq_refl)); assumption. }
  destruct (add_loop m1 anc skip (sids Ot)) as [m2 oe2] eqn:E2.
  destruct (add_loop_MI h1 T Ot anc Hlt Q skip HQa _ _ _ _ HM1 Hpa (proj1 (proj2 HO1)) (fun s Hs => Hs) HQ1 E2)
    as [HM2 [_ [Hr2 HQ2]]].
  destruct oe2 as [e2|]; inversion H; subst; (split; [exact HM2 | split; [exact HQ2|]]);
    [discriminate | split; [reflexivity | apply Hr2; reflexivity]].
Qed.

Definition merge_post (h : heap) (T Ot : table) (skip : list sid) (m : mst) (ph : mphase)
           (oe : option err) : Prop :=
  exists h1, checked h h1 /\
    match ph with
    | MRejected => m = mkM h1 T Ot /\ oe <> None
    | MPartial => MI h1 T Ot m /\ oe <> None
    | MDone => MI h1 T Ot m /\ oe = None /\
               forall s, In s (sids Ot) -> ~ In s skip -> is_container (hget h s) = false ->
                         is_import (hget h s) = false -> is_unres (hget h s) = false ->
                         In s (sids (m_self m))
    end.

Theorem merge_spec : forall h T anc Ot skip m ph oe,
    TOK h T -> TOK h Ot -> (forall s, In s (sids T) -> ~ In s (sids Ot)) ->
    merge h T anc Ot skip = (m, ph, oe) -> merge_post h T Ot skip m ph oe.
Proof.
  intros h T anc Ot skip m ph oe HT HO Hdisj H.
  destruct (check_for_clashes h T anc Ot skip) as [h1 oe0] eqn:Ec.
  pose proof (check_for_clashes_checked _ _ _ _ _ _ _ Ec) as Hck. exists h1. split; [exact Hck|].
  destruct oe0 as [e|].
  { unfold merge in H. rewrite Ec in H. inversion H; subst. split; [reflexivity | discriminate]. }
  destruct (merge_passes _ _ _ _ _ _ (fun _ => True) _ _ _ Ec (checked_TOK _ _ _ Hck HT) (checked_TOK _ _ _ Hck HO)
                         Hdisj (fun _ _ _ _ _ _ _ _ _ _ _ _ => I) (fun _ _ _ _ _ _ _ _ _ _ => I) I H)
    as [HM [_ Hph]].
  destruct Hck as [_ [Hif Hco]].
  destruct ph; [destruct Hph | split; assumption |]. destruct Hph as [Eo Hr].
  split; [exact HM|]. split; [exact Eo|].
  intros s Hs Hsk Hc Hi Hu.
  destruct (Hr s Hs) as [R|[R|[R|[R|R]]]].
  - contradiction.
  - rewrite Hco in R. congruence.
  - exact R.
  - unfold is_import in *. rewrite Hif in R. congruence.
  - unfold is_unres in *. rewrite Hif in R. congruence.
Qed.
