(* C16 -- the state invariant over ALL histories without merge of the CodeBlock-aware step
   (ExecCB.step_cb), by simulation: for every operation other than merge, step_cb either is Model.step
   or refuses a rename because of a CodeBlock access and leaves the state unchanged.  And the general
   form of "an un-resolvable clash is rejected up front". *)
From Coq Require Import List Arith Bool String Ascii NArith Lia Permutation.
Import ListNotations.
From PV Require Import C16.GenTables C16.Model C16.Names C16.Inv C16.MergeProofs C16.StateInv C16.Proofs
     C16.Exec C16.CodeBlocks C16.ExecCB.
Open Scope string_scope.
Open Scope list_scope.

Definition run_cb (cbs : list (list string)) (st : state) (ops : list op) : state :=
  fold_left (fun s o => fst (step_cb cbs s o)) ops st.

Definition no_merge (ops : list op) : bool := forallb (fun o => negb (is_merge o)) ops.

Lemma step_cb_sim : forall cbs st o,
    is_merge o = false ->
    step_cb cbs st o = step st o \/
    (exists t s name, o = ORename t s name /\ step_cb cbs st o = (st, RErr ESymbol)).
Proof.
  intros cbs st o Hm. destruct o; simpl in Hm; try discriminate Hm; try (left; reflexivity).
  simpl. unfold rename_step_cb.
  destruct (get_table st t) as [T|]; [|left; reflexivity].
  unfold rename_symbol_cb, rename_check_cb, rename_symbol.
  destruct (rename_check (st_heap st) T s name) as [e|]; [left; reflexivity|].
  destruct (mem_str _ _); [right; eauto | left; reflexivity].
Qed.

Lemma step_cb_WF : forall cbs st o, is_merge o = false -> WF st -> WF (fst (step_cb cbs st o)).
Proof.
  intros cbs st o Hm HW. destruct (step_cb_sim cbs st o Hm) as [E|[t [s [name [_ E]]]]]; rewrite E.
  - apply step_WF. exact HW.
  - exact HW.
Qed.

Lemma run_cb_WF : forall cbs ops st, no_merge ops = true -> WF st -> WF (run_cb cbs st ops).
Proof.
  intros cbs. induction ops as [|o ops IH]; intros st Hn HW; simpl; [exact HW|].
  simpl in Hn. apply andb_true_iff in Hn as [Ho Hn]. apply negb_true_iff in Ho.
  apply IH; [exact Hn | apply step_cb_WF; assumption].
Qed.

(* the pair (ts in the receiving table, os in the other) is none of the special cases of
   check_for_clashes: it has to be resolved by renaming *)
Definition needs_rename (h : heap) (ts os : sid) : Prop :=
  is_container (hget h ts) && is_container (hget h os) = false /\
  is_intrinsic_sym (hget h ts) && is_intrinsic_sym (hget h os) = false /\
  is_import (hget h os) && is_import (hget h ts) = false /\
  is_unres (hget h os) && is_unres (hget h ts) = false.

(* neither can be renamed (or the dry run raises something else than SymbolError) *)
Definition unrenameable_pair (cb : list string) (h : heap) (self other : table) (ts os : sid) : Prop :=
  exists e1, rename_check_cb cb h self ts "" = Some e1 /\
             (e1 = ESymbol -> exists e2, rename_check_cb [] h other os "" = Some e2).

Lemma check_one_cb_unrenameable : forall cb h self other skip sw ow os ts,
    find_key (normalize (s_name (hget h os))) (t_syms self) = Some ts ->
    ~ In os skip -> needs_rename h ts os -> unrenameable_pair cb h self other ts os ->
    exists e, check_one_cb cb h self other skip sw ow os = (h, Some e).
Proof.
  intros cb h self other skip sw ow os ts Hf Hsk [Hc [Hi [Him Hu]]] [e1 [H1 H2]]. unfold check_one_cb.
  rewrite Hf. apply mem_sid_false in Hsk. rewrite Hsk, Hc, Hi, Him, Hu, H1.
  destruct e1; try (eexists; reflexivity).
  destruct (H2 eq_refl) as [e2 E2]. rewrite E2. eexists; reflexivity.
Qed.

Theorem merge_unrenameable_clash_rejected_upfront_ : forall cb h self anc other skip os ts,
    no_intrinsic_unresolved h self ->
    In os (sids other) -> ~ In os skip ->
    find_key (normalize (s_name (hget h os))) (t_syms self) = Some ts ->
    needs_rename h ts os -> unrenameable_pair cb h self other ts os ->
    exists e, check_for_clashes_cb cb h self anc other skip = (h, Some e) /\
              merge_cb cb h self anc other skip = (mkM h self other, MRejected, Some e).
Proof.
  intros cb h self anc other skip os ts Hs Hin Hsk Hf Hn Hu.
  apply (merge_cb_rejects cb h self anc other skip os Hs Hin).
  intros sw ow. eapply check_one_cb_unrenameable; eauto.
Qed.

(* a history without merge over a scope with WRITE(*,*) x, a: refused renames, successful renames,
   shadowing, removal; the invariant hypotheses hold and the CodeBlock refusals are really taken *)
Definition cbi_ops : list op :=
  [OAdd (TSlot 1) "a" (mkSpec KData false IAuto) "t"; OAdd (TSlot 0) "x" (mkSpec KData false IAuto) "";
   OAdd (TSlot 0) "A" (mkSpec KGeneric false IAuto) "";
   ORename (TSlot 0) 1 "z"; ORename (TSlot 1) 0 "q"; ORename (TSlot 0) 2 "B"; ORename (TSlot 0) 2 "x";
   ORemove (TSlot 0) 2].

Example invariants_cb_nonvacuous :
  no_merge cbi_ops = true /\
  map snd (map (step_cb [["x"; "a"]; []] (run_cb [["x"; "a"]; []] (init_state 2) (firstn 3 cbi_ops)))
               [ORename (TSlot 0) 1 "z"; ORename (TSlot 1) 0 "q"; ORename (TSlot 0) 2 "B"])
  = [RErr ESymbol; RErr ESymbol; RErr ESymbol] /\
  (* x and a keep their names, A (also named in the CodeBlock, case-insensitively) too *)
  map s_name (st_heap (run_cb [["x"; "a"]; []] (init_state 2) cbi_ops)) = ["a"; "x"; "A"] /\
  (* without CodeBlocks the same history renames them *)
  map s_name (st_heap (run_cb [[]; []] (init_state 2) cbi_ops)) = ["q"; "z"; "x"].
Proof. vm_compute. repeat split. Qed.

(* two clashing pairs, the first resolvable (b / B), the second not (x in a CodeBlock / X argument),
   a third symbol without clash: rejected up front *)
Definition cbg_st : state :=
  run (init_state 1)
      [OAdd (TSlot 0) "b" (mkSpec KData false IAuto) ""; OAdd (TSlot 0) "x" (mkSpec KData false IAuto) "";
       ONewTable; OAdd (TDet 0) "B" (mkSpec KData false IAuto) ""; OAdd (TDet 0) "first" (mkSpec KData false IAuto) "";
       OAdd (TDet 0) "X" (mkSpec KData false IArg) ""].

Example merge_upfront_general_nonvacuous :
  exists T Ot,
    get_table cbg_st (TSlot 0) = Some T /\ nth_error (st_det cbg_st) 0 = Some Ot /\
    no_intrinsic_unresolved (st_heap cbg_st) T /\ In 4 (sids Ot) /\
    find_key (normalize (s_name (hget (st_heap cbg_st) 4))) (t_syms T) = Some 1 /\
    needs_rename (st_heap cbg_st) 1 4 /\ unrenameable_pair ["x"] (st_heap cbg_st) T Ot 1 4 /\
    merge_cb ["x"] (st_heap cbg_st) T [] Ot [] = (mkM (st_heap cbg_st) T Ot, MRejected, Some ESymbol) /\
    (exists m, merge_cb [] (st_heap cbg_st) T [] Ot [] = (m, MDone, None) /\
               map (fun s => s_name (hget (m_heap m) s)) (sids (m_self m)) = ["b"; "B_1"; "first"; "X_1"; "X"]).
Proof.
  eexists. eexists. split; [vm_compute; reflexivity|]. split; [vm_compute; reflexivity|].
  split. { intros s Hs Hu. vm_compute in Hs. destruct Hs as [<-|[<-|[]]]; vm_compute in Hu; discriminate. }
  split; [vm_compute; auto|]. split; [vm_compute; reflexivity|].
  split; [vm_compute; auto|].
  split. { exists ESymbol. split; [vm_compute; reflexivity|]. intros _. exists ESymbol. vm_compute. reflexivity. }
  split; [vm_compute; reflexivity|]. eexists. split; vm_compute; reflexivity.
Qed.
