(* C16 -- the invariant of the whole state (all tables of all scopes and all detached tables)
   and its preservation by every operation. *)
From Coq Require Import List Arith Bool String Ascii NArith Lia Permutation.
Import ListNotations.
From PV Require Import C16.GenTables C16.Model C16.Names C16.Inv C16.MergeProofs.
Open Scope string_scope.
Open Scope list_scope.

Definition slot_tables (l : list (option table)) : list table :=
  flat_map (fun o => match o with Some T => [T] | None => [] end) l.

Definition all_tables (st : state) : list table := slot_tables (st_slots st) ++ st_det st.

(* a list of tables over a heap: each table is consistent, tags point into their table, and no
   symbol object is in two tables (or twice in one) *)
Definition WFl (h : heap) (Ts : list table) : Prop :=
  (forall T, In T Ts -> TOK h T /\ tags_ok T) /\ NoDup (flat_map sids Ts).

Definition WF (st : state) : Prop := WFl (st_heap st) (all_tables st).

Lemma WF_table : forall st T, WF st -> In T (all_tables st) -> TOK (st_heap st) T /\ tags_ok T.
Proof. intros st T HW HT. apply (proj1 HW T HT). Qed.

Lemma NoDup_app_elim {A} (a b : list A) :
  NoDup (a ++ b) -> NoDup a /\ NoDup b /\ (forall x, In x a -> ~ In x b).
Proof.
  induction a as [|x a IH]; simpl; intros H.
  - split; [constructor | split; [exact H | intros x []]].
  - inversion H as [|? ? Hn Hd]; subst. destruct (IH Hd) as [Ha [Hb Hdis]].
    split; [constructor; [intro Hx; apply Hn; apply in_or_app; left; exact Hx | exact Ha]|].
    split; [exact Hb|]. intros y [Hy|Hy]; [subst; intro Hy; apply Hn; apply in_or_app; right; exact Hy | apply Hdis; exact Hy].
Qed.

Lemma NoDup_app_intro {A} (a b : list A) :
  NoDup a -> NoDup b -> (forall x, In x a -> ~ In x b) -> NoDup (a ++ b).
Proof.
  induction a as [|x a IH]; simpl; intros Ha Hb Hd; [exact Hb|].
  inversion Ha as [|? ? Hn Ha']; subst. constructor.
  - intro Hx. apply in_app_or in Hx as [Hx|Hx]; [contradiction | apply (Hd x (or_introl eq_refl) Hx)].
  - apply IH; [exact Ha' | exact Hb | intros y Hy; apply Hd; right; exact Hy].
Qed.

Lemma WFl_perm : forall h Ts Ts', Permutation Ts Ts' -> WFl h Ts -> WFl h Ts'.
Proof.
  intros h Ts Ts' Hp [H1 H2]. split.
  - intros T HT. apply H1. eapply Permutation_in; [apply Permutation_sym; exact Hp | exact HT].
  - eapply Permutation_NoDup; [apply Permutation_flat_map; exact Hp | exact H2].
Qed.

Lemma list_set_split {A} : forall (l : list A) i x,
    nth_error l i = Some x ->
    exists l1 l2, l = l1 ++ x :: l2 /\ (forall y, list_set l i y = l1 ++ y :: l2) /\ list_del l i = l1 ++ l2.
Proof.
  induction l as [|a l IH]; intros [|i] x H; simpl in H; try discriminate.
  - inversion H; subst. exists [], l. repeat split; reflexivity.
  - destruct (IH i x H) as [l1 [l2 [E1 [E2 E3]]]]. exists (a :: l1), l2. simpl.
    split; [congruence|]. split; [intros y; rewrite E2; reflexivity | congruence].
Qed.

Lemma list_set_same {A} : forall (l : list A) i x, nth_error l i = Some x -> list_set l i x = l.
Proof.
  intros l i x H. destruct (list_set_split _ _ _ H) as [l1 [l2 [E1 [E2 _]]]]. rewrite E2. symmetry. exact E1.
Qed.

Lemma set_table_same : forall st t T, get_table st t = Some T -> set_table st t T = st.
Proof.
  intros [h sl d] [i|j] T H; unfold get_table in H; simpl in *.
  - destruct (nth_error sl i) as [[T0|]|] eqn:E; try discriminate. inversion H; subst.
    rewrite (list_set_same _ _ _ E). reflexivity.
  - rewrite (list_set_same _ _ _ H). reflexivity.
Qed.

Lemma slot_tables_app : forall a b, slot_tables (a ++ b) = slot_tables a ++ slot_tables b.
Proof. intros. unfold slot_tables. apply flat_map_app. Qed.

(* the table addressed by a reference, and the others *)
Lemma get_table_perm : forall st t T,
    get_table st t = Some T ->
    exists rest, Permutation (all_tables st) (T :: rest) /\
                 forall h' T', Permutation (all_tables (set_table (with_heap st h') t T')) (T' :: rest).
Proof.
  intros st [i|j] T H; unfold get_table in H.
  - destruct (nth_error (st_slots st) i) as [[T0|]|] eqn:E; try discriminate. inversion H; subst T0.
    destruct (list_set_split _ _ _ E) as [l1 [l2 [E1 [E2 _]]]].
    exists (slot_tables l1 ++ slot_tables l2 ++ st_det st). split.
    + unfold all_tables. rewrite E1, slot_tables_app. simpl. rewrite <- app_assoc. simpl.
      apply Permutation_sym. apply Permutation_middle.
    + intros h' T'. unfold all_tables. simpl. rewrite E2, slot_tables_app. simpl. rewrite <- app_assoc. simpl.
      apply Permutation_sym. apply Permutation_middle.
  - destruct (list_set_split _ _ _ H) as [l1 [l2 [E1 [E2 _]]]].
    exists (slot_tables (st_slots st) ++ l1 ++ l2). split.
    + unfold all_tables. rewrite E1. rewrite app_assoc. apply Permutation_sym.
      rewrite app_assoc. apply Permutation_middle.
    + intros h' T'. unfold all_tables. simpl. rewrite E2. rewrite app_assoc. apply Permutation_sym.
      rewrite app_assoc. apply Permutation_middle.
Qed.

Lemma WFl_sids_lt : forall h Ts T s, WFl h Ts -> In T Ts -> In s (sids T) -> s < List.length h.
Proof.
  intros h Ts T s [H _] HT Hs. destruct (H T HT) as [[_ [_ Hn]] _].
  apply in_sids in Hs as [k Hk]. apply (Hn _ _ Hk).
Qed.

Lemma WFl_heap : forall h h' Ts,
    WFl h Ts -> List.length h <= List.length h' ->
    (forall s, s < List.length h -> s_name (hget h' s) = s_name (hget h s)) -> WFl h' Ts.
Proof.
  intros h h' Ts HW Hlen Hn. destruct HW as [H1 H2]. split; [|exact H2].
  intros T HT. destruct (H1 T HT) as [Htok Htag]. split; [|exact Htag].
  eapply TOK_frame; [exact Htok | exact Hlen|].
  intros s Hs. apply Hn. eapply WFl_sids_lt; [split; eauto | exact HT | exact Hs].
Qed.

(* the tables Ts0 are replaced by the one table T', over a heap that may have grown: T' holds only
   symbols of Ts0 or new ones, and no symbol outside Ts0 changes its name *)
Lemma WFl_replace : forall h h' Ts0 T' rest,
    WFl h (Ts0 ++ rest) -> TOK h' T' -> tags_ok T' -> List.length h <= List.length h' ->
    (forall s, s < List.length h -> ~ In s (flat_map sids Ts0) -> s_name (hget h' s) = s_name (hget h s)) ->
    (forall s, In s (sids T') -> In s (flat_map sids Ts0) \/ List.length h <= s) ->
    WFl h' (T' :: rest).
Proof.
  intros h h' Ts0 T' rest HW Htok Htag Hlen Hn Hsub.
  assert (Hlt : forall T2 s, In T2 rest -> In s (sids T2) -> s < List.length h).
  { intros T2 s HT2. apply (WFl_sids_lt _ _ _ _ HW). apply in_or_app. right. exact HT2. }
  destruct HW as [H1 H2]. rewrite flat_map_app in H2.
  apply NoDup_app_elim in H2 as [_ [Hndr Hdis]].
  split.
  - intros T2 [E|HT2]; [subst; split; assumption|].
    destruct (H1 T2 (in_or_app _ _ _ (or_intror HT2))) as [Htok2 Htag2]. split; [|exact Htag2].
    eapply TOK_frame; [exact Htok2 | exact Hlen|].
    intros s Hs. apply Hn; [apply (Hlt T2 s HT2 Hs)|].
    intro Hc. apply (Hdis s Hc). apply in_flat_map. exists T2. auto.
  - simpl. apply NoDup_app_intro; [apply Htok | exact Hndr|].
    intros s Hs Hc. apply in_flat_map in Hc as [T2 [HT2 Hs2]].
    destruct (Hsub s Hs) as [Hin|Hge].
    + apply (Hdis s Hin). apply in_flat_map. exists T2. auto.
    + pose proof (Hlt T2 s HT2 Hs2). lia.
Qed.

Lemma WFl_two : forall h T Ot rest,
    WFl h (T :: Ot :: rest) ->
    (TOK h T /\ tags_ok T) /\ TOK h Ot /\ (forall s, In s (sids T) -> ~ In s (sids Ot)).
Proof.
  intros h T Ot rest [H Hnd].
  split; [apply H; left; reflexivity|]. split; [apply H; right; left; reflexivity|].
  intros s Hs Hc. simpl in Hnd. apply NoDup_app_elim in Hnd as [_ [_ Hd]].
  apply (Hd s Hs). apply in_or_app. left. exact Hc.
Qed.

(* a merge that got past check_for_clashes (to the end or to an exception): MI describes the receiving
   table it leaves, the other table is dropped *)
Lemma WFl_merged : forall h h1 T Ot rest m,
    WFl h (T :: Ot :: rest) -> same_names h h1 -> MI h1 T Ot m -> WFl (m_heap m) (m_self m :: rest).
Proof.
  intros h h1 T Ot rest m HW [Hlen Hnm] [Htok Hl Hsub Hsup Htags _ Hframe _ _].
  destruct (WFl_two _ _ _ _ HW) as [[_ [Htd Hti]] _].
  apply (WFl_replace h (m_heap m) [T; Ot] (m_self m) rest HW Htok); simpl; rewrite ?app_nil_r.
  - split; [rewrite Htags; exact Htd|].
    intros tg x Hx. rewrite Htags in Hx. apply Hsup. eapply Hti; eauto.
  - lia.
  - intros s _ Hs. rewrite Hframe; [apply Hnm | intro Hc; apply Hs, in_or_app; auto ..].
  - intros s Hs. left. apply in_or_app, Hsub, Hs.
Qed.

(* two distinct references: the receiving table of a merge and the detached other table *)
Lemma get_two_perm : forall st t j T Ot,
    get_table st t = Some T -> nth_error (st_det st) j = Some Ot ->
    (match t with TDet j' => Nat.eqb j' j | _ => false end) = false ->
    exists rest, Permutation (all_tables st) (T :: Ot :: rest) /\
                 forall h' T',
                   let st1 := set_table (with_heap st h') t T' in
                   Permutation (all_tables (mkState (st_heap st1) (st_slots st1) (list_del (st_det st1) j)))
                               (T' :: rest).
Proof.
  intros st [i|j'] j T Ot HT HO Hne; unfold get_table in HT.
  - destruct (nth_error (st_slots st) i) as [[T0|]|] eqn:E; try discriminate. inversion HT; subst T0.
    destruct (list_set_split _ _ _ E) as [l1 [l2 [E1 [E2 _]]]].
    destruct (list_set_split _ _ _ HO) as [d1 [d2 [D1 [_ D3]]]].
    exists (slot_tables l1 ++ slot_tables l2 ++ d1 ++ d2). split.
    + unfold all_tables. rewrite E1, D1, slot_tables_app. simpl. rewrite <- app_assoc. simpl.
      apply Permutation_sym. eapply perm_trans; [|apply Permutation_middle]. apply perm_skip.
      rewrite !app_assoc. apply Permutation_middle.
    + intros h' T'. simpl. unfold all_tables. simpl. rewrite E2, D3, slot_tables_app. simpl.
      rewrite <- app_assoc. simpl. apply Permutation_sym. apply Permutation_middle.
  - apply Nat.eqb_neq in Hne.
    (* both in the detached list, at different positions *)
    assert (Hsplit : exists rest, Permutation (st_det st) (T :: Ot :: rest) /\
                                  forall T', Permutation (list_del (list_set (st_det st) j' T') j) (T' :: rest)).
    { clear - HT HO Hne. revert j' j HT HO Hne. generalize (st_det st).
      induction l as [|a l IH]; intros [|j'] [|j] HT HO Hne; simpl in *; try discriminate; try lia.
      - inversion HT; subst a. destruct (list_set_split _ _ _ HO) as [d1 [d2 [D1 [_ D3]]]].
        exists (d1 ++ d2). split.
        + apply perm_skip. rewrite D1. apply Permutation_sym. apply Permutation_middle.
        + intros T'. rewrite D3. apply Permutation_refl.
      - inversion HO; subst a. destruct (list_set_split _ _ _ HT) as [d1 [d2 [D1 [D2 _]]]].
        exists (d1 ++ d2). split.
        + eapply perm_trans; [|apply perm_swap]. apply perm_skip. rewrite D1.
          apply Permutation_sym. apply Permutation_middle.
        + intros T'. rewrite D2. apply Permutation_sym. apply Permutation_middle.
      - destruct (IH j' j HT HO ltac:(lia)) as [rest [P1 P2]].
        exists (a :: rest). split.
        + eapply perm_trans; [apply perm_skip; exact P1|].
          eapply perm_trans; [apply perm_swap|]. apply perm_skip. apply perm_swap.
        + intros T'. eapply perm_trans; [apply perm_skip; apply P2 | apply perm_swap]. }
    destruct Hsplit as [rest [P1 P2]].
    exists (slot_tables (st_slots st) ++ rest). split.
    + unfold all_tables. eapply perm_trans; [apply Permutation_app_head; exact P1|].
      apply Permutation_sym.
      eapply perm_trans; [apply perm_skip; apply Permutation_middle|].
      apply Permutation_middle.
    + intros h' T'. simpl. unfold all_tables. simpl.
      eapply perm_trans; [apply Permutation_app_head; apply P2|].
      apply Permutation_sym. apply Permutation_middle.
Qed.

Lemma set_table_with_heap_id : forall st t T', set_table (with_heap st (st_heap st)) t T' = set_table st t T'.
Proof. intros st [i|j] T'; reflexivity. Qed.

Lemma WF_get : forall st t T, WF st -> get_table st t = Some T -> TOK (st_heap st) T /\ tags_ok T.
Proof.
  intros st t T HW H. destruct (get_table_perm _ _ _ H) as [rest [P _]].
  apply (WFl_perm _ _ _ P) in HW. apply (proj1 HW). left; reflexivity.
Qed.

Lemma WF_update_table : forall st t T h' T',
    WF st -> get_table st t = Some T -> TOK h' T' -> tags_ok T' ->
    List.length (st_heap st) <= List.length h' ->
    (forall s, s < List.length (st_heap st) -> ~ In s (sids T) ->
               s_name (hget h' s) = s_name (hget (st_heap st) s)) ->
    (forall s, In s (sids T') -> In s (sids T) \/ List.length (st_heap st) <= s) ->
    WF (set_table (with_heap st h') t T').
Proof.
  intros st t T h' T' HW H Htok Htag Hlen Hn Hsub.
  destruct (get_table_perm _ _ _ H) as [rest [P1 P2]].
  unfold WF. eapply WFl_perm; [apply Permutation_sym; apply P2|].
  replace (st_heap (set_table (with_heap st h') t T')) with h' by (destruct t; reflexivity).
  apply (WFl_replace (st_heap st) h' [T] T' rest); simpl; rewrite ?app_nil_r; try assumption.
  eapply WFl_perm; [exact P1 | exact HW].
Qed.

Lemma WF_shrink_table : forall st t T T',
    WF st -> get_table st t = Some T -> TOK (st_heap st) T' -> tags_ok T' -> incl (sids T') (sids T) ->
    WF (set_table st t T').
Proof.
  intros st t T T' HW H Htok Htag Hincl. rewrite <- set_table_with_heap_id.
  eapply WF_update_table; eauto.
Qed.

(* allocate a new symbol object and add it to (a sub-table of) the addressed table *)
Lemma alloc_add_WF : forall st t T T1 anc y tag T',
    WF st -> get_table st t = Some T ->
    TOK (st_heap st) T1 -> tags_ok T1 -> incl (sids T1) (sids T) ->
    tbl_add (st_heap st ++ [y]) T1 anc (List.length (st_heap st)) tag = inl T' ->
    WF (set_table (with_heap st (st_heap st ++ [y])) t T').
Proof.
  intros st t T T1 anc y tag T' HW H Htok1 Htag1 Hincl Hadd.
  set (h := st_heap st) in *. set (h' := h ++ [y]).
  assert (Hlen : List.length h' = S (List.length h)) by (unfold h'; rewrite app_length; simpl; lia).
  assert (Hlt1 : forall s, In s (sids T1) -> s < List.length h).
  { intros s Hs. apply in_sids in Hs as [k Hk]. apply (proj2 (proj2 Htok1) _ _ Hk). }
  assert (Htok1' : TOK h' T1).
  { eapply TOK_frame; [exact Htok1 | lia|]. intros s Hs. unfold h'. rewrite hget_app_old; [reflexivity | apply Hlt1; exact Hs]. }
  assert (Hnot : ~ In (List.length h) (sids T1)) by (intro Hc; apply Hlt1 in Hc; lia).
  assert (Hlt' : List.length h < List.length h') by lia.
  destruct (tbl_add_TOK _ _ _ _ _ _ Hadd Htok1' Hnot Hlt') as [Htok' Hs'].
  pose proof (tbl_add_tags_ok _ _ _ _ _ _ Hadd Htag1) as Htag'.
  eapply WF_update_table; eauto.
  - fold h. fold h'. lia.
  - intros s Hs _. unfold h'. rewrite hget_app_old by exact Hs. reflexivity.
  - intros s Hs. rewrite Hs' in Hs. apply in_app_or in Hs as [Hs|[Hs|[]]]; [left; apply Hincl; exact Hs | right; subst s; fold h; lia].
Qed.

Lemma new_symbol_WF : forall st t T root tag sh sp allow,
    WF st -> get_table st t = Some T -> WF (fst (new_symbol st t T root tag sh sp allow)).
Proof.
  intros st t T root tag sh sp allow HW H. unfold new_symbol.
  destruct (next_available_name T (ancestors st t) root sh None) as [nm|]; [|exact HW].
  destruct (negb allow && negb (String.eqb nm root)); [exact HW|].
  match goal with
  | |- WF (fst (match tbl_add ?h' T ?anc ?s tag with _ => _ end)) => destruct (tbl_add h' T anc s tag) as [T'|e] eqn:Ea
  end; simpl; [|exact HW].
  destruct (WF_get _ _ _ HW H) as [Htok Htag].
  eapply alloc_add_WF; eauto. intros x Hx; exact Hx.
Qed.

Lemma empty_WFl : forall h Ts, WFl h Ts -> WFl h (empty_table :: Ts).
Proof.
  intros h Ts [H1 H2]. split.
  - intros T [E|HT]; [subst|apply H1; exact HT].
    split; [split; [constructor | split; [constructor | intros k s []]] | split; [constructor | intros tg s []]].
  - simpl. exact H2.
Qed.

Theorem step_WF : forall st o, WF st -> WF (fst (step st o)).
Proof.
  intros st o HW. destruct o; simpl.
  - (* OAdd *)
    destruct (get_table st t) as [T|] eqn:H; [|exact HW].
    destruct (negb (spec_ok (st_heap st) sp)); [exact HW|].
    match goal with
    | |- WF (fst (match tbl_add ?h' T ?anc ?s tag with _ => _ end)) => destruct (tbl_add h' T anc s tag) as [T'|e] eqn:Ea
    end; simpl; [|exact HW].
    destruct (WF_get _ _ _ HW H) as [Htok Htag].
    eapply alloc_add_WF; eauto. intros x Hx; exact Hx.
  - (* ONewSymbol *)
    destruct (get_table st t) as [T|] eqn:H; [|exact HW].
    destruct (negb (spec_ok (st_heap st) sp)); [exact HW|].
    apply new_symbol_WF; assumption.
  - (* OFindOrCreate *)
    destruct (get_table st t) as [T|] eqn:H; [|exact HW].
    destruct (negb (spec_ok (st_heap st) sp)); [exact HW|].
    destruct (lookup T (ancestors st t) name) as [s|].
    + destruct (kind_isinstance _ _); exact HW.
    + apply new_symbol_WF; assumption.
  - (* OFindOrCreateTag *)
    destruct (get_table st t) as [T|] eqn:H; [|exact HW].
    destruct (negb (spec_ok (st_heap st) sp)); [exact HW|].
    destruct (lookup_tag T (ancestors st t) tag) as [s|].
    + destruct (kind_isinstance _ _); exact HW.
    + apply new_symbol_WF; assumption.
  - (* ONextName *)
    destruct (get_table st t) as [T|]; [|exact HW].
    destruct other as [ot|].
    + destruct (get_table st ot) as [Ot|]; [|exact HW].
      destruct (next_available_name _ _ _ _ _); exact HW.
    + destruct (next_available_name _ _ _ _ _); exact HW.
  - (* OLookup *)
    destruct (get_table st t) as [T|]; [|exact HW]. destruct (lookup _ _ _); exact HW.
  - (* OLookupTag *)
    destruct (get_table st t) as [T|]; [|exact HW]. destruct (lookup_tag _ _ _); exact HW.
  - (* ORename *)
    destruct (get_table st t) as [T|] eqn:H; [|exact HW].
    destruct (rename_symbol (st_heap st) T s name) as [[h' T']|e] eqn:E; simpl; [|exact HW].
    destruct (WF_get _ _ _ HW H) as [Htok Htag].
    pose proof (rename_symbol_TOK _ _ _ _ _ _ E Htok) as [Htok' [Hperm [Hlen [Hin [_ Hother]]]]].
    apply rename_symbol_spec in E as [_ [_ [_ [Ht _]]]].
    eapply WF_update_table; eauto.
    + destruct Htag as [Hd Hi]. split; [rewrite Ht; exact Hd|].
      intros tg x Hx. rewrite Ht in Hx. eapply Permutation_in; [apply Permutation_sym; exact Hperm | eapply Hi; eauto].
    + lia.
    + intros x _ Hx. rewrite Hother; [reflexivity | intro Ex; subst; contradiction].
    + intros x Hx. left. eapply Permutation_in; [exact Hperm | exact Hx].
  - (* ORemove *)
    destruct (get_table st t) as [T|] eqn:H; [|exact HW].
    destruct (tbl_remove (st_heap st) T s) as [T'|e] eqn:E; simpl; [|exact HW].
    destruct (WF_get _ _ _ HW H) as [Htok Htag].
    destruct (tbl_remove_TOK _ _ _ _ E Htok Htag) as [Htok' [Htag' Hincl]].
    apply (WF_shrink_table st t T T' HW H Htok' Htag' Hincl).
  - (* OSwap *)
    destruct (get_table st t) as [T|] eqn:H; [|exact HW].
    destruct (negb (spec_ok (st_heap st) sp)); [exact HW|].
    destruct (negb (String.eqb _ _)); [exact HW|].
    destruct (tbl_remove (st_heap st) T old) as [T1|e] eqn:E; simpl; [|exact HW].
    destruct (WF_get _ _ _ HW H) as [Htok Htag].
    destruct (tbl_remove_TOK _ _ _ _ E Htok Htag) as [Htok1 [Htag1 Hincl]].
    match goal with
    | |- WF (fst (match tbl_add ?h' T1 ?anc ?s "" with _ => _ end)) => destruct (tbl_add h' T1 anc s "") as [T2|e2] eqn:Ea
    end; simpl.
    + eapply alloc_add_WF; eauto.
    + apply (WF_shrink_table st t T T1 HW H Htok1 Htag1 Hincl).
  - (* OSpecifyArgs *)
    destruct (get_table st t) as [T|] eqn:H; [|exact HW].
    destruct (validate_arg_list (st_heap st) l); simpl; [exact HW|].
    destruct (WF_get _ _ _ HW H) as [Htok Htag].
    apply (WF_shrink_table st t T (mkTable (t_syms T) (t_tags T) l) HW H Htok Htag). intros x Hx. exact Hx.
  - (* OMerge *)
    destruct (get_table st t) as [T|] eqn:H; [|exact HW].
    destruct (nth_error (st_det st) other) as [Ot|] eqn:HO; [|exact HW].
    destruct (match t with TDet j' => Nat.eqb j' other | _ => false end) eqn:Hne; [exact HW|].
    destruct (get_two_perm _ _ _ _ _ H HO Hne) as [rest [P1 P2]].
    assert (HW2 : WFl (st_heap st) (T :: Ot :: rest)) by (eapply WFl_perm; [exact P1 | exact HW]).
    destruct (WFl_two _ _ _ _ HW2) as [[HT _] [HOt Hdisj]].
    destruct (merge (st_heap st) T (ancestors st t) Ot skip) as [[m ph] oe] eqn:Em.
    pose proof (merge_spec _ _ _ _ _ _ _ _ HT HOt Hdisj Em) as [h1 [[Hnm _] Hpost]].
    destruct ph; simpl.
    1:{ (* rejected by check_for_clashes: only classes have changed *)
        destruct Hpost as [Hm _]. subst m. simpl. unfold WF. simpl.
        eapply WFl_heap; [exact HW | apply Nat.eq_le_incl; symmetry; apply Hnm | intros s _; apply Hnm]. }
    all: unfold WF; eapply WFl_perm; [apply Permutation_sym; apply (P2 (m_heap m) (m_self m))|].
    all: replace (st_heap _) with (m_heap m) by (destruct t; reflexivity).
    all: eapply WFl_merged; [exact HW2 | exact Hnm | apply Hpost].
  - (* ONewTable *)
    unfold WF, all_tables. simpl. rewrite app_assoc.
    eapply WFl_perm; [apply Permutation_cons_append | apply empty_WFl; exact HW].
  - (* ODetach *)
    destruct (nth_error (st_slots st) i) as [[T|]|] eqn:E; try exact HW. simpl.
    destruct (list_set_split _ _ _ E) as [l1 [l2 [E1 [E2 _]]]].
    unfold WF, all_tables in *. simpl. rewrite E2. rewrite E1 in HW.
    rewrite slot_tables_app in *. simpl in *.
    eapply WFl_perm; [|exact HW].
    rewrite <- !app_assoc. apply Permutation_app_head. simpl.
    eapply perm_trans; [apply Permutation_cons_append|]. rewrite <- !app_assoc. apply Permutation_refl.
  - (* OAttach *)
    destruct (nth_error (st_det st) j) as [T|] eqn:Ej; [|exact HW].
    destruct (nth_error (st_slots st) i) as [[T0|]|] eqn:Ei; try exact HW. simpl.
    destruct (list_set_split _ _ _ Ei) as [l1 [l2 [E1 [E2 _]]]].
    destruct (list_set_split _ _ _ Ej) as [d1 [d2 [D1 [_ D3]]]].
    unfold WF, all_tables in *. simpl. rewrite E2, D3. rewrite E1, D1 in HW.
    rewrite slot_tables_app in *. simpl in *.
    eapply WFl_perm; [|exact HW].
    rewrite <- !app_assoc. apply Permutation_app_head. simpl.
    apply Permutation_sym.
    rewrite (app_assoc (slot_tables l2) d1 (T :: d2)), (app_assoc (slot_tables l2) d1 d2).
    apply Permutation_middle.
Qed.

Lemma init_WF : forall n, WF (init_state n).
Proof.
  intros n. unfold WF, init_state, all_tables. simpl. rewrite app_nil_r.
  induction n as [|n IH]; simpl.
  - split; [intros T [] | constructor].
  - apply empty_WFl. exact IH.
Qed.

Theorem run_WF : forall l st, WF st -> WF (run st l).
Proof. induction l as [|o l IH]; intros st H; simpl; [exact H | apply IH; apply step_WF; exact H]. Qed.

(* what the invariant gives for the two tables of a merge *)
Lemma WF_merge_pre : forall st t j T Ot,
    WF st -> get_table st t = Some T -> nth_error (st_det st) j = Some Ot ->
    (match t with TDet j' => Nat.eqb j' j | _ => false end) = false ->
    TOK (st_heap st) T /\ TOK (st_heap st) Ot /\ (forall s, In s (sids T) -> ~ In s (sids Ot)).
Proof.
  intros st t j T Ot HW HT HO Hne. destruct (get_two_perm _ _ _ _ _ HT HO Hne) as [rest [P1 _]].
  destruct (WFl_two (st_heap st) T Ot rest) as [[H1 _] H2]; [eapply WFl_perm; [exact P1 | exact HW]|].
  split; assumption.
Qed.

