(* C16 -- extension of the model with CodeBlocks (symbol_table.py, rename_symbol lines 1735-1752).

   Each scope carries the list of normalised names mentioned in CodeBlocks of its tree
   ([cb]; a detached table has none: rename_symbol only walks `self.node` when there is one; the
   tree of an outer scope contains the trees of the scopes nested in it).  rename_symbol refuses
   (SymbolError) a symbol whose normalised name is in that list -- AFTER all the other checks
   (ValueError, the five SymbolErrors on the class/interface, KeyError on the new name) and BEFORE
   the `if dry_run: return`: a dry run performs exactly the same checks and changes nothing.
   check_for_clashes / merge use the dry run to decide whether a clash can be resolved by renaming;
   [check_one_cb] ... [merge_cb] below are Model.check_one ... Model.merge with every rename going
   through the CodeBlock-aware functions (the other table of a merge is detached: cb = []).
   The Model.v functions are the special case cb = [] (theorem [cb_nil_*]). *)
From Coq Require Import List Arith Bool String Ascii NArith Lia Permutation.
Import ListNotations.
From PV Require Import C16.GenTables C16.Model C16.Names C16.Inv C16.MergeProofs C16.StateInv C16.Proofs.
Open Scope string_scope.
Open Scope list_scope.

(* all the checks of rename_symbol, in the order of the source *)
Definition rename_check_cb (cb : list string) (h : heap) (T : table) (s : sid) (name : string) : option err :=
  match rename_check h T s name with
  | Some e => Some e
  | None => if mem_str (normalize (s_name (hget h s))) cb then Some ESymbol else None
  end.

Definition rename_symbol_cb (cb : list string) (h : heap) (T : table) (s : sid) (name : string)
           (dry_run : bool) : (heap * table) + err :=
  match rename_check_cb cb h T s name with
  | Some e => inr e
  | None => if dry_run then inl (h, T) else rename_do h T s name
  end.

(* names in CodeBlocks in scope of a table: its own scope's tree includes the nested scopes
   (slots are innermost first) *)
Definition cb_of (cbs : list (list string)) (t : tref) : list string :=
  match t with
  | TSlot i => List.concat (firstn (S i) cbs)
  | TDet _ => []
  end.

(* the operation on the whole state *)
Definition rename_step_cb (cbs : list (list string)) (st : state) (t : tref) (s : sid) (name : string)
           (dry_run : bool) : state * result :=
  match get_table st t with
  | None => (st, RErr ENoTable)
  | Some T => match rename_symbol_cb (cb_of cbs t) (st_heap st) T s name dry_run with
              | inr e => (st, RErr e)
              | inl (h', T') => (set_table (with_heap st h') t T', RUnit)
              end
  end.

(* one iteration of the loop of check_for_clashes; returns the heap (symbols may have been
   specialised) and the exception raised, if any *)
Definition check_one_cb (cb : list string) (h : heap) (self other : table) (skip : list sid)
           (self_w other_w : list string) (os : sid) : heap * option err :=
  let oy := hget h os in
  match find_key (normalize (s_name oy)) (t_syms self) with
  | None => (h, None)                                    (* other_sym.name not in self *)
  | Some ts =>
    if mem_sid os skip then (h, None)
    else
      let ty := hget h ts in
      if is_container ty && is_container oy then (h, None)
      else if is_intrinsic_sym ty && is_intrinsic_sym oy then (h, None)
      else if is_import oy && is_import ty then
             (if import_eq h (s_iface ty) (s_iface oy) then (h, None) else (h, Some ESymbol))
      else if is_unres oy && is_unres ty then
             (if inter_nonempty self_w other_w && subset_str self_w other_w && subset_str other_w self_w
              then (h, None)
              else if (match self_w, other_w with [], [] => true | _, _ => false end)
                      && is_intrinsic_name (s_name ty) then
                     (* "Take this opportunity to specialise the symbol(s)." *)
                     match (if is_intrinsic_sym ty then inl h else specialise_intrinsic h ts) with
                     | inr e => (h, Some e)
                     | inl h1 =>
                       match (if is_intrinsic_sym (hget h1 os) then inl h1
                              else specialise_intrinsic h1 os) with
                       | inr e => (h1, Some e)
                       | inl h2 => (h2, None)
                       end
                     end
                   else (h, Some ESymbol))
      else
        (* self.rename_symbol(this_sym, "", dry_run=True), else the same on other_table *)
        match rename_check_cb cb h self ts "" with
        | None => (h, None)
        | Some ESymbol =>
            match rename_check_cb [] h other os "" with
            | None => (h, None)
            | Some e => (h, Some e)       (* SymbolError, or another exception escaping *)
            end
        | Some e => (h, Some e)
        end
  end.

Fixpoint check_loop_cb (cb : list string) (h : heap) (self other : table) (skip : list sid) (sw ow : list string)
         (l : list sid) : heap * option err :=
  match l with
  | [] => (h, None)
  | os :: r => match check_one_cb cb h self other skip sw ow os with
               | (h', Some e) => (h', Some e)
               | (h', None) => check_loop_cb cb h' self other skip sw ow r
               end
  end.

Definition check_for_clashes_cb (cb : list string) (h : heap) (self : table) (anc : list table) (other : table)
           (skip : list sid) : heap * option err :=
  check_loop_cb cb h self other skip (wildcards h (self :: anc)) (wildcards h [other]) (sids other).

(* self.rename_symbol(sym, self.next_available_name(root, other_table=other_table)) *)
Definition rename_fresh_cb (cb : list string) (m : mst) (anc : list table) (s : sid) (root : string) : mst * option err :=
  match next_available_name (m_self m) anc root false (Some (m_other m)) with
  | None => (m, Some EFuel)
  | Some nm => match rename_symbol_cb cb (m_heap m) (m_self m) s nm false with
               | inr e => (m, Some e)
               | inl (h', T') => (mkM h' T' (m_other m), None)
               end
  end.

(* inner loop of _add_container_symbols_from_table over the symbols imported from csym *)
Fixpoint fix_imports_cb (cb : list string) (m : mst) (anc : list table) (csym : sid) (l : list sid) : mst * option err :=
  match l with
  | [] => (m, None)
  | isym :: r =>
    let iy := hget (m_heap m) isym in
    let step1 :=
      match find_key (normalize (s_name iy)) (t_syms (m_self m)) with
      | None => (m, None)
      | Some osym =>
          if is_import (hget (m_heap m) osym) then (m, None)
          else rename_fresh_cb cb m anc osym (s_name (hget (m_heap m) osym))
      end in
    match step1 with
    | (m1, Some e) => (m1, Some e)
    | (m1, None) =>
      (* isym.interface = ImportInterface(self.lookup(csym.name), orig_name=...) *)
      match lookup (m_self m1) anc (s_name (hget (m_heap m1) csym)) with
      | None => (m1, Some EKey)
      | Some c' =>
        let iy1 := hget (m_heap m1) isym in
        let orig := match s_iface iy1 with IImport _ o => o | _ => "" end in
        fix_imports_cb cb (mkM (hset (m_heap m1) isym (set_iface iy1 (IImport c' orig)))
                         (m_self m1) (m_other m1)) anc csym r
      end
    end
  end.

Definition container_one_cb (cb : list string) (m : mst) (anc : list table) (csym : sid) : mst * option err :=
  let cy := hget (m_heap m) csym in
  let step1 :=
    match find_key (normalize (s_name cy)) (t_syms (m_self m)) with
    | Some scs =>
        if negb (is_container (hget (m_heap m) scs)) then
          match rename_fresh_cb cb m anc scs (s_name cy) with
          | (m1, Some e) => (m1, Some e)
          | (m1, None) => madd_self m1 anc csym
          end
        else if s_wild cy
             then (mkM (hset (m_heap m) scs (set_wild (hget (m_heap m) scs) true))
                       (m_self m) (m_other m), None)
             else (m, None)
    | None => madd_self m anc csym
    end in
  match step1 with
  | (m1, Some e) => (m1, Some e)
  | (m1, None) =>
    (* other_table.symbols_imported_from(csym): KeyError unless other_table.lookup(csym.name)
       is csym (the other table is detached: no ancestors) *)
    match lookup (m_other m1) [] (s_name (hget (m_heap m1) csym)) with
    | None => (m1, Some EKey)
    | Some c0 =>
      if negb (Nat.eqb c0 csym) then (m1, Some EKey)
      else fix_imports_cb cb m1 anc csym (imported_from (m_heap m1) (m_other m1) csym)
    end
  end.

Fixpoint container_loop_cb (cb : list string) (m : mst) (anc : list table) (l : list sid) : mst * option err :=
  match l with
  | [] => (m, None)
  | c :: r => match container_one_cb cb m anc c with
              | (m1, Some e) => (m1, Some e)
              | (m1, None) => container_loop_cb cb m1 anc r
              end
  end.

Definition add_containers_cb (cb : list string) (m : mst) (anc : list table) : mst * option err :=
  container_loop_cb cb m anc (filter (fun s => is_container (hget (m_heap m) s)) (sids (m_other m))).

(* _handle_symbol_clash, the part after "if old_sym.is_import: ..." *)
Definition handle_clash_rename_cb (cb : list string) (m : mst) (anc : list table) (os : sid) : mst * option err :=
  let oy := hget (m_heap m) os in
  match lookup (m_self m) anc (s_name oy) with
  | None => (m, Some EKey)
  | Some ss =>
    if is_unres oy && is_unres (hget (m_heap m) ss) then (m, None)
    else
      match next_available_name (m_self m) anc (s_name oy) false (Some (m_other m)) with
      | None => (m, Some EFuel)
      | Some nm =>
        match rename_symbol_cb [] (m_heap m) (m_other m) os nm false with
        | inl (h', Ot') => madd_self (mkM h' (m_self m) Ot') anc os
        | inr ESymbol =>
            match rename_symbol_cb cb (m_heap m) (m_self m) ss nm false with
            | inr e => (m, Some e)
            | inl (h', T') => madd_self (mkM h' T' (m_other m)) anc os
            end
        | inr e => (m, Some e)
        end
      end
  end.

(* _handle_symbol_clash *)
Definition handle_clash_cb (cb : list string) (m : mst) (anc : list table) (os : sid) : mst * option err :=
  match s_iface (hget (m_heap m) os) with
  | IImport c _ =>
      match lookup (m_self m) anc (s_name (hget (m_heap m) c)) with
      | None => (m, Some EKey)
      | Some sc => if Nat.eqb sc c then (m, None) else (m, Some EInternal)
      end
  | _ => handle_clash_rename_cb cb m anc os
  end.

Definition add_one_cb (cb : list string) (m : mst) (anc : list table) (skip : list sid) (os : sid) : mst * option err :=
  if mem_sid os skip || is_container (hget (m_heap m) os) then (m, None)
  else match tbl_add (m_heap m) (m_self m) anc os "" with
       | inl T' => (mkM (m_heap m) T' (m_other m), None)
       | inr EKey => handle_clash_cb cb m anc os
       | inr e => (m, Some e)
       end.

Fixpoint add_loop_cb (cb : list string) (m : mst) (anc : list table) (skip : list sid) (l : list sid) : mst * option err :=
  match l with
  | [] => (m, None)
  | s :: r => match add_one_cb cb m anc skip s with
              | (m1, Some e) => (m1, Some e)
              | (m1, None) => add_loop_cb cb m1 anc skip r
              end
  end.

Definition add_symbols_cb (cb : list string) (m : mst) (anc : list table) (skip : list sid) : mst * option err :=
  add_loop_cb cb m anc skip (sids (m_other m)).

Definition merge_cb (cb : list string) (h : heap) (self : table) (anc : list table) (other : table) (skip : list sid)
  : mst * mphase * option err :=
  match check_for_clashes_cb cb h self anc other skip with
  | (h1, Some e) => (mkM h1 self other, MRejected, Some e)
  | (h1, None) =>
    match add_containers_cb cb (mkM h1 self other) anc with
    | (m1, Some e) => (m1, MPartial, Some e)
    | (m1, None) =>
      match add_symbols_cb cb m1 anc skip with
      | (m2, Some e) => (m2, MPartial, Some e)
      | (m2, None) => (m2, MDone, None)
      end
    end
  end.

(* without CodeBlocks rename_symbol is that of Model.v *)
Lemma cb_nil_rename_check : forall h T s name, rename_check_cb [] h T s name = rename_check h T s name.
Proof. intros. unfold rename_check_cb. destruct (rename_check h T s name); reflexivity. Qed.

Lemma cb_nil_rename_symbol : forall h T s name,
    rename_symbol_cb [] h T s name false = rename_symbol h T s name.
Proof. intros. unfold rename_symbol_cb, rename_symbol. rewrite cb_nil_rename_check. reflexivity. Qed.

Lemma dry_run_pure_ : forall cb h T s name r,
    rename_symbol_cb cb h T s name true = inl r -> r = (h, T).
Proof.
  intros cb h T s name r H. unfold rename_symbol_cb in H.
  destruct (rename_check_cb cb h T s name); inversion H; reflexivity.
Qed.

(* the CodeBlock test only affects the dry runs of check_for_clashes, which leave the heap alone *)
Lemma check_one_cb_heap : forall cb h self other skip sw ow os,
    fst (check_one_cb cb h self other skip sw ow os) = fst (check_one h self other skip sw ow os).
Proof.
  intros. unfold check_one_cb, check_one.
  destruct (find_key _ _) as [ts|]; [|reflexivity].
  destruct (mem_sid os skip); [reflexivity|].
  destruct (_ && _); [reflexivity|]. destruct (_ && _); [reflexivity|].
  destruct (_ && _); [reflexivity|]. destruct (_ && _); [reflexivity|].
  assert (Hdry : forall a b : option err,
             fst (match a with
                  | None => (h, None)
                  | Some ESymbol => match b with None => (h, None) | Some e => (h, Some e) end
                  | Some e => (h, Some e)
                  end) = h) by (intros [[]|] [e|]; reflexivity).
  rewrite !Hdry. reflexivity.
Qed.

Lemma check_one_cb_safe : forall cb h self other skip sw ow os h' oe,
    no_intrinsic_unresolved h self ->
    check_one_cb cb h self other skip sw ow os = (h', oe) -> h' = h.
Proof.
  intros cb h self other skip sw ow os h' oe Hs H.
  apply (f_equal fst) in H. rewrite check_one_cb_heap in H. simpl in H. subst h'.
  destruct (check_one h self other skip sw ow os) as [h1 oe1] eqn:E. eapply check_one_safe; eauto.
Qed.

(* a non-skipped symbol on which check_one_cb raises makes check_for_clashes raise, there or earlier,
   and merge return with the heap and both tables as they were *)
Lemma merge_cb_rejects : forall cb h self anc other skip os,
    no_intrinsic_unresolved h self -> In os (sids other) ->
    (forall sw ow, exists e, check_one_cb cb h self other skip sw ow os = (h, Some e)) ->
    exists e, check_for_clashes_cb cb h self anc other skip = (h, Some e) /\
              merge_cb cb h self anc other skip = (mkM h self other, MRejected, Some e).
Proof.
  intros cb h self anc other skip os Hs Hin Hos.
  assert (Hl : forall sw ow l, In os l -> exists e, check_loop_cb cb h self other skip sw ow l = (h, Some e)).
  { intros sw ow. induction l as [|x l IH]; intros Hx; [destruct Hx|]. simpl.
    destruct (check_one_cb cb h self other skip sw ow x) as [h1 [e|]] eqn:E;
      pose proof (check_one_cb_safe _ _ _ _ _ _ _ _ _ _ Hs E); subst h1; [eauto|].
    destruct Hx as [Hx|Hx]; [|apply IH; exact Hx].
    subst x. destruct (Hos sw ow) as [e' E']. rewrite E' in E. discriminate. }
  destruct (Hl (wildcards h (self :: anc)) (wildcards h [other]) (sids other) Hin) as [e He]. exists e.
  unfold merge_cb, check_for_clashes_cb. rewrite He. split; reflexivity.
Qed.

(* the receiving table's symbol of the clash is an ordinary local one (none of the special cases
   of check_for_clashes applies) *)
Definition plain_local (h : heap) (ts : sid) : Prop :=
  is_container (hget h ts) = false /\ is_intrinsic_sym (hget h ts) = false /\
  is_import (hget h ts) = false /\ is_unres (hget h ts) = false.

Definition cb_ops : list op :=
  [OAdd (TSlot 0) "x" (mkSpec KData false IAuto) ""; OAdd (TSlot 0) "y" (mkSpec KData false IAuto) "";
   ONewTable; OAdd (TDet 0) "first" (mkSpec KData false IAuto) ""; OAdd (TDet 0) "X" (mkSpec KData false IArg) ""].
Definition cb_st : state := run (init_state 2) cb_ops.
(* the inner scope (slot 0) has `WRITE(*,*) x`; the outer scope (slot 1) sees it too *)
Definition cb_cbs : list (list string) := [["x"]; []].

Example rename_codeblock_nonvacuous :
  rename_step_cb cb_cbs cb_st (TSlot 0) 0 "z" false = (cb_st, RErr ESymbol) /\
  rename_step_cb cb_cbs cb_st (TSlot 0) 0 "z" true = (cb_st, RErr ESymbol) /\
  rename_step_cb cb_cbs cb_st (TSlot 0) 0 "Y" false = (cb_st, RErr EKey) /\     (* KeyError comes first *)
  snd (rename_step_cb cb_cbs cb_st (TSlot 0) 1 "z" false) = RUnit /\            (* y is not in a CodeBlock *)
  rename_step_cb cb_cbs cb_st (TSlot 0) 1 "z" true = (cb_st, RUnit) /\          (* dry run: same verdict, no change *)
  snd (rename_step_cb [[]; []] cb_st (TSlot 0) 0 "z" false) = RUnit.            (* without the CodeBlock x can be renamed *)
Proof. vm_compute. repeat split. Qed.

Example merge_unrenameable_nonvacuous :
  exists T Ot,
    get_table cb_st (TSlot 0) = Some T /\ nth_error (st_det cb_st) 0 = Some Ot /\
    no_intrinsic_unresolved (st_heap cb_st) T /\ In 3 (sids Ot) /\
    find_key (normalize (s_name (hget (st_heap cb_st) 3))) (t_syms T) = Some 0 /\
    plain_local (st_heap cb_st) 0 /\
    rename_check_cb ["x"] (st_heap cb_st) T 0 "" = Some ESymbol /\
    rename_check_cb [] (st_heap cb_st) Ot 3 "" = Some ESymbol /\
    merge_cb ["x"] (st_heap cb_st) T [] Ot [] = (mkM (st_heap cb_st) T Ot, MRejected, Some ESymbol) /\
    (* without the CodeBlock the clash is resolved by renaming the local x *)
    (exists m, merge_cb [] (st_heap cb_st) T [] Ot [] = (m, MDone, None) /\
               map (fun s => s_name (hget (m_heap m) s)) (sids (m_self m)) = ["y"; "first"; "X_1"; "X"]).
Proof.
  eexists. eexists. split; [vm_compute; reflexivity|]. split; [vm_compute; reflexivity|].
  split. { intros s Hs Hu. vm_compute in Hs. destruct Hs as [<-|[<-|[]]]; vm_compute in Hu; discriminate. }
  split; [vm_compute; auto|]. split; [vm_compute; reflexivity|].
  split; [vm_compute; auto|]. split; [vm_compute; reflexivity|]. split; [vm_compute; reflexivity|].
  split; [vm_compute; reflexivity|]. eexists. split; vm_compute; reflexivity.
Qed.
