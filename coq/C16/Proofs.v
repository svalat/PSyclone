(* C16 -- the theorems about the SymbolTable model that Properties/C16.v instantiates: what the state
   invariant WF gives for lookups and generated names, and rejected operations. *)
From Coq Require Import List Arith Bool String Ascii NArith Lia Permutation.
Import ListNotations.
From PV Require Import C16.GenTables C16.Model C16.Names C16.Inv C16.MergeProofs C16.RenameProofs C16.StateInv.
Open Scope string_scope.
Open Scope list_scope.

Definition reachable (st : state) : Prop := exists n ops, st = run (init_state n) ops.

Lemma reachable_run : forall n ops, reachable (run (init_state n) ops).
Proof. intros n ops. exists n, ops. reflexivity. Qed.

Lemma chain_in_all : forall st t T P,
    get_table st t = Some T -> In P (T :: ancestors st t) -> In P (all_tables st).
Proof.
  intros st t T P Ht [Hin|Hin].
  - subst P. destruct (get_table_perm _ _ _ Ht) as [rest [Pm _]].
    eapply Permutation_in; [apply Permutation_sym; exact Pm | left; reflexivity].
  - destruct t as [i|j]; [unfold ancestors in Hin | simpl in Hin; destruct Hin].
    unfold all_tables. apply in_or_app. left.
    assert (Hc : forall l, In P (chain_of l) -> In P (slot_tables l)).
    { induction l as [|[a|] l IH]; simpl; intros H; tauto. }
    apply Hc in Hin.
    assert (Hs : forall n (l : list (option table)), In P (slot_tables (skipn n l)) -> In P (slot_tables l)).
    { induction n as [|n IH]; intros l H; [exact H|]. destruct l as [|a l]; [exact H|].
      simpl in H. apply IH in H. unfold slot_tables. simpl. apply in_or_app. right. exact H. }
    apply (Hs (S i)). exact Hin.
Qed.

Theorem lookup_sound_ : forall st t T name s,
    WF st -> get_table st t = Some T -> lookup T (ancestors st t) name = Some s ->
    normalize (s_name (hget (st_heap st) s)) = normalize name.
Proof.
  intros st t T name s HW Ht Hl. unfold lookup in Hl. rewrite get_symbols_find in Hl.
  apply first_in_spec in Hl as [pre [T' [post [E [_ Hf]]]]].
  assert (HT' : In T' (all_tables st)).
  { eapply chain_in_all; [exact Ht|]. rewrite E. apply in_or_app; right; left; reflexivity. }
  destruct (WF_table _ _ HW HT') as [[_ [_ Hn]] _].
  apply find_key_In in Hf. destruct (Hn _ _ Hf) as [Ek _]. symmetry. exact Ek.
Qed.

Theorem fresh_name_fresh_ : forall T anc root shadowing other,
    exists nm, next_available_name T anc root shadowing other = Some nm /\
               ~ In (normalize nm) (keys T) /\
               (shadowing = false -> forall A, In A anc -> ~ In (normalize nm) (keys A)) /\
               (forall Ot, other = Some Ot -> ~ In (normalize nm) (keys Ot)) /\
               exists k, nm = cand (if String.eqb root "" then default_root else root) (N.of_nat k) /\
                         forall k', k' < k ->
                                    In (normalize (cand (if String.eqb root "" then default_root else root) (N.of_nat k')))
                                       (existing_names T anc shadowing other).
Proof.
  intros T anc root shadowing other. unfold next_available_name.
  set (ex := existing_names T anc shadowing other).
  set (root' := if String.eqb root "" then default_root else root).
  destruct (fresh_loop_total root' ex 0%N) as [c Hc]. exists c. split; [exact Hc|].
  apply fresh_loop_some in Hc as [k [Ec [Hfree Hmin]]].
  assert (Hself : forall x, In x (keys T) -> In x ex).
  { intros x Hx. unfold ex, existing_names. apply in_or_app. left. destruct shadowing; [exact Hx|].
    apply get_symbols_keys. exists T. split; [left; reflexivity | exact Hx]. }
  split; [intro Hc; apply Hfree; apply Hself; exact Hc|]. split; [|split].
  - intros Es A HA Hc. subst shadowing. apply Hfree. unfold ex, existing_names. apply in_or_app. left.
    apply get_symbols_keys. exists A. split; [right; exact HA | exact Hc].
  - intros Ot Eo Hc. apply Hfree. unfold ex, existing_names. apply in_or_app. right. rewrite Eo. exact Hc.
  - exists k. split; [rewrite Ec; f_equal; lia|].
    intros k' Hk'. replace (N.of_nat k') with (0 + N.of_nat k')%N by lia. apply Hmin. exact Hk'.
Qed.

Theorem fresh_name_no_clash_ : forall st t T root shadowing other nm,
    WF st -> get_table st t = Some T ->
    (forall Ot, other = Some Ot -> exists ot, get_table st ot = Some Ot) ->
    next_available_name T (ancestors st t) root shadowing other = Some nm ->
    forall P k s,
      (P = T \/ (shadowing = false /\ In P (ancestors st t)) \/ other = Some P) ->
      In (k, s) (t_syms P) ->
      normalize (s_name (hget (st_heap st) s)) <> normalize nm.
Proof.
  intros st t T root shadowing other nm HW Ht Hother Hn P k s HP Hin.
  destruct (fresh_name_fresh_ T (ancestors st t) root shadowing other) as [nm' [E [Hself [Hanc [Hoth _]]]]].
  rewrite Hn in E. inversion E; subst nm'. clear E.
  assert (HPall : In P (all_tables st)).
  { destruct HP as [HP|[[_ HP]|HP]].
    - subst P. eapply chain_in_all; [exact Ht | left; reflexivity].
    - eapply chain_in_all; [exact Ht | right; exact HP].
    - destruct (Hother P HP) as [ot Hot]. eapply chain_in_all; [exact Hot | left; reflexivity]. }
  destruct (WF_table _ _ HW HPall) as [[_ [_ Hnames]] _].
  destruct (Hnames _ _ Hin) as [Ek _].
  assert (Hk : In k (keys P)) by (apply in_keys; eauto).
  intro Hc. rewrite <- Ek in Hc. subst k. rewrite Hc in Hk.
  destruct HP as [HP|[[Hs HP]|HP]].
  - subst P. apply Hself. exact Hk.
  - apply (Hanc Hs P HP). exact Hk.
  - apply (Hoth P HP). exact Hk.
Qed.

Lemma mk_sym_name : forall name sp, s_name (mk_sym name sp) = name.
Proof. intros name sp. unfold mk_sym. destruct (sp_kind sp); reflexivity. Qed.

Lemma new_symbol_rejected : forall st t T root tag sh sp allow st' e,
    new_symbol st t T root tag sh sp allow = (st', RErr e) -> st' = st.
Proof.
  intros st t T root tag sh sp allow st' e H. unfold new_symbol in H.
  destruct (next_available_name _ _ _ _ _); [|inversion H; reflexivity].
  destruct (negb allow && negb _); [inversion H; reflexivity|].
  match type of H with
  | (match ?X with _ => _ end) = _ => destruct X
  end; inversion H; reflexivity.
Qed.

Definition is_merge (o : op) : bool := match o with OMerge _ _ _ => true | _ => false end.

Theorem rejected_unchanged_nonmerge_ : forall st o st' e,
    is_merge o = false -> step st o = (st', RErr e) -> st' = st.
Proof.
  intros st o st' e Hm H. destruct o; simpl in Hm; try discriminate Hm; simpl in H.
  - destruct (get_table st t); [|inversion H; reflexivity].
    destruct (negb (spec_ok _ _)); [inversion H; reflexivity|].
    match type of H with (match ?X with _ => _ end) = _ => destruct X end; inversion H; reflexivity.
  - destruct (get_table st t); [|inversion H; reflexivity].
    destruct (negb (spec_ok _ _)); [inversion H; reflexivity|].
    eapply new_symbol_rejected; eauto.
  - destruct (get_table st t); [|inversion H; reflexivity].
    destruct (negb (spec_ok _ _)); [inversion H; reflexivity|].
    destruct (lookup _ _ _).
    + destruct (kind_isinstance _ _); inversion H; reflexivity.
    + eapply new_symbol_rejected; eauto.
  - destruct (get_table st t); [|inversion H; reflexivity].
    destruct (negb (spec_ok _ _)); [inversion H; reflexivity|].
    destruct (lookup_tag _ _ _).
    + destruct (kind_isinstance _ _); inversion H; reflexivity.
    + eapply new_symbol_rejected; eauto.
  - destruct (get_table st t); [|inversion H; reflexivity].
    destruct other as [ot|].
    + destruct (get_table st ot); [|inversion H; reflexivity].
      destruct (next_available_name _ _ _ _ _); inversion H; reflexivity.
    + destruct (next_available_name _ _ _ _ _); inversion H; reflexivity.
  - destruct (get_table st t); [|inversion H; reflexivity]. destruct (lookup _ _ _); inversion H; reflexivity.
  - destruct (get_table st t); [|inversion H; reflexivity]. destruct (lookup_tag _ _ _); inversion H; reflexivity.
  - destruct (get_table st t); [|inversion H; reflexivity].
    destruct (rename_symbol _ _ _ _) as [[h' T']|e']; inversion H; reflexivity.
  - destruct (get_table st t); [|inversion H; reflexivity].
    destruct (tbl_remove _ _ _); inversion H; reflexivity.
  - (* swap: after remove(old) the add(new) cannot fail *)
    destruct (get_table st t) as [T|]; [|inversion H; reflexivity].
    destruct (negb (spec_ok _ _)); [inversion H; reflexivity|].
    destruct (negb (String.eqb _ _)) eqn:En; [inversion H; reflexivity|].
    destruct (tbl_remove (st_heap st) T old) as [T1|e1] eqn:Er; [|inversion H; reflexivity].
    exfalso.
    apply negb_false_iff in En. apply String.eqb_eq in En.
    apply tbl_remove_spec in Er as [_ [Hs _]].
    unfold tbl_add in H. rewrite hget_app_new, mk_sym_name in H. rewrite Hs, <- En in H.
    assert (Hk : has_key (normalize (s_name (hget (st_heap st) old)))
                         (del_key (normalize (s_name (hget (st_heap st) old))) (t_syms T)) = false).
    { apply has_key_false. intro Hc. apply del_key_keys in Hc as [_ Hc]. apply Hc. reflexivity. }
    rewrite Hk in H. simpl in H. discriminate H.
  - destruct (get_table st t); [|inversion H; reflexivity].
    destruct (validate_arg_list _ _); inversion H; reflexivity.
  - discriminate H.
  - destruct (nth_error (st_slots st) i) as [[T|]|]; inversion H; reflexivity.
  - destruct (nth_error (st_det st) j) as [T|]; [|inversion H; reflexivity].
    destruct (nth_error (st_slots st) i) as [[T0|]|]; inversion H; reflexivity.
Qed.

Definition no_intrinsic_unresolved (h : heap) (T : table) : Prop :=
  forall s, In s (sids T) -> is_unres (hget h s) = true -> is_intrinsic_name (s_name (hget h s)) = false.

Lemma no_intrinsic_unresolved_spec : forall h T,
    no_intrinsic_unresolved h T -> ~ intrinsic_unresolved_in h T.
Proof. intros h T Hs [ts [Hin [Hu Hn]]]. rewrite (Hs ts Hin Hu) in Hn. discriminate. Qed.

Lemma check_one_safe : forall h self other skip sw ow os h' oe,
    no_intrinsic_unresolved h self ->
    check_one h self other skip sw ow os = (h', oe) -> h' = h.
Proof.
  intros h self other skip sw ow os h' oe Hs H.
  apply check_one_heap in H as [H|[_ H]]; [exact H | destruct (no_intrinsic_unresolved_spec _ _ Hs H)].
Qed.

Theorem merge_rejected_unchanged_ : forall st t j skip T Ot m oe st' r,
    get_table st t = Some T -> nth_error (st_det st) j = Some Ot ->
    merge (st_heap st) T (ancestors st t) Ot skip = (m, MRejected, oe) ->
    (m_self m = T /\ m_other m = Ot) /\
    (no_intrinsic_unresolved (st_heap st) T ->
     step st (OMerge t j skip) = (st', r) -> st' = st).
Proof.
  intros st t j skip T Ot m oe st' r HT HO Hm.
  assert (Hc : check_for_clashes (st_heap st) T (ancestors st t) Ot skip = (m_heap m, oe) /\
               m_self m = T /\ m_other m = Ot).
  { unfold merge in Hm. destruct (check_for_clashes _ _ _ _ _) as [h1 [e|]]; [inversion Hm; auto|].
    destruct (add_containers _ _) as [m1 [e1|]]; [inversion Hm|].
    destruct (add_symbols _ _ _) as [m2 [e2|]]; inversion Hm. }
  destruct Hc as [Hc Htabs]. split; [exact Htabs|]. intros Hs H.
  simpl in H. rewrite HT, HO in H.
  destruct (match t with TDet j' => Nat.eqb j' j | _ => false end); [inversion H; reflexivity|].
  rewrite Hm in H. inversion H; subst. unfold check_for_clashes in Hc.
  apply check_loop_heap in Hc as [Hc|[_ Hc]]; [|destruct (no_intrinsic_unresolved_spec _ _ Hs Hc)].
  rewrite Hc. destruct st; reflexivity.
Qed.
