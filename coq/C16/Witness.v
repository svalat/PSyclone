(* C16 -- concrete histories: refutations of the full-strength statements that the unchanged
   SymbolTable.merge violates (each is replayed on the implementation by props/C16/check.py), and
   non-vacuity examples for the hypotheses of the theorems of Properties/C16.v. *)
From Coq Require Import List Arith Bool String Ascii NArith Lia Permutation.
Import ListNotations.
From PV Require Import C16.GenTables C16.Model C16.Names C16.Inv C16.MergeProofs C16.RenameProofs C16.StateInv C16.Proofs.
Open Scope string_scope.
Open Scope list_scope.

Definition sp_unres := mkSpec KGeneric false IUnres.
Definition sp_data := mkSpec KData false IAuto.
Definition sp_arg := mkSpec KData false IArg.
Definition sp_cont := mkSpec KContainer false IOther.
Definition sp_imp (c : sid) := mkSpec KData false (IImport c "").

(* R1.  "a rejected operation changes nothing" is false for merge:
   (a) check_for_clashes specialises `sin` to IntrinsicSymbol in BOTH tables, then the clash on
       `x` (unresolved in both tables) raises SymbolError;
   (b) the container pass ignores symbols_to_skip: the skipped import `x` clashes with the routine
       argument `x`, rename_symbol raises SymbolError after container `m` was already added. *)
Definition ops_R1a : list op :=
  [OAdd (TSlot 0) "sin" sp_unres ""; OAdd (TSlot 0) "x" sp_unres ""; ONewTable;
   OAdd (TDet 0) "sin" sp_unres ""; OAdd (TDet 0) "x" sp_unres ""].

Definition ops_R1b : list op :=
  [OAdd (TSlot 0) "x" sp_arg ""; OSpecifyArgs (TSlot 0) [0]; ONewTable;
   OAdd (TDet 0) "m" sp_cont ""; OAdd (TDet 0) "x" (sp_imp 1) ""].

(* R2.  "merge adds every non-skipped symbol exactly once" is false: the other table imports
   `max` from a container symbol that is visible from the receiving table, which has a local
   `max`; _handle_symbol_clash takes the import for already present and drops it. *)
Definition ops_R2 : list op :=
  [OAdd (TSlot 0) "sin" sp_cont ""; ONewTable;
   OAdd (TDet 0) "max" (mkSpec KData false (IImport 0 "a")) "";
   OAdd (TSlot 0) "max" (mkSpec KIntrinsic false IAuto) ""].

(* R3.  "renames only where needed" is false: the only symbol of the other table named `x` is in
   symbols_to_skip (so it is not merged), yet the local `x` of the receiving table is renamed. *)
Definition ops_R3 : list op :=
  [OAdd (TSlot 0) "x" sp_data ""; ONewTable; OAdd (TDet 0) "m" sp_cont "";
   OAdd (TDet 0) "X" (sp_imp 1) ""].

(* a merge over three nested scopes that completes, renames on both sides and satisfies the
   hypotheses of C16_merge_adds_once_partial *)
Definition ops_E1 : list op :=
  [OAdd (TSlot 2) "a_1" sp_data ""; OAdd (TSlot 1) "A" sp_data ""; OAdd (TSlot 0) "a" sp_arg "";
   OAdd (TSlot 0) "b" sp_data ""; ONewTable;
   OAdd (TDet 0) "A" sp_data "t1"; OAdd (TDet 0) "B" sp_arg ""; OAdd (TDet 0) "c" sp_data ""].

Example merge_adds_once_nonvacuous :
  exists st T Ot m,
    reachable st /\ get_table st (TSlot 0) = Some T /\ nth_error (st_det st) 0 = Some Ot /\
    TOK (st_heap st) T /\ TOK (st_heap st) Ot /\ (forall s, In s (sids T) -> ~ In s (sids Ot)) /\
    merge (st_heap st) T (ancestors st (TSlot 0)) Ot [] = (m, MDone, None) /\
    map (fun s => s_name (hget (m_heap m) s)) (sids (m_self m)) = ["a"; "A_2"; "B_1"; "B"; "c"].
Proof.
  exists (run (init_state 3) ops_E1). eexists. eexists. eexists.
  split; [apply reachable_run|].
  (* T and Ot are found by evaluation; the two equations are kept for WF_merge_pre, which would
     otherwise recompute them by unification *)
  match goal with |- ?A /\ ?B /\ _ =>
    assert (HT : A) by (vm_compute; reflexivity); assert (HO : B) by (vm_compute; reflexivity)
  end.
  split; [exact HT|]. split; [exact HO|].
  destruct (WF_merge_pre _ (TSlot 0) 0 _ _ (run_WF ops_E1 _ (init_WF 3)) HT HO eq_refl) as [H1 [H2 H3]].
  split; [exact H1|]. split; [exact H2|]. split; [exact H3|].
  split; vm_compute; reflexivity.
Qed.

(* a merge without any common key (with a container and an import): hypotheses of
   merge_no_clash_no_rename_ *)
Definition ops_E3 : list op :=
  [OAdd (TSlot 0) "a" sp_data ""; OAdd (TSlot 0) "B" sp_arg ""; ONewTable;
   OAdd (TDet 0) "m" sp_cont ""; OAdd (TDet 0) "x" (sp_imp 2) ""; OAdd (TDet 0) "c" sp_data ""].

Example merge_no_clash_nonvacuous :
  exists st T Ot m,
    reachable st /\ get_table st (TSlot 0) = Some T /\ nth_error (st_det st) 0 = Some Ot /\
    (forall s, In s (sids Ot) -> is_import (hget (st_heap st) s) = true -> is_container (hget (st_heap st) s) = false) /\
    (forall k, In k (keys T) -> ~ In k (keys Ot)) /\
    merge (st_heap st) T (ancestors st (TSlot 0)) Ot [] = (m, MDone, None) /\
    map (fun s => s_name (hget (m_heap m) s)) (sids (m_self m)) = ["a"; "B"; "m"; "x"; "c"].
Proof.
  exists (run (init_state 1) ops_E3). eexists. eexists. eexists.
  split; [apply reachable_run|]. split; [vm_compute; reflexivity|]. split; [vm_compute; reflexivity|].
  split.
  { intros s Hs. vm_compute in Hs. destruct Hs as [<-|[<-|[<-|[]]]]; vm_compute; congruence. }
  split.
  { intros k Hk. vm_compute in Hk. destruct Hk as [<-|[<-|[]]]; vm_compute; intuition discriminate. }
  split; vm_compute; reflexivity.
Qed.

(* a rejected merge (unresolved `x` in both tables, no intrinsic involved): hypotheses of
   merge_rejected_unchanged_ hold and the state is unchanged *)
Definition ops_E2 : list op :=
  [OAdd (TSlot 0) "x" sp_unres ""; ONewTable; OAdd (TDet 0) "X" sp_unres ""].

Example merge_rejected_nonvacuous :
  exists st T Ot m,
    reachable st /\ get_table st (TSlot 0) = Some T /\ nth_error (st_det st) 0 = Some Ot /\
    merge (st_heap st) T (ancestors st (TSlot 0)) Ot [] = (m, MRejected, Some ESymbol) /\
    no_intrinsic_unresolved (st_heap st) T /\
    step st (OMerge (TSlot 0) 0 []) = (st, RErr ESymbol).
Proof.
  exists (run (init_state 1) ops_E2). eexists. eexists. eexists.
  split; [apply reachable_run|]. split; [vm_compute; reflexivity|]. split; [vm_compute; reflexivity|].
  split; [vm_compute; reflexivity|]. split; [|vm_compute; reflexivity].
  intros s Hs _. vm_compute in Hs. destruct Hs as [Hs|[]]. subst s. vm_compute. reflexivity.
Qed.

(* rejected non-merge operations in a reachable state *)
Example rejected_nonmerge_nonvacuous :
  let st := run (init_state 2) [OAdd (TSlot 1) "a" sp_data "t"; OAdd (TSlot 0) "B" sp_arg ""] in
  step st (OAdd (TSlot 1) "A" sp_data "") = (st, RErr EKey) /\
  step st (OAdd (TSlot 0) "c" sp_data "t") = (st, RErr EKey) /\
  step st (ORename (TSlot 0) 1 "b2") = (st, RErr ESymbol) /\
  step st (ORemove (TSlot 1) 0) = (st, RErr ENotImpl) /\
  step st (ONewSymbol (TSlot 0) "a" "" false sp_data false) = (st, RErr ESymbol).
Proof. vm_compute. repeat split. Qed.

(* rejected remove()/swap() of TAGGED symbols that are still referenced (a container imported from, a
   routine that is a member of a generic interface): the whole state, tag map included, is unchanged *)
Definition ops_E4 : list op :=
  [OAdd (TSlot 0) "mod1" sp_cont "c1"; OAdd (TSlot 0) "x" (sp_imp 0) "";
   OAdd (TSlot 0) "sub" (mkSpec KRoutine false IAuto) "r1";
   OAdd (TSlot 0) "gen" (mkSpec (KGenIface [2]) false IAuto) "g1"].

Example rejected_remove_tagged_nonvacuous :
  let st := run (init_state 1) ops_E4 in
  step st (ORemove (TSlot 0) 0) = (st, RErr EValue) /\
  step st (ORemove (TSlot 0) 2) = (st, RErr EValue) /\
  step st (OSwap (TSlot 0) 0 "MOD1" sp_cont) = (st, RErr EValue) /\
  snd (step st (OLookupTag (TSlot 0) "c1")) = RSym 0 /\
  snd (step st (OLookupTag (TSlot 0) "r1")) = RSym 2 /\
  snd (step st (OFindOrCreateTag (TSlot 0) "c1" "mod1" false sp_cont true)) = RSym 0 /\
  (* once the references are gone the removals succeed and take the tags with them *)
  snd (step (run st [ORemove (TSlot 0) 3; ORemove (TSlot 0) 2]) (OLookupTag (TSlot 0) "r1")) = RErr EKey.
Proof. vm_compute. repeat split. Qed.

(* fresh names: case-insensitive, suffix search over self + ancestors + other *)
Example fresh_name_nonvacuous :
  let st := run (init_state 2)
                [OAdd (TSlot 1) "a" sp_data ""; OAdd (TSlot 0) "A_1" sp_data ""; ONewTable;
                 OAdd (TDet 0) "a_2" sp_data ""] in
  snd (step st (ONextName (TSlot 0) "A" false (Some (TDet 0)))) = RName "A_3" /\
  snd (step st (ONextName (TSlot 0) "A" false None)) = RName "A_2" /\
  snd (step st (ONextName (TSlot 0) "A" true None)) = RName "A" /\
  snd (step st (ONextName (TSlot 1) "" false None)) = RName "psyir_tmp".
Proof. vm_compute. repeat split. Qed.

(* lookup: the innermost of two symbols that differ only in case *)
Example lookup_nonvacuous :
  let st := run (init_state 3) [OAdd (TSlot 2) "a" sp_data ""; OAdd (TSlot 0) "A" (mkSpec KGeneric false IAuto) ""] in
  snd (step st (OLookup (TSlot 0) "a")) = RSym 1 /\ snd (step st (OLookup (TSlot 1) "A")) = RSym 0 /\
  snd (step (fst (step st (ODetach 1))) (OLookup (TSlot 0) "a")) = RSym 1 /\
  snd (step (fst (step (fst (step st (ORemove (TSlot 0) 1))) (ODetach 1))) (OLookup (TSlot 0) "a")) = RErr EKey.
Proof. vm_compute. repeat split. Qed.
